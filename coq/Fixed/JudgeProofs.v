(* The judge (the executable reading of C04 used on the implementation's observations) accepts the model's own
   output: for every input on which the generic reading and the library-mirroring reading coincide
   ([same_reading]), every operation list without set_witness_set, provided the written witness set is
   well-formed ([wits_wf], see WfPreservation.v), judge = VHolds.  So the judge is not stricter than the
   theorems, and a `fails` verdict on the implementation is a deviation from the proved behaviour. *)
From CSL Require Import Base.Prelude Cbor.Head Cbor.HeadProofs Cbor.Item Cbor.ItemProofs
  Fixed.CborEv Fixed.CborEvProofs Fixed.DatumBytes Fixed.DatumBytesProofs Fixed.FixedTx Fixed.FixedTxProofs.
Local Open Scope N_scope.

Notation idH := (fun b : bytes => b).

Lemma lookup_none_notin {A} k (l : list (N * A)) : lookup k l = None <-> ~ In k (map fst l).
Proof.
  induction l as [|[k' v] t IH]; cbn [lookup map fst In]; [tauto|].
  destruct (k =? k') eqn:E.
  - apply N.eqb_eq in E. subst k'. split; [discriminate|tauto].
  - apply N.eqb_neq in E. rewrite IH. split; [intros H [C|C]; [congruence|tauto]|tauto].
Qed.

Lemma nodup_keys_iff (l : list (N * bytes)) : nodup_keys l = true <-> NoDup (map fst l).
Proof.
  induction l as [|[k v] t IH]; cbn [nodup_keys map fst]; [split; [constructor|reflexivity]|].
  destruct (lookup k t) eqn:E.
  - split; [discriminate|]. intros H. inversion H as [|? ? Hn _]. apply lookup_none_notin in Hn. congruence.
  - rewrite IH. split; [intros H; constructor; [apply lookup_none_notin, E|exact H]|intros H; inversion H; assumption].
Qed.

(* every field of a decoded witness set keeps its bytes *)
Definition raw_total (l : list (N * fstate)) : Prop := Forall (fun kf => f_raw (snd kf) <> None) l.

Lemma decode_wits_keys bs w r : decode_wits bs = Ok (w, r) -> NoDup (map fst (w_fields w)) /\ raw_total (w_fields w).
Proof.
  unfold decode_wits. intros H. apply bind_ok in H as [[ln r0] [_ H]]. apply bind_ok in H as [[fs r'] [H1 H]].
  injection H as <- <-. cbn [w_fields].
  apply (dec_wits_loop_ind (fun acc _ fs _ => NoDup (map fst acc) /\ raw_total acc -> NoDup (map fst fs) /\ raw_total fs)) in H1.
  - exact H1.
  - intros acc _. exact id.
  - intros acc _ _ _. exact id.
  - intros acc _ k _ p raw _ fs' _ _ El _ IH [Hn Hr]. apply IH. split.
    + rewrite map_app. apply (NoDup_Add (Add_app k (map fst acc) [])). rewrite app_nil_r.
      split; [exact Hn|apply lookup_none_notin, El].
    + apply Forall_app. split; [exact Hr|]. constructor; [discriminate|constructor].
  - split; constructor.
Qed.

Lemma field_slices_keys w : raw_total (w_fields w) -> map fst (field_slices w) = map fst (w_fields w).
Proof.
  unfold field_slices. induction 1 as [|[k f] t Hx _ IH]; cbn [flat_map map fst]; [reflexivity|]. cbn [snd fst] in *.
  destruct (f_raw f); [|congruence]. cbn [app map fst]. rewrite IH. reflexivity.
Qed.

Lemma field_slices_lookup w k : raw_total (w_fields w) ->
  lookup k (field_slices w) = match lookup k (w_fields w) with Some f => f_raw f | None => None end.
Proof.
  unfold field_slices. induction 1 as [|[k' f] t Hx _ IH]; cbn [flat_map lookup]; [reflexivity|]. cbn [snd fst] in *.
  destruct (f_raw f) as [raw|] eqn:Er; [|congruence]. cbn [app lookup].
  destruct (k =? k'); [symmetry; exact Er|exact IH].
Qed.

Lemma slices_eqb_eq a b : slices_eqb a b = true -> a = b.
Proof.
  unfold slices_eqb. apply list_eqb_eq. intros [k1 v1] [k2 v2]. cbn [fst snd]. rewrite andb_true_iff, N.eqb_eq, bytes_eqb_eq.
  split; [intros [-> ->]; reflexivity|intros E; injection E; auto].
Qed.
Lemma opt_bytes_eqb_eq a b : opt_bytes_eqb a b = true -> a = b.
Proof.
  destruct a, b; cbn [opt_bytes_eqb]; try discriminate; [|reflexivity]. intros E. apply bytes_eqb_eq in E. subst. reflexivity.
Qed.

Lemma same_reading_unpack bs : same_reading bs = true ->
  exists tx r s, decode_fixed idH bs = Ok (tx, r) /\ spec_slices bs = Some s /\
    sp_body s = ft_body tx /\ sp_aux s = ft_aux tx /\ sp_valid s = ft_valid tx /\ sp_fields s = field_slices (ft_wits tx).
Proof.
  unfold same_reading.
  destruct (decode_fixed idH bs) as [[tx r]| | |]; try discriminate.
  destruct (spec_slices bs) as [s|]; [|discriminate]. intros E.
  apply andb_true_iff in E as [E E4]. apply andb_true_iff in E as [E E3]. apply andb_true_iff in E as [E1 E2].
  exists tx, r, s. apply bytes_eqb_eq in E1. apply opt_bytes_eqb_eq in E2. apply Bool.eqb_prop in E3. apply slices_eqb_eq in E4.
  repeat split; congruence.
Qed.

Section Run.
  Variable sv : bytes -> bytes -> vkw.
  Variable sb : bool -> bytes -> bytes -> bw.
  Notation step := (step idH sv sb).
  Notation apply_op := (apply_op idH sv sb).
  Notation run_ops := (run_ops idH sv sb).

  Definition not_set_wits (o : op) : Prop := match o with OSetWits _ => False | _ => True end.

  (* the specification record [fst s] agrees with the model state [tx] on body, aux and validity flag, its field
     slices are still those cut out of the input ([F]), and every key not marked touched in [snd s] has in [tx]
     the field state it had in the decoded [tx0] *)
  Definition rel (F : list (N * bytes)) (tx0 tx : fixed_tx) (s : spec_tx * (N -> bool)) : Prop :=
    sp_body (fst s) = ft_body tx /\ sp_aux (fst s) = ft_aux tx /\ sp_valid (fst s) = ft_valid tx /\
    sp_fields (fst s) = F /\
    forall k, snd s k = false -> lookup k (w_fields (ft_wits tx)) = lookup k (w_fields (ft_wits tx0)).

  Lemma rel_step F tx0 tx s o : not_set_wits o -> rel F tx0 tx s ->
    exists s', spec_step s o (is_ok (apply_op o tx)) = Some s' /\ rel F tx0 (step tx o) s'.
  Proof.
    intros Ho [Rb [Ra [Rv [Rf Rt]]]]. destruct s as [st touched]. cbn [fst snd] in *.
    destruct (is_sig_op o) eqn:Hs.
    - (* the signature operations succeed: the record stays, the touched set grows *)
      exists (st, fun k => touched k || touches o k). split; [destruct o; try discriminate Hs; reflexivity|].
      destruct (step_sig_frame idH sv sb o tx Hs) as (A & _ & C & D). unfold rel. cbn [fst snd]. rewrite A, C, D.
      repeat split; try assumption. intros k Hk. apply orb_false_iff in Hk as [Hk1 Hk2].
      rewrite (step_untouched idH sv sb o tx k Hk2). apply Rt, Hk1.
    - (* the setters: on failure nothing changes on either side *)
      destruct o; try discriminate Hs; cbn [not_set_wits] in Ho; try contradiction;
        unfold FixedTx.step; cbn [FixedTx.apply_op]; try destruct (parse_exact b) as [it| | |]; cbn [bind is_ok];
        unfold spec_step; cbn [negb]; eexists; (split; [reflexivity|]); unfold rel; cbn; repeat split; assumption.
  Qed.

  Lemma rel_run F tx0 ops : Forall not_set_wits ops -> forall tx s, rel F tx0 tx s ->
    exists s', spec_run s (op_flags sv sb ops tx) = Some s' /\ rel F tx0 (run_ops ops tx) s'.
  Proof.
    unfold FixedTx.run_ops. induction 1 as [|o t Ho _ IH]; intros tx s R; cbn [op_flags spec_run fold_left].
    - exists s. split; [reflexivity|exact R].
    - destruct (rel_step F tx0 tx s o Ho R) as [s1 [E1 R1]]. rewrite E1. apply IH, R1.
  Qed.
End Run.

Lemma entries_nodup w : nodup_keys (entries w) = true.
Proof.
  apply nodup_keys_iff. unfold entries. rewrite entries_by_keyed. apply keyed_nodup.
  unfold key_order. repeat constructor; cbn [In]; intros C; repeat (destruct C as [C|C]; [discriminate|]); exact C.
Qed.

Lemma entries_keys_le w : forallb (fun kv : N * bytes => fst kv <=? 7) (entries w) = true.
Proof. apply forallb_forall. intros kv Hi. apply entries_by_keys in Hi as [Hk _]. apply N.leb_le, Hk. Qed.

Lemma encode_wits_head w : exists n r, decode_head (encode_wits w) = Some (5, Arg n, r).
Proof.
  unfold encode_wits, encode_map. eexists. eexists. apply decode_encode_head.
  pose proof (entries_len_le (fun _ => written) w). unfold entries, two64. lia.
Qed.

Theorem judge_accepts_model sv sb bs tx r ops :
  same_reading bs = true -> decode_fixed idH bs = Ok (tx, r) ->
  Forall not_set_wits ops ->
  wits_wf (ft_wits (run_ops idH sv sb ops tx)) ->
  judge bs (op_flags sv sb ops tx) (model_obs (run_ops idH sv sb ops tx)) = VHolds.
Proof.
  intros Hsr E Hops Hwf.
  destruct (same_reading_unpack bs Hsr) as (tx' & r' & s & E' & Es & Sb & Sa & Sv & Sf).
  rewrite E in E'. injection E' as <- <-.
  destruct (decode_fixed_slices idH _ _ _ E) as (hd & Wb & V & cl & ln & w0 & _ & _ & _ & Hh & Ew & Ef & _).
  destruct (decode_wits_keys _ _ _ Ew) as [Hnd Hrt]. rewrite <- Ef in Hnd, Hrt.
  (* the specification record follows the model through the history *)
  destruct (rel_run sv sb (field_slices (ft_wits tx)) tx ops Hops tx (s, fun _ => false)) as ([st touched] & Erun & Rb & Ra & Rv & Rf & Rt).
  { repeat split; assumption. }
  cbn [fst snd] in *. set (tx1 := run_ops idH sv sb ops tx) in *.
  destruct (encode_wits_wf _ Hwf) as [Hiwf Hms]. destruct (encode_wits_head (ft_wits tx1)) as (n & rr & Hh1).
  assert (Hn0 : nodup_keys (sp_fields s) = true).
  { apply nodup_keys_iff. rewrite Sf, field_slices_keys by exact Hrt. exact Hnd. }
  (* an untouched field is written back as the slice the judge cut out of the input *)
  assert (Hunt : forallb (fun k => touched k ||
                   match lookup k (entries (ft_wits tx1)), lookup k (sp_fields st) with
                   | Some a, Some b => bytes_eqb a b | None, None => true | _, _ => false end) key_order = true).
  { apply forallb_forall. intros k Hk. destruct (touched k) eqn:Et; [reflexivity|]. cbn [orb].
    pose proof (in_key_order k Hk) as Hk7.
    rewrite (entries_lookup _ _ Hk7), (Rt k Et), Rf, (field_slices_lookup _ k Hrt).
    destruct (lookup k (w_fields (ft_wits tx))) as [f|] eqn:El; [|reflexivity].
    apply lookup_In in El. unfold raw_total in Hrt. rewrite Forall_forall in Hrt. specialize (Hrt _ El). cbn [snd] in Hrt.
    unfold written. destruct (f_raw f); [apply bytes_eqb_refl|contradiction]. }
  unfold judge. rewrite Es, Hn0. cbn [negb]. rewrite Erun. cbn [model_obs o_wits o_body o_aux o_tx o_hash_pre o_valid].
  rewrite Hms, Hh1, Rb, Ra, Rv, Hunt, Hiwf, entries_nodup, entries_keys_le, Bool.eqb_reflx.
  unfold encode_fixed. rewrite (run_ops_hash_inv idH sv sb ops tx Hh : ft_hash tx1 = ft_body tx1), !bytes_eqb_refl.
  destruct (ft_aux tx1); [rewrite bytes_eqb_refl|]; reflexivity.
Qed.

(* the premise is satisfiable on a non-canonical input *)
Example same_reading_example : same_reading sample_tx = true.
Proof. vm_compute. reflexivity. Qed.
