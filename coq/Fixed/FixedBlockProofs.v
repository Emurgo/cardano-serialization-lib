(* The block-level views of Fixed/FixedBlock.v: the header and every transaction body are exact slices of the
   input, each transaction hash and the block hash are taken over those slices; suffix and fuel facts. *)
From CSL Require Import Base.Prelude Cbor.Head Cbor.HeadProofs Cbor.Item Cbor.ItemProofs
  Fixed.CborEv Fixed.CborEvProofs Fixed.DatumBytes Fixed.DatumBytesProofs Fixed.FixedTx Fixed.FixedTxProofs
  Fixed.FixedBlock.
Local Open Scope N_scope.

(* the element loop over a reader whose result determines the bytes it consumed: the input is the
   concatenation of the elements' bytes, then the closing break (indefinite) or nothing *)
Lemma dec_elems_concat {A} (p : parser A) (slice : A -> bytes) (P : A -> Prop) :
  (forall bs x r, p bs = Ok (x, r) -> bs = slice x ++ r /\ P x) ->
  forall fuel ln cnt bs xs r, dec_elems p fuel ln cnt bs = Ok (xs, r) ->
  exists cl, bs = concat (map slice xs) ++ cl ++ r /\ (cl = [] \/ cl = [255]) /\ Forall P xs.
Proof.
  intros Hp. apply (dec_elems_ind p (fun bs xs r => exists cl, bs = concat (map slice xs) ++ cl ++ r /\ _)).
  - intros bs. exists []. split; [reflexivity|]. split; [left; reflexivity|constructor].
  - intros bs r H. apply expect_break_inv in H. exists [255]. split; [exact H|]. split; [right; reflexivity|constructor].
  - intros bs x r xs r' H (cl & -> & Hcl & HF). apply Hp in H as [-> Hx]. exists cl.
    cbn [map concat]. rewrite <- app_assoc. split; [reflexivity|]. split; [exact Hcl|constructor; assumption].
Qed.

Section Block.
  Variable H : bytes -> bytes.

  Definition body_ok (oh : bytes * bytes) : Prop := snd oh = H (fst oh) /\ item_wf (fst oh) = true.

  Lemma decode_fixed_body_self bs x r : decode_fixed_body H bs = Ok (x, r) -> bs = fst x ++ r /\ body_ok x.
  Proof.
    unfold decode_fixed_body. intros E. apply bind_ok in E as [[raw r'] [E1 E]]. injection E as <- <-.
    apply raw_item_self in E1 as [-> Hwf]. repeat split. exact Hwf.
  Qed.

  Lemma decode_fixed_body_suffix bs : answers ssfx bs (decode_fixed_body H bs).
  Proof. unfold decode_fixed_body. auto with sfx. Qed.
  #[local] Hint Resolve decode_fixed_body_suffix : sfx.

  (* FixedTransactionBodies: the array is exactly  head ++ body_1 ++ ... ++ body_n ++ [break];  every kept
     original_bytes is that slice, every tx_hash is H of it *)
  Theorem decode_fixed_bodies_slices bs l rest : decode_fixed_bodies H bs = Ok (l, rest) ->
    exists hd cl, bs = hd ++ concat (map fst l) ++ cl ++ rest /\ hd <> [] /\ (cl = [] \/ cl = [255]) /\
                  Forall body_ok l.
  Proof.
    unfold decode_fixed_bodies. intros E. apply bind_ok in E as [[ln r] [E0 E]].
    pose proof (rd_head_suffix 4 _ _ _ E0) as [hd [-> Hne]].
    apply (dec_elems_concat _ fst body_ok decode_fixed_body_self) in E as (cl & -> & Hcl & HF).
    exists hd, cl. repeat split; assumption.
  Qed.

  Lemma decode_fixed_bodies_suffix : psuffix (decode_fixed_bodies H).
  Proof. intros bs. change (answers ssfx bs (decode_fixed_bodies H bs)). unfold decode_fixed_bodies. auto with sfx. Qed.

  (* FixedBlock: header and bodies are exact slices; block hash = H(header) [repaired] *)
  Theorem dec_block_slices w bs b rest : dec_block H w bs = Ok (b, rest) ->
    exists hd bhd cl tl,
      bs = hd ++ fb_header b ++ bhd ++ concat (map fst (fb_bodies b)) ++ cl ++ tl ++ rest /\
      item_wf (fb_header b) = true /\
      (cl = [] \/ cl = [255]) /\
      Forall body_ok (fb_bodies b) /\
      fb_hash b = H (if w then hd ++ fb_header b ++ bhd ++ concat (map fst (fb_bodies b)) ++ cl ++ tl else fb_header b).
  Proof.
    unfold dec_block. intros E. apply bind_ok in E as [[ln r0] [E0 E]].
    destruct (match ln with Arg n => n <? 4 | Indef => false end); [discriminate|].
    apply bind_ok in E as [[hdr r1] [E1 E]]. apply bind_ok in E as [[bodies r2] [E2 E]].
    (* what follows the bodies is only delimited and counted *)
    assert (T : sfx r2 rest) by (revert b rest E; refine (_ : answers sfx r2 _); auto 16 with sfx).
    apply bind_ok in E as [[ws r3] [_ E]]. apply bind_ok in E as [[ax r4] [_ E]].
    apply bind_ok in E as [present [_ E]]. apply bind_ok in E as [[ivn r5] [_ E]]. apply bind_ok in E as [r6 [_ E]].
    injection E as <- <-. cbn [fb_header fb_bodies fb_hash].
    pose proof (rd_head_suffix 4 _ _ _ E0) as [hd [-> _]].
    apply raw_item_self in E1 as [-> Hwf].
    apply decode_fixed_bodies_slices in E2 as [bhd [cl [-> [_ [Hcl Hall]]]]].
    destruct T as [tl ->]. exists hd, bhd, cl, tl.
    split; [reflexivity|]. split; [exact Hwf|]. split; [exact Hcl|]. split; [exact Hall|].
    destruct w; [|reflexivity]. f_equal. rewrite !app_assoc. apply firstn_consumed.
  Qed.

  Lemma dec_block_suffix w bs : answers ssfx bs (dec_block H w bs).
  Proof. pose proof decode_fixed_bodies_suffix. unfold dec_block. auto 20 with sfx. Qed.

  Lemma decode_fixed_bodies_noof bs : decode_fixed_bodies H bs <> OutOfFuel.
  Proof. pose proof (decode_fixed_body_noof H). unfold decode_fixed_bodies. auto with noof sfx. Qed.
  Lemma raw_array_noof bs : raw_array bs <> OutOfFuel.
  Proof. unfold raw_array. auto with noof. Qed.
  #[local] Hint Resolve decode_fixed_bodies_noof raw_array_noof : noof.

  Theorem dec_block_noof w bs : dec_block H w bs <> OutOfFuel.
  Proof. unfold dec_block. auto 20 with noof. Qed.
  #[local] Hint Resolve dec_block_noof : noof.
  Theorem decode_versioned_block_noof bs : decode_versioned_block H bs <> OutOfFuel.
  Proof. unfold decode_versioned_block. auto 12 with noof. Qed.
End Block.

Definition tiny_block : bytes := [132; 128; 129; 160; 128; 160].     (* [ [], [ {} ], [], {} ] *)

(* non-vacuity: an indefinite-length versioned block with two bodies (one with a non-minimal key head) and the
   invalid-transaction list *)
Example versioned_block_example :
  exists b, decode_versioned_block Hid ([159; 7] ++ [159; 130; 1; 2; 159; 160; 161; 24; 0; 128; 255; 128; 160; 129; 0; 255] ++ [255; 9])
            = Ok ((7, b), [9]) /\ map fst (fb_bodies b) = [[160]; [161; 24; 0; 128]] /\ fb_header b = [130; 1; 2].
Proof. eexists. split; [vm_compute; reflexivity|]. split; reflexivity. Qed.
