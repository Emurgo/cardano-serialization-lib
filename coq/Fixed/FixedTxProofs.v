(* The byte-preserving transaction model of Fixed/FixedTx.v: the decoded transaction is the input cut into
   slices, what the operations leave alone, the witness map written back is a well-formed item, fuel. *)
From CSL Require Import Base.Prelude Base.Facts Cbor.Head Cbor.HeadProofs Cbor.Item Cbor.ItemProofs
  Fixed.CborEv Fixed.CborEvProofs Fixed.DatumBytes Fixed.DatumBytesProofs Fixed.FixedTx.
Local Open Scope N_scope.

Lemma dec_vkw_suffix bs : answers ssfx bs (dec_vkw bs).
Proof. unfold dec_vkw. auto 12 with sfx. Qed.
Lemma dec_bw_suffix bs : answers ssfx bs (dec_bw bs).
Proof. unfold dec_bw. auto 16 with sfx. Qed.
Lemma pair_items_suffix bs : answers ssfx bs (pair_items bs).
Proof. unfold pair_items. auto with sfx. Qed.
#[export] Hint Resolve dec_vkw_suffix dec_bw_suffix pair_items_suffix : sfx.
Lemma dec_redeemers_suffix bs : answers ssfx bs (dec_redeemers bs).
Proof. unfold dec_redeemers. auto 12 with sfx. Qed.
Lemma dec_field_suffix k bs : answers ssfx bs (dec_field k bs).
Proof. pose proof dec_redeemers_suffix. pose proof dec_pd_suffix. unfold dec_field. auto 12 with sfx. Qed.

Lemma lookup_app {A} k (l1 l2 : list (N * A)) :
  lookup k (l1 ++ l2) = match lookup k l1 with Some v => Some v | None => lookup k l2 end.
Proof.
  induction l1 as [|[k' v] t IH]; cbn [lookup app]; [reflexivity|]. destruct (k =? k'); [reflexivity|exact IH].
Qed.

Lemma lookup_update {A} k k' (v : A) l : lookup k (update k' v l) = if k =? k' then Some v else lookup k l.
Proof.
  induction l as [|[k2 v2] t IH]; cbn [update lookup]; [reflexivity|].
  destruct (k' =? k2) eqn:E2; cbn [lookup].
  - apply N.eqb_eq in E2. subst k2. destruct (k =? k'); reflexivity.
  - rewrite IH. destruct (k =? k2) eqn:E; [|reflexivity].
    apply N.eqb_eq in E. subst k2. rewrite N.eqb_sym, E2. reflexivity.
Qed.

Lemma lookup_In {A} k (v : A) l : lookup k l = Some v -> In (k, v) l.
Proof.
  induction l as [|[k' v'] t IH]; cbn [lookup In]; [discriminate|]. destruct (k =? k') eqn:E.
  - apply N.eqb_eq in E. subst k'. intros [= <-]. left. reflexivity.
  - intros E'. right. apply IH, E'.
Qed.

Lemma flat_map_length_le {A B} (f : A -> list B) l :
  (forall x, (length (f x) <= 1)%nat) -> (length (flat_map f l) <= length l)%nat.
Proof.
  intros Hf. induction l as [|x t IH]; cbn [flat_map length]; [lia|].
  rewrite app_length. specialize (Hf x). lia.
Qed.

(* field [f] under key [k] of a witness set decoded from [bs0]: its kept bytes [raw] sit in the input right
   after an encoding [kb] of the key, and are exactly what the field's reader consumed *)
Definition slice_ok (bs0 : bytes) (k : N) (f : fstate) : Prop :=
  exists raw pre kb post,
    f_raw f = Some raw /\ raw <> [] /\
    bs0 = pre ++ kb ++ raw ++ post /\
    rd_uint (kb ++ raw ++ post) = Ok (k, raw ++ post) /\
    dec_field k (raw ++ post) = Ok (f_parsed f, post).

(* what holds of every successful run of the key loop: of a run that reads no further key (the count is reached,
   or the break is met) and of one that reads a key not met before, captures its field and goes on *)
Lemma dec_wits_loop_ind (R : list (N * fstate) -> bytes -> list (N * fstate) -> bytes -> Prop) :
  (forall acc bs, R acc bs acc bs) ->
  (forall acc bs r, expect_break bs = Ok r -> R acc bs acc r) ->
  (forall acc bs k r p raw r' fs rest, rd_uint bs = Ok (k, r) -> lookup k acc = None ->
     with_orig (dec_field k) r = Ok ((p, raw), r') ->
     R (acc ++ [(k, {| f_raw := Some raw; f_parsed := p |})]) r' fs rest -> R acc bs fs rest) ->
  forall fuel ln read acc bs fs rest, dec_wits_loop fuel ln read acc bs = Ok (fs, rest) -> R acc bs fs rest.
Proof.
  intros Hnil Hbrk Hkey. induction fuel as [|fu IH]; intros ln read acc bs fs rest H; cbn [dec_wits_loop] in H; [discriminate|].
  destruct (match ln with Arg n => read <? n | Indef => true end); [|injection H as <- <-; apply Hnil].
  apply bind_ok in H as [t [_ H]]. destruct (t =? 0).
  - apply bind_ok in H as [[k r] [Hk H]]. destruct (7 <? k); [discriminate|].
    destruct (lookup k acc) eqn:El; [discriminate|]. apply bind_ok in H as [[[p raw] r'] [Hf H]].
    apply (Hkey _ _ _ _ _ _ _ _ _ Hk El Hf), (IH _ _ _ _ _ _ H).
  - destruct (t =? 7); [|discriminate]. destruct ln as [n|]; [discriminate|].
    apply bind_ok in H as [r [Hb H]]. injection H as <- <-. apply Hbrk, Hb.
Qed.

Lemma dec_wits_loop_slices bs0 : forall fuel ln read acc bs fs rest,
  dec_wits_loop fuel ln read acc bs = Ok (fs, rest) -> sfx bs0 bs ->
  (forall k f, lookup k acc = Some f -> slice_ok bs0 k f) ->
  (forall k f, lookup k fs = Some f -> slice_ok bs0 k f) /\ sfx bs rest.
Proof.
  apply (dec_wits_loop_ind (fun acc bs fs rest => sfx bs0 bs -> (forall k f, lookup k acc = Some f -> slice_ok bs0 k f) ->
                              (forall k f, lookup k fs = Some f -> slice_ok bs0 k f) /\ sfx bs rest)).
  - intros acc bs _ Hacc. split; [exact Hacc|apply sfx_refl].
  - intros acc bs r Hb _ Hacc. split; [exact Hacc|apply ssfx_sfx, expect_break_suffix, Hb].
  - intros acc bs k r p raw r' fs rest Hk El Hf IH [pre0 E0] Hacc.
    pose proof (rd_arg_suffix 0 _ _ _ Hk) as [kb [-> _]].
    apply (with_orig_slice _ (dec_field_suffix k)) in Hf as [-> [Hne Hp]].
    assert (S : sfx (kb ++ raw ++ r') r') by (exists (kb ++ raw); rewrite <- app_assoc; reflexivity).
    destruct IH as [Hfs Hs].
    + apply (sfx_trans _ _ _ (ex_intro _ pre0 E0) S).
    + (* the fields met so far, and the new one *)
      intros k' f'. rewrite lookup_app. destruct (lookup k' acc) as [f0|] eqn:E1; [intros [= <-]; apply Hacc, E1|].
      cbn [lookup]. destruct (N.eqb_spec k' k) as [->|_]; [|discriminate].
      intros [= <-]. exists raw, pre0, kb, r'. repeat split; assumption.
    + split; [exact Hfs|apply (sfx_trans _ _ _ S Hs)].
Qed.

Theorem decode_wits_slices bs w rest : decode_wits bs = Ok (w, rest) ->
  ssfx bs rest /\ w_set_tags w = true /\
  forall k f, lookup k (w_fields w) = Some f -> slice_ok bs k f.
Proof.
  unfold decode_wits. intros H. apply bind_ok in H as [[ln r] [H0 H]].
  apply bind_ok in H as [[fs r'] [H1 H]]. injection H as <- <-. cbn [w_fields w_set_tags].
  apply rd_head_suffix in H0.
  apply (dec_wits_loop_slices bs) in H1 as [Hfs Hs]; [|apply ssfx_sfx, H0|discriminate].
  split; [apply (ssfx_sfx_trans _ _ _ H0 Hs)|]. split; [reflexivity|exact Hfs].
Qed.

Lemma decode_wits_suffix : psuffix decode_wits.
Proof. intros bs w r H. apply decode_wits_slices in H as [S _]. exact S. Qed.

(* the optional auxiliary data: either the bytes of exactly one data item, kept verbatim, or the null byte *)
Lemma dec_aux_after_bool_shape bs a r : dec_aux_after_bool bs = Ok (a, r) ->
  bs = enc_aux a ++ r /\ match a with Some x => item_wf x = true | None => True end.
Proof.
  unfold dec_aux_after_bool. intros H. apply bind_ok in H as [t [_ H]]. destruct (t =? 7).
  - apply bind_ok in H as [[s r'] [H1 H]]. destruct s; try discriminate. injection H as <- <-.
    apply rd_special_byte in H1; [|discriminate]. split; [exact H1|exact I].
  - apply bind_ok in H as [[x r'] [H1 H]]. injection H as <- <-. apply raw_item_self in H1 as [-> Hwf].
    split; [reflexivity|exact Hwf].
Qed.

Lemma dec_tail_shape ln bs v a r : dec_tail ln bs = Ok ((v, a), r) ->
  exists V, bs = V ++ enc_aux a ++ r /\ ((V = [] /\ v = true) \/ V = enc_valid v) /\
            match a with Some x => item_wf x = true | None => True end.
Proof.
  unfold dec_tail. intros H. apply bind_ok in H as [t [_ H]]. destruct (t =? 7).
  - apply bind_ok in H as [[s r'] [H1 H]]. destruct s; try discriminate.
    + apply bind_ok in H as [u [_ H]]. apply bind_ok in H as [[a' r''] [H2 H]]. injection H as <- <- <-.
      apply rd_special_byte in H1; [|discriminate]. apply dec_aux_after_bool_shape in H2 as [-> Hwf].
      exists (enc_valid b). split; [destruct b; exact H1|]. split; [right; reflexivity|exact Hwf].
    + apply bind_ok in H as [u [_ H]]. injection H as <- <- <-. apply rd_special_byte in H1; [|discriminate].
      exists []. split; [exact H1|].
      split; [left; split; reflexivity|exact I].
  - apply bind_ok in H as [u [_ H]]. apply bind_ok in H as [[x r'] [H1 H]]. injection H as <- <- <-.
    apply raw_item_self in H1 as [-> Hwf].
    exists []. split; [reflexivity|]. split; [left; split; reflexivity|exact Hwf].
Qed.

Lemma item_with_bytes_slice bs it bb r : item_with_bytes bs = Ok ((it, bb), r) ->
  bs = bb ++ r /\ item_wf bb = true /\ parse_one (bb ++ r) = Ok (it, r).
Proof.
  intros H. apply (with_orig_slice _ parse_one_suffix) in H as [-> [_ Hp]].
  split; [reflexivity|]. split; [|exact Hp].
  eapply skip_item_wf. apply skip_item_parse. exists it. split; [exact Hp|reflexivity].
Qed.

Section Model.
  Variable H : bytes -> bytes.
  Variable sign_vkey : bytes -> bytes -> vkw.
  Variable sign_boot : bool -> bytes -> bytes -> bw.

  Notation decode_fixed := (decode_fixed H).
  Notation run_ops := (run_ops H sign_vkey sign_boot).
  Notation step := (step H sign_vkey sign_boot).
  Notation apply_op := (apply_op H sign_vkey sign_boot).

  Lemma mk_fixed_ok body bb w valid aux tx : mk_fixed H body bb w valid aux = Ok tx ->
    ft_body tx = bb /\ ft_hash tx = H bb /\ w_fields (ft_wits tx) = w_fields w /\ ft_valid tx = valid /\ ft_aux tx = aux.
  Proof.
    unfold mk_fixed. intros E. apply bind_ok in E as [f [_ E]]. injection E as <-. cbn. repeat split.
  Qed.

  (* C04 (loading): the decoded transaction is the input cut into
       array head | BODY | witness set | [bool] | AUX or null | [break] | rest
     with BODY, AUX kept verbatim, BODY and AUX each exactly one well-formed data item, the hash taken
     over BODY, and every witness-set field an exact slice of the witness-set bytes *)
  Theorem decode_fixed_slices bs tx rest : decode_fixed bs = Ok (tx, rest) ->
    exists hd Wb V cl ln w,
      bs = hd ++ ft_body tx ++ Wb ++ V ++ enc_aux (ft_aux tx) ++ cl ++ rest /\
      rd_array bs = Ok (ln, ft_body tx ++ Wb ++ V ++ enc_aux (ft_aux tx) ++ cl ++ rest) /\
      item_wf (ft_body tx) = true /\
      ft_hash tx = H (ft_body tx) /\
      decode_wits (Wb ++ V ++ enc_aux (ft_aux tx) ++ cl ++ rest) = Ok (w, V ++ enc_aux (ft_aux tx) ++ cl ++ rest) /\
      w_fields (ft_wits tx) = w_fields w /\
      (forall k f, lookup k (w_fields (ft_wits tx)) = Some f ->
         slice_ok (Wb ++ V ++ enc_aux (ft_aux tx) ++ cl ++ rest) k f) /\
      ((V = [] /\ ft_valid tx = true) \/ V = enc_valid (ft_valid tx)) /\
      match ft_aux tx with Some a => item_wf a = true | None => True end /\
      (cl = [] \/ cl = [255]).
  Proof.
    unfold FixedTx.decode_fixed. intros E.
    apply bind_ok in E as [[ln r0] [E0 E]]. apply bind_ok in E as [[[bit bb] r1] [E1 E]].
    apply bind_ok in E as [[w r2] [E2 E]]. apply bind_ok in E as [[[valid aux] r3] [E3 E]].
    apply bind_ok in E as [r4 [E4 E]]. apply bind_ok in E as [tx' [E5 E]]. injection E as <- <-.
    apply mk_fixed_ok in E5 as [Eb [Eh [Ew [Ev Ea]]]].
    pose proof (rd_head_suffix 4 _ _ _ E0) as [hd [Ehd _]].
    apply item_with_bytes_slice in E1 as [Er0 [Hwf _]].
    pose proof (decode_wits_slices _ _ _ E2) as [[Wb [EWb _]] [_ Hsl]].
    apply dec_tail_shape in E3 as [V [EV [HV Hawf]]].
    apply close_len_shape in E4 as [cl [Ecl Hcl]].
    exists hd, Wb, V, cl, ln, w.
    rewrite Eb, Ea, Ev, Eh. subst r3 r2 r1 r0.
    split; [exact Ehd|]. split; [exact E0|]. split; [exact Hwf|]. split; [reflexivity|].
    split; [exact E2|]. split; [exact Ew|]. split; [rewrite Ew; exact Hsl|]. split; [exact HV|].
    split; [exact Hawf|exact Hcl].
  Qed.

  Definition sig_ops (ops : list op) : Prop := forall o, In o ops -> is_sig_op o = true.

  Lemma step_sig_frame o tx : is_sig_op o = true ->
    ft_body (step tx o) = ft_body tx /\ ft_hash (step tx o) = ft_hash tx /\
    ft_valid (step tx o) = ft_valid tx /\ ft_aux (step tx o) = ft_aux tx.
  Proof. destruct o; cbn [is_sig_op]; try discriminate; intros _; cbn; repeat split. Qed.

  Lemma run_ops_sig_frame ops : sig_ops ops -> forall tx,
    ft_body (run_ops ops tx) = ft_body tx /\ ft_hash (run_ops ops tx) = ft_hash tx /\
    ft_valid (run_ops ops tx) = ft_valid tx /\ ft_aux (run_ops ops tx) = ft_aux tx.
  Proof.
    intros Hs tx.
    apply (fold_left_inv (fun tx' => ft_body tx' = ft_body tx /\ ft_hash tx' = ft_hash tx /\
                                     ft_valid tx' = ft_valid tx /\ ft_aux tx' = ft_aux tx)); [|repeat split].
    intros tx' o Ho (A & B & C & D). destruct (step_sig_frame o tx' (Hs o Ho)) as (A' & B' & C' & D').
    repeat split; congruence.
  Qed.

  (* the hash invariant holds after EVERY operation, set_body included (as repaired) *)
  Definition hash_inv (tx : fixed_tx) : Prop := ft_hash tx = H (ft_body tx).

  Lemma step_hash_inv o tx : hash_inv tx -> hash_inv (step tx o).
  Proof.
    unfold hash_inv, FixedTx.step. intros Hi. destruct o; cbn [FixedTx.apply_op]; try exact Hi.
    - destruct (parse_exact b) as [?| | |]; cbn [bind]; [reflexivity|exact Hi..].
    - destruct (decode_wits b) as [[? ?]| | |]; cbn [bind]; exact Hi.
    - destruct (parse_exact b) as [?| | |]; cbn [bind]; exact Hi.
  Qed.

  Theorem run_ops_hash_inv ops : forall tx, hash_inv tx -> hash_inv (run_ops ops tx).
  Proof. apply fold_left_inv. intros tx o _. apply step_hash_inv. Qed.

  Lemma add_vkey_other x w k : k <> 0 -> lookup k (w_fields (add_vkey x w)) = lookup k (w_fields w).
  Proof. intros Hk. apply N.eqb_neq in Hk. unfold add_vkey. cbn [w_fields]. rewrite lookup_update, Hk. reflexivity. Qed.
  Lemma add_boot_other x w k : k <> 2 -> lookup k (w_fields (add_boot x w)) = lookup k (w_fields w).
  Proof. intros Hk. apply N.eqb_neq in Hk. unfold add_boot. cbn [w_fields]. rewrite lookup_update, Hk. reflexivity. Qed.

  Lemma step_untouched o tx k : touches o k = false ->
    lookup k (w_fields (ft_wits (step tx o))) = lookup k (w_fields (ft_wits tx)).
  Proof.
    intros Ht. unfold FixedTx.step. destruct o; cbn [touches] in Ht; cbn [FixedTx.apply_op ft_wits with_wits].
    1,3: apply add_vkey_other, N.eqb_neq, Ht.
    1-3: apply add_boot_other, N.eqb_neq, Ht.
    - destruct (parse_exact b) as [?| | |]; reflexivity.
    - discriminate.
    - reflexivity.
    - destruct (parse_exact b) as [?| | |]; reflexivity.
  Qed.

  Theorem run_ops_untouched ops k : (forall o, In o ops -> touches o k = false) -> forall tx,
    lookup k (w_fields (ft_wits (run_ops ops tx))) = lookup k (w_fields (ft_wits tx)).
  Proof.
    intros Ht tx.
    apply (fold_left_inv (fun tx' => lookup k (w_fields (ft_wits tx')) = lookup k (w_fields (ft_wits tx)))); [|reflexivity].
    intros tx' o Ho E. rewrite <- E. apply step_untouched, Ht, Ho.
  Qed.
End Model.

(* the association list of a partial function [g] over the keys [ks]; [entries_by] is one over [key_order] *)
Definition keyed (g : N -> option bytes) (ks : list N) : list (N * bytes) :=
  flat_map (fun k => match g k with Some v => [(k, v)] | None => [] end) ks.

Lemma lookup_keyed g ks k : lookup k (keyed g ks) = if existsb (N.eqb k) ks then g k else None.
Proof.
  unfold keyed. induction ks as [|k' t IH]; cbn [flat_map existsb lookup]; [reflexivity|].
  rewrite lookup_app, IH. destruct (g k') as [v|] eqn:Eg; cbn [lookup].
  - destruct (k =? k') eqn:E; cbn [orb]; [apply N.eqb_eq in E; subst k'; rewrite Eg; reflexivity|reflexivity].
  - destruct (k =? k') eqn:E; cbn [orb]; [|reflexivity].
    apply N.eqb_eq in E. subst k'. rewrite Eg. destruct (existsb (N.eqb k) t); reflexivity.
Qed.

Lemma in_keyed g ks kv : In kv (keyed g ks) -> In (fst kv) ks /\ g (fst kv) = Some (snd kv).
Proof.
  intros Hin. apply in_flat_map in Hin as [k [Hk Hin]]. destruct (g k) as [v|] eqn:Eg; [|contradiction].
  destruct Hin as [<-|[]]. split; [exact Hk|exact Eg].
Qed.

Lemma keyed_length g ks : len (keyed g ks) <= len ks.
Proof.
  assert (L : (length (keyed g ks) <= length ks)%nat); [|unfold len; lia].
  apply flat_map_length_le. intros k. destruct (g k); cbn [length]; lia.
Qed.

Lemma keyed_nodup g ks : NoDup ks -> NoDup (map fst (keyed g ks)).
Proof.
  induction 1 as [|k t Hk _ IH]; cbn [keyed flat_map map]; [constructor|]. fold (keyed g t).
  destruct (g k) as [v|]; cbn [app map fst]; [|exact IH]. constructor; [|exact IH].
  intros Hi. apply in_map_iff in Hi as [kv [<- Hi]]. apply in_keyed in Hi as [Hi _]. exact (Hk Hi).
Qed.

Lemma entries_by_keyed wr w :
  entries_by wr w = keyed (fun k => match lookup k (w_fields w) with Some f => wr k f | None => None end) key_order.
Proof.
  apply flat_map_ext. intros k. destruct (lookup k (w_fields w)) as [f|]; [destruct (wr k f)|]; reflexivity.
Qed.

Lemma entries_by_lookup wr w k :
  lookup k (entries_by wr w) =
  if existsb (N.eqb k) key_order
  then match lookup k (w_fields w) with Some f => wr k f | None => None end
  else None.
Proof. rewrite entries_by_keyed. apply lookup_keyed. Qed.

(* the keys of the witness set are 0..7 *)
Lemma key_order_spec k : existsb (N.eqb k) key_order = true <-> k <= 7.
Proof.
  unfold key_order. cbn [existsb]. split.
  - intros E. repeat (apply orb_true_iff in E as [E|E]; [apply N.eqb_eq in E; lia|]). discriminate.
  - intros E. assert (C : k = 0 \/ k = 1 \/ k = 2 \/ k = 3 \/ k = 4 \/ k = 5 \/ k = 6 \/ k = 7) by lia.
    repeat (destruct C as [->|C]; [reflexivity|]). subst k. reflexivity.
Qed.
Lemma in_key_order k : In k key_order -> k <= 7.
Proof. intros Hk. apply key_order_spec, existsb_exists. exists k. split; [exact Hk|apply N.eqb_refl]. Qed.

Lemma entries_lookup w k : k <= 7 ->
  lookup k (entries w) = match lookup k (w_fields w) with Some f => written f | None => None end.
Proof. intros Hk. unfold entries. rewrite entries_by_lookup. apply key_order_spec in Hk. rewrite Hk. reflexivity. Qed.

Lemma entries_by_keys wr w kv : In kv (entries_by wr w) -> fst kv <= 7 /\ lookup (fst kv) (entries_by wr w) = Some (snd kv).
Proof.
  intros Hin. rewrite entries_by_lookup. rewrite entries_by_keyed in Hin. apply in_keyed in Hin as [Hk Hg].
  apply in_key_order in Hk. split; [exact Hk|]. apply key_order_spec in Hk. rewrite Hk. exact Hg.
Qed.

Lemma entries_len_le wr w : len (entries_by wr w) <= 8.
Proof. rewrite entries_by_keyed. exact (keyed_length _ key_order). Qed.

Lemma encode_head_pos m n : (1 <= length (encode_head m n))%nat.
Proof. pose proof (head_length m n). pose proof (head_size_bounds n). lia. Qed.

Lemma enc_entry_ne kv : enc_entry kv <> [].
Proof.
  unfold enc_entry. intros E. apply app_eq_nil in E as [E _]. pose proof (encode_head_pos 0 (fst kv)) as L.
  rewrite E in L. inversion L.
Qed.

Lemma wf_parse_item v it X f : parse_exact v = Ok it -> (length v < f)%nat -> parse_item f (v ++ X) = Ok (it, X).
Proof.
  intros Hv Hf. apply parse_exact_ok in Hv. unfold parse_one, default_fuel in Hv.
  assert (Hv' : parse_item (S (length v)) (v ++ []) = Ok (it, [])) by (rewrite app_nil_r; exact Hv).
  apply (parse_item_prefix_free _ _ _ X) in Hv'.
  eapply parse_item_fuel_ok; [|exact Hv']. lia.
Qed.

Lemma item_wf_skip v X : item_wf v = true -> skip_item (v ++ X) = Ok (v, X).
Proof.
  unfold item_wf. destruct (parse_exact v) as [it| | |] eqn:E; try discriminate. intros _.
  apply skip_item_parse. exists it. split; [|reflexivity].
  apply parse_exact_ok in E. rewrite <- (app_nil_r v) in E. apply (parse_one_local _ _ X) in E. exact E.
Qed.

Definition entry_ok (kv : N * bytes) : Prop := fst kv < two64 /\ item_wf (snd kv) = true.

Lemma parse_n_entries f es X :
  Forall (fun kv => entry_ok kv /\ (length (snd kv) < f)%nat) es ->
  exists kvs, parse_n (parse_pair (parse_item f)) (length es) (flat_map enc_entry es ++ X) = Ok (kvs, X).
Proof.
  intros HF. induction HF as [|[k v] t [[Hk Hv] Hl] _ [kvs IH]]; cbn [length parse_n flat_map app].
  - exists []. reflexivity.
  - cbn [fst snd] in Hk, Hv, Hl. unfold item_wf in Hv.
    destruct (parse_exact v) as [it| | |] eqn:Ev; try discriminate.
    exists ((IUint k, it) :: kvs). unfold enc_entry at 1. cbn [fst snd]. rewrite <- !app_assoc.
    unfold parse_pair at 1.
    pose proof (parse_item_encode (IUint k) ltac:(cbn [item_ok]; apply N.ltb_lt, Hk) f
                  (v ++ flat_map enc_entry t ++ X) ltac:(cbn [item_depth]; lia)) as P.
    cbn [encode_item] in P. rewrite P. cbn [bind].
    rewrite (wf_parse_item v it _ f Ev Hl). cbn [bind]. rewrite IH. reflexivity.
Qed.

Lemma in_flat_map_length (es : list (N * bytes)) kv : In kv es -> (length (snd kv) <= length (flat_map enc_entry es))%nat.
Proof.
  induction es as [|e t IH]; cbn [In flat_map]; [contradiction|]. intros [->|Hin]; rewrite app_length.
  - unfold enc_entry. rewrite app_length. lia.
  - specialize (IH Hin). lia.
Qed.

(* a definite map written as head(count) ++ entries, every value one well-formed item, IS one well-formed item,
   and the generic reader cuts it back into exactly the entries *)
Theorem encode_map_wf es X : Forall entry_ok es -> len es < two64 ->
  (exists kvs, parse_one (encode_map (len es) es ++ X) = Ok (IMap true kvs, X)) /\
  map_slices (encode_map (len es) es ++ X) = Some (es, X).
Proof.
  intros HF Hlen. unfold encode_map. rewrite <- app_assoc.
  pose proof (decode_encode_head 5 (len es) (flat_map enc_entry es ++ X) Hlen) as Hd.
  assert (G : (len es <=? len (flat_map enc_entry es ++ X)) = true)
    by (apply guard_true, Forall_forall; intros; apply enc_entry_ne).
  assert (L : N.to_nat (len es) = length es) by apply Nat2N.id.
  split.
  - unfold parse_one, default_fuel. cbn [parse_item]. rewrite (parse_body_head _ _ _ _ _ Hd).
    unfold parse_after. cbn [major_of]. rewrite G, L.
    destruct (parse_n_entries (length (encode_head 5 (len es) ++ flat_map enc_entry es ++ X)) es X) as [kvs P].
    + apply Forall_forall. intros kv Hin. rewrite Forall_forall in HF. split; [apply HF, Hin|].
      pose proof (in_flat_map_length es kv Hin). pose proof (encode_head_pos 5 (len es)). rewrite !app_length. lia.
    + exists kvs. rewrite P. reflexivity.
  - unfold map_slices. rewrite Hd, G, L.
    clear Hd G Hlen L. induction HF as [|[k v] t [Hk Hv] _ IH]; cbn [length map_slices_n flat_map app]; [reflexivity|].
    cbn [fst snd] in Hk, Hv. unfold enc_entry at 1. cbn [fst snd]. rewrite <- !app_assoc.
    pose proof (parse_one_encode (IUint k) (v ++ flat_map enc_entry t ++ X) ltac:(cbn [item_ok]; apply N.ltb_lt, Hk)) as P.
    cbn [encode_item] in P. rewrite P. rewrite (item_wf_skip v _ Hv). rewrite IH. reflexivity.
Qed.

(* a witness-set state whose written values are well-formed items *)
Definition wits_wf (w : wits) : Prop :=
  forall k v, lookup k (entries w) = Some v -> item_wf v = true.

(* a boolean form, for concrete witness sets *)
Lemma wits_wf_check w : forallb (fun kv => item_wf (snd kv)) (entries w) = true -> wits_wf w.
Proof. intros Hall k v E. apply lookup_In in E. rewrite forallb_forall in Hall. apply (Hall _ E). Qed.

(* C04: the witness set written back is a well-formed definite map whose declared length is the number of
   entries written, and the generic reader recovers exactly those entries *)
Theorem encode_wits_wf w : wits_wf w ->
  item_wf (encode_wits w) = true /\ map_slices (encode_wits w) = Some (entries w, []).
Proof.
  intros Hw. unfold encode_wits.
  assert (HF : Forall entry_ok (entries w)).
  { apply Forall_forall. intros kv Hin. apply entries_by_keys in Hin as [Hk Hl]. split.
    - unfold two64. lia.
    - apply (Hw _ _ Hl). }
  assert (Hlen : len (entries w) < two64) by (pose proof (entries_len_le (fun _ => written) w); unfold entries, two64; lia).
  destruct (encode_map_wf (entries w) [] HF Hlen) as [[kvs P] S]. rewrite app_nil_r in P, S. split; [|exact S].
  unfold item_wf, parse_exact. rewrite P. reflexivity.
Qed.

(* fresh encodings of the two signature sets are well-formed when their components are byte strings *)
Definition vkw_ok (x : vkw) : bool := chunk_ok (fst x) && chunk_ok (snd x).
Definition bw_ok (x : bw) : bool :=
  match x with (a, b, c, d) => chunk_ok a && chunk_ok b && chunk_ok c && chunk_ok d end.

Lemma set_item_wf {A} (f : A -> item) t ws :
  (forall x, In x ws -> item_ok (f x) = true) -> len ws < two64 -> item_wf (encode_item (set_item t (map f ws))) = true.
Proof.
  intros Hall Hl. apply item_wf_encode.
  assert (A0 : item_ok (IArray true (map f ws)) = true).
  { cbn [item_ok]. unfold len in *. rewrite map_length. apply andb_true_iff. split; [apply N.ltb_lt, Hl|].
    apply forallb_forall. intros it Hin. apply in_map_iff in Hin as [x [<- Hx]]. apply Hall, Hx. }
  unfold set_item. destruct t; [|exact A0].
  change (item_ok (ITag 258 (IArray true (map f ws)))) with ((258 <? two64) && item_ok (IArray true (map f ws))).
  rewrite A0. reflexivity.
Qed.

Lemma enc_vkeys_wf t ws : forallb vkw_ok ws = true -> len ws < two64 -> item_wf (enc_vkeys t ws) = true.
Proof.
  intros Hall Hl. apply set_item_wf; [|exact Hl]. intros x Hx. rewrite forallb_forall in Hall.
  apply Hall, andb_true_iff in Hx as [A B]. cbn [vkw_item item_ok forallb len length]. rewrite A, B. reflexivity.
Qed.

Lemma enc_boots_wf t ws : forallb bw_ok ws = true -> len ws < two64 -> item_wf (enc_boots t ws) = true.
Proof.
  intros Hall Hl. apply set_item_wf; [|exact Hl]. intros [[[a b] c] d] Hx. rewrite forallb_forall in Hall.
  apply Hall in Hx. cbn [bw_ok] in Hx. apply andb_true_iff in Hx as [Hx D]. apply andb_true_iff in Hx as [Hx C].
  apply andb_true_iff in Hx as [A B]. cbn [bw_item item_ok forallb len length]. rewrite A, B, C, D. reflexivity.
Qed.

Section Main.
  Variable H : bytes -> bytes.

  (* FixedTransaction::new / new_with_auxiliary keep their byte arguments whole *)
  Theorem fixed_new_bytes rb rw v ra tx : fixed_new H rb rw v ra = Ok tx ->
    ft_body tx = rb /\ ft_aux tx = ra /\ ft_valid tx = v /\ ft_hash tx = H rb.
  Proof.
    unfold fixed_new. intros E. apply bind_ok in E as [bit [_ E]]. apply bind_ok in E as [[w r1] [_ E]].
    apply bind_ok in E as [u [_ E]]. apply mk_fixed_ok in E as [A [B [_ [C D]]]]. repeat split; assumption.
  Qed.
End Main.

(* every loop is given [S (length input)] units and consumes at least one byte per unit, so "the model decoder
   accepts bs" is a statement about bs alone *)
Lemma dec_vkw_noof bs : dec_vkw bs <> OutOfFuel.
Proof. unfold dec_vkw. auto 12 with noof. Qed.
Lemma dec_bw_noof bs : dec_bw bs <> OutOfFuel.
Proof. unfold dec_bw. auto 16 with noof. Qed.
Lemma pair_items_noof bs : pair_items bs <> OutOfFuel.
Proof. unfold pair_items. auto with noof. Qed.
#[export] Hint Resolve dec_vkw_noof dec_bw_noof pair_items_noof : noof.
Lemma dec_redeemers_noof bs : dec_redeemers bs <> OutOfFuel.
Proof. unfold dec_redeemers. auto 12 with noof sfx. Qed.
#[export] Hint Resolve dec_redeemers_noof : noof.

Lemma dec_field_noof k bs : dec_field k bs <> OutOfFuel.
Proof.
  assert (D : forall n, ok_lt (dec_pd (S n)) n) by (intros n b Hb; apply dec_pd_noof; lia).
  pose proof dec_pd_suffix. unfold dec_field. auto 12 with noof sfx.
Qed.

Lemma dec_wits_loop_noof : forall fuel ln read acc bs, (length bs < fuel)%nat ->
  dec_wits_loop fuel ln read acc bs <> OutOfFuel.
Proof.
  induction fuel as [|f IH]; intros ln read acc bs Hl; [lia|]. cbn [dec_wits_loop].
  destruct (match ln with Arg n => read <? n | Indef => true end); [|discriminate].
  apply bind_no_oof; [apply cbor_type_noof|]. intros t _. destruct (t =? 0).
  - apply (bind_noof_ssfx bs); [auto with noof|auto with sfx|]. intros k r Lk. destruct (7 <? k); [discriminate|].
    destruct (lookup k acc); [discriminate|].
    apply (bind_noof_ssfx r); [apply with_orig_noof, dec_field_noof|exact (with_orig_suffix _ r (dec_field_suffix k))|].
    intros [p raw] r' Lf. apply IH. lia.
  - destruct (t =? 7); [|discriminate]. destruct ln; [discriminate|].
    apply bind_no_oof; [apply expect_break_noof|]. intros r _. discriminate.
Qed.

Theorem decode_wits_noof bs : decode_wits bs <> OutOfFuel.
Proof. pose proof dec_wits_loop_noof. unfold decode_wits. auto with noof. Qed.

Lemma dec_tail_noof ln bs : dec_tail ln bs <> OutOfFuel.
Proof. unfold dec_tail. auto 12 with noof. Qed.

Lemma parse_exact_noof bs : parse_exact bs <> OutOfFuel.
Proof.
  unfold parse_exact. pose proof (parse_one_no_oof bs). destruct (parse_one bs) as [[it [|b t]]| | |]; congruence.
Qed.

Section Fuel.
  Variable H : bytes -> bytes.
  Variable sign_vkey : bytes -> bytes -> vkw.
  Variable sign_boot : bool -> bytes -> bytes -> bw.

  Lemma mk_fixed_noof body bb w v a : mk_fixed H body bb w v a <> OutOfFuel.
  Proof.
    unfold mk_fixed, force_set_tag. destruct (body_tags body) as [[|] [|]]; cbn [bind]; discriminate.
  Qed.

  #[local] Hint Resolve decode_wits_noof dec_tail_noof parse_exact_noof mk_fixed_noof : noof.

  Theorem decode_fixed_noof bs : decode_fixed H bs <> OutOfFuel.
  Proof. unfold decode_fixed. auto 16 with noof. Qed.

  Theorem apply_op_noof o tx : apply_op H sign_vkey sign_boot o tx <> OutOfFuel.
  Proof. destruct o; cbn [apply_op]; auto with noof. Qed.

  Theorem decode_fixed_body_noof bs : decode_fixed_body H bs <> OutOfFuel.
  Proof. unfold decode_fixed_body. auto with noof. Qed.
End Fuel.

Definition Hid (b : bytes) : bytes := b.
Definition no_vk (_ _ : bytes) : vkw := ([], []).
Definition no_bw (_ : bool) (_ _ : bytes) : bw := ([], [], [], []).

(* 84 | {0:[],1:[],2:0} | {1: []} | true | null : an empty native-script list / an empty Plutus-script list *)
Definition witness_empty_native : bytes := [132; 163; 0; 128; 1; 128; 2; 0; 161; 1; 128; 245; 246].
Definition witness_empty_plutus : bytes := [132; 163; 0; 128; 1; 128; 2; 0; 161; 3; 128; 245; 246].

(* a non-canonical transaction: indefinite outer array, body with a non-minimal key head, witness set as an
   indefinite map with keys out of order, an untagged chunked-vkey witness set, an empty redeemer map,
   a one-element tagged datum list with an indefinite constructor; is_valid present; metadata map as aux *)
Definition sample_vk : bytes := repeat 7 32.
Definition sample_sg : bytes := repeat 9 64.
Definition sample_tx : bytes :=
  [159] ++ [163; 24; 0; 128; 1; 128; 2; 0] ++
  ([191; 5; 160; 4; 217; 1; 2; 129; 216; 121; 159; 255; 0; 129; 130; 95; 88; 32] ++ sample_vk ++ [255; 88; 64] ++ sample_sg ++ [255]) ++
  [244] ++ [161; 1; 2] ++ [255].

Example sample_tx_accepted :
  exists tx, decode_fixed Hid sample_tx = Ok (tx, []) /\
    ft_valid tx = false /\ ft_aux tx = Some [161; 1; 2] /\ ft_body tx = [163; 24; 0; 128; 1; 128; 2; 0] /\
    map fst (w_fields (ft_wits tx)) = [5; 4; 0] /\
    wits_wf (ft_wits (run_ops Hid no_vk no_bw [OAddBoot (sample_vk, sample_sg, [1; 2], [160])] tx)).
Proof.
  eexists. split; [vm_compute; reflexivity|]. repeat split.
  apply wits_wf_check. vm_compute. reflexivity.
Qed.

Example sig_ops_example : sig_ops [OAddVkey (sample_vk, sample_sg); OSignVkey [1]; OSignIcarus [2]; OSignDaedalus [3]; OAddBoot (sample_vk, sample_sg, [], [])].
Proof. intros o Hin. cbn [In] in Hin. repeat (destruct Hin as [<-|Hin]; [reflexivity|]). contradiction. Qed.
