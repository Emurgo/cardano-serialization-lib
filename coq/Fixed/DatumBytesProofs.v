(* A decoded Plutus datum re-encodes to exactly the bytes it was decoded from (every accepted encoding:
   non-minimal heads, indefinite or definite lists/maps, chunked byte strings, big-integer tags, general or
   compact constructor tags, tag 258 lists, duplicate map keys ... are just bytes here). *)
From CSL Require Import Base.Prelude Cbor.Head Cbor.HeadProofs Cbor.Item Cbor.ItemProofs
  Fixed.CborEv Fixed.CborEvProofs Fixed.DatumBytes.
Local Open Scope N_scope.

Section Kind.
  Variable p : parser pd.
  Hypothesis Hp : psuffix p.

  Lemma dec_kv_suffix bs : answers ssfx bs (dec_kv p bs).
  Proof. pose proof (Hp : forall b, answers ssfx b (p b)). unfold dec_kv. auto with sfx. Qed.
  #[local] Hint Resolve dec_kv_suffix : sfx.

  Lemma dec_kind_suffix bs : answers ssfx bs (dec_kind p bs).
  Proof. unfold dec_kind. auto 24 with sfx. Qed.

  (* fuel: [p] is the nested reader one fuel level down, safe on inputs shorter than the present one *)
  Lemma dec_constr_noof bs : ok_lt p (length bs) -> dec_constr p bs <> OutOfFuel.
  Proof.
    intros Hn. unfold dec_constr. apply (bind_noof_ssfx bs); [auto with noof|auto with sfx|]. intros t r L0.
    assert (D : forall b, (length b <= length r)%nat -> dec_plist p b <> OutOfFuel).
    { intros b Lb. apply dec_set_noof; [exact Hp|]. apply (ok_lt_mono p (length bs)); [lia|exact Hn]. }
    destruct (t =? 102).
    - apply (bind_noof_ssfx r); [auto with noof|auto with sfx|]. intros ln r1 L1.
      destruct (match ln with Arg n => negb (n =? 2) | Indef => false end); [discriminate|].
      apply (bind_noof_ssfx r1); [auto with noof|auto with sfx|]. intros alt r2 L2.
      apply bind_noof; [apply D; lia|]. intros [[[tg df] xs] r3]. auto with noof.
    - destruct (compact_alt t); [|discriminate].
      apply bind_noof; [apply D; lia|]. intros [[[tg df] xs] r1]. discriminate.
  Qed.

  Lemma dec_kv_noof bs : ok_lt p (S (length bs)) -> dec_kv p bs <> OutOfFuel.
  Proof.
    intros Hn. unfold dec_kv. apply (bind_noof_ssfx bs); [apply Hn; lia|exact (Hp bs)|]. intros k r L.
    apply bind_noof; [apply Hn; lia|]. intros [v r']. discriminate.
  Qed.

  Lemma dec_pmap_noof bs : ok_lt p (length bs) -> dec_pmap p bs <> OutOfFuel.
  Proof.
    intros Hn. unfold dec_pmap. apply (bind_noof_ssfx bs); [auto with noof|auto with sfx|]. intros ln r L.
    apply bind_noof; [|intros [kvs r']; discriminate].
    apply (dec_elems_noof _ dec_kv_suffix); [lia|].
    intros b Hb. apply dec_kv_noof. apply (ok_lt_mono p (length bs)); [lia|exact Hn].
  Qed.

  Lemma dec_plist_k_noof bs : ok_lt p (length bs) -> dec_plist_k p bs <> OutOfFuel.
  Proof.
    intros Hn. unfold dec_plist_k. apply bind_no_oof; [apply dec_set_noof; [exact Hp|exact Hn]|].
    intros [[[tg df] xs] r] _. discriminate.
  Qed.

  Lemma dec_bigint_noof bs : dec_bigint bs <> OutOfFuel.
  Proof. unfold dec_bigint. auto 12 with noof. Qed.

  Lemma dec_pbytes_noof bs : dec_pbytes bs <> OutOfFuel.
  Proof. unfold dec_pbytes. auto with noof. Qed.

  Lemma dec_kind_noof bs : ok_lt p (length bs) -> dec_kind p bs <> OutOfFuel.
  Proof.
    intros Hn. unfold dec_kind.
    apply orelse_noof; [apply dec_constr_noof, Hn|].
    apply orelse_noof; [apply dec_pmap_noof, Hn|].
    apply orelse_noof; [apply dec_plist_k_noof, Hn|].
    apply orelse_noof; [apply dec_bigint_noof|apply dec_pbytes_noof].
  Qed.
End Kind.

Lemma dec_pd_suffix fuel : psuffix (dec_pd fuel).
Proof.
  induction fuel as [|f IH]; intros bs; [intros x r H; discriminate H|].
  change (answers ssfx bs (dec_pd (S f) bs)). pose proof (dec_kind_suffix _ IH). cbn [dec_pd]. auto with sfx.
Qed.

(* the decoded node carries exactly the bytes it was decoded from (any fuel, hence any nesting position) *)
Lemma dec_pd_orig fuel bs d r : dec_pd fuel bs = Ok (d, r) ->
  exists raw k, d = PD (Some raw) k /\ bs = raw ++ r /\ raw <> [].
Proof.
  destruct fuel as [|f]; cbn [dec_pd]; [discriminate|]. intros H.
  apply bind_ok in H as [[[k raw] r0] [H0 H]]. injection H as <- <-.
  apply (with_orig_slice _ (dec_kind_suffix _ (dec_pd_suffix f))) in H0 as [E [Hne _]].
  exists raw, k. split; [reflexivity|]. split; [exact E|exact Hne].
Qed.

(* the nesting depth is at most the number of bytes *)
Theorem dec_pd_noof : forall fuel bs, (length bs < fuel)%nat -> dec_pd fuel bs <> OutOfFuel.
Proof.
  induction fuel as [|f IH]; intros bs Hl; [lia|]. cbn [dec_pd].
  apply bind_no_oof; [|intros [[k raw] r] _; discriminate].
  apply with_orig_noof, (dec_kind_noof _ (dec_pd_suffix f)). intros b Hb. apply IH. lia.
Qed.

Theorem decode_pd_noof bs : decode_pd bs <> OutOfFuel.
Proof. unfold decode_pd. apply dec_pd_noof. lia. Qed.

Section Main.
  Variable fresh : pdk -> bytes.

  (* PlutusData::from_bytes then to_bytes: exactly the consumed bytes *)
  Theorem datum_bytes bs d rest : decode_pd bs = Ok (d, rest) -> encode_pd fresh d ++ rest = bs.
  Proof. intros E. apply dec_pd_orig in E as (raw & k & -> & -> & _). reflexivity. Qed.

  (* a datum built through the API has no original bytes: its encoding is the fresh one *)
  Lemma datum_new_fresh k : encode_pd fresh (pd_new k) = fresh k.
  Proof. reflexivity. Qed.
End Main.

(* non-vacuity: a non-canonical datum (indefinite list, non-minimal integer head, chunked bytes, a constructor
   in general form) is accepted and, by the theorem, re-encodes verbatim *)
Example datum_example :
  let bs := [159; 24; 1; 95; 65; 7; 64; 255; 216; 102; 130; 0; 128; 255; 9] in
  exists d, decode_pd bs = Ok (d, [9]) /\ pd_orig d = Some (firstn 14 bs).
Proof. cbv zeta. eexists. split; vm_compute; reflexivity. Qed.
