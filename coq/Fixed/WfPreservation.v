(* Well-formedness of the witness set written back is preserved by every operation except set_witness_set:
   if the kept slices of a decoded witness set are well-formed items and the input is a string of bytes (< 256)
   shorter than 2^64, then after any such operation list (whose added / signed witnesses are byte strings) the
   written witness set is a well-formed definite map. *)
From CSL Require Import Base.Prelude Cbor.Head Cbor.HeadProofs Cbor.Item Cbor.ItemProofs
  Fixed.CborEv Fixed.CborEvProofs Fixed.DatumBytes Fixed.DatumBytesProofs Fixed.FixedTx Fixed.FixedTxProofs.
Local Open Scope N_scope.

(* inputs: byte strings of representable length *)
Definition good (bs : bytes) : Prop := bytes_ok bs /\ N.of_nat (length bs) < two64.

Lemma good_sfx bs r : sfx bs r -> good bs -> good r.
Proof.
  intros [pre ->] [Hb Hl]. split.
  - unfold bytes_ok in *. apply Forall_app in Hb. tauto.
  - rewrite app_length in Hl. lia.
Qed.

(* a value cut out of a good input is a byte string of representable length *)
Lemma sub_chunk_ok b bs : good bs -> incl b bs -> (length b <= length bs)%nat -> chunk_ok b = true.
Proof.
  intros [Hb Hl] Hi Hlen. unfold chunk_ok. apply andb_true_iff. split.
  - apply bytes_ok_okb. unfold bytes_ok in *. rewrite Forall_forall in *. intros x Hx. apply Hb, Hi, Hx.
  - apply N.ltb_lt. unfold len. lia.
Qed.

Lemma chunks_sub : forall k bs cs r, parse_until_break (parse_chunk 2) k bs = Ok (cs, r) ->
  incl (concat cs) bs /\ (length (concat cs) + length r <= length bs)%nat.
Proof.
  induction k as [|k IH]; intros bs cs r H; destruct bs as [|b t]; cbn [parse_until_break] in H; try discriminate.
  - destruct (b =? 255); [|discriminate]. injection H as <- <-. split; [intros x []|cbn [concat length]; lia].
  - destruct (b =? 255).
    + injection H as <- <-. split; [intros x []|cbn [concat length]; lia].
    + apply bind_ok in H as [[c r1] [H1 H]]. apply bind_ok in H as [[cs' r2] [H2 H]]. injection H as <- <-.
      unfold parse_chunk in H1. destruct (decode_head (b :: t)) as [[[m' [n|]] r0]|] eqn:Hd; try discriminate.
      destruct (m' =? 2); [|discriminate]. apply decode_head_suffix in Hd as [pre [Hd _]].
      apply take_bytes_ok in H1 as [-> _]. apply IH in H2 as [Hi Hl]. rewrite Hd. cbn [concat]. split.
      * intros x Hx. apply in_app_or in Hx as [Hx|Hx]; apply in_or_app; right; apply in_or_app; [left; exact Hx|right; apply Hi, Hx].
      * rewrite !app_length in *. lia.
Qed.

Lemma rd_bytes_ok bs b r : good bs -> rd_bytes bs = Ok (b, r) -> chunk_ok b = true /\ good r.
Proof.
  intros Hg H. split; [|apply (good_sfx bs); [apply ssfx_sfx, (rd_bytes_suffix _ _ _ H)|exact Hg]].
  unfold rd_bytes in H. apply bind_ok in H as [[a r0] [H0 H]]. apply rd_head_suffix in H0. apply ssfx_sfx in H0.
  apply (sub_chunk_ok b r0 (good_sfx _ _ H0 Hg)); destruct a as [n|].
  - apply take_bytes_ok in H as [-> _]. apply incl_appl, incl_refl.
  - apply bind_ok in H as [[cs r1] [H1 H]]. injection H as <- <-. apply chunks_sub in H1. apply H1.
  - apply take_bytes_ok in H as [-> _]. rewrite app_length. lia.
  - apply bind_ok in H as [[cs r1] [H1 H]]. injection H as <- <-. apply chunks_sub in H1. lia.
Qed.

Lemma dec_vkw_ok bs x r : good bs -> dec_vkw bs = Ok (x, r) -> vkw_ok x = true.
Proof.
  intros Hg H. unfold dec_vkw in H.
  apply bind_ok in H as [[ln r0] [H0 H]]. apply bind_ok in H as [[vk r1] [H1 H]].
  destruct (negb (blen vk =? 32)); [discriminate|].
  apply bind_ok in H as [[sg r2] [H2 H]]. destruct (negb (blen sg =? 64)); [discriminate|].
  apply rd_head_suffix in H0. apply (good_sfx _ _ (ssfx_sfx _ _ H0)) in Hg.
  apply (rd_bytes_ok _ _ _ Hg) in H1 as [C1 Hg1]. apply (rd_bytes_ok _ _ _ Hg1) in H2 as [C2 _].
  assert (E : x = (vk, sg)).
  { destruct ln as [n|]; [destruct (n =? 2); [injection H as <- _; reflexivity|discriminate]|].
    apply bind_ok in H as [r3 [_ H]]. injection H as <- _. reflexivity. }
  subst x. unfold vkw_ok. cbn [fst snd]. rewrite C1, C2. reflexivity.
Qed.

Lemma dec_bw_ok bs x r : good bs -> dec_bw bs = Ok (x, r) -> bw_ok x = true.
Proof.
  intros Hg H. unfold dec_bw in H.
  apply bind_ok in H as [[ln r0] [H0 H]]. apply bind_ok in H as [u [_ H]]. apply bind_ok in H as [[vk r1] [H1 H]].
  destruct (negb (blen vk =? 32)); [discriminate|].
  apply bind_ok in H as [[sg r2] [H2 H]]. destruct (negb (blen sg =? 64)); [discriminate|].
  apply bind_ok in H as [[cc r3] [H3 H]]. apply bind_ok in H as [[at_ r4] [H4 H]].
  apply bind_ok in H as [r5 [_ H]]. injection H as <- _.
  apply rd_head_suffix in H0. apply (good_sfx _ _ (ssfx_sfx _ _ H0)) in Hg.
  apply (rd_bytes_ok _ _ _ Hg) in H1 as [C1 Hg1]. apply (rd_bytes_ok _ _ _ Hg1) in H2 as [C2 Hg2].
  apply (rd_bytes_ok _ _ _ Hg2) in H3 as [C3 Hg3]. apply (rd_bytes_ok _ _ _ Hg3) in H4 as [C4 _].
  unfold bw_ok. rewrite C1, C2, C3, C4. reflexivity.
Qed.

(* the element loop: a property of the elements that holds wherever the input is good; and the elements are
   at most as many as the bytes *)
Lemma dec_elems_good {A} (p : parser A) (P : A -> Prop) : psuffix p ->
  (forall bs x r, good bs -> p bs = Ok (x, r) -> P x) ->
  forall fuel ln cnt bs xs r, dec_elems p fuel ln cnt bs = Ok (xs, r) -> good bs ->
  Forall P xs /\ (length xs + length r <= length bs)%nat.
Proof.
  intros Hs Hp. apply (dec_elems_ind p (fun bs xs r => good bs -> Forall P xs /\ (length xs + length r <= length bs)%nat)).
  - intros bs _. split; [constructor|cbn [length]; lia].
  - intros bs r H _. apply expect_break_suffix, ssfx_length in H. split; [constructor|cbn [length]; lia].
  - intros bs x r xs r' H IH Hg. pose proof (Hs _ _ _ H) as S.
    destruct (IH (good_sfx _ _ (ssfx_sfx _ _ S) Hg)) as [HF HL]. apply ssfx_length in S.
    split; [constructor; [apply (Hp _ _ _ Hg H)|exact HF]|cbn [length]; lia].
Qed.

(* Vkeywitnesses / BootstrapWitnesses add: the elements stay byte strings and the set grows by at most one *)
Lemma dedup_add_ok {A} (eqb : A -> A -> bool) (ok : A -> bool) n l x : ok x = true ->
  forallb ok l = true /\ (length l <= n)%nat ->
  forallb ok (dedup_add eqb l x) = true /\ (length (dedup_add eqb l x) <= S n)%nat.
Proof.
  intros Hx [Hl Hn]. unfold dedup_add. destruct (existsb (eqb x) l); [split; [exact Hl|lia]|].
  rewrite forallb_app, app_length, Hl. cbn [forallb length]. rewrite Hx. split; [reflexivity|lia].
Qed.

Lemma dedup_list_ok {A} (eqb : A -> A -> bool) (ok : A -> bool) l :
  forallb ok l = true -> forallb ok (dedup_list eqb l) = true /\ (length (dedup_list eqb l) <= length l)%nat.
Proof.
  unfold dedup_list. intros Hl.
  assert (G : forall acc n, forallb ok acc = true /\ (length acc <= n)%nat ->
              forallb ok (fold_left (dedup_add eqb) l acc) = true /\
              (length (fold_left (dedup_add eqb) l acc) <= n + length l)%nat).
  { induction l as [|x t IH]; intros acc n Ha; cbn [fold_left length]; [rewrite Nat.add_0_r; exact Ha|].
    cbn [forallb] in Hl. apply andb_true_iff in Hl as [Hx Ht].
    rewrite <- Nat.add_succ_comm. apply (IH Ht), dedup_add_ok; assumption. }
  apply (G [] 0%nat). split; [reflexivity|apply Nat.le_refl].
Qed.

(* a signature set (key 0 or 2) read from a good input, duplicates dropped: byte strings, no more than input bytes *)
Lemma dec_sig_set_ok {A} (p : parser A) (ok : A -> bool) eqb dbl : psuffix p ->
  (forall bs x r, good bs -> p bs = Ok (x, r) -> ok x = true) ->
  forall bs t d xs r, good bs -> dec_set p dbl bs = Ok ((t, d, xs), r) ->
  forallb ok (dedup_list eqb xs) = true /\ (length (dedup_list eqb xs) <= length bs)%nat.
Proof.
  intros Hs Hp bs t d xs r Hg E. unfold dec_set in E.
  apply bind_ok in E as [[t0 r0] [E0 E]]. apply bind_ok in E as [[t1 r0'] [E0' E]].
  apply bind_ok in E as [[ln r1] [E1 E]]. apply bind_ok in E as [[xs' r2] [E2 E]]. injection E as <- <- <- <-.
  apply skip_set_tag_suffix in E0.
  assert (S1 : sfx r0 r0').
  { destruct dbl; [apply skip_set_tag_suffix in E0'; exact E0'|injection E0' as <- <-; apply sfx_refl]. }
  apply rd_head_suffix in E1. apply ssfx_sfx in E1.
  pose proof (sfx_trans _ _ _ (sfx_trans _ _ _ E0 S1) E1) as T.
  apply (dec_elems_good p (fun x => ok x = true) Hs Hp) in E2 as [HF HL]; [|apply (good_sfx _ _ T Hg)].
  destruct (dedup_list_ok eqb ok xs' (Forall_forallb _ _ HF)) as [A1 A2]. split; [exact A1|].
  apply sfx_length in T. lia.
Qed.

(* every kept slice is a well-formed item; the witnesses of the two signature sets are byte strings; the sets
   hold at most n witnesses *)
Definition parsed_ok (n : nat) (p : fparsed) : Prop :=
  match p with
  | PVk _ ws => forallb vkw_ok ws = true /\ (length ws <= n)%nat
  | PBw _ ws => forallb bw_ok ws = true /\ (length ws <= n)%nat
  | PGen _ _ => True
  end.
Definition field_ok (n : nat) (f : fstate) : Prop :=
  (forall raw, f_raw f = Some raw -> item_wf raw = true) /\ parsed_ok n (f_parsed f).
Definition wits_ok (n : nat) (w : wits) : Prop :=
  forall k f, lookup k (w_fields w) = Some f -> field_ok n f.

Lemma parsed_ok_mono n m p : (n <= m)%nat -> parsed_ok n p -> parsed_ok m p.
Proof. intros Hle. destruct p; cbn [parsed_ok]; try exact id; intros [A B]; split; try exact A; lia. Qed.
Lemma wits_ok_mono n m w : (n <= m)%nat -> wits_ok n w -> wits_ok m w.
Proof. intros Hle Hw k f El. destruct (Hw _ _ El) as [A B]. split; [exact A|apply (parsed_ok_mono n), B; exact Hle]. Qed.

Theorem wits_ok_wf n w : wits_ok n w -> N.of_nat n < two64 -> wits_wf w.
Proof.
  intros Hw Hn k v E. apply lookup_In, entries_by_keys in E as [Hk E]. cbn [fst snd] in Hk, E.
  change (entries_by _ w) with (entries w) in E. rewrite (entries_lookup _ _ Hk) in E.
  destruct (lookup k (w_fields w)) as [f|] eqn:El; [|discriminate].
  destruct (Hw _ _ El) as [Hraw Hp]. unfold written in E.
  destruct (f_raw f) as [raw|]; [injection E as <-; apply Hraw; reflexivity|].
  destruct (f_parsed f) as [t ws|t ws|t c]; try discriminate; destruct Hp as [A B].
  - destruct (fp_empty (PVk t ws)); [discriminate|]. injection E as <-. apply enc_vkeys_wf; [exact A|unfold len; lia].
  - destruct (fp_empty (PBw t ws)); [discriminate|]. injection E as <-. apply enc_boots_wf; [exact A|unfold len; lia].
Qed.

(* a freshly decoded witness set whose kept slices are well-formed items *)
Definition raws_wf (w : wits) : Prop :=
  forall k f raw, lookup k (w_fields w) = Some f -> f_raw f = Some raw -> item_wf raw = true.

Lemma dec_field_parsed_ok k bs p r : good bs -> dec_field k bs = Ok (p, r) -> parsed_ok (length bs) p.
Proof.
  intros Hg H. unfold dec_field in H.
  destruct (k =? 0).
  { apply bind_ok in H as [[[[t d] ws] r0] [H0 H]]. injection H as <- <-.
    apply (dec_sig_set_ok dec_vkw vkw_ok vkw_eqb true dec_vkw_suffix dec_vkw_ok _ _ _ _ _ Hg H0). }
  destruct (k =? 2).
  { apply bind_ok in H as [[[[t d] ws] r0] [H0 H]]. injection H as <- <-.
    apply (dec_sig_set_ok dec_bw bw_ok bw_eqb false dec_bw_suffix dec_bw_ok _ _ _ _ _ Hg H0). }
  (* the other fields are generic *)
  assert (G : forall A (res : result (bool * bool * list A * bytes)),
            (let* '(x, r) := res in Ok (gen_of x, r)) = Ok (p, r) -> parsed_ok (length bs) p).
  { intros A res E. apply bind_ret_ok in E as [[[t d] xs] [_ ->]]. exact I. }
  destruct (k =? 1); [apply (G _ _ H)|]. destruct ((k =? 3) || (k =? 6) || (k =? 7)); [apply (G _ _ H)|].
  destruct (k =? 4); [apply (G _ _ H)|].
  destruct (k =? 5); [|discriminate]. unfold dec_redeemers in H. apply bind_ok in H as [t [_ H]].
  destruct (t =? 4); [|destruct (t =? 5); [|discriminate]];
    apply bind_ok in H as [[ln r0] [_ H]]; apply bind_ok in H as [[xs r1] [_ H]]; injection H as <- _; exact I.
Qed.

Theorem decode_wits_ok bs w rest : good bs -> decode_wits bs = Ok (w, rest) -> raws_wf w ->
  wits_ok (length bs) w.
Proof.
  intros Hg E Hr k f El. split; [intros raw Er; apply (Hr _ _ _ El Er)|].
  apply decode_wits_slices in E as [_ [_ Hs]]. destruct (Hs _ _ El) as [raw [pre [kb [post [_ [_ [Ebs [_ Ef]]]]]]]].
  assert (S : sfx bs (raw ++ post)) by (exists (pre ++ kb); rewrite Ebs, <- app_assoc; reflexivity).
  apply (dec_field_parsed_ok k _ _ _ (good_sfx _ _ S Hg)) in Ef. apply sfx_length in S.
  apply (parsed_ok_mono _ _ _ S Ef).
Qed.

(* replacing one field by a freshly built one (no kept bytes) *)
Lemma update_ok n k p w t : parsed_ok (S n) p -> wits_ok n w ->
  wits_ok (S n) {| w_fields := update k {| f_raw := None; f_parsed := p |} (w_fields w); w_set_tags := t |}.
Proof.
  intros Hp Hw k' f El. cbn [w_fields] in El. rewrite lookup_update in El. destruct (k' =? k).
  - injection El as <-. split; [discriminate|exact Hp].
  - apply (wits_ok_mono n (S n) w (Nat.le_succ_diag_r n) Hw _ _ El).
Qed.

Lemma add_vkey_ok n x w : vkw_ok x = true -> wits_ok n w -> wits_ok (S n) (add_vkey x w).
Proof.
  intros Hx Hw. apply update_ok; [|exact Hw].
  assert (One : parsed_ok (S n) (PVk (w_set_tags w) [x])) by (split; [cbn [forallb]; rewrite Hx; reflexivity|cbn [length]; lia]).
  destruct (lookup 0 (w_fields w)) as [[r0 [t ws|t ws|t c]]|] eqn:E0; try exact One.
  apply dedup_add_ok; [exact Hx|apply (Hw _ _ E0)].
Qed.

Lemma add_boot_ok n x w : bw_ok x = true -> wits_ok n w -> wits_ok (S n) (add_boot x w).
Proof.
  intros Hx Hw. apply update_ok; [|exact Hw].
  assert (One : parsed_ok (S n) (PBw (w_set_tags w) [x])) by (split; [cbn [forallb]; rewrite Hx; reflexivity|cbn [length]; lia]).
  destruct (lookup 2 (w_fields w)) as [[r0 [t ws|t ws|t c]]|] eqn:E0; try exact One.
  apply dedup_add_ok; [exact Hx|apply (Hw _ _ E0)].
Qed.

Section Ops.
  Variable H : bytes -> bytes.
  Variable sign_vkey : bytes -> bytes -> vkw.
  Variable sign_boot : bool -> bytes -> bytes -> bw.
  (* the external signers return byte strings *)
  Hypothesis sign_vkey_ok : forall k h, vkw_ok (sign_vkey k h) = true.
  Hypothesis sign_boot_ok : forall d k h, bw_ok (sign_boot d k h) = true.

  Definition op_ok (o : op) : Prop :=
    match o with
    | OAddVkey x => vkw_ok x = true
    | OAddBoot x => bw_ok x = true
    | OSetWits _ => False                 (* replaces the whole set: start again from decode_wits_ok *)
    | _ => True
    end.

  Lemma step_wits_ok n o tx : op_ok o -> wits_ok n (ft_wits tx) ->
    wits_ok (S n) (ft_wits (step H sign_vkey sign_boot tx o)).
  Proof.
    intros Ho Hw. assert (M : wits_ok (S n) (ft_wits tx)) by (apply (wits_ok_mono n); [lia|exact Hw]).
    unfold step. destruct o; cbn [op_ok] in Ho; cbn [apply_op ft_wits with_wits].
    - apply add_vkey_ok; assumption.
    - apply add_boot_ok; assumption.
    - apply add_vkey_ok; [apply sign_vkey_ok|assumption].
    - apply add_boot_ok; [apply sign_boot_ok|assumption].
    - apply add_boot_ok; [apply sign_boot_ok|assumption].
    - destruct (parse_exact b) as [?| | |]; exact M.
    - contradiction.
    - exact M.
    - destruct (parse_exact b) as [?| | |]; exact M.
  Qed.

  Theorem run_ops_wits_ok ops : Forall op_ok ops -> forall n tx, wits_ok n (ft_wits tx) ->
    wits_ok (n + length ops) (ft_wits (run_ops H sign_vkey sign_boot ops tx)).
  Proof.
    unfold run_ops. induction 1 as [|o t Ho _ IH]; intros n tx Hw; cbn [fold_left length].
    - rewrite Nat.add_0_r. exact Hw.
    - replace (n + S (length t))%nat with (S n + length t)%nat by lia. apply IH. apply step_wits_ok; assumption.
  Qed.
End Ops.

(* a boolean form, for concrete witness sets *)
Lemma raws_wf_check w :
  forallb (fun kf => match f_raw (snd kf) with Some raw => item_wf raw | None => true end) (w_fields w) = true -> raws_wf w.
Proof.
  intros Hall k f raw El Er. apply lookup_In in El. rewrite forallb_forall in Hall.
  specialize (Hall _ El). cbn [snd] in Hall. rewrite Er in Hall. exact Hall.
Qed.

(* the premises are satisfiable: the non-canonical sample transaction of FixedTxProofs.v *)
Example wf_after_ops_premises :
  good sample_tx /\
  exists tx, decode_fixed Hid sample_tx = Ok (tx, []) /\ raws_wf (ft_wits tx) /\
    Forall op_ok [OAddVkey (sample_vk, sample_sg); OSignVkey [1]; OAddBoot (sample_vk, sample_sg, [1; 2], [160]); OSetBody [160]; OSetValid true].
Proof.
  split.
  { split; [apply bytes_okb_ok; vm_compute; reflexivity|vm_compute; reflexivity]. }
  eexists. split; [vm_compute; reflexivity|]. split.
  - apply raws_wf_check. vm_compute. reflexivity.
  - repeat constructor.
Qed.
