(* The cbor_event-level readers of Fixed/CborEv.v: a successful read returns a proper suffix of its input
   (what makes the byte-range capture [with_orig] return exactly the consumed bytes), and no reader answers
   OutOfFuel when its loops are given one unit per input byte.  Both facts are structural for a reader put
   together from binds, tests and case distinctions: two small hint databases ([sfx], [noof]) walk through such
   a reader; the loops, where bytes and fuel are counted, have proofs of their own. *)
From CSL Require Import Base.Prelude Cbor.Head Cbor.HeadProofs Cbor.Item Cbor.ItemProofs Fixed.CborEv.
Local Open Scope N_scope.

(* [r] is what is left of [bs] after reading a (possibly empty / non-empty) prefix *)
Definition sfx (bs r : bytes) : Prop := exists pre, bs = pre ++ r.
Definition ssfx (bs r : bytes) : Prop := exists pre, bs = pre ++ r /\ pre <> [].

Lemma sfx_refl bs : sfx bs bs.
Proof. exists []. reflexivity. Qed.
Lemma ssfx_sfx a b : ssfx a b -> sfx a b.
Proof. intros [p [E _]]. exists p. exact E. Qed.
Lemma sfx_trans a b c : sfx a b -> sfx b c -> sfx a c.
Proof. intros [p ->] [q ->]. exists (p ++ q). apply app_assoc. Qed.
Lemma ssfx_sfx_trans a b c : ssfx a b -> sfx b c -> ssfx a c.
Proof.
  intros [p [-> Hp]] [q ->]. exists (p ++ q). split; [apply app_assoc|apply app_ne_nil, Hp].
Qed.
Lemma sfx_ssfx_trans a b c : sfx a b -> ssfx b c -> ssfx a c.
Proof.
  intros [p ->] [q [-> Hq]]. exists (p ++ q). split; [apply app_assoc|].
  destruct q; [congruence|]. destruct p; discriminate.
Qed.
Lemma ssfx_trans a b c : ssfx a b -> ssfx b c -> ssfx a c.
Proof. intros H1 H2. eapply ssfx_sfx_trans; [exact H1|apply ssfx_sfx, H2]. Qed.
Lemma sfx_length a b : sfx a b -> (length b <= length a)%nat.
Proof. intros [p ->]. rewrite app_length. lia. Qed.
Lemma ssfx_length a b : ssfx a b -> (length b < length a)%nat.
Proof. intros [p [-> Hp]]. rewrite app_length. destruct p; [congruence|cbn [length]; lia]. Qed.
Lemma ssfx_cons b t : ssfx (b :: t) t.
Proof. exists [b]. split; [reflexivity|discriminate]. Qed.

Lemma psuffix_ssfx {A} (p : parser A) : psuffix p <-> (forall bs x r, p bs = Ok (x, r) -> ssfx bs r).
Proof. split; intros H bs x r E; apply (H bs x r E). Qed.

(* C04 mechanism 1: the capture returns exactly the bytes the inner reader consumed (deserilized_with_orig_bytes
   computes them as position after - position before: [firstn_consumed]) *)
Theorem with_orig_slice {A} (p : parser A) : psuffix p ->
  forall bs v raw rest, with_orig p bs = Ok ((v, raw), rest) ->
  bs = raw ++ rest /\ raw <> [] /\ p (raw ++ rest) = Ok (v, rest).
Proof.
  intros Hp bs v raw rest H. unfold with_orig in H.
  apply bind_ok in H as [[v' r] [H1 H]]. injection H as <- <- <-.
  destruct (Hp _ _ _ H1) as [pre [-> Hne]]. rewrite firstn_consumed.
  split; [reflexivity|]. split; [exact Hne|exact H1].
Qed.

(* [res] is the answer of a reader on [bs]: if it succeeded, the rest stands in relation [R] to [bs]; with [sfx] the
   reader leaves a suffix, with [ssfx] it consumes at least a byte.  [psuffix p] is [forall bs, answers ssfx bs (p bs)]. *)
Definition answers {A} (R : bytes -> bytes -> Prop) (bs : bytes) (res : result (A * bytes)) : Prop :=
  forall x r, res = Ok (x, r) -> R bs r.

Lemma answers_weaken {A} bs (res : result (A * bytes)) : answers ssfx bs res -> answers sfx bs res.
Proof. intros H x r E. apply ssfx_sfx, (H x r E). Qed.
Lemma answers_ok {A} bs (x : A) : answers sfx bs (Ok (x, bs)).
Proof. intros x' r [= _ <-]. apply sfx_refl. Qed.
Lemma answers_err {A} R bs : @answers A R bs Err.
Proof. discriminate. Qed.
Lemma answers_if {A} R bs (c : bool) (a b : result (A * bytes)) : answers R bs a -> answers R bs b -> answers R bs (if c then a else b).
Proof. destruct c; intros; assumption. Qed.
(* a bind whose first part only looks (cbor_type, check_len) *)
Lemma answers_test {A B} R bs (res : result A) (f : A -> result (B * bytes)) :
  (forall a, answers R bs (f a)) -> answers R bs (bind res f).
Proof. intros H x r E. apply bind_ok in E as [a [_ E]]. apply (H a _ _ E). Qed.
(* a bind of two readers: the relations compose *)
Lemma answers_bind {A B} (R1 R2 R3 : bytes -> bytes -> Prop) (T : forall a b c, R1 a b -> R2 b c -> R3 a c)
  bs (res : result (A * bytes)) (f : A -> bytes -> result (B * bytes)) :
  answers R1 bs res -> (forall a r, answers R2 r (f a r)) -> answers R3 bs (bind res (fun x => let '(a, r) := x in f a r)).
Proof. intros H1 H2 y r' E. apply bind_ok in E as [[a r] [E1 E2]]. apply (T _ r); [apply (H1 _ _ E1)|apply (H2 _ _ _ _ E2)]. Qed.

(* a bind of two readers consumes at least a byte if the first does and the second leaves a suffix, or the other way
   round (tried second); it leaves a suffix if both do *)
Create HintDb sfx discriminated.
#[export] Hint Resolve answers_ok answers_err answers_if : sfx.
#[export] Hint Extern 1 (answers ssfx _ (bind _ (fun x => let '(a, b) := x in _))) =>
  apply (answers_bind ssfx sfx ssfx ssfx_sfx_trans); [|intros ? ?] : sfx.
#[export] Hint Extern 2 (answers ssfx _ (bind _ (fun x => let '(a, b) := x in _))) =>
  apply (answers_bind sfx ssfx ssfx sfx_ssfx_trans); [|intros ? ?] : sfx.
#[export] Hint Extern 1 (answers sfx _ (bind _ (fun x => let '(a, b) := x in _))) =>
  apply (answers_bind sfx sfx sfx sfx_trans); [|intros ? ?] : sfx.
#[export] Hint Extern 3 (answers _ _ (bind _ _)) => apply answers_test; intros ? : sfx.
#[export] Hint Extern 3 (answers _ _ (match ?x with _ => _ end)) => destruct x : sfx.
(* a single reader that consumes leaves a suffix *)
#[export] Hint Extern 4 (answers sfx _ ?res) =>
  lazymatch res with bind _ _ => fail | (if _ then _ else _) => fail | _ => apply answers_weaken end : sfx.
#[export] Hint Extern 1 (psuffix ?p) => let bs := fresh "bs" in intro bs; change (answers ssfx bs (p bs)) : sfx.
(* a reader that is another reader under a name (rd_array, rd_uint, ...) *)
Ltac head_of t := lazymatch t with ?f _ => head_of f | _ => t end.
#[export] Hint Extern 6 (answers ssfx _ ?res) => let h := head_of res in progress unfold h : sfx.

Lemma with_orig_suffix {A} (p : parser A) bs : psuffix p -> answers ssfx bs (with_orig p bs).
Proof.
  intros Hp [v raw] r H. apply (with_orig_slice p Hp) in H as [-> [Hne _]]. exists raw. split; [reflexivity|exact Hne].
Qed.
#[export] Hint Resolve with_orig_suffix : sfx.

(* [p] does not run out of fuel on inputs shorter than n (readers that take their fuel from outside) *)
Definition ok_lt {A} (p : parser A) (n : nat) : Prop := forall b, (length b < n)%nat -> p b <> OutOfFuel.

Lemma noof_ok_lt {A} (p : parser A) n : (forall bs, p bs <> OutOfFuel) -> ok_lt p n.
Proof. intros H b _. apply H. Qed.
Lemma ok_lt_mono {A} (p : parser A) n m : (m <= n)%nat -> ok_lt p n -> ok_lt p m.
Proof. intros Hle H b Hb. apply H. lia. Qed.

(* A reader put together from binds, tests and case distinctions over readers that do not run out of fuel does
   not either: [auto with noof] walks through such a reader (the depth bounds the nesting of binds), using the
   fuel lemmas registered so far.  The loops, where the fuel is counted, have proofs of their own. *)
Lemma bind_noof {A B} (r : result A) (f : A -> result B) :
  r <> OutOfFuel -> (forall a, f a <> OutOfFuel) -> bind r f <> OutOfFuel.
Proof. intros H1 H2. apply bind_no_oof; [exact H1|]. intros a _. apply H2. Qed.
Lemma bind_pair_noof {A B C} (r : result (A * B)) (f : A -> B -> result C) :
  r <> OutOfFuel -> (forall a b, f a b <> OutOfFuel) -> bind r (fun x => let '(a, b) := x in f a b) <> OutOfFuel.
Proof. intros H1 H2. apply bind_noof; [exact H1|]. intros [a b]. apply H2. Qed.
Lemma if_noof {A} (c : bool) (a b : result A) : a <> OutOfFuel -> b <> OutOfFuel -> (if c then a else b) <> OutOfFuel.
Proof. destruct c; intros Ha Hb; assumption. Qed.
(* where fuel is counted against bytes, what follows a reader may use that the rest is no longer (is shorter) *)
Lemma bind_noof_sfx {A B} bs (res : result (A * bytes)) (f : A -> bytes -> result B) :
  res <> OutOfFuel -> answers sfx bs res -> (forall a r, (length r <= length bs)%nat -> f a r <> OutOfFuel) ->
  bind res (fun x => let '(a, r) := x in f a r) <> OutOfFuel.
Proof. intros H1 S H2. apply bind_no_oof; [exact H1|]. intros [a r] E. apply H2, sfx_length, (S _ _ E). Qed.
Lemma bind_noof_ssfx {A B} bs (res : result (A * bytes)) (f : A -> bytes -> result B) :
  res <> OutOfFuel -> answers ssfx bs res -> (forall a r, (length r < length bs)%nat -> f a r <> OutOfFuel) ->
  bind res (fun x => let '(a, r) := x in f a r) <> OutOfFuel.
Proof. intros H1 S H2. apply bind_no_oof; [exact H1|]. intros [a r] E. apply H2, ssfx_length, (S _ _ E). Qed.

Create HintDb noof discriminated.
#[export] Hint Extern 1 (bind _ (fun x => let '(a, b) := x in _) <> OutOfFuel) => apply bind_pair_noof; [|intros ? ?] : noof.
#[export] Hint Extern 2 (bind _ _ <> OutOfFuel) => apply bind_noof; [|intros ?] : noof.
#[export] Hint Extern 1 ((if _ then _ else _) <> OutOfFuel) => apply if_noof : noof.
#[export] Hint Extern 1 (Ok _ <> OutOfFuel) => discriminate : noof.
#[export] Hint Extern 1 (Err <> OutOfFuel) => discriminate : noof.
#[export] Hint Extern 3 (match ?x with _ => _ end <> OutOfFuel) => destruct x : noof.
#[export] Hint Extern 6 (?res <> OutOfFuel) => let h := head_of res in progress unfold h : noof.
#[export] Hint Resolve take_bytes_no_oof parse_one_no_oof : noof.

Lemma with_orig_noof {A} (p : parser A) bs : p bs <> OutOfFuel -> with_orig p bs <> OutOfFuel.
Proof. intros H. unfold with_orig. auto with noof. Qed.
#[export] Hint Resolve with_orig_noof : noof.

Lemma rd_head_ok m bs a r : rd_head m bs = Ok (a, r) -> decode_head bs = Some (m, a, r).
Proof.
  unfold rd_head. destruct (decode_head bs) as [[[m' a'] r']|]; [|discriminate].
  destruct (m' =? m) eqn:E; [|discriminate]. apply N.eqb_eq in E. subst m'.
  intros H; injection H as <- <-. reflexivity.
Qed.
Lemma rd_head_suffix m bs : answers ssfx bs (rd_head m bs).
Proof. intros a r H. apply rd_head_ok in H. apply decode_head_suffix in H. exact H. Qed.
#[export] Hint Resolve rd_head_suffix : sfx.
Lemma rd_head_noof m bs : rd_head m bs <> OutOfFuel.
Proof.
  unfold rd_head. destruct (decode_head bs) as [[[m' a] r]|]; [|discriminate].
  destruct (m' =? m); discriminate.
Qed.

Lemma rd_arg_ok m bs n r : rd_arg m bs = Ok (n, r) -> decode_head bs = Some (m, Arg n, r).
Proof.
  unfold rd_arg. intros H. apply bind_ok in H as [[a r'] [H1 H]]. destruct a; [|discriminate].
  injection H as <- <-. apply rd_head_ok, H1.
Qed.
Lemma rd_arg_suffix m bs : answers ssfx bs (rd_arg m bs).
Proof. intros n r H. apply rd_arg_ok in H. apply decode_head_suffix in H. exact H. Qed.
#[export] Hint Resolve rd_arg_suffix : sfx.
#[export] Hint Resolve rd_head_noof : noof.
Lemma rd_arg_noof m bs : rd_arg m bs <> OutOfFuel.
Proof. unfold rd_arg. auto with noof. Qed.
#[export] Hint Resolve rd_arg_noof : noof.

Lemma take_bytes_suffix n bs : answers sfx bs (take_bytes n bs).
Proof. intros x r H. apply take_bytes_ok in H as [-> _]. exists x. reflexivity. Qed.
#[export] Hint Resolve take_bytes_suffix : sfx.

Lemma rd_bytes_suffix bs : answers ssfx bs (rd_bytes bs).
Proof.
  assert (C : forall r, answers sfx r (parse_until_break (parse_chunk 2) (length r) r)).
  { intros r cs r' H. apply ssfx_sfx, (parse_until_break_suffix _ (parse_chunk_suffix 2) _ _ _ _ H). }
  unfold rd_bytes. auto with sfx.
Qed.
#[export] Hint Resolve rd_bytes_suffix : sfx.
Lemma rd_bytes_noof bs : rd_bytes bs <> OutOfFuel.
Proof.
  assert (C : forall r, parse_until_break (parse_chunk 2) (length r) r <> OutOfFuel).
  { intros r. apply (parse_until_break_no_oof _ (length r) (parse_chunk_suffix 2)); [intros; apply parse_chunk_no_oof|lia|lia]. }
  unfold rd_bytes. auto with noof.
Qed.
#[export] Hint Resolve rd_bytes_noof : noof.

(* the byte of a special that is a single byte *)
Definition special_byte (s : special) : N :=
  match s with SpBool false => 244 | SpBool true => 245 | SpNull => 246 | SpUndef => 247 | SpBreak => 255 | SpOther => 0 end.

(* rd_special takes the first byte and, for SpOther only, up to 8 more *)
Lemma rd_special_inv bs s r : rd_special bs = Ok (s, r) ->
  exists b t, bs = b :: t /\ sfx t r /\ (s <> SpOther -> b = special_byte s /\ r = t).
Proof.
  unfold rd_special. destruct bs as [|b t]; [discriminate|]. destruct (b / 32 =? 7) eqn:E7; [|discriminate].
  apply N.eqb_eq in E7. cbv zeta. intros H. exists b, t. split; [reflexivity|].
  assert (B : forall c, b mod 32 = c -> b = 224 + c) by (intros c <-; pose proof (N.div_mod b 32); lia).
  assert (K : forall k, match split_at k t with Some (_, r') => Ok (SpOther, r') | None => Err end = Ok (s, r) ->
              sfx t r /\ (s <> SpOther -> b = special_byte s /\ r = t)).
  { intros k. destruct (split_at k t) as [[p r']|] eqn:E; [|discriminate]. intros [= <- <-].
    apply split_at_ok in E as [-> _]. split; [exists p; reflexivity|congruence]. }
  (* the cascade on the additional-information bits *)
  repeat match type of H with (if ?c =? ?v then _ else _) = _ => destruct (N.eqb_spec c v) as [E|_] end;
    try (apply K in H; exact H); injection H as <- <-; (split; [apply sfx_refl|]);
    intros Hs; try congruence; rewrite (B _ E); split; reflexivity.
Qed.

Lemma rd_special_byte bs s r : rd_special bs = Ok (s, r) -> s <> SpOther -> bs = special_byte s :: r.
Proof. intros H Hs. apply rd_special_inv in H as (b & t & -> & _ & E). destruct (E Hs) as [-> ->]. reflexivity. Qed.

Lemma rd_special_noof bs : rd_special bs <> OutOfFuel.
Proof.
  unfold rd_special. destruct bs as [|b t]; [discriminate|]. cbv zeta. auto 12 with noof.
Qed.
#[export] Hint Resolve rd_special_noof : noof.

Lemma expect_break_inv bs r : expect_break bs = Ok r -> bs = 255 :: r.
Proof.
  unfold expect_break. intros H. apply bind_ok in H as [[s r'] [H1 H]].
  destruct s; cbn [is_break] in H; try discriminate. injection H as <-.
  apply rd_special_byte in H1; [exact H1|discriminate].
Qed.
Lemma expect_break_suffix bs r : expect_break bs = Ok r -> ssfx bs r.
Proof. intros H. apply expect_break_inv in H as ->. apply ssfx_cons. Qed.
Lemma expect_break_noof bs : expect_break bs <> OutOfFuel.
Proof. unfold expect_break. auto with noof. Qed.
#[export] Hint Resolve expect_break_noof : noof.

(* what closes a container: nothing (definite) or the break byte *)
Lemma close_len_shape ln bs r : close_len ln bs = Ok r -> exists cl, bs = cl ++ r /\ (cl = [] \/ cl = [255]).
Proof.
  destruct ln; cbn [close_len]; intros H.
  - injection H as <-. exists []. split; [reflexivity|left; reflexivity].
  - apply expect_break_inv in H. exists [255]. split; [exact H|right; reflexivity].
Qed.
Lemma close_len_suffix ln bs r : close_len ln bs = Ok r -> sfx bs r.
Proof. intros H. apply close_len_shape in H as (cl & -> & _). exists cl. reflexivity. Qed.

(* the two ways a reader ends with a closing step *)
Lemma expect_break_last {A} bs (v : bytes -> A) : answers ssfx bs (let* r := expect_break bs in Ok (v r, r)).
Proof. intros x r E. apply bind_ok in E as [r0 [E1 [= _ <-]]]. apply expect_break_suffix, E1. Qed.
Lemma close_len_last {A} ln bs (v : bytes -> A) : answers sfx bs (let* r := close_len ln bs in Ok (v r, r)).
Proof. intros x r E. apply bind_ok in E as [r0 [E1 [= _ <-]]]. apply (close_len_suffix _ _ _ E1). Qed.
#[export] Hint Resolve expect_break_last close_len_last : sfx.
#[export] Hint Extern 1 (answers sfx _ (bind (expect_break _) _)) => apply answers_weaken, expect_break_last : sfx.
Lemma close_len_noof ln bs : close_len ln bs <> OutOfFuel.
Proof. unfold close_len. auto with noof. Qed.

Lemma check_len_noof ln k : check_len ln k <> OutOfFuel.
Proof. unfold check_len. auto with noof. Qed.

Lemma cbor_type_noof bs : cbor_type bs <> OutOfFuel.
Proof. unfold cbor_type. auto with noof. Qed.
#[export] Hint Resolve close_len_noof check_len_noof cbor_type_noof : noof.

Lemma skip_set_tag_suffix bs : answers sfx bs (skip_set_tag bs).
Proof.
  unfold skip_set_tag. intros t r. destruct (rd_tag bs) as [[n r']| | |] eqn:E; [|intros [= <- <-]; apply sfx_refl..].
  destruct (n =? 258); [|discriminate]. intros [= <- <-]. apply ssfx_sfx, (rd_arg_suffix 6 _ _ _ E).
Qed.
#[export] Hint Resolve skip_set_tag_suffix : sfx.
Lemma skip_set_tag_noof bs : skip_set_tag bs <> OutOfFuel.
Proof. unfold skip_set_tag. destruct (rd_tag bs) as [[t r]| | |]; try discriminate. destruct (t =? 258); discriminate. Qed.
#[export] Hint Resolve skip_set_tag_noof : noof.

(* the element of a generic collection IS its bytes *)
Lemma raw_item_self bs x r : raw_item bs = Ok (x, r) -> bs = x ++ r /\ item_wf x = true.
Proof.
  intros H. split; [apply skip_item_exact in H as [E _]; exact E|]. eapply skip_item_wf, H.
Qed.
Lemma raw_item_suffix bs : answers ssfx bs (raw_item bs).
Proof. intros x r H. apply skip_item_exact in H as [-> Hne]. exists x. split; [reflexivity|exact Hne]. Qed.
#[export] Hint Resolve raw_item_suffix : sfx.
Lemma raw_item_noof bs : raw_item bs <> OutOfFuel.
Proof. unfold raw_item, skip_item. auto with noof. Qed.
#[export] Hint Resolve raw_item_noof : noof.

(* what holds of every successful run of the loop: of a run that reads no element (the count is reached, or
   the break is met) and of one that reads an element and goes on *)
Lemma dec_elems_ind {A} (p : parser A) (R : bytes -> list A -> bytes -> Prop) :
  (forall bs, R bs [] bs) ->
  (forall bs r, expect_break bs = Ok r -> R bs [] r) ->
  (forall bs x r xs r', p bs = Ok (x, r) -> R r xs r' -> R bs (x :: xs) r') ->
  forall fuel ln cnt bs xs r, dec_elems p fuel ln cnt bs = Ok (xs, r) -> R bs xs r.
Proof.
  intros Hnil Hbrk Hcons. induction fuel as [|f IH]; intros ln cnt bs xs r H; cbn [dec_elems] in H; [discriminate|].
  destruct (match ln with Arg n => cnt <? n | Indef => true end); [|injection H as <- <-; apply Hnil].
  apply bind_ok in H as [t [_ H]]. destruct (t =? 7).
  - apply bind_ok in H as [[s r1] [H1 H]]. destruct (is_break s) eqn:Eb; [|discriminate].
    destruct ln; [discriminate|]. injection H as <- <-.
    apply Hbrk. unfold expect_break. rewrite H1. cbn [bind]. rewrite Eb. reflexivity.
  - apply bind_ok in H as [[x r1] [H1 H]]. apply bind_ok in H as [[xs' r2] [H2 H]]. injection H as <- <-.
    apply (Hcons _ _ _ _ _ H1), (IH _ _ _ _ _ H2).
Qed.

Lemma dec_elems_suffix {A} (p : parser A) fuel ln cnt bs : psuffix p -> answers sfx bs (dec_elems p fuel ln cnt bs).
Proof.
  intros Hp. revert fuel ln cnt bs. unfold answers. apply (dec_elems_ind p (fun bs _ r => sfx bs r)).
  - apply sfx_refl.
  - intros bs r H. apply ssfx_sfx, expect_break_suffix, H.
  - intros bs x r xs r' H S. apply (sfx_trans _ r); [apply ssfx_sfx, (Hp _ _ _ H)|exact S].
Qed.
#[export] Hint Resolve dec_elems_suffix : sfx.

(* one unit of fuel per input byte is enough, also for an element reader that is only known not to run out of
   fuel on inputs no longer than this one *)
Lemma dec_elems_noof {A} (p : parser A) : psuffix p ->
  forall fuel ln cnt bs, (length bs < fuel)%nat -> ok_lt p (S (length bs)) -> dec_elems p fuel ln cnt bs <> OutOfFuel.
Proof.
  intros Hp. induction fuel as [|f IH]; intros ln cnt bs Hl Hn; [lia|]. cbn [dec_elems].
  destruct (match ln with Arg n => cnt <? n | Indef => true end); [|discriminate].
  apply bind_no_oof; [apply cbor_type_noof|]. intros t _. destruct (t =? 7).
  - apply bind_no_oof; [apply rd_special_noof|]. intros [s r] _.
    destruct (is_break s); [destruct ln; discriminate|discriminate].
  - apply (bind_noof_ssfx bs); [apply Hn; lia|exact (Hp bs)|]. intros x r Hlen.
    apply bind_noof; [|intros [xs r']; discriminate].
    apply IH; [lia|]. apply (ok_lt_mono p (S (length bs))); [lia|exact Hn].
Qed.

Lemma dec_elems_no_oof {A} (p : parser A) : psuffix p -> (forall bs, p bs <> OutOfFuel) ->
  forall fuel ln cnt bs, (length bs < fuel)%nat -> dec_elems p fuel ln cnt bs <> OutOfFuel.
Proof. intros Hp Hn fuel ln cnt bs Hl. apply (dec_elems_noof p Hp); [exact Hl|apply noof_ok_lt; exact Hn]. Qed.
#[export] Hint Resolve dec_elems_no_oof : noof.
#[export] Hint Extern 1 (_ < _)%nat => lia : noof.
#[export] Hint Extern 1 (_ <= _)%nat => lia : noof.

Lemma dec_set_suffix {A} (p : parser A) dbl bs : psuffix p -> answers ssfx bs (dec_set p dbl bs).
Proof. intros Hp. unfold dec_set. auto 12 with sfx. Qed.
#[export] Hint Resolve dec_set_suffix : sfx.

Lemma dec_set_noof {A} (p : parser A) dbl bs : psuffix p -> ok_lt p (length bs) -> dec_set p dbl bs <> OutOfFuel.
Proof.
  intros Hp Hn. unfold dec_set.
  apply (bind_noof_sfx bs); [auto with noof|auto with sfx|]. intros t r0 L0.
  apply (bind_noof_sfx r0); [auto with noof|auto with sfx|]. intros t' r0' L0'.
  apply (bind_noof_ssfx r0'); [auto with noof|auto with sfx|]. intros ln r1 L1.
  apply bind_noof; [|intros [xs r2]; discriminate].
  apply (dec_elems_noof p Hp); [lia|]. apply (ok_lt_mono p (length bs)); [lia|exact Hn].
Qed.
#[export] Hint Resolve dec_set_noof noof_ok_lt : noof.

Lemma rd_bchunks_suffix : forall fuel bs, answers ssfx bs (rd_bchunks fuel bs).
Proof.
  induction fuel as [|f IH]; intros bs cs r H; destruct bs as [|b t]; cbn [rd_bchunks] in H; try discriminate.
  - destruct (b / 32 =? 7); [|discriminate]. apply bind_ok in H as [r' [H1 H]]. injection H as <- <-.
    apply expect_break_suffix, H1.
  - destruct (b / 32 =? 7).
    + apply bind_ok in H as [r' [H1 H]]. injection H as <- <-. apply expect_break_suffix, H1.
    + destruct (decode_head (b :: t)) as [[[m [n|]] r0]|] eqn:Hd; try discriminate.
      destruct (m =? 2); [|discriminate]. destruct (64 <? n); [discriminate|].
      apply bind_ok in H as [[c r1] [H1 H]]. apply bind_ok in H as [[cs' r2] [H2 H]]. injection H as <- <-.
      apply decode_head_suffix in Hd. apply take_bytes_ok in H1 as [-> _]. apply IH in H2.
      eapply ssfx_trans; [exact Hd|]. eapply sfx_ssfx_trans; [exists c; reflexivity|exact H2].
Qed.
Lemma rd_bchunks_noof : forall fuel bs, (length bs <= fuel)%nat -> rd_bchunks fuel bs <> OutOfFuel.
Proof.
  induction fuel as [|f IH]; intros [|b t] Hl; cbn [rd_bchunks]; try discriminate.
  - cbn [length] in Hl. lia.
  - destruct (b / 32 =? 7).
    + apply bind_no_oof; [apply expect_break_noof|]. intros r _. discriminate.
    + destruct (decode_head (b :: t)) as [[[m [n|]] r0]|] eqn:Hd; try discriminate.
      destruct (m =? 2); [|discriminate]. destruct (64 <? n); [discriminate|].
      apply bind_no_oof; [apply take_bytes_no_oof|]. intros [c r1] E1.
      apply take_bytes_ok in E1 as [E1 _]. apply decode_head_shorter in Hd.
      apply bind_no_oof; [|intros [cs r2] _; discriminate].
      apply IH. subst r0. rewrite app_length in Hd. cbn [length] in Hl, Hd. lia.
Qed.

Lemma rd_bounded_bytes_suffix bs : answers ssfx bs (rd_bounded_bytes bs).
Proof. pose proof rd_bchunks_suffix as C. unfold rd_bounded_bytes. auto 8 with sfx. Qed.
#[export] Hint Resolve rd_bounded_bytes_suffix : sfx.
Lemma rd_bounded_bytes_noof bs : rd_bounded_bytes bs <> OutOfFuel.
Proof. pose proof rd_bchunks_noof. unfold rd_bounded_bytes. auto 8 with noof. Qed.
#[export] Hint Resolve rd_bounded_bytes_noof : noof.

Lemma orelse_suffix {A} bs (r : result (A * bytes)) k : answers ssfx bs r -> answers ssfx bs (k tt) -> answers ssfx bs (orelse r k).
Proof. destruct r; cbn [orelse]; intros H1 H2; assumption. Qed.
#[export] Hint Extern 1 (answers ssfx _ (orelse _ _)) => apply orelse_suffix; cbv beta : sfx.
Lemma orelse_noof {A} (r : result A) k : r <> OutOfFuel -> k tt <> OutOfFuel -> orelse r k <> OutOfFuel.
Proof. destruct r; cbn [orelse]; intros H1 H2; congruence. Qed.
