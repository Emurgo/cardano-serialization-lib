(* C20 <-> C05 — the two models of the TransactionBuilder totals cannot drift apart.
   Deposits.v (C20) models get_total_input / get_total_output over lovelace only (type [txb]);
   Builder/Totals.v (C05) models them over multi-asset values with mint and burn (type [state]).
   This file maps a C05 state to the C20 builder ([txb_of_state]: every value restricted to its
   lovelace) and proves
     * deposit and implicit input: the C05 functions ARE the C20 functions (all states);
     * totals, ADA-only states (no multi-asset, no mint): the C05 totals ARE the C20 totals;
     * totals, every well-formed state (multi-asset, mint, burn): whenever the C05 total is a value,
       its lovelace is the C20 total (hence a C20 overflow is never a C05 value). *)
From CSL Require Import Base.Prelude Base.U64 Num.Value Num.ValueProofs Deposits.Deposits Deposits.DepositsProofs
  Builder.Totals Builder.TotalsProofs.
Local Open Scope N_scope.

Definition txb_of_state (s : state) : txb :=
  mk_txb (map (fun e : N * value => coin (snd e)) (s_inputs s))
         (map (fun o => coin (o_amount o)) (s_outputs s))
         (s_certs s)
         (option_map (map snd) (s_withdrawals s))
         (s_proposals s)
         (s_donation s)
         (c_pool_deposit (s_cfg s)) (c_key_deposit (s_cfg s)).

(* a lovelace figure as a Value *)
Definition lift (r : result N) : result value := let* n := r in Ok (value_new n).

Lemma vadd_new a b : value_checked_add (value_new a) (value_new b) = lift (checked_add a b).
Proof.
  unfold value_checked_add, lift, u64_add, checked_add. cbn [coin value_new multiasset_of].
  destruct (a + b <? two64); reflexivity.
Qed.

(* deposit and implicit input: identical on every state *)
Theorem bridge_deposit s : Totals.get_deposit s = tb_get_deposit (txb_of_state s).
Proof. reflexivity. Qed.

(* [lift] commutes with sequencing, so a computation over lovelace and its copy over values can be walked in step *)
Lemma lift_bind {A} (r : result A) (f : A -> result N) : lift (let* x := r in f x) = (let* x := r in lift (f x)).
Proof. destruct r; reflexivity. Qed.

Lemma lift_step (r : result N) (K : value -> result value) (k : N -> result N) :
  (forall n, K (value_new n) = lift (k n)) -> (let* v := lift r in K v) = lift (let* n := r in k n).
Proof. intros H. destruct r; cbn [lift bind]; auto. Qed.

(* adding an optional lovelace total onto a lovelace figure, over values and over numbers *)
Lemma opt_vadd_new {X} (o : option X) (f : X -> result N) a :
  match o with Some x => let* r := f x in value_checked_add (value_new a) (value_new r) | None => Ok (value_new a) end
  = lift match o with Some x => let* r := f x in checked_add a r | None => Ok a end.
Proof. destruct o; [| reflexivity]. rewrite lift_bind. apply bind_ext. intros r. apply vadd_new. Qed.

Theorem bridge_implicit_input s : Totals.get_implicit_input s = lift (tb_get_implicit_input (txb_of_state s)).
Proof.
  unfold Totals.get_implicit_input, tb_get_implicit_input, txb_of_state.
  cbn [t_withdrawals t_certs t_pool_deposit t_key_deposit]. change value_zero with (value_new 0).
  rewrite (opt_vadd_new (s_withdrawals s) (fun w => get_total_withdrawals (map snd w)) 0).
  destruct (s_withdrawals s); cbn [option_map]; apply lift_step; intros a; apply opt_vadd_new.
Qed.

(* ADA-only states: the totals are identical *)
Definition no_assets (v : value) : bool := match multiasset_of v with None => true | Some _ => false end.
Definition ada_only (s : state) : bool :=
  forallb (fun e : N * value => no_assets (snd e)) (s_inputs s)
  && forallb (fun o => no_assets (o_amount o)) (s_outputs s)
  && match s_mint s with None => true | Some _ => false end.

Lemma no_assets_new v : no_assets v = true -> v = value_new (coin v).
Proof. destruct v as [c [m |]]; unfold no_assets; cbn; [discriminate | reflexivity]. Qed.

Lemma value_sum_new l : forall acc, value_sum (value_new acc) (map value_new l) = lift (try_fold checked_add acc l).
Proof.
  induction l as [| x r IH]; intros acc; cbn [map value_sum try_fold]; [reflexivity |].
  rewrite vadd_new. apply lift_step, IH.
Qed.

Lemma map_new_coin {A} (f : A -> value) l :
  forallb (fun x => no_assets (f x)) l = true -> map f l = map value_new (map (fun x => coin (f x)) l).
Proof.
  induction l as [| x r IH]; cbn [forallb map]; [reflexivity |]. intros H. apply andb_true_iff in H. destruct H as [H1 H2].
  rewrite <- (no_assets_new _ H1), <- (IH H2). reflexivity.
Qed.

Theorem bridge_total_input_ada s : ada_only s = true ->
  Totals.get_total_input s = lift (tb_get_total_input (txb_of_state s)).
Proof.
  unfold ada_only. intros [[Hi _]%andb_true_iff Hm]%andb_true_iff.
  unfold Totals.get_total_input, tb_get_total_input. rewrite bridge_implicit_input.
  unfold Totals.get_explicit_input, tb_get_explicit_input, get_mint_as_values.
  destruct (s_mint s); [discriminate |]. cbn [fst].
  rewrite <- (map_map snd (fun v => v)), map_id, (map_new_coin snd _ Hi).
  change value_zero with (value_new 0). rewrite value_sum_new.
  change (t_inputs (txb_of_state s)) with (map (fun e : N * value => coin (snd e)) (s_inputs s)).
  apply lift_step. intros e. apply lift_step. intros i. rewrite vadd_new. apply lift_step. intros x. apply vadd_new.
Qed.

Theorem bridge_total_output_ada s : ada_only s = true ->
  Totals.get_total_output s = lift (tb_get_total_output (txb_of_state s)).
Proof.
  unfold ada_only. intros [[_ Ho]%andb_true_iff Hm]%andb_true_iff.
  unfold Totals.get_total_output, tb_get_total_output. rewrite bridge_deposit.
  unfold Totals.get_explicit_output, tb_get_explicit_output, get_mint_as_values.
  destruct (s_mint s); [discriminate |]. cbn [snd].
  rewrite (map_new_coin o_amount _ Ho), value_sum_new.
  change (t_outputs (txb_of_state s)) with (map (fun o => coin (o_amount o)) (s_outputs s)).
  change (t_donation (txb_of_state s)) with (s_donation s).
  change value_zero with (value_new 0).
  apply lift_step. intros e. rewrite lift_bind. apply bind_ext. intros d.
  rewrite vadd_new. apply lift_step. intros x. rewrite vadd_new. apply lift_step. intros y.
  destruct (s_donation s); [apply vadd_new | reflexivity].
Qed.

(* every well-formed state (multi-asset values, mint, burn): lovelace of the C05 total *)
Lemma opt_list_map_snd (w : option (list (N * N))) : opt_list (option_map (map snd) w) = map snd (opt_list w).
Proof. destruct w; reflexivity. Qed.

Lemma c20_total_input_is_consumed_coin s :
  tb_get_total_input (txb_of_state s) = exact_or_error (consumed_coin s).
Proof.
  rewrite tb_total_input_exact. f_equal. unfold consumed_coin, spec_implicit_input, txb_body, txb_of_state, sum_coin.
  cbn [t_inputs t_certs t_withdrawals t_proposals t_key_deposit Deposits.b_certs Deposits.b_withdrawals].
  rewrite opt_list_map_snd, map_map. lia.
Qed.

Lemma c20_total_output_is_produced_coin s :
  tb_get_total_output (txb_of_state s) = exact_or_error (produced_coin_no_fee s).
Proof.
  rewrite tb_total_output_exact. f_equal. unfold produced_coin_no_fee, spec_deposit, txb_body, txb_of_state, sum_coin, opt_n.
  cbn [t_outputs t_certs t_withdrawals t_proposals t_key_deposit t_pool_deposit t_donation Deposits.b_certs Deposits.b_proposals].
  rewrite map_map. destruct (s_donation s); lia.
Qed.

Theorem bridge_total_input s ti : state_wf s -> Totals.get_total_input s = Ok ti ->
  tb_get_total_input (txb_of_state s) = Ok (coin ti).
Proof.
  intros W H. destruct (total_input_spec s ti W H) as [Wt [C _]].
  rewrite c20_total_input_is_consumed_coin, <- C. apply exact_or_error_ok. apply value_wf_coin, Wt.
Qed.

Theorem bridge_total_output s to : state_wf s -> Totals.get_total_output s = Ok to ->
  tb_get_total_output (txb_of_state s) = Ok (coin to).
Proof.
  intros W H. destruct (total_output_spec s to W H) as [Wt [C _]].
  rewrite c20_total_output_is_produced_coin, <- C. apply exact_or_error_ok. apply value_wf_coin, Wt.
Qed.

(* non-vacuity: a multi-asset state with a mint whose C05 totals are values *)
Definition ex_state : state :=
  mkState (mkConfig 500000000 2000000 false false)
          [(1, mkValue 10000000 (Some [([1], [([97], 5)])])); (2, value_new 3000000)]
          [mkOutput 1 (mkValue 2000000 (Some [([1], [([97], 12)])])) 0]
          FeeUnspecified None
          (Some [StakeDeregistration None; DRepRegistration 500000000]) (Some [(7, 1000); (8, 2000)])
          (Some [([1], [([97], 7%Z)])]) (Some [100000]) (Some 5) None.

Example bridge_premises_satisfiable :
  state_wf ex_state /\ ada_only ex_state = false /\
  (exists ti, Totals.get_total_input ex_state = Ok ti /\ coin ti = 15003000) /\
  (exists to, Totals.get_total_output ex_state = Ok to /\ coin to = 502100005) /\
  tb_get_total_input (txb_of_state ex_state) = Ok 15003000 /\
  tb_get_total_output (txb_of_state ex_state) = Ok 502100005.
Proof.
  split; [reflexivity |]. split; [reflexivity |].
  split; [eexists; split; [vm_compute; reflexivity | reflexivity] |].
  split; [eexists; split; [vm_compute; reflexivity | reflexivity] |].
  split; reflexivity.
Qed.
