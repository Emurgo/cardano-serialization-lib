(* C20 — the per-certificate table of Deposits.v (what helpers and builder compute) equals the
   ledger's stateful accounting (LedgerState.v) under explicit premises. *)
From CSL Require Import Base.Prelude Base.U64 Deposits.Deposits Deposits.DepositsProofs Deposits.Ident Deposits.LedgerState.
Local Open Scope N_scope.

Lemma cred_eqb_eq a b : cred_eqb a b = true <-> a = b.
Proof.
  destruct a as [s1 a1], b as [s2 a2]. unfold cred_eqb. cbn [fst snd].
  rewrite andb_true_iff, N.eqb_eq, Bool.eqb_true_iff. split; [intros [-> ->] | intros H; inversion H]; tauto.
Qed.

Lemma cred_eqb_refl a : cred_eqb a a = true.
Proof. apply cred_eqb_eq. reflexivity. Qed.

Lemma cred_eqb_sym a b : cred_eqb a b = cred_eqb b a.
Proof.
  destruct (cred_eqb a b) eqn:E1, (cred_eqb b a) eqn:E2; try reflexivity.
  - apply cred_eqb_eq in E1. subst. rewrite cred_eqb_refl in E2. discriminate.
  - apply cred_eqb_eq in E2. subst. rewrite cred_eqb_refl in E1. discriminate.
Qed.

Lemma cmem_cremove c' c R : cmem c' (cremove c R) = if cred_eqb c' c then false else cmem c' R.
Proof.
  unfold cmem, cremove. induction R as [| a R IH]; cbn [filter existsb]; [destruct (cred_eqb c' c); reflexivity |].
  destruct (cred_eqb c a) eqn:E; cbn [negb existsb].
  - apply cred_eqb_eq in E. subst a. rewrite IH. destruct (cred_eqb c' c); reflexivity.
  - rewrite IH. destruct (cred_eqb c' c) eqn:E2; [| reflexivity].
    apply cred_eqb_eq in E2. subst c'. rewrite E. reflexivity.
Qed.

Lemma alookup_cons c' c d M : alookup c' ((c, d) :: M) = if cred_eqb c' c then Some d else alookup c' M.
Proof. unfold alookup. cbn [find fst snd]. destruct (cred_eqb c' c); reflexivity. Qed.

Lemma alookup_aremove c' c M : alookup c' (aremove c M) = if cred_eqb c' c then None else alookup c' M.
Proof.
  unfold alookup, aremove. induction M as [| [a d] M IH]; cbn [filter find fst snd]; [destruct (cred_eqb c' c); reflexivity |].
  destruct (cred_eqb c a) eqn:E; cbn [negb find fst snd].
  - apply cred_eqb_eq in E. subst a. rewrite IH. destruct (cred_eqb c' c); reflexivity.
  - destruct (cred_eqb c' a) eqn:E3.
    + apply cred_eqb_eq in E3. subst a. rewrite (cred_eqb_sym c' c), E. reflexivity.
    + exact IH.
Qed.

Lemma upd_same {V} (f : credential -> V) c v : upd f c v c = v.
Proof. unfold upd. rewrite cred_eqb_refl. reflexivity. Qed.

Lemma upd_other {V} (f : credential -> V) c v c' : cred_eqb c' c = false -> upd f c v c' = f c'.
Proof. unfold upd. intros ->. reflexivity. Qed.

Section Agreement.
  Variable pp : pparams.
  Variable ls : lstate.
  Let key := pp_key_deposit pp.
  Let pool := pp_pool_deposit pp.

  (* what the ledger's counting charges for one certificate *)
  Definition declared_deposit (x : icert) : N :=
    (if is_reg_stake x then key else 0) + (if is_reg_pool x then pool else 0)
    + (if is_reg_drep x then pp_drep_deposit pp else 0).

  (* a certificate that passes the deposit checks declares the parameter: the table charges what the ledger counts *)
  Lemma certs_valid_cons_deposit stake drep x r : certs_valid pp stake drep (x :: r) = true ->
    ledger_deposit pool key (ic_cert x) = declared_deposit x /\
    exists stake' drep', certs_valid pp stake' drep' r = true.
  Proof.
    intros V. destruct x as [c s i]. cbn [certs_valid ic_cert] in V. unfold declared_deposit.
    destruct c as [[d|]|[d|]| | | | | | | | d | d | | | d | d | | d];
      cbn [is_reg_stake is_reg_pool is_reg_drep ic_cert cddl_tag ledger_deposit cert_coin].
    (* kinds without a deposit check: the tail is valid in the same state *)
    all: try (split; [lia | now exists stake, drep]).
    (* registrations: the declared amount is compared with the parameter *)
    all: try (apply andb_true_iff in V as [D V]; try apply andb_true_iff in D as [_ ->%N.eqb_eq]; split; [lia | eauto]).
    (* deregistrations: the tail is valid once the credential is forgotten *)
    - destruct (stake _); [apply andb_true_iff in V as [_ V]; eauto | discriminate].
    - destruct (stake _); [eauto | discriminate].
    - destruct (drep _); [apply andb_true_iff in V as [_ V]; eauto | discriminate].
  Qed.

  Lemma deposits_gen cs : forall stake drep seen,
    certs_valid pp stake drep cs = true ->
    pools_fresh (ls_pool ls) seen cs = true ->
    count is_reg_stake cs * key + num_new_reg_pool_certs (ls_pool ls) seen cs * pool
      + count is_reg_drep cs * pp_drep_deposit pp
    = spec_cert_deposits pool key (map ic_cert cs).
  Proof.
    unfold spec_cert_deposits.
    induction cs as [| x r IH]; intros stake drep seen V F; [reflexivity |].
    destruct (certs_valid_cons_deposit _ _ _ _ V) as (E & stake' & drep' & V').
    cbn [map sumN fold_right count num_new_reg_pool_certs]. fold (sumN (map (ledger_deposit pool key) (map ic_cert r))).
    rewrite E. unfold declared_deposit. cbn [pools_fresh] in F.
    destruct (is_reg_pool x); cbn [andb].
    - apply andb_true_iff in F. destruct F as [New F]. rewrite New, <- (IH _ _ _ V' F).
      destruct (is_reg_stake x), (is_reg_drep x); lia.
    - rewrite <- (IH _ _ _ V' F). destruct (is_reg_stake x), (is_reg_drep x); lia.
  Qed.

  (* the deposit the refund folds find for a credential: the parameter when the transaction registered it earlier,
     otherwise what the state recorded *)
  Definition sview (R : list credential) (c : credential) : option N :=
    if cmem c R then Some key else ls_stake ls c.
  Definition dview (M : list (credential * N)) (c : credential) : option N :=
    match alookup c M with Some d => Some d | None => ls_drep ls c end.

  (* every registration the checks know of is found by the folds, with the same deposit *)
  Definition stake_inv (stake : credential -> option N) (R : list credential) : Prop :=
    forall c d, stake c = Some d -> sview R c = Some d.
  Definition drep_inv (drep : credential -> option N) (M : list (credential * N)) : Prop :=
    forall c d, drep c = Some d -> dview M c = Some d.

  Lemma stake_inv_reg stake R c : stake_inv stake R -> stake_inv (upd stake c (Some key)) (c :: R).
  Proof.
    intros I c' d H. unfold upd in H. unfold sview. cbn [cmem existsb].
    destruct (cred_eqb c' c); [exact H | apply I, H].
  Qed.

  (* a deregistration: the folds forget a registration of this transaction, the checks forget the credential *)
  Lemma stake_inv_unreg stake R c : stake_inv stake R ->
    stake_inv (upd stake c None) (if cmem c R then cremove c R else R).
  Proof.
    intros I c' d H. unfold upd in H. destruct (cred_eqb c' c) eqn:E; [discriminate |]. specialize (I _ _ H).
    destruct (cmem c R); [| exact I]. unfold sview in *. rewrite cmem_cremove, E. exact I.
  Qed.

  Lemma drep_inv_reg drep M c d : drep_inv drep M -> drep_inv (upd drep c (Some d)) ((c, d) :: M).
  Proof.
    intros I c' d' H. unfold upd in H. unfold dview. rewrite alookup_cons.
    destruct (cred_eqb c' c); [exact H | apply I, H].
  Qed.

  Lemma drep_inv_unreg drep M c : drep_inv drep M ->
    drep_inv (upd drep c None) (match alookup c M with Some _ => aremove c M | None => M end).
  Proof.
    intros I c' d H. unfold upd in H. destruct (cred_eqb c' c) eqn:E; [discriminate |]. specialize (I _ _ H).
    destruct (alookup c M); [| exact I]. unfold dview in *. rewrite alookup_aremove, E. exact I.
  Qed.

  (* a deregistration pays back the deposit the checks recorded for the credential *)
  Lemma stake_refunds_unreg stake R x r d :
    is_reg_stake x = false -> is_unreg_stake x = true -> stake_inv stake R -> stake (cred_of x) = Some d ->
    stake_refunds key (ls_stake ls) R (x :: r)
    = d + stake_refunds key (ls_stake ls) (if cmem (cred_of x) R then cremove (cred_of x) R else R) r.
  Proof.
    intros E1 E2 IS Es. cbn [stake_refunds]. rewrite E1, E2. specialize (IS _ _ Es). unfold sview in IS.
    destruct (cmem (cred_of x) R); [injection IS as <- | rewrite IS]; reflexivity.
  Qed.

  Lemma drep_refunds_unreg drep M x r y d :
    ic_cert x = DRepDeregistration y -> drep_inv drep M -> drep (cred_of x) = Some d ->
    drep_refunds (ls_drep ls) M (x :: r)
    = d + drep_refunds (ls_drep ls) (match alookup (cred_of x) M with Some _ => aremove (cred_of x) M | None => M end) r.
  Proof.
    intros E ID Ed. cbn [drep_refunds]. rewrite E. specialize (ID _ _ Ed). unfold dview in ID.
    destruct (alookup (cred_of x) M); [injection ID as -> | rewrite ID]; reflexivity.
  Qed.

  (* one certificate that passes the checks: the folds pay the table's refund for it, and what they remember
     afterwards still covers what the checks remember *)
  Lemma certs_valid_cons_refund stake drep R M x r :
    certs_valid pp stake drep (x :: r) = true -> stake_inv stake R -> drep_inv drep M ->
    (cddl_tag (ic_cert x) = 1 -> forall d, ls_stake ls (cred_of x) = Some d -> d = key) ->
    exists stake' drep' R' M',
      certs_valid pp stake' drep' r = true /\ stake_inv stake' R' /\ drep_inv drep' M' /\
      stake_refunds key (ls_stake ls) R (x :: r) + drep_refunds (ls_drep ls) M (x :: r)
      = ledger_refund key (ic_cert x) + (stake_refunds key (ls_stake ls) R' r + drep_refunds (ls_drep ls) M' r).
  Proof.
    intros V IS ID L1. destruct x as [c s i]. cbn [certs_valid ic_cert] in V.
    set (cr := cred_of (mk_icert c s i)) in *.
    destruct c as [[d|]|[d|]| | | | | | | | d | d | | | d | d | | d].
    (* neutral kinds: nothing refunded, nothing registered *)
    all: try (now exists stake, drep, R, M).
    (* stake registrations (a declared deposit is key_deposit): nothing refunded, the credential is remembered *)
    all: try (apply andb_true_iff in V as [D V]; try apply andb_true_iff in D as [_ ->%N.eqb_eq];
              now exists (upd stake cr (Some key)), drep, (cr :: R), M; auto using stake_inv_reg).
    - (* unreg_cert: the explicit refund is the recorded deposit *)
      destruct (stake cr) as [d0 |] eqn:Es; [| discriminate].
      apply andb_true_iff in V as [->%N.eqb_eq V].
      eexists _, _, _, _. split; [exact V |]. split; [apply stake_inv_unreg, IS |]. split; [exact ID |].
      rewrite (stake_refunds_unreg stake R _ r d0) by (reflexivity || assumption). symmetry. apply N.add_assoc.
    - (* legacy deregistration: that deposit is key_deposit, by the check of this transaction or by the premise *)
      destruct (stake cr) as [d0 |] eqn:Es; [| discriminate].
      assert (d0 = key) as ->.
      { generalize (IS _ _ Es). unfold sview. destruct (cmem cr R); [intros [= <-]; reflexivity | apply L1; reflexivity]. }
      eexists _, _, _, _. split; [exact V |]. split; [apply stake_inv_unreg, IS |]. split; [exact ID |].
      rewrite (stake_refunds_unreg stake R _ r key) by (reflexivity || assumption). symmetry. apply N.add_assoc.
    - (* DRep deregistration *)
      destruct (drep cr) as [d0 |] eqn:Ed; [| discriminate].
      apply andb_true_iff in V as [->%N.eqb_eq V].
      eexists _, _, _, _. split; [exact V |]. split; [exact IS |]. split; [apply drep_inv_unreg, ID |].
      rewrite (drep_refunds_unreg drep M _ r d0 d0) by (reflexivity || assumption).
      cbn [stake_refunds is_reg_stake is_unreg_stake ic_cert cddl_tag ledger_refund cert_coin]. fold cr. lia.
    - (* DRep registration *)
      rewrite !andb_true_iff in V. destruct V as [_ V].
      now exists stake, (upd drep cr (Some d)), R, ((cr, d) :: M); auto using drep_inv_reg.
  Qed.

  Lemma refunds_gen cs : forall stake drep R M,
    certs_valid pp stake drep cs = true ->
    stake_inv stake R -> drep_inv drep M ->
    legacy_at_key_deposit pp ls cs ->
    stake_refunds key (ls_stake ls) R cs + drep_refunds (ls_drep ls) M cs
    = spec_cert_refunds key (map ic_cert cs).
  Proof.
    unfold spec_cert_refunds.
    induction cs as [| x r IH]; intros stake drep R M V IS ID L; [reflexivity |].
    destruct (certs_valid_cons_refund _ _ _ _ _ _ V IS ID (L x (or_introl eq_refl)))
      as (stake' & drep' & R' & M' & V' & IS' & ID' & E).
    rewrite E, (IH _ _ _ _ V' IS' ID' (fun y I => L y (or_intror I))). reflexivity.
  Qed.

End Agreement.

(* the states and certificate sequences of the closed examples of Props/C20.v *)
Definition ex_pp : pparams := mk_pp 2000000 500000000 500000000.
Definition ex_ls_empty : lstate := mk_ls (fun _ => None) (fun _ => None) (fun _ => false).
Definition reg_pool (op var : N) : icert := mk_icert PoolRegistration false (mk_ident 0 op var).

(* the premises are satisfiable on a sequence that exercises every stateful branch: register and
   deregister the same credential in one transaction (kinds 0 / 8 and 11 / 1), deregister credentials of
   the state (kinds 1, 8), DRep register / update / deregister, deregister a DRep of the state, two pools *)
Definition ex_ls : lstate :=
  mk_ls (fun c => if cred_eqb c (false, 1) then Some 2000000 else if cred_eqb c (true, 2) then Some 2000000 else None)
        (fun c => if cred_eqb c (false, 9) then Some 400000000 else None)
        (fun op => op =? 99).
Definition ex_certs : list icert :=
  [ mk_icert (StakeRegistration None) false (mk_ident 3 0 0);
    mk_icert (StakeDeregistration (Some 2000000)) false (mk_ident 3 0 0);
    mk_icert (StakeRegistrationAndDelegation 2000000) false (mk_ident 4 7 0);
    mk_icert (StakeDeregistration None) false (mk_ident 4 0 0);
    mk_icert (StakeDeregistration None) false (mk_ident 1 0 0);
    mk_icert (StakeDeregistration (Some 2000000)) true (mk_ident 2 0 0);
    mk_icert (StakeRegistration (Some 2000000)) true (mk_ident 2 0 0);
    mk_icert (DRepRegistration 500000000) false (mk_ident 8 0 4);
    mk_icert DRepUpdate false (mk_ident 8 0 6);
    mk_icert (DRepDeregistration 500000000) false (mk_ident 8 0 0);
    mk_icert (DRepDeregistration 400000000) false (mk_ident 9 0 0);
    reg_pool 7 1; reg_pool 8 1;
    mk_icert PoolRetirement false (mk_ident 0 99 3);
    mk_icert (VoteRegistrationAndDelegation 2000000) false (mk_ident 5 0 2);
    mk_icert (StakeVoteRegistrationAndDelegation 2000000) true (mk_ident 6 7 3) ].
