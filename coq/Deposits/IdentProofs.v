(* C20 — proofs about the identified items and their collections (Ident.v). *)
From CSL Require Import Base.Prelude Base.Facts Base.U64 Deposits.Deposits Deposits.DepositsProofs Deposits.Ident.
From Coq Require Import Permutation.
Local Open Scope N_scope.

Lemma optN_eqb_eq a b : optN_eqb a b = true <-> a = b.
Proof.
  destruct a as [x |], b as [y |]; cbn [optN_eqb]; try (split; [discriminate | intros H; inversion H]); [| tauto].
  rewrite N.eqb_eq. split; [intros -> | intros H; inversion H]; reflexivity.
Qed.

Lemma ckey_eqb_eq a b : ckey_eqb a b = true <-> a = b.
Proof.
  destruct a as [t1 c1 s1 r1 p1 v1], b as [t2 c2 s2 r2 p2 v2]. unfold ckey_eqb.
  cbn [ck_tag ck_coin ck_script ck_cred ck_pool ck_var].
  rewrite !andb_true_iff, !N.eqb_eq, optN_eqb_eq, Bool.eqb_true_iff. split.
  - intros [[[[[-> ->] ->] ->] ->] ->]. reflexivity.
  - intros H. inversion H. tauto.
Qed.

Lemma wkey_eqb_eq a b : wkey_eqb a b = true <-> a = b.
Proof.
  destruct a as [[s1 a1] n1], b as [[s2 a2] n2]. unfold wkey_eqb. cbn [fst snd].
  rewrite !andb_true_iff, !N.eqb_eq, Bool.eqb_true_iff. split; [intros [[-> ->] ->] | intros H; inversion H]; tauto.
Qed.

Lemma pkey_eqb_eq a b : pkey_eqb a b = true <-> a = b.
Proof.
  destruct a as [[a1 r1] d1], b as [[a2 r2] d2]. unfold pkey_eqb. cbn [fst snd].
  rewrite !andb_true_iff, !N.eqb_eq. split; [intros [[-> ->] ->] | intros H; inversion H]; tauto.
Qed.

Section CollectionProofs.
  Context {A K : Type} (key : A -> K) (keqb : K -> K -> bool).
  Hypothesis keqb_eq : forall a b, keqb a b = true <-> a = b.

  Lemma key_mem_iff x st : key_mem key keqb x st = true <-> In (key x) (map key st).
  Proof.
    unfold key_mem. rewrite existsb_exists, in_map_iff. split.
    - intros [y [I E]]. exists y. apply keqb_eq in E. auto.
    - intros [y [E I]]. exists y. split; [exact I |]. apply keqb_eq. auto.
  Qed.

  Lemma key_mem_false x st : key_mem key keqb x st = false <-> ~ In (key x) (map key st).
  Proof. rewrite <- key_mem_iff. destruct (key_mem key keqb x st); split; intros; try discriminate; tauto. Qed.

  Lemma nodup_snoc (l : list K) k : NoDup l -> ~ In k l -> NoDup (l ++ [k]).
  Proof. intros H N. apply (Permutation_NoDup (Permutation_cons_append l k)). constructor; assumption. Qed.

  (* a step that adds at most its item: the fold invents nothing *)
  Lemma fold_incl (step : list A -> A -> list A) :
    (forall st x y, In y (step st x) -> In y st \/ y = x) ->
    forall l st y, In y (fold_left step l st) -> In y st \/ In y l.
  Proof.
    intros Hstep l st. apply (fold_left_inv (fun s => forall y, In y s -> In y st \/ In y l)); [| auto].
    intros s x Ix IH y H. destruct (Hstep _ _ _ H) as [H1 | ->]; auto.
  Qed.

  (* a step that appends every item whose key is new keeps a list with distinct keys as it is *)
  Lemma fold_fresh_id (step : list A -> A -> list A) :
    (forall st x, ~ In (key x) (map key st) -> step st x = st ++ [x]) ->
    forall l st, NoDup (map key (st ++ l)) -> fold_left step l st = st ++ l.
  Proof.
    intros Hstep l. induction l as [| x r IH]; intros st H; cbn [fold_left]; [rewrite app_nil_r; reflexivity |].
    rewrite Hstep, IH; rewrite <- ?app_assoc; [reflexivity | exact H |].
    rewrite map_app in H. cbn [map] in H. apply NoDup_remove_2 in H. rewrite in_app_iff in H. tauto.
  Qed.

  Lemma set_add_nodup st x : NoDup (map key st) -> NoDup (map key (set_add key keqb st x)).
  Proof.
    intros H. unfold set_add. destruct (key_mem key keqb x st) eqn:M; [exact H |].
    apply key_mem_false in M. rewrite map_app. cbn [map]. apply nodup_snoc; assumption.
  Qed.

  Lemma set_add_incl st x y : In y (set_add key keqb st x) -> In y st \/ y = x.
  Proof.
    unfold set_add. destruct (key_mem key keqb x st); [auto |].
    rewrite in_app_iff. cbn [In]. intros [H | [H | []]]; auto.
  Qed.

  Lemma set_add_mono st x y : In y st -> In y (set_add key keqb st x).
  Proof. unfold set_add. destruct (key_mem key keqb x st); [auto |]. rewrite in_app_iff. auto. Qed.

  Lemma fold_set_add_mono l : forall st y, In y st -> In y (fold_left (set_add key keqb) l st).
  Proof. intros st y. apply (fold_left_inv (fun st => In y st)). intros s x _. apply set_add_mono. Qed.

  Lemma set_add_has_key st x : In (key x) (map key (set_add key keqb st x)).
  Proof.
    unfold set_add. destruct (key_mem key keqb x st) eqn:M; [apply key_mem_iff, M |].
    rewrite map_app, in_app_iff. right. left. reflexivity.
  Qed.

  Lemma fold_set_add_keys_mono l : forall st k, In k (map key st) -> In k (map key (fold_left (set_add key keqb) l st)).
  Proof.
    intros st k. apply (fold_left_inv (fun st => In k (map key st))). intros s x _ H.
    apply in_map_iff in H. destruct H as [y [<- I]]. apply in_map, set_add_mono, I.
  Qed.

  Lemma fold_set_add_keys l : forall st x, In x l -> In (key x) (map key (fold_left (set_add key keqb) l st)).
  Proof.
    induction l as [| a r IH]; intros st x H; [destruct H |]. destruct H as [-> | H]; cbn [fold_left].
    - apply fold_set_add_keys_mono, set_add_has_key.
    - apply IH, H.
  Qed.

  Lemma set_add_fresh st x : ~ In (key x) (map key st) -> set_add key keqb st x = st ++ [x].
  Proof. intros N. apply key_mem_false in N. unfold set_add. rewrite N. reflexivity. Qed.

  (* the set holds exactly the distinct items: no key twice, every added key present, nothing invented,
     and a list without equal items is kept as it is *)
  Theorem set_add_all_spec l :
    NoDup (map key (set_add_all key keqb l))
    /\ (forall x, In x l -> In (key x) (map key (set_add_all key keqb l)))
    /\ (forall y, In y (set_add_all key keqb l) -> In y l)
    /\ (NoDup (map key l) -> set_add_all key keqb l = l).
  Proof.
    unfold set_add_all. repeat split.
    - apply (fold_left_inv (fun st => NoDup (map key st))); [intros st x _; apply set_add_nodup | constructor].
    - intros x H. apply fold_set_add_keys, H.
    - intros y H. destruct (fold_incl _ set_add_incl _ _ _ H) as [[] | H1]. exact H1.
    - intros H. apply (fold_fresh_id _ set_add_fresh l []). exact H.
  Qed.

  Lemma filter_key_notin x st : ~ In (key x) (map key (filter (fun y => negb (keqb (key x) (key y))) st)).
  Proof.
    rewrite in_map_iff. intros [y [E I]]. apply filter_In in I. destruct I as [_ F].
    apply negb_true_iff in F. assert (T : keqb (key x) (key y) = true) by (apply keqb_eq; auto). congruence.
  Qed.

  Lemma nodup_map_filter (f : A -> bool) st : NoDup (map key st) -> NoDup (map key (filter f st)).
  Proof.
    induction st as [| a r IH]; cbn [map filter]; intros H; [constructor |].
    inversion H as [| ? ? N1 N2]; subst. destruct (f a); cbn [map]; [| apply IH, N2].
    constructor; [| apply IH, N2]. intros I. apply N1. apply in_map_iff in I. destruct I as [y [E I]].
    apply filter_In in I. rewrite <- E. apply in_map. tauto.
  Qed.

  Lemma map_insert_nodup st x : NoDup (map key st) -> NoDup (map key (map_insert key keqb st x)).
  Proof.
    intros H. unfold map_insert. rewrite map_app. cbn [map]. apply nodup_snoc.
    - apply nodup_map_filter, H.
    - apply filter_key_notin.
  Qed.

  Lemma map_insert_incl st x y : In y (map_insert key keqb st x) -> In y st \/ y = x.
  Proof.
    unfold map_insert. rewrite in_app_iff. cbn [In]. intros [H | [H | []]]; [| auto].
    apply filter_In in H. tauto.
  Qed.

  Lemma map_insert_keeps st x y : In y st -> key y <> key x -> In y (map_insert key keqb st x).
  Proof.
    intros I N. unfold map_insert. rewrite in_app_iff. left. apply filter_In. split; [exact I |].
    apply negb_true_iff. destruct (keqb (key x) (key y)) eqn:E; [| reflexivity]. apply keqb_eq in E. congruence.
  Qed.

  Lemma fold_map_insert_keeps l : forall st y, In y st -> (forall x, In x l -> key x <> key y) ->
    In y (fold_left (map_insert key keqb) l st).
  Proof.
    induction l as [| x r IH]; intros st y I N; cbn [fold_left]; [exact I |].
    apply IH; [| intros z Hz; apply N; right; exact Hz].
    apply map_insert_keeps; [exact I |]. intros E. apply (N x); [left; reflexivity | auto].
  Qed.

  Lemma map_insert_has st x : In x (map_insert key keqb st x).
  Proof. unfold map_insert. rewrite in_app_iff. right. left. reflexivity. Qed.

  Lemma map_insert_fresh st x : ~ In (key x) (map key st) -> map_insert key keqb st x = st ++ [x].
  Proof.
    intros N. unfold map_insert. f_equal.
    induction st as [| a s IHs]; cbn [filter]; [reflexivity |]. cbn [map In] in N.
    destruct (keqb (key x) (key a)) eqn:E; cbn [negb]; [apply keqb_eq in E; symmetry in E; tauto | f_equal; apply IHs; tauto].
  Qed.

  (* the map holds one entry per key, the LAST one added under that key; nothing is invented; a list
     with distinct keys is kept as it is *)
  Theorem map_insert_all_spec l :
    NoDup (map key (map_insert_all key keqb l))
    /\ (forall l1 x l2, l = l1 ++ x :: l2 -> (forall y, In y l2 -> key y <> key x) -> In x (map_insert_all key keqb l))
    /\ (forall y, In y (map_insert_all key keqb l) -> In y l)
    /\ (NoDup (map key l) -> map_insert_all key keqb l = l).
  Proof.
    unfold map_insert_all. repeat split.
    - apply (fold_left_inv (fun st => NoDup (map key st))); [intros st x _; apply map_insert_nodup | constructor].
    - intros l1 x l2 -> N. rewrite fold_left_app. cbn [fold_left].
      apply fold_map_insert_keeps; [apply map_insert_has | exact N].
    - intros y H. destruct (fold_incl _ map_insert_incl _ _ _ H) as [[] | H1]. exact H1.
    - intros H. apply (fold_fresh_id _ map_insert_fresh l []). exact H.
  Qed.
End CollectionProofs.

Definition eff_certs_spec l := set_add_all_spec cert_key ckey_eqb ckey_eqb_eq l.
Definition eff_props_spec l := set_add_all_spec prop_key pkey_eqb pkey_eqb_eq l.
Definition eff_wdrl_spec l := map_insert_all_spec wd_key wkey_eqb wkey_eqb_eq l.

Lemma sizes_ok_model ik : sizes_ok ik (imodel_obs ik) = true.
Proof. unfold sizes_ok, imodel_obs. cbn [io_n_certs io_n_cb io_n_wdrl io_n_wb io_n_props io_n_pb]. rewrite !N.eqb_refl. reflexivity. Qed.

(* a mismatch in a size is never accepted *)
Lemma ijudge_sizes ik o : ijudge ik o = Holds -> sizes_ok ik o = true.
Proof. unfold ijudge. destruct (sizes_ok ik o); [reflexivity | discriminate]. Qed.

(* the builder charges every certificate the map holds, whatever else it shares with another one *)
Lemma builder_deposit_identified l p q :
  get_certificates_deposit (map ic_cert (eff_certs l)) p q
  = exact_or_error (spec_cert_deposits p q (map ic_cert (eff_certs l))).
Proof. apply certificates_deposit_exact. Qed.

(* positional identities: a case line without identities (item i gets identity i everywhere) denotes the plain case *)
Lemma number_from_map {A B} (f : N -> A -> B) (g : B -> A) i l :
  (forall j x, g (f j x) = x) -> map g (number_from f i l) = l.
Proof. intros H. revert i. induction l as [| x r IH]; intros i; cbn [number_from map]; [reflexivity |]. rewrite H, IH. reflexivity. Qed.

Lemma number_from_bound {A B} (f : N -> A -> B) (idx : B -> N) l :
  (forall j x, idx (f j x) = j) -> forall i y, In y (number_from f i l) -> i <= idx y.
Proof.
  intros H. induction l as [| x r IH]; intros i y; cbn [number_from In]; [tauto |].
  intros [<- | I]; [rewrite H; lia |]. specialize (IH _ _ I). lia.
Qed.

Lemma number_from_nodup {A B K} (f : N -> A -> B) (key : B -> K) (idx : B -> N) l :
  (forall j x, idx (f j x) = j) -> (forall a b, key a = key b -> idx a = idx b) ->
  forall i, NoDup (map key (number_from f i l)).
Proof.
  intros H1 H2. induction l as [| x r IH]; intros i; cbn [number_from map]; constructor; [| apply IH].
  rewrite in_map_iff. intros [y [E I]]. apply H2 in E. rewrite H1 in E.
  pose proof (number_from_bound f idx r H1 _ _ I). lia.
Qed.

(* every kind carries at least one identity, so certificates numbered (i,i,i) are pairwise different *)
Lemma cert_key_positional_index c s i :
  let k := cert_key (mk_icert c s (mk_ident i i i)) in
  N.max (ck_cred k) (N.max (ck_pool k) (ck_var k)) = i.
Proof.
  cert_kinds c;
    cbn [cert_key ic_cert ic_id ic_script cddl_tag uses_cred uses_pool uses_var i_cred i_pool i_var ck_cred ck_pool ck_var];
    try lia.
  destruct (N.even i); lia.
Qed.

(* items numbered by position have pairwise different keys, so a collection keeps all of them in order *)
Lemma number_from_kept {A B K} (coll : list B -> list B) (key : B -> K) (f : N -> A -> B) (idx : B -> N) (g : B -> A) :
  (forall l, NoDup (map key l) -> coll l = l) ->
  (forall j x, idx (f j x) = j) -> (forall a b, key a = key b -> idx a = idx b) -> (forall j x, g (f j x) = x) ->
  forall l, map g (coll (number_from f 0 l)) = l.
Proof.
  intros Hid H1 H2 H3 l. rewrite Hid; [apply number_from_map, H3 | apply (number_from_nodup f key idx l H1 H2)].
Qed.

Theorem effective_positional k : effective (positional k) = k.
Proof.
  destruct k as [p q cs ws ps ins outs don]. unfold effective, positional.
  cbn [ik_pool_deposit ik_key_deposit ik_certs ik_withdrawals ik_proposals ik_inputs ik_outputs ik_donation
       k_pool_deposit k_key_deposit k_certs k_withdrawals k_proposals k_inputs k_outputs k_donation].
  f_equal.
  - destruct cs as [l |]; cbn [option_map]; [| reflexivity]. f_equal.
    apply (number_from_kept eff_certs cert_key _
             (fun x => N.max (ck_cred (cert_key x)) (N.max (ck_pool (cert_key x)) (ck_var (cert_key x))))).
    + apply eff_certs_spec.
    + intros j [c s]. apply cert_key_positional_index.
    + intros a b E. rewrite E. reflexivity.
    + intros j [c s]. reflexivity.
  - destruct ws as [l |]; cbn [option_map]; [| reflexivity]. f_equal.
    apply (number_from_kept eff_wdrl wd_key _ w_acct).
    + apply eff_wdrl_spec.
    + intros j [s w]. reflexivity.
    + intros a b E. unfold wd_key in E. inversion E. reflexivity.
    + intros j [s w]. reflexivity.
  - destruct ps as [l |]; cbn [option_map]; [| reflexivity]. f_equal.
    apply (number_from_kept eff_props prop_key _ p_act).
    + apply eff_props_spec.
    + intros j d. reflexivity.
    + intros a b E. unfold prop_key in E. inversion E. reflexivity.
    + intros j d. reflexivity.
Qed.
