(* C20 — a history of set / remove operations is overwritten by the final setters. *)
From CSL Require Import Base.Prelude Base.U64 Deposits.Deposits Deposits.Ident Deposits.History.
Local Open Scope N_scope.

Theorem history_overwritten_main h st ik : run_history (h ++ final_main ik) st = case_coll ik.
Proof.
  unfold run_history. rewrite fold_left_app. generalize (fold_left apply_hop h st). intros s.
  unfold final_main, case_coll. cbn [fold_left].
  destruct (ik_certs ik), (ik_withdrawals ik); reflexivity.
Qed.

Theorem history_overwritten_deprecated h st ik : deprecated_ok ik = true ->
  run_history (h ++ final_deprecated ik) st = case_coll ik.
Proof.
  unfold deprecated_ok. intros D. apply andb_true_iff in D. destruct D as [D1 D2].
  apply negb_true_iff in D1. apply negb_true_iff in D2.
  unfold run_history. rewrite fold_left_app. generalize (fold_left apply_hop h st). intros s.
  unfold final_deprecated, case_coll. cbn [fold_left].
  destruct (ik_certs ik) as [cs |], (ik_withdrawals ik) as [ws |]; cbn [opt_list] in *; cbn [apply_hop option_map];
    rewrite ?D1, ?D2; reflexivity.
Qed.

(* a failing deprecated setter leaves the builder as it was (so a history may contain failing steps) *)
Lemma failing_setter_keeps_state st cs : existsb needs_script (eff_certs cs) = true -> apply_hop st (HSetCerts cs) = st.
Proof. intros H. cbn [apply_hop]. rewrite H. reflexivity. Qed.

(* a setter that MERGED instead of replacing would differ: the stale account survives *)
Example replace_not_merge :
  let stale := [mk_iwd false 7 0 3000000] in
  let final := mk_icase 0 0 None (Some [mk_iwd false 1 0 5]) None [] [] None in
  tc_wdrl (run_history ([HSetWdrlBuilder stale] ++ final_deprecated final) (mk_tbcoll None None)) = Some [mk_iwd false 1 0 5].
Proof. reflexivity. Qed.
