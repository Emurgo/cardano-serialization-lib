(* C20 — proofs about the model of the deposit / refund helpers (Deposits.v). *)
From CSL Require Import Base.Prelude Base.U64 Deposits.Deposits.
From Coq Require Import Permutation.
Local Open Scope N_scope.

Lemma exact_or_error_cases n :
  (exact_or_error n = Ok n /\ n < two64) \/ (exact_or_error n = Err /\ two64 <= n).
Proof. unfold exact_or_error. destruct (N.ltb_spec n two64); [left | right]; split; auto. Qed.

Lemma exact_or_error_ok n : n < two64 -> exact_or_error n = Ok n.
Proof. intros H. destruct (exact_or_error_cases n) as [[E _] | [_ G]]; [exact E | lia]. Qed.

Lemma exact_or_error_err n : two64 <= n -> exact_or_error n = Err.
Proof. intros H. destruct (exact_or_error_cases n) as [[_ L] | [E _]]; [lia | exact E]. Qed.

Lemma exact_or_error_err_iff n : exact_or_error n = Err <-> two64 <= n.
Proof. destruct (exact_or_error_cases n) as [[E L] | [E G]]; rewrite E; split; intros; try discriminate; try lia; reflexivity. Qed.

Lemma exact_or_error_ok_iff n v : exact_or_error n = Ok v <-> (v = n /\ n < two64).
Proof.
  destruct (exact_or_error_cases n) as [[E L] | [E G]]; rewrite E; split.
  - intros H. inversion H. subst. split; [reflexivity | exact L].
  - intros [-> _]. reflexivity.
  - discriminate.
  - lia.
Qed.

Lemma checked_add_exact a b : checked_add a b = exact_or_error (a + b).
Proof. reflexivity. Qed.

(* the two laws of sequencing that the proofs use, here and for the lifted figures of TotalsBridge.v *)
Lemma bind_assoc {A B C} (r : result A) (f : A -> result B) (g : B -> result C) :
  (let* b := (let* a := r in f a) in g b) = (let* a := r in let* b := f a in g b).
Proof. destruct r; reflexivity. Qed.

Lemma bind_ext {A B} (r : result A) (f g : A -> result B) : (forall x, f x = g x) -> bind r f = bind r g.
Proof. intros H. destruct r; cbn [bind]; auto. Qed.

(* a computation that adds [y] to every 64-bit figure, run after the exact result for [x], is the exact result for
   [x + y]: when [x] does not fit, neither does the sum *)
Lemma bind_exact x y (k : N -> result N) :
  (forall a, a < two64 -> k a = exact_or_error (a + y)) ->
  (let* a := exact_or_error x in k a) = exact_or_error (x + y).
Proof.
  intros Hk. destruct (exact_or_error_cases x) as [[-> L] | [-> G]]; cbn [bind]; [apply Hk, L |].
  symmetry. apply exact_or_error_err. lia.
Qed.

Lemma bind_exact_id x : (let* a := exact_or_error x in Ok a) = exact_or_error x.
Proof. destruct (exact_or_error x); reflexivity. Qed.

Lemma bind_exact_add_l x y :
  (let* a := exact_or_error x in checked_add a y) = exact_or_error (x + y).
Proof. apply bind_exact. reflexivity. Qed.

Lemma bind_exact_add x y :
  (let* a := exact_or_error x in let* b := exact_or_error y in checked_add a b) = exact_or_error (x + y).
Proof.
  apply bind_exact. intros a _. rewrite (N.add_comm a y). apply bind_exact. intros b _. rewrite N.add_comm. reflexivity.
Qed.

Lemma bind_exact_add0 x : (let* a := exact_or_error x in checked_add 0 a) = exact_or_error x.
Proof. destruct (exact_or_error_cases x) as [[E L] | [E G]]; rewrite E; cbn [bind]; [exact E | reflexivity]. Qed.

(* the checked left fold is the exact sum or an error *)
Lemma try_fold_exact {A} (f : N -> A -> result N) (g : A -> N) :
  (forall acc x, acc < two64 -> f acc x = checked_add acc (g x)) ->
  forall l acc, acc < two64 -> try_fold f acc l = exact_or_error (acc + sumN (map g l)).
Proof.
  intros Hf l. induction l as [| x r IH]; intros acc Hacc; cbn [try_fold map sumN fold_right].
  - rewrite N.add_0_r. symmetry. apply exact_or_error_ok. exact Hacc.
  - rewrite (Hf acc x Hacc), N.add_assoc. apply bind_exact. intros a Ha. apply IH, Ha.
Qed.

Lemma two64_pos : 0 < two64.
Proof. reflexivity. Qed.

Lemma try_fold_exact0 {A} (f : N -> A -> result N) (g : A -> N) :
  (forall acc x, acc < two64 -> f acc x = checked_add acc (g x)) ->
  forall l, try_fold f 0 l = exact_or_error (sumN (map g l)).
Proof. intros Hf l. apply (try_fold_exact f g Hf l 0 two64_pos). Qed.

Lemma try_fold_checked_add l : try_fold checked_add 0 l = exact_or_error (sumN l).
Proof. rewrite (try_fold_exact0 checked_add (fun x => x)), map_id; reflexivity. Qed.

(* an absent collection counts as empty *)
Lemma opt_try_fold_exact {A} (f : N -> A -> result N) (g : A -> N) (o : option (list A)) :
  (forall acc x, acc < two64 -> f acc x = checked_add acc (g x)) ->
  match o with None => Ok 0 | Some l => try_fold f 0 l end = exact_or_error (sumN (map g (opt_list o))).
Proof. intros Hf. destruct o; [apply try_fold_exact0, Hf | reflexivity]. Qed.

Lemma opt_try_fold_checked_add (o : option (list N)) :
  match o with None => Ok 0 | Some l => try_fold checked_add 0 l end = exact_or_error (sumN (opt_list o)).
Proof. destruct o; [apply try_fold_checked_add | reflexivity]. Qed.

(* the 19 kinds: a certificate that carries an optional amount stands for two *)
Ltac cert_kinds c := destruct c as [[?|]|[?|]| | | | | | | | ? | ? | | | ? | ? | | ?].

Lemma ok_is_checked_add0 acc : acc < two64 -> Ok acc = checked_add acc 0.
Proof. intros H. unfold checked_add. rewrite N.add_0_r. symmetry. apply exact_or_error_ok, H. Qed.

(* what the helper's refund table adds for one certificate *)
Definition helper_refund (retire : bool) (pool_deposit key_deposit : N) (c : cert) : N :=
  ledger_refund key_deposit c + (if retire && is_pool_retirement c then pool_deposit else 0).

(* the two deposit tables are literally the same function; the refund tables differ by the retirement line *)
Lemma deposit_tables_agree p q acc c : helper_deposit_step p q acc c = builder_deposit_step p q acc c.
Proof. cert_kinds c; reflexivity. Qed.

Lemma refund_tables_agree p q acc c :
  helper_refund_step false p q acc c = builder_refund_step q acc c.
Proof. cert_kinds c; reflexivity. Qed.

(* each step of a table is a checked addition of the ledger's figure for the certificate *)
Lemma builder_deposit_step_eq p q acc c : acc < two64 ->
  builder_deposit_step p q acc c = checked_add acc (ledger_deposit p q c).
Proof.
  intros H. cert_kinds c; cbn [builder_deposit_step ledger_deposit cddl_tag cert_coin];
    try reflexivity; apply ok_is_checked_add0; exact H.
Qed.

Lemma helper_refund_step_eq retire p q acc c : acc < two64 ->
  helper_refund_step retire p q acc c = checked_add acc (helper_refund retire p q c).
Proof.
  intros H. unfold helper_refund.
  cert_kinds c; destruct retire;
    cbn [helper_refund_step ledger_refund cddl_tag cert_coin is_pool_retirement andb];
    rewrite ?N.add_0_r, ?N.add_0_l; try reflexivity; apply ok_is_checked_add0; exact H.
Qed.

Lemma helper_refund_false p q c : helper_refund false p q c = ledger_refund q c.
Proof. apply N.add_0_r. Qed.

Lemma builder_refund_step_eq q acc c : acc < two64 ->
  builder_refund_step q acc c = checked_add acc (ledger_refund q c).
Proof. intros H. rewrite <- (refund_tables_agree 0), <- (helper_refund_false 0). apply helper_refund_step_eq, H. Qed.

(* the driver's decoder inverts (cddl_tag, cert_coin): every certificate has exactly one case-file form *)
Lemma cert_of_tag_inverse c : cert_of_tag (cddl_tag c) (cert_coin c) = Some c.
Proof. cert_kinds c; reflexivity. Qed.

Lemma certificates_deposit_exact cs p q :
  get_certificates_deposit cs p q = exact_or_error (spec_cert_deposits p q cs).
Proof. apply try_fold_exact0. intros. apply builder_deposit_step_eq. assumption. Qed.

Lemma certificates_refund_exact cs p q :
  get_certificates_refund cs p q = exact_or_error (spec_cert_refunds q cs).
Proof. apply try_fold_exact0. intros. apply builder_refund_step_eq. assumption. Qed.

Lemma total_withdrawals_exact ws : get_total_withdrawals ws = exact_or_error (sumN ws).
Proof. apply try_fold_checked_add. Qed.

Lemma total_deposit_exact ps : get_total_deposit ps = exact_or_error (sumN ps).
Proof. apply try_fold_checked_add. Qed.

Definition txb_body (t : txb) : body := mk_body (t_certs t) (t_withdrawals t) (t_proposals t).

(* how TransactionBuilder adds two optional collections: the first total onto 0, the second onto the first; an absent
   collection counts as empty *)
Lemma opt_totals_exact {X Y} (o1 : option (list X)) (o2 : option (list Y)) r1 r2 (n1 : list X -> N) (n2 : list Y -> N) :
  (forall l, r1 l = exact_or_error (n1 l)) -> (forall l, r2 l = exact_or_error (n2 l)) -> n1 [] = 0 -> n2 [] = 0 ->
  (let* a := match o1 with Some l => let* d := r1 l in checked_add 0 d | None => Ok 0 end in
   match o2 with Some l => let* p := r2 l in checked_add a p | None => Ok a end)
  = exact_or_error (n1 (opt_list o1) + n2 (opt_list o2)).
Proof.
  intros H1 H2 Z1 Z2. destruct o1 as [l1 |], o2 as [l2 |]; cbn [opt_list]; rewrite ?H1, ?H2, ?Z1, ?Z2.
  - rewrite bind_exact_add0. apply bind_exact_add.
  - rewrite bind_exact_add0, N.add_0_r. apply bind_exact_id.
  - cbn [bind]. rewrite N.add_0_l. apply bind_exact_add0.
  - reflexivity.
Qed.

Lemma tb_deposit_exact t :
  tb_get_deposit t = exact_or_error (spec_deposit (txb_body t) (t_pool_deposit t) (t_key_deposit t)).
Proof.
  apply (opt_totals_exact (t_certs t) (t_proposals t) _ _ (spec_cert_deposits _ _) sumN).
  - intros cs. apply certificates_deposit_exact.
  - exact total_deposit_exact.
  - reflexivity.
  - reflexivity.
Qed.

Lemma tb_implicit_exact t :
  tb_get_implicit_input t = exact_or_error (spec_implicit_input (txb_body t) (t_key_deposit t)).
Proof.
  apply (opt_totals_exact (t_withdrawals t) (t_certs t) _ _ sumN (spec_cert_refunds _)).
  - exact total_withdrawals_exact.
  - intros cs. apply certificates_refund_exact.
  - reflexivity.
  - reflexivity.
Qed.

(* the two grand totals: explicit part + implicit part (+ 0 for the absent mint / burn) *)
Lemma bind_exact_sum x y (k : N -> result N) :
  (let* e := exact_or_error x in let* i := exact_or_error y in let* s := checked_add e i in k s)
  = (let* s := exact_or_error (x + y) in k s).
Proof.
  rewrite <- bind_exact_add, bind_assoc. destruct (exact_or_error x); cbn [bind]; try reflexivity.
  symmetry. apply bind_assoc.
Qed.

Lemma tb_total_input_exact t :
  tb_get_total_input t =
  exact_or_error (sumN (t_inputs t) + spec_implicit_input (txb_body t) (t_key_deposit t)).
Proof.
  unfold tb_get_total_input, tb_get_explicit_input.
  rewrite try_fold_checked_add, tb_implicit_exact, bind_exact_sum, bind_exact_add_l, N.add_0_r. reflexivity.
Qed.

Lemma tb_total_output_exact t :
  tb_get_total_output t =
  exact_or_error (sumN (t_outputs t) + spec_deposit (txb_body t) (t_pool_deposit t) (t_key_deposit t)
                  + match t_donation t with Some d => d | None => 0 end).
Proof.
  unfold tb_get_total_output, tb_get_explicit_output.
  rewrite try_fold_checked_add, tb_deposit_exact, bind_exact_sum, <- bind_assoc, bind_exact_add_l, N.add_0_r.
  destruct (t_donation t) as [d |]; [apply bind_exact_add_l | rewrite N.add_0_r; apply bind_exact_id].
Qed.

(* in general, also inside the known classes: the exact sum of the helper's OWN table, or an error *)
Lemma helper_implicit_own_total retire b p q :
  get_implicit_input_gen retire b p q =
  exact_or_error (sumN (opt_list (b_withdrawals b)) + sumN (map (helper_refund retire p q) (opt_list (b_certs b)))).
Proof.
  unfold get_implicit_input_gen, internal_get_implicit_input_gen.
  rewrite opt_try_fold_checked_add, (opt_try_fold_exact _ (helper_refund retire p q)).
  - apply bind_exact_add.
  - intros. apply helper_refund_step_eq. assumption.
Qed.

Lemma internal_get_deposit_exact cs p q :
  internal_get_deposit cs p q = exact_or_error (spec_cert_deposits p q (opt_list cs)).
Proof.
  apply opt_try_fold_exact. intros. rewrite deposit_tables_agree. apply builder_deposit_step_eq. assumption.
Qed.

Lemma helper_deposit_own_total ig b p q :
  get_deposit_gen ig b p q =
  exact_or_error (spec_cert_deposits p q (opt_list (b_certs b)) + (if ig then 0 else sumN (opt_list (b_proposals b)))).
Proof.
  unfold get_deposit_gen. rewrite internal_get_deposit_exact. destruct ig.
  - rewrite N.add_0_r. apply bind_exact_id.
  - rewrite opt_try_fold_checked_add. apply bind_exact_add.
Qed.

(* outside its known class each table is the ledger's *)
Lemma existsb_nonzero_false l : existsb (fun d => negb (d =? 0)) l = false -> sumN l = 0.
Proof.
  induction l as [| x r IH]; cbn [existsb sumN fold_right]; [reflexivity |].
  intros H. apply orb_false_iff in H. destruct H as [Hx Hr]. fold (sumN r). rewrite (IH Hr).
  destruct (N.eqb_spec x 0); [lia | discriminate].
Qed.

Lemma helper_deposit_exact ig b p q :
  known_ignores_proposals_gen ig b = false ->
  get_deposit_gen ig b p q = exact_or_error (spec_deposit b p q).
Proof.
  intros K. rewrite helper_deposit_own_total. unfold spec_deposit. destruct ig; [|reflexivity].
  rewrite (existsb_nonzero_false _ K). reflexivity.
Qed.

Lemma helper_refund_sum retire p q cs :
  retire && existsb is_pool_retirement cs && negb (p =? 0) = false ->
  sumN (map (helper_refund retire p q) cs) = spec_cert_refunds q cs.
Proof.
  unfold spec_cert_refunds. intros K. f_equal. apply map_ext_in. intros c I. unfold helper_refund.
  destruct (retire && is_pool_retirement c) eqn:E; [|apply N.add_0_r].
  apply andb_true_iff in E. destruct E as [-> E]. cbn [andb] in K.
  assert (X : existsb is_pool_retirement cs = true) by (apply existsb_exists; eauto).
  rewrite X in K. cbn [andb] in K. destruct (N.eqb_spec p 0); [lia | discriminate].
Qed.

Lemma helper_implicit_exact retire b p q :
  known_pool_retirement_gen retire b p = false ->
  get_implicit_input_gen retire b p q = exact_or_error (spec_implicit_input b q).
Proof. intros K. rewrite helper_implicit_own_total, (helper_refund_sum _ _ _ _ K). reflexivity. Qed.

Lemma txb_body_of_body b ins outs don p q : txb_body (builder_of_body b ins outs don p q) = b.
Proof. destruct b; reflexivity. Qed.

(* order does not matter (BTreeMap / LinkedHashMap iteration orders) *)
Lemma sumN_perm l l' : Permutation l l' -> sumN l = sumN l'.
Proof.
  induction 1; cbn [sumN fold_right]; try fold (sumN l); try fold (sumN l'); try lia.
Qed.

Lemma spec_cert_deposits_perm p q l l' : Permutation l l' -> spec_cert_deposits p q l = spec_cert_deposits p q l'.
Proof. intros H. apply sumN_perm, Permutation_map, H. Qed.

Lemma spec_cert_refunds_perm q l l' : Permutation l l' -> spec_cert_refunds q l = spec_cert_refunds q l'.
Proof. intros H. apply sumN_perm, Permutation_map, H. Qed.

(* the deprecated setters: the plain lists, unless some item needs a script witness *)
Lemma set_certs_eq l :
  set_certs l = if existsb (fun cs => has_required_script_witness (fst cs) (snd cs)) l then Err else Ok (map fst l).
Proof.
  induction l as [| [c s] r IH]; cbn [set_certs existsb map fst snd]; [reflexivity |].
  destruct (has_required_script_witness c s); cbn [orb]; [reflexivity |]. rewrite IH. destruct (existsb _ r); reflexivity.
Qed.

Lemma set_withdrawals_eq l : set_withdrawals l = if existsb fst l then Err else Ok (map snd l).
Proof.
  induction l as [| [s w] r IH]; cbn [set_withdrawals existsb map fst snd]; [reflexivity |].
  destruct s; cbn [orb]; [reflexivity |]. rewrite IH. destruct (existsb fst r); reflexivity.
Qed.

Lemma set_certs_ok l cs : set_certs l = Ok cs -> cs = map fst l.
Proof. rewrite set_certs_eq. destruct (existsb _ l); [discriminate | intros [= <-]; reflexivity]. Qed.

Lemma set_withdrawals_ok l ws : set_withdrawals l = Ok ws -> ws = map snd l.
Proof. rewrite set_withdrawals_eq. destruct (existsb fst l); [discriminate | intros [= <-]; reflexivity]. Qed.

Lemma set_certs_err_iff l :
  set_certs l = Err <-> existsb (fun cs => has_required_script_witness (fst cs) (snd cs)) l = true.
Proof. rewrite set_certs_eq. destruct (existsb _ l); split; intros; try discriminate; reflexivity. Qed.

Lemma res_eqb_refl r : res_eqb r r = true.
Proof. destruct r; cbn; auto using N.eqb_refl. Qed.

(* when both deprecated setters succeed they fill the builder with the collections of the case *)
Lemma deprecated_txb k cs' ws' :
  set_certs (opt_list (k_certs k)) = Ok cs' -> set_withdrawals (opt_list (k_withdrawals k)) = Ok ws' ->
  mk_txb (k_inputs k) (k_outputs k) (match k_certs k with Some _ => Some cs' | None => None end)
         (match k_withdrawals k with Some _ => Some ws' | None => None end) (k_proposals k) (k_donation k)
         (k_pool_deposit k) (k_key_deposit k) = case_txb k.
Proof.
  intros Ec Ew. apply set_certs_ok in Ec. apply set_withdrawals_ok in Ew. subst.
  unfold case_txb, builder_of_body, case_body. cbn [b_certs b_withdrawals b_proposals].
  destruct (k_certs k), (k_withdrawals k); reflexivity.
Qed.

Lemma model_obs_deprecated k :
  opt_res_ok (o_dep_deposit (model_obs k)) (tb_get_deposit (case_txb k)) = true /\
  opt_res_ok (o_dep_implicit (model_obs k)) (tb_get_implicit_input (case_txb k)) = true.
Proof.
  unfold model_obs. cbn [o_dep_deposit o_dep_implicit].
  destruct (set_certs _) eqn:Ec; cbn [option_map opt_res_ok]; auto.
  destruct (set_withdrawals _) eqn:Ew; cbn [option_map opt_res_ok]; auto.
  rewrite (deprecated_txb k _ _ Ec Ew). cbn [fst snd]. rewrite !res_eqb_refl. auto.
Qed.

Lemma judge_model_holds k :
  known_pool_retirement_gen helper_refunds_pool_retirement (case_body k) (k_pool_deposit k) = false ->
  known_ignores_proposals_gen helper_ignores_proposals (case_body k) = false ->
  judge k (model_obs k) = Holds.
Proof.
  intros K1 K2. destruct (model_obs_deprecated k) as [D1 D2]. revert D1 D2. unfold judge, model_obs.
  cbn [o_helper_deposit o_helper_implicit o_helper_deposit_wire o_helper_implicit_wire
       o_helper_deposit_built o_helper_implicit_built forallb o_cb_deposit o_cb_refund o_wb_total o_tb_deposit o_tb_implicit
       o_tb_total_input o_tb_total_output o_dep_deposit o_dep_implicit].
  unfold get_deposit, get_implicit_input, spec_deposit_res, spec_implicit_res.
  rewrite (helper_deposit_exact _ _ _ _ K2), (helper_implicit_exact _ _ _ _ K1).
  rewrite certificates_deposit_exact, certificates_refund_exact, total_withdrawals_exact.
  rewrite tb_deposit_exact, tb_implicit_exact, tb_total_input_exact, tb_total_output_exact.
  unfold case_txb. rewrite txb_body_of_body.
  cbn [builder_of_body t_inputs t_outputs t_donation t_pool_deposit t_key_deposit].
  intros -> ->. rewrite !res_eqb_refl. reflexivity.
Qed.

(* overflow = error, never a wrapped number, never a panic *)
Definition total_or_error (r : result N) (total : N) : Prop :=
  (r = Err <-> two64 <= total) /\ (forall v, r = Ok v <-> (v = total /\ total < two64)) /\ r <> Panic /\ r <> OutOfFuel.

Lemma exact_total_or_error n : total_or_error (exact_or_error n) n.
Proof.
  unfold total_or_error. split; [apply exact_or_error_err_iff |]. split; [intros v; apply exact_or_error_ok_iff |].
  unfold exact_or_error. destruct (n <? two64); split; discriminate.
Qed.

(* the defects: witnesses that refute the unrestricted statements (Props/C20.v) *)
Definition witness_retirement : body := mk_body (Some [PoolRetirement]) None None.
Definition witness_proposal : body := mk_body None None (Some [100000000000]).
