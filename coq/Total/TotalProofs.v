(* C02: totality / guard sufficiency of the hand models of Total/Decoders.v.
   For the repaired code ([legacy = false]) every decoder returns a value or an error on EVERY input: none of its own
   partial operations (index, slice, unwrap, assert, i64 negation, todo) is reachable and no fuelled loop runs dry.
   The theorems about decoders that read byte strings through cbor_event are stated for the allocator that never
   refuses ([lim = None]); with the real allocator the allocation of a declared length is the one remaining source
   of Panic (lemma [ce_bytes_panic_iff], known finding C02-huge-declared-length).
   For the code as it was ([legacy = true]) each panic is exhibited by a witness (Props/C02.v). *)
From CSL Require Import Base.Prelude Base.Hex Cbor.Head Cbor.HeadProofs Codec.SchemaProofs Total.Partial Total.Decoders
  Total.SchemaTotal.
Local Open Scope N_scope.

Lemma slice_exn_ok bs lo hi : (lo <= hi)%nat -> (hi <= length bs)%nat ->
  slice_exn bs lo hi = Ok (firstn (hi - lo) (skipn lo bs)).
Proof.
  intros H1 H2. unfold slice_exn.
  destruct (lo <=? hi)%nat eqn:E1; [|apply Nat.leb_gt in E1; lia].
  destruct (hi <=? length bs)%nat eqn:E2; [reflexivity|apply Nat.leb_gt in E2; lia].
Qed.
Lemma slice_from_exn_ok bs lo : (lo <= length bs)%nat -> slice_from_exn bs lo = Ok (skipn lo bs).
Proof. intros H. unfold slice_from_exn. destruct (lo <=? length bs)%nat eqn:E; [reflexivity|apply Nat.leb_gt in E; lia]. Qed.

Lemma ce_head_normal m bs : normal (ce_head m bs).
Proof. unfold ce_head. normal_cases. Qed.
(* [ce_head m] is [decode_head] with the major type expected in advance *)
Lemma ce_head_ok m bs a r : ce_head m bs = Ok (a, r) <-> decode_head bs = Some (m, a, r).
Proof.
  unfold ce_head. destruct bs as [|b t]; [split; discriminate|].
  destruct (decode_head (b :: t)) as [[[m' a'] r']|] eqn:E.
  - destruct (decode_head_first _ _ _ _ E) as (b0 & t0 & [= <- <-] & <-). destruct (b / 32 =? m) eqn:Em.
    + apply N.eqb_eq in Em. split; intros H; injection H as <- <-; congruence.
    + apply N.eqb_neq in Em. split; intros H; [discriminate|congruence].
  - destruct (b / 32 =? m); split; discriminate.
Qed.
#[local] Hint Resolve ce_head_normal : nrm.
Lemma ce_uint_normal bs : normal (ce_uint bs).
Proof. unfold ce_uint. normal_cases. Qed.
Lemma ce_tag_normal bs : normal (ce_tag bs).
Proof. unfold ce_tag. normal_cases. Qed.

Lemma ce_chunks_normal : forall fuel bs acc, (length bs < fuel)%nat -> normal (ce_chunks fuel bs acc).
Proof.
  induction fuel as [|f IH]; intros bs acc Hf; [lia|]. cbn [ce_chunks].
  destruct bs as [|c t]; [exact I|]. destruct (c / 32 =? 7); [destruct (c mod 32 =? 31); exact I|].
  destruct (c / 32 =? 2); [|exact I].
  destruct (decode_head (c :: t)) as [[[m [n|]] r]|] eqn:E; try exact I.
  apply IH. pose proof (decode_head_shorter _ _ _ _ E). rewrite skipn_length. lia.
Qed.

Lemma ce_bytes_normal bs : normal (ce_bytes None bs).
Proof. unfold ce_bytes, alloc_lim. normal_cases. apply ce_chunks_normal. lia. Qed.
#[local] Hint Resolve ce_uint_normal ce_tag_normal ce_bytes_normal : nrm.

(* with an allocator that refuses above [lim] (the real one: isize::MAX) the allocation is the only way to Panic, and exactly
   when the declared length exceeds [lim] *)
Lemma ce_bytes_panic_iff lim bs :
  ce_bytes (Some lim) bs = Panic <-> exists m n r, decode_head bs = Some (m, Arg n, r) /\ m = 2 /\ lim < n.
Proof.
  unfold ce_bytes. pose proof (ce_head_normal 2 bs) as Hn. destruct (ce_head 2 bs) as [[a r]| | |] eqn:E; try contradiction; cbn [bind].
  - apply ce_head_ok in E. destruct a as [n|]; cbn [alloc_lim].
    + destruct (n <=? lim) eqn:El; cbn [bind].
      * split; [destruct (n <=? blen r); discriminate|]. intros (m & n' & r' & E' & _ & H). rewrite E in E'. injection E' as _ <- _. lia.
      * split; [intros _; exists 2, n, r; repeat split; [exact E|lia]|reflexivity].
    + split.
      * intros H. pose proof (ce_chunks_normal (S (length r)) r [] ltac:(lia)) as Hc. rewrite H in Hc. contradiction.
      * intros (m & n & r' & E' & _). rewrite E in E'. discriminate.
  - split; [discriminate|]. intros (m & n & r & E' & -> & _). apply ce_head_ok in E'. rewrite E in E'. discriminate.
Qed.

Lemma raw_with_crc32_normal bs : normal (raw_with_crc32 None false bs).
Proof. unfold raw_with_crc32, ce_array. normal_cases. Qed.
#[local] Hint Resolve raw_with_crc32_normal : nrm.

Lemma attrs_loop_normal : forall k bs dp magic, normal (attrs_loop None k bs dp magic).
Proof. induction k as [|k IH]; intros bs dp magic; cbn [attrs_loop]; normal_cases. Qed.
#[local] Hint Resolve attrs_loop_normal : nrm.

Lemma attrs_dec_normal bs : normal (attrs_dec None bs).
Proof. unfold attrs_dec, ce_map. normal_cases. Qed.
#[local] Hint Resolve attrs_dec_normal : nrm.

Lemma ext_addr_dec_normal bs : normal (ext_addr_dec None false bs).
Proof. unfold ext_addr_dec, ce_array. normal_cases. Qed.
#[local] Hint Resolve ext_addr_dec_normal : nrm.

Theorem byron_from_bytes_normal bs : normal (byron_from_bytes None false bs).
Proof. unfold byron_from_bytes. normal_cases. Qed.
#[local] Hint Resolve byron_from_bytes_normal : nrm.

Lemma varnat_loop_bound : forall bs acc rd v k,
  varnat_decode_loop bs acc rd = Some (v, k) -> (rd < k /\ k <= rd + length bs)%nat.
Proof.
  induction bs as [|b t IH]; intros acc rd v k H; cbn [varnat_decode_loop] in H; [discriminate|].
  destruct (two64 <=? _); [discriminate|]. destruct (b / 128 =? 0).
  - injection H as _ <-. cbn [length]. lia.
  - apply IH in H. cbn [length]. lia.
Qed.
Lemma varnat_decode_bound bs v k : varnat_decode bs = Some (v, k) -> (1 <= k <= length bs)%nat.
Proof. intros H. apply varnat_loop_bound in H. lia. Qed.

(* the slices &data[offset..] are in range because each natural was read inside the data *)
Lemma decode_pointer_normal data : normal (decode_pointer data).
Proof.
  unfold decode_pointer. destruct (varnat_decode data) as [[slot o1]|] eqn:E1; [|exact I].
  apply varnat_decode_bound in E1. rewrite slice_from_exn_ok by lia. cbn [bind].
  destruct (varnat_decode (skipn o1 data)) as [[tx o2]|] eqn:E2; [|exact I].
  apply varnat_decode_bound in E2. rewrite skipn_length in E2. rewrite slice_from_exn_ok by lia. cbn [bind].
  destruct (varnat_decode _) as [[cert o3]|]; exact I.
Qed.

(* every slice is taken after the length of the data has been compared with its upper end *)
Theorem addr_from_bytes_normal ign data : normal (addr_from_bytes None false ign data).
Proof.
  unfold addr_from_bytes. destruct data as [|h t]; [exact I|]. cbn [is_nil bind index_exn nth_error].
  set (data := h :: t).
  assert (Hc : forall bit pos, (pos + 28 <= length data)%nat ->
               (let* h0 := slice_exn data pos (pos + 28) in Ok (N.odd (h / bit), h0)) =
               Ok (N.odd (h / bit), firstn 28 (skipn pos data))).
  { intros bit pos Hp. rewrite slice_exn_ok by lia. cbn [bind]. do 3 f_equal. lia. }
  destruct (h / 16 <? 4).
  { destruct (length data <? 57)%nat eqn:E1; [exact I|]. apply Nat.ltb_ge in E1.
    destruct (_ && _); [exact I|]. rewrite !Hc by lia. exact I. }
  destruct (h / 16 <? 6).
  { destruct (length data <? 32)%nat eqn:E1; [exact I|]. apply Nat.ltb_ge in E1.
    rewrite Hc by lia. cbn [bind]. rewrite slice_from_exn_ok by lia. cbn [bind].
    apply normal_bind; [apply decode_pointer_normal|]. intros [[[slot tx] cert] off]. destruct (_ && _); exact I. }
  destruct (h / 16 <? 8).
  { destruct (length data <? 29)%nat eqn:E1; [exact I|]. apply Nat.ltb_ge in E1.
    destruct (_ && _); [exact I|]. rewrite Hc by lia. exact I. }
  destruct (h / 16 =? 8); [normal_cases|].
  destruct (_ || _); [|exact I].
  destruct (length data <? 29)%nat eqn:E1; [exact I|]. apply Nat.ltb_ge in E1.
  destruct (_ && _); [exact I|]. rewrite Hc by lia. exact I.
Qed.
#[local] Hint Resolve addr_from_bytes_normal : nrm.

Theorem address_from_bytes_normal data : normal (address_from_bytes None false data).
Proof. unfold address_from_bytes. normal_cases. Qed.

(* from_bytes_impl_unsafe never fails: every byte string is an address (possibly Malformed) *)
Lemma addr_unsafe_ok data : exists a, addr_unsafe None false data = Ok a.
Proof.
  unfold addr_unsafe. pose proof (addr_from_bytes_normal true data) as H.
  destruct (addr_from_bytes _ _ _ _); try contradiction; eexists; reflexivity.
Qed.
Lemma addr_unsafe_normal data : normal (addr_unsafe None false data).
Proof. destruct (addr_unsafe_ok data) as [a ->]. exact I. Qed.
#[local] Hint Resolve addr_unsafe_normal : nrm.
Lemma addr_deserialize_normal bs : normal (addr_deserialize None false bs).
Proof. unfold addr_deserialize. normal_cases. Qed.
#[local] Hint Resolve addr_deserialize_normal : nrm.

Theorem third_element_normal r2 : normal (third_element None false r2).
Proof. unfold third_element. normal_cases. Qed.
#[local] Hint Resolve third_element_normal : nrm.

Theorem legacy_output_normal {V} (dv : bytes -> result (V * bytes)) :
  (forall b, normal (dv b)) -> forall bs, normal (legacy_output None dv false bs).
Proof. intros Hv bs. unfold legacy_output, ce_array. normal_cases. Qed.

Lemma bb_chunks_normal : forall fuel bs acc, (length bs < fuel)%nat -> normal (bb_chunks fuel bs acc).
Proof.
  induction fuel as [|f IH]; intros bs acc Hf; [lia|]. cbn [bb_chunks].
  destruct bs as [|c t]; [exact I|]. destruct (c / 32 =? 7); [destruct (c =? 255); exact I|].
  destruct (c / 32 =? 2); [|exact I].
  destruct (decode_head (c :: t)) as [[[m [n|]] r]|] eqn:E; try exact I.
  destruct (64 <? n); [exact I|].
  apply IH. pose proof (decode_head_shorter _ _ _ _ E). rewrite skipn_length. lia.
Qed.

Theorem read_bounded_bytes_normal bs : normal (read_bounded_bytes None bs).
Proof. unfold read_bounded_bytes. normal_cases. apply bb_chunks_normal. lia. Qed.

Theorem from_hex_normal {A} (p : bytes -> result A) : (forall bs, normal (p bs)) -> forall cs, normal (from_hex_with false p cs).
Proof. intros Hp cs. unfold from_hex_with. normal_cases. Qed.

Theorem hash_from_bytes_normal size bs : normal (hash_from_bytes size bs).
Proof.
  unfold hash_from_bytes. destruct (length bs =? size)%nat eqn:E; [|exact I]. apply Nat.eqb_eq in E.
  rewrite slice_exn_ok by lia. exact I.
Qed.
(* and the value is the input itself *)
Lemma hash_from_bytes_ok size bs : length bs = size -> hash_from_bytes size bs = Ok bs.
Proof.
  intros E. unfold hash_from_bytes. rewrite (proj2 (Nat.eqb_eq _ _) E). rewrite slice_exn_ok by lia.
  cbn [bind skipn]. rewrite Nat.sub_0_r, <- E, firstn_all. reflexivity.
Qed.
#[local] Hint Resolve hash_from_bytes_normal : nrm.
Theorem hash_from_bech32_normal size u5 : normal (hash_from_bech32 false size u5).
Proof. unfold hash_from_bech32. normal_cases. Qed.

Theorem from_128_xprv_normal bs : normal (from_128_xprv false bs).
Proof.
  unfold from_128_xprv. destruct (length bs =? 128)%nat eqn:E; [|exact I]. apply Nat.eqb_eq in E.
  cbn [bind]. rewrite !slice_exn_ok by lia. exact I.
Qed.
Lemma slice_exn_length bs lo hi s : slice_exn bs lo hi = Ok s -> length s = (hi - lo)%nat.
Proof.
  unfold slice_exn. destruct (_ && _) eqn:E; [|discriminate]. apply andb_prop in E. destruct E as [E1 E2].
  apply Nat.leb_le in E1. apply Nat.leb_le in E2. intros H. injection H as <-.
  rewrite firstn_length, skipn_length. lia.
Qed.
Lemma from_128_xprv_len bs out : from_128_xprv false bs = Ok out -> length out = 96%nat.
Proof.
  unfold from_128_xprv. destruct (length bs =? 128)%nat; [|discriminate]. cbn [bind].
  destruct (slice_exn bs 0 64) as [a| | |] eqn:E1; try discriminate. cbn [bind].
  destruct (slice_exn bs 96 128) as [c| | |] eqn:E2; try discriminate. cbn [bind].
  intros H. injection H as <-.
  rewrite app_length, (slice_exn_length _ _ _ _ E1), (slice_exn_length _ _ _ _ E2). reflexivity.
Qed.

Theorem write_nint_normal x : normal (write_nint false x).
Proof. exact I. Qed.
Theorem int_to_bytes_normal x : normal (int_to_bytes false x).
Proof. unfold int_to_bytes. destruct (x <? 0)%Z; exact I. Qed.

(* the repaired writer emits the CBOR encoding of the integer on the whole CBOR int range *)
Theorem int_to_bytes_correct x : (- 18446744073709551616 <= x < 18446744073709551616)%Z ->
  int_to_bytes false x = Ok (int_cbor x).
Proof.
  intros H. unfold int_to_bytes, int_cbor, write_nint, wrap_u64. destruct (x <? 0)%Z eqn:E.
  - apply Z.ltb_lt in E. do 3 f_equal. rewrite Z.mod_small by lia. reflexivity.
  - apply Z.ltb_ge in E. do 3 f_equal. rewrite Z.mod_small by lia. reflexivity.
Qed.

(* the old writer panics exactly at -2^63 on that range, and agrees with the repaired one everywhere else *)
Theorem write_nint_legacy_panics_iff x : (- 18446744073709551616 <= x < 0)%Z ->
  write_nint true x = Panic <-> x = i64_min.
Proof.
  intros H. unfold write_nint, neg_i64_exn, wrap_i64, i64_min.
  destruct (_ =? _)%Z eqn:E; cbn [bind].
  - apply Z.eqb_eq in E. split; [intros _|reflexivity]. lia.
  - apply Z.eqb_neq in E. split; [discriminate|]. intros ->. exfalso. apply E. reflexivity.
Qed.
Theorem write_nint_legacy_agrees x : (- 18446744073709551616 <= x < 0)%Z -> x <> i64_min ->
  write_nint true x = write_nint false x.
Proof.
  intros H Hx. unfold write_nint, neg_i64_exn, wrap_i64, wrap_u64, i64_min in *.
  destruct (_ =? _)%Z eqn:E; cbn [bind].
  - apply Z.eqb_eq in E. exfalso. lia.
  - do 3 f_equal. lia.
Qed.

Theorem json_number_normal x : normal (json_number_to_int false x).
Proof. unfold json_number_to_int. normal_cases. Qed.
(* the repaired encoder is the identity on the numbers it accepts *)
Theorem json_number_correct x v : json_number_to_int false x = Ok v -> v = x.
Proof.
  unfold json_number_to_int. destruct (_ && _) eqn:E1; cbv iota; [intros H; congruence|].
  destruct ((i64_min <=? x)%Z && (x <? 0)%Z) eqn:E2; cbv iota; [|discriminate]. intros H. unfold i64_min in E2.
  assert (v = - Z.abs x)%Z by congruence. lia.
Qed.
Theorem json_number_legacy_panics_iff x : json_number_to_int true x = Panic <-> x = i64_min.
Proof.
  unfold json_number_to_int, neg_i64_exn.
  destruct ((0 <=? x)%Z && (x <? 18446744073709551616)%Z) eqn:E1; cbv iota.
  - split; [discriminate|]. intros ->. vm_compute in E1. discriminate.
  - destruct ((i64_min <=? x)%Z && (x <? 0)%Z) eqn:E2; cbv iota.
    + destruct (x =? i64_min)%Z eqn:E; cbn [bind].
      * apply Z.eqb_eq in E. split; [intros _; exact E|reflexivity].
      * apply Z.eqb_neq in E. split; [discriminate|contradiction].
    + split; [discriminate|]. intros ->. vm_compute in E2. discriminate.
Qed.

(* 60 bytes are enough for the three fixed slices; the stricter old guard was sufficient as well (its defect was
   rejecting the 60-byte container, not a panic) *)
Lemma emip3_split_ok legacy data : (60 <= length data)%nat -> (legacy = true -> (60 < length data)%nat) ->
  emip3_split legacy data =
  Ok (firstn 32 data, firstn 12 (skipn 32 data), firstn 16 (skipn 44 data), skipn 60 data).
Proof.
  intros H Hl. unfold emip3_split.
  replace (if legacy then (length data <=? 60)%nat else (length data <? 60)%nat) with false.
  - rewrite !slice_exn_ok by lia. cbn [bind]. rewrite slice_from_exn_ok by lia. reflexivity.
  - symmetry. destruct legacy; [apply Nat.leb_gt; auto|apply Nat.ltb_ge, H].
Qed.
Theorem emip3_split_normal data : normal (emip3_split false data).
Proof.
  destruct (length data <? 60)%nat eqn:E; [unfold emip3_split; rewrite E; exact I|]. apply Nat.ltb_ge in E.
  rewrite emip3_split_ok by (assumption || discriminate). exact I.
Qed.
Theorem emip3_split_legacy_normal data : normal (emip3_split true data).
Proof.
  destruct (length data <=? 60)%nat eqn:E; [unfold emip3_split; rewrite E; exact I|]. apply Nat.leb_gt in E.
  rewrite emip3_split_ok by (intros; lia). exact I.
Qed.
Lemma skipn_skipn' {A} : forall b a (l : list A), skipn a (skipn b l) = skipn (b + a) l.
Proof.
  induction b as [|b IH]; intros a l; [reflexivity|]. destruct l as [|x l]; [now rewrite !skipn_nil|].
  cbn [skipn Nat.add]. apply IH.
Qed.
(* the parts are a partition of the container *)
Theorem emip3_split_parts data s n t e : emip3_split false data = Ok (s, n, t, e) -> data = s ++ n ++ t ++ e.
Proof.
  destruct (length data <? 60)%nat eqn:E; [unfold emip3_split; rewrite E; discriminate|]. apply Nat.ltb_ge in E.
  rewrite emip3_split_ok by (assumption || discriminate). intros H. injection H as <- <- <- <-.
  rewrite <- (firstn_skipn 32 data) at 1. f_equal.
  rewrite <- (firstn_skipn 12 (skipn 32 data)) at 1. f_equal. rewrite skipn_skipn'.
  rewrite <- (firstn_skipn 16 (skipn (32 + 12) data)) at 1. f_equal. rewrite skipn_skipn'. reflexivity.
Qed.

Theorem wit_special_normal definite bs : normal (wit_special false definite bs).
Proof. unfold wit_special. normal_cases. Qed.
Theorem native_script_schema_normal {A} node (w : result A) : normal w -> normal (native_script_schema false node w).
Proof. intros H. unfold native_script_schema. normal_cases. Qed.

Definition ff8 : bytes := [255; 255; 255; 255; 255; 255; 255; 255].

(* reachable in the code as it is (dependency), through every reader of byte strings *)
Theorem huge_length_refuted :
  ce_bytes real_alloc (91 :: ff8) = Panic /\
  byron_from_bytes real_alloc false ([130; 216; 24; 91] ++ ff8 ++ [0]) = Panic /\
  third_element real_alloc false (91 :: ff8) = Panic /\
  read_bounded_bytes real_alloc (91 :: ff8) = Panic.
Proof. repeat split; vm_compute; reflexivity. Qed.

(* [refines r' r]: r' is r, or r' is a Panic.  With [lim = Some l] every decoder refines its [lim = None] version: the
   allocation of a declared length is the ONLY panic of the current code's models (all of which are total at None). *)
Definition refines {A} (r' r : result A) : Prop := r' = r \/ r' = Panic.

Lemma refines_refl {A} (r : result A) : refines r r.  Proof. left. reflexivity. Qed.
Lemma refines_bind {A B} (r' r : result A) (f' f : A -> result B) :
  refines r' r -> (forall a, refines (f' a) (f a)) -> refines (bind r' f') (bind r f).
Proof.
  intros [H|H] Hf; rewrite H; [|right; reflexivity]. destruct r as [a| | |]; cbn [bind]; [apply Hf| | |]; apply refines_refl.
Qed.
Lemma refines_total {A} (r' r : result A) : refines r' r -> normal r -> r' <> Panic -> normal r'.
Proof. intros [H|H] Hn Hp; [rewrite H; exact Hn|contradiction]. Qed.

Create HintDb rfn.

(* [refines] is a congruence for bind, if and match over the same scrutinee: [refines_cases] descends through the two
   terms in step and leaves the calls that take the allocation limit to the lemmas of the database [rfn] *)
Ltac refines_cases :=
  cbv beta iota zeta;
  repeat match goal with
         | |- refines ?x ?x => apply refines_refl
         | |- refines (bind _ _) (bind _ _) => apply refines_bind; [|intros ?]
         | |- refines (match ?x with _ => _ end) (match ?x with _ => _ end) => destruct x
         end;
  auto with rfn.

(* the one place where the limit is looked at *)
Lemma ce_bytes_refines l bs : refines (ce_bytes (Some l) bs) (ce_bytes None bs).
Proof.
  unfold ce_bytes. apply refines_bind; [apply refines_refl|]. intros [[n|] r]; [|apply refines_refl].
  cbn [alloc_lim]. destruct (n <=? l); cbn [bind]; [apply refines_refl|right; reflexivity].
Qed.
#[local] Hint Resolve ce_bytes_refines : rfn.

Lemma raw_with_crc32_refines l legacy bs : refines (raw_with_crc32 (Some l) legacy bs) (raw_with_crc32 None legacy bs).
Proof. unfold raw_with_crc32. refines_cases. Qed.
#[local] Hint Resolve raw_with_crc32_refines : rfn.

Lemma attrs_loop_refines l : forall k bs dp magic, refines (attrs_loop (Some l) k bs dp magic) (attrs_loop None k bs dp magic).
Proof. induction k as [|k IH]; intros bs dp magic; cbn [attrs_loop]; refines_cases. Qed.
#[local] Hint Resolve attrs_loop_refines : rfn.

Lemma attrs_dec_refines l bs : refines (attrs_dec (Some l) bs) (attrs_dec None bs).
Proof. unfold attrs_dec. refines_cases. Qed.
#[local] Hint Resolve attrs_dec_refines : rfn.

Lemma ext_addr_dec_refines l legacy bs : refines (ext_addr_dec (Some l) legacy bs) (ext_addr_dec None legacy bs).
Proof. unfold ext_addr_dec. refines_cases. Qed.
#[local] Hint Resolve ext_addr_dec_refines : rfn.

Lemma byron_from_bytes_refines l legacy bs : refines (byron_from_bytes (Some l) legacy bs) (byron_from_bytes None legacy bs).
Proof. unfold byron_from_bytes. refines_cases. Qed.
#[local] Hint Resolve byron_from_bytes_refines : rfn.

Lemma addr_from_bytes_refines l legacy ign data :
  refines (addr_from_bytes (Some l) legacy ign data) (addr_from_bytes None legacy ign data).
Proof. unfold addr_from_bytes. refines_cases. Qed.

Lemma addr_unsafe_refines l legacy b : refines (addr_unsafe (Some l) legacy b) (addr_unsafe None legacy b).
Proof.
  unfold addr_unsafe. destruct (addr_from_bytes_refines l legacy true b) as [H|H]; rewrite H; [apply refines_refl|right; reflexivity].
Qed.
#[local] Hint Resolve addr_unsafe_refines : rfn.
Lemma addr_deserialize_refines l legacy bs : refines (addr_deserialize (Some l) legacy bs) (addr_deserialize None legacy bs).
Proof. unfold addr_deserialize. refines_cases. Qed.
#[local] Hint Resolve addr_deserialize_refines : rfn.

Lemma third_element_refines l bs : refines (third_element (Some l) false bs) (third_element None false bs).
Proof. unfold third_element. refines_cases. Qed.
#[local] Hint Resolve third_element_refines : rfn.

Lemma legacy_output_refines {V} (dv : bytes -> result (V * bytes)) l bs :
  refines (legacy_output (Some l) dv false bs) (legacy_output None dv false bs).
Proof. unfold legacy_output. refines_cases. Qed.

Lemma read_bounded_bytes_refines l bs : refines (read_bounded_bytes (Some l) bs) (read_bounded_bytes None bs).
Proof. unfold read_bounded_bytes. refines_cases. Qed.
