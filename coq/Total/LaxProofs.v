(* C02: the lenient acceptor really is more lenient than the strict schema decoder: whatever [dec] accepts, [acc] accepts,
   leaving the same rest.  (The two ends of the sandwich  dec accepts => the library accepts => acc accepts;  both
   inclusions that mention the library are checked by the correspondence run.) *)
From CSL Require Import Base.Prelude Cbor.Head Cbor.HeadProofs Codec.Schema Codec.SchemaProofs Total.Lax Total.SchemaTotal.
Local Open Scope N_scope.

Lemma lhead_decode m bs a r : decode_head bs = Some (m, a, r) -> lhead m bs = Some (a, r).
Proof. intros H. unfold lhead. rewrite H, N.eqb_refl. reflexivity. Qed.
Lemma dec_head_m_lhead m bs n r : dec_head_m m bs = Ok (n, r) -> lhead m bs = Some (Arg n, r).
Proof. intros H. apply lhead_decode, dec_head_m_decode, H. Qed.
Lemma dec_head_m_luint bs n r : dec_head_m 0 bs = Ok (n, r) -> luint bs = Some (n, r).
Proof. intros H. unfold luint. rewrite (dec_head_m_lhead _ _ _ _ H). reflexivity. Qed.

Lemma take_bytes_ltake n (bs p r : bytes) : Schema.take_bytes n bs = Ok (p, r) -> ltake n bs = Some (p, r).
Proof.
  unfold Schema.take_bytes, ltake. destruct (N.of_nat (length bs) <? n) eqn:E; [discriminate|].
  unfold split_at. destruct (N.to_nat n <=? length bs)%nat; [|discriminate]. intros H. injection H as <- <-.
  destruct (n <=? N.of_nat (length bs)) eqn:E2; [reflexivity|lia].
Qed.

(* a definite string *)
Lemma lstring_definite m bs n r b r' : dec_head_m m bs = Ok (n, r) -> Schema.take_bytes n r = Ok (b, r') ->
  lstring m bs = Some (b, r').
Proof. intros E E2. unfold lstring. rewrite (dec_head_m_lhead _ _ _ _ E). exact (take_bytes_ltake _ _ _ _ E2). Qed.

(* an array head is not a tag: nothing to strip; a set tag in front of an array head is stripped *)
Lemma strip258_not_tag bs m a r : decode_head bs = Some (m, a, r) -> m <> 6 -> strip258 bs = bs.
Proof. intros H Hm. unfold strip258, lhead. rewrite H. destruct (m =? 6) eqn:E; [lia|reflexivity]. Qed.
Lemma lhead_arr bs a r : decode_head bs = Some (4, a, r) -> lhead 4 (strip258x2 bs) = Some (a, r).
Proof.
  intros H. unfold strip258x2. rewrite !(strip258_not_tag _ _ _ _ H) by discriminate. exact (lhead_decode _ _ _ _ H).
Qed.
Lemma lhead_set bs r0 a r : dec_head_m 6 bs = Ok (258, r0) -> decode_head r0 = Some (4, a, r) ->
  lhead 4 (strip258x2 bs) = Some (a, r).
Proof.
  intros H0 H. unfold strip258x2. replace (strip258 bs) with r0 by (unfold strip258; rewrite (dec_head_m_lhead _ _ _ _ H0); reflexivity).
  rewrite (strip258_not_tag _ _ _ _ H) by discriminate. exact (lhead_decode _ _ _ _ H).
Qed.

(* containers, for a parser [p] and an acceptor [q] that accepts what [p] accepts *)
Section Items.
  Context {A : Type} (p : parser A) (q : acceptor).
  Hypothesis Hq : forall bs x r, p bs = Ok (x, r) -> q bs = Some r.

  Lemma acc_n_of_dec_n : forall n bs xs rest, dec_n p n bs = Ok (xs, rest) -> acc_n q n bs = Some rest.
  Proof.
    induction n as [|n IH]; intros bs xs rest H; cbn [dec_n acc_n] in *.
    - injection H as _ <-. reflexivity.
    - bok H as [x r] E1. bok H as [xs' r'] E2. injection H as _ <-. rewrite (Hq _ _ _ E1). exact (IH _ _ _ E2).
  Qed.
  Lemma acc_items_of_dec_counted n bs xs rest : dec_counted p n bs = Ok (xs, rest) -> acc_items q (Arg n) bs = Some rest.
  Proof.
    intros H. unfold dec_counted in H. unfold acc_items.
    destruct (N.of_nat (length bs) <? n) eqn:E; [discriminate|]. destruct (n <=? N.of_nat (length bs)) eqn:E2; [|lia].
    exact (acc_n_of_dec_n _ _ _ _ H).
  Qed.
  Lemma acc_until_break_of_dec : forall fuel bs xs rest, dec_until_break p fuel bs = Ok (xs, rest) ->
    acc_until_break q fuel bs = Some rest.
  Proof.
    induction fuel as [|f IH]; intros bs xs rest H; cbn [dec_until_break acc_until_break] in *; [discriminate|].
    destruct bs as [|b r]; [discriminate|]. cbn [is_break]. destruct (b =? 255).
    - injection H as _ <-. reflexivity.
    - bok H as [x r'] E1. rewrite (Hq _ _ _ E1). destruct (length r' <? length (b :: r))%nat; [|discriminate].
      bok H as [xs' r''] E2. injection H as _ <-. exact (IH _ _ _ E2).
  Qed.
End Items.

Lemma lchunks_of_dec : forall fuel bs cs rest acc0, dec_until_break dec_chunk fuel bs = Ok (cs, rest) ->
  lchunks 2 (Some 64) fuel bs acc0 = Some (acc0 ++ concat cs, rest).
Proof.
  induction fuel as [|f IH]; intros bs cs rest acc0 H; cbn [dec_until_break lchunks] in *; [discriminate|].
  destruct bs as [|b r]; [discriminate|]. cbn [is_break]. destruct (b =? 255).
  - injection H as <- <-. cbn [concat]. rewrite app_nil_r. reflexivity.
  - bok H as [c r'] E1. destruct (length r' <? length (b :: r))%nat; [|discriminate].
    bok H as [cs' r''] E2. injection H as <- <-.
    unfold dec_chunk in E1. bok E1 as [n r0] E3. destruct (n <=? 64) eqn:E64; [|discriminate].
    rewrite (dec_head_m_lhead _ _ _ _ E3). destruct (64 <? n) eqn:E65; [lia|].
    rewrite (take_bytes_ltake _ _ _ _ E1), (IH _ _ _ (acc0 ++ c) E2). cbn [concat]. rewrite app_assoc. reflexivity.
Qed.

(* reading all the fields of a group is reading the group *)
Lemma acc_sl_n_all fs : forall bs, acc_sl_n fs (N.to_nat (slen fs)) bs = acc_sl fs bs.
Proof.
  induction fs as [|s r IH]; intros bs; [reflexivity|]. cbn [slen acc_sl acc_sl_n].
  replace (N.to_nat (1 + slen r)) with (S (N.to_nat (slen r))) by lia. destruct (acc s bs); [apply IH|reflexivity].
Qed.

(* a group with all its optional trailing fields *)
Lemma acc_group_opt_all pn base nf n r : n = base + nf -> acc_group_opt pn base nf (Arg n) r = pn (N.to_nat nf) r.
Proof.
  intros ->. unfold acc_group_opt. destruct ((base <=? base + nf) && (base + nf <=? base + nf)) eqn:E; [|lia].
  replace (base + nf - base) with nf by lia. reflexivity.
Qed.

(* one turn of the key loop of the acceptor *)
Lemma acc_fields_entry look c f seen bs k r (p : acceptor) r' :
  luint bs = Some (k, r) -> mem_N k seen = false -> look k = Some p -> p r = Some r' ->
  acc_fields look (Some (S c)) (S f) seen bs = acc_fields look (Some c) f (k :: seen) r'.
Proof. intros E1 E2 E3 E4. cbn [acc_fields]. rewrite E1, E2, E3, E4. reflexivity. Qed.

Definition LS (s : schema) : Prop := wfs s = true -> forall bs v rest, dec s bs = Ok (v, rest) -> acc s bs = Some rest.
Definition LSs (fs : slist) : Prop := wfs_sl fs = true -> forall bs l rest, dec_sl fs bs = Ok (l, rest) -> acc_sl fs bs = Some rest.
(* the strict key loop reads the keys in the order of the schema; the lenient one reads the same entries in the
   order of the input, with [rem] entries announced, [fuel] turns left and the keys in [seen] already read *)
Definition LSk (fs : klist) : Prop := wfs_kl fs = true -> keys_nodup fs = true ->
  forall (look : N -> option acceptor) rem bs l rem' rest fuel seen,
  (forall k, key_in k fs = true -> look k = acc_key fs k) ->
  (forall k, key_in k fs = true -> mem_N k seen = false) ->
  dec_kl fs rem bs = Ok (l, rem', rest) -> (N.to_nat rem < fuel)%nat ->
  exists fuel' seen',
    acc_fields look (Some (N.to_nat rem)) fuel seen bs = acc_fields look (Some (N.to_nat rem')) fuel' seen' rest /\
    (N.to_nat rem' < fuel')%nat /\ (forall k, mem_N k seen = true -> mem_N k seen' = true) /\
    (forall k, In k (req_keys fs) -> mem_N k seen' = true).
Definition LSv (alts : vlist) : Prop := wfs_vl alts = true -> forall idx n pos bs v rest, dec_vl alts idx n pos bs = Ok (v, rest) ->
  exists nf pn, acc_alt alts idx = Some (nf, pn) /\ n = 1 + nf /\ pn (N.to_nat nf) bs = Some rest.
Definition LSc (alts : clist) : Prop := forall tagged, wfs_cl tagged alts = true -> forall d pos bs v rest,
  dec_cl alts d pos bs = Ok (v, rest) -> acc_cl alts d bs = Some rest.

Lemma lax_all : (forall s, LS s) /\ (forall fs, LSs fs) /\ (forall fs, LSk fs) /\ (forall a, LSv a) /\ (forall a, LSc a).
Proof.
  apply schema_mutind; unfold LS, LSs, LSk, LSv, LSc;
    cbn [dec dec_sl dec_vl dec_cl acc acc_sl acc_alt acc_cl wfs wfs_sl wfs_kl wfs_vl wfs_cl keys_nodup].
  - (* SUint *) intros lim Hs bs v rest H. bok H as [n r] E.
    rewrite (dec_head_m_luint _ _ _ E). destruct (n <? lim); [|discriminate]. injection H as _ <-. reflexivity.
  - (* SNint *) intros _ bs v rest H. bok H as [n r] E. injection H as _ <-.
    rewrite (dec_head_m_lhead _ _ _ _ E). reflexivity.
  - (* SBytes *) intros lo hi Hs bs v rest H. bok H as [n r] E. destruct (_ && _); [|discriminate].
    bok H as [b r'] E2. injection H as _ <-. rewrite (lstring_definite _ _ _ _ _ _ E E2). reflexivity.
  - (* SText *) intros hi Hs bs v rest H. bok H as [n r] E. destruct (_ <=? _); [|discriminate].
    bok H as [b r'] E2. injection H as _ <-. rewrite (lstring_definite _ _ _ _ _ _ E E2). reflexivity.
  - (* SBool *) intros _ bs v rest H. destruct bs as [|b r]; [discriminate|].
    destruct (b =? 244); [injection H as _ <-; reflexivity|]. destruct (b =? 245); [injection H as _ <-; reflexivity|discriminate].
  - (* SArr: all the fields are there *) intros fs IH Hs bs v rest H. split_ands. bok H as [n r] E.
    destruct (n =? slen fs) eqn:En; [|discriminate]. apply N.eqb_eq in En. subst n. bok H as [l r'] E2. injection H as _ <-.
    rewrite (dec_head_m_lhead _ _ _ _ E), (acc_group_opt_all _ 0 (slen fs)), acc_sl_n_all by reflexivity.
    exact (IH ltac:(assumption) _ _ _ E2).
  - (* SMap *) intros fs IH Hs bs v rest H. split_ands. bok H as [n r] E. bok H as [[l rem] r'] E2.
    destruct (rem =? 0) eqn:Er; [|discriminate]. apply N.eqb_eq in Er. subst rem. injection H as _ <-.
    rewrite (dec_head_m_lhead _ _ _ _ E).
    pose proof (dec_kl_count _ _ _ _ _ _ E2) as Hc.
    destruct (n <=? N.of_nat (length r)) eqn:En; [|lia].
    destruct (IH ltac:(assumption) ltac:(assumption) (acc_key fs) n r l 0 r' (S (S (length r))) []
                (fun k _ => eq_refl) (fun k _ => eq_refl) E2 ltac:(lia)) as (fuel' & seen' & Eq & Hf & _ & Hreq).
    rewrite Eq. destruct fuel' as [|f']; [cbn in Hf; lia|]. cbn [acc_fields N.to_nat].
    assert (Hall : forallb (fun k => mem_N k seen') (req_keys fs) = true) by (apply forallb_forall; exact Hreq).
    rewrite Hall. reflexivity.
  - (* SVar *) intros alts IH Hs bs v rest H. bok H as [n r] E. bok H as [idx r'] E2.
    rewrite (dec_head_m_lhead _ _ _ _ E), (dec_head_m_luint _ _ _ E2).
    destruct (IH Hs _ _ _ _ _ _ H) as (nf & pn & Ea & -> & Hp). rewrite Ea, (acc_group_opt_all _ 1 nf) by reflexivity. exact Hp.
  - (* SArrOf *) intros lo s IH Hs bs v rest H. bok H as [n r] E. destruct (lo <=? n); [|discriminate].
    bok H as [l r'] E2. injection H as _ <-. rewrite (lhead_arr _ _ _ (dec_head_m_decode _ _ _ _ E)).
    exact (acc_items_of_dec_counted (dec s) (acc s) (IH Hs) _ _ _ _ E2).
  - (* SSetOf *) intros s IH Hs bs v rest H. bok H as [t r0] E.
    destruct (t =? 258) eqn:Et; [|discriminate]. apply N.eqb_eq in Et. subst t.
    bok H as [n r] E1. bok H as [l r'] E2. injection H as _ <-. rewrite (lhead_set _ _ _ _ E (dec_head_m_decode _ _ _ _ E1)).
    exact (acc_items_of_dec_counted (dec s) (acc s) (IH Hs) _ _ _ _ E2).
  - (* SMapOf *) intros lo ord k IHk v' IHv Hs bs v rest H. split_ands.
    bok H as [n r] E. destruct (lo <=? n); [|discriminate]. bok H as [l r'] E2. injection H as _ <-.
    rewrite (dec_head_m_lhead _ _ _ _ E). eapply acc_items_of_dec_counted; [|exact E2].
    intros b x r1 D. cbv beta in D. bok D as [x1 b1] E3. bok D as [y1 b2] E4. injection D as _ <-.
    rewrite (IHk ltac:(assumption) _ _ _ E3). exact (IHv ltac:(assumption) _ _ _ E4).
  - (* SNullable *) intros s IH Hs bs v rest H. split_ands. destruct bs as [|b r]; [discriminate|].
    destruct (b =? 246); [injection H as _ <-; reflexivity|]. exact (IH ltac:(assumption) _ _ _ H).
  - (* STag *) intros t s IH Hs bs v rest H. split_ands. bok H as [t' r] E.
    rewrite (dec_head_m_lhead _ _ _ _ E). destruct (t' =? t); [|discriminate]. exact (IH ltac:(assumption) _ _ _ H).
  - (* SInBytes *) intros s IH Hs bs v rest H. bok H as [n r] E. bok H as [b r'] E2.
    destruct (dec s b) as [[v0 [|? ?]]| | |] eqn:Ed; try discriminate. injection H as _ <-.
    rewrite (lstring_definite _ _ _ _ _ _ E E2), (IH Hs _ _ _ Ed). reflexivity.
  - (* SChoice *) intros alts IH Hs bs v rest H. destruct (peek_major bs) as [m|]; [|discriminate].
    rewrite (IH false Hs _ _ _ _ _ H). reflexivity.
  - (* STagChoice *) intros alts IH Hs bs v rest H. bok H as [t r] E.
    rewrite (dec_head_m_lhead _ _ _ _ E). exact (IH true Hs _ _ _ _ _ H).
  - (* SArrAny *) intros s IH Hs bs v rest H. split_ands.
    destruct (decode_head bs) as [[[m [n|]] r]|] eqn:E; try discriminate;
      (destruct (m =? 4) eqn:Em; [|discriminate]); apply N.eqb_eq in Em; subst m;
      bok H as [l r'] E2; injection H as _ <-; rewrite (lhead_arr _ _ _ E).
    + exact (acc_items_of_dec_counted (dec s) (acc s) (IH ltac:(assumption)) _ _ _ _ E2).
    + exact (acc_until_break_of_dec (dec s) (acc s) (IH ltac:(assumption)) _ _ _ _ E2).
  - (* SBBytes *) intros _ bs v rest H.
    destruct (decode_head bs) as [[[m [n|]] r]|] eqn:E; try discriminate.
    + destruct ((m =? 2) && (n <=? 64)) eqn:Ec; [|discriminate]. apply andb_prop in Ec. destruct Ec as [Em E64].
      apply N.eqb_eq in Em. subst m. bok H as [b r'] E2. injection H as _ <-.
      rewrite (lhead_decode _ _ _ _ E), E64, (take_bytes_ltake _ _ _ _ E2). reflexivity.
    + destruct (m =? 2) eqn:Em; [|discriminate]. apply N.eqb_eq in Em. subst m. bok H as [cs r'] E2. injection H as _ <-.
      rewrite (lhead_decode _ _ _ _ E), (lchunks_of_dec _ _ _ _ [] E2). reflexivity.
  - (* SNamed *) intros id s IH Hs bs v rest H. exact (IH Hs _ _ _ H).
  - (* SArrOpt *) intros fs IHfs o IHo Hs bs v rest H. split_ands. bok H as [n r] E.
    rewrite (dec_head_m_lhead _ _ _ _ E). destruct (n =? slen fs).
    + bok H as [l r'] E2. injection H as _ <-. exact (IHfs ltac:(assumption) _ _ _ E2).
    + destruct (n =? 1 + slen fs); [|discriminate]. bok H as [l r1] E2. bok H as [x r2] E3. injection H as _ <-.
      rewrite (IHfs ltac:(assumption) _ _ _ E2). exact (IHo ltac:(assumption) _ _ _ E3).
  - (* SNil *) intros _ bs l rest H. injection H as _ <-. reflexivity.
  - (* SCons *) intros s IH r IHr Hs bs l rest H. split_ands.
    bok H as [v b1] E. bok H as [l' b2] E2. injection H as _ <-.
    rewrite (IH ltac:(assumption) _ _ _ E). exact (IHr ltac:(assumption) _ _ _ E2).
  - (* KNil *) intros _ _ look rem bs l rem' rest fuel seen _ _ H Hf. cbn [dec_kl] in H. injection H as _ <- <-.
    exists fuel, seen. split; [reflexivity|]. split; [exact Hf|]. split; [auto|]. intros k [].
  - (* KCons *) intros k p s IH r IHr Hs Hk look rem bs l rem' rest fuel seen Hlook Hfresh H Hf.
    split_ands.
    assert (Hin : forall k', key_in k' r = true -> key_in k' (KCons k p s r) = true /\ (k' =? k) = false).
    { intros k' Hk'. cbn [key_in]. rewrite Hk', orb_true_r. split; [reflexivity|]. apply (key_fresh_in k k' r); assumption. }
    assert (Hlook_r : forall k', key_in k' r = true -> look k' = acc_key r k').
    { intros k' Hk'. destruct (Hin k' Hk') as [I1 I2]. rewrite (Hlook k' I1). cbn [acc_key]. rewrite I2. reflexivity. }
    assert (Hk0 : key_in k (KCons k p s r) = true) by (cbn [key_in]; rewrite N.eqb_refl; reflexivity).
    destruct (dec_kl_cons_inv _ _ _ _ _ _ _ _ _ H) as [(b1 & v & b2 & l' & R0 & Ek & E & _ & E2 & _)|(l' & Hp & E2 & _)].
    + (* the entry is read: one turn of the lenient loop *)
      destruct fuel as [|f]; [lia|].
      assert (Hfr : forall k', key_in k' r = true -> mem_N k' (k :: seen) = false).
      { intros k' Hk'. destruct (Hin k' Hk') as [I1 I2]. cbn [mem_N]. rewrite N.eqb_sym, I2. exact (Hfresh k' I1). }
      destruct (IHr ltac:(assumption) ltac:(assumption) look (rem - 1) b2 l' rem' rest f (k :: seen) Hlook_r Hfr E2 ltac:(lia))
        as (fuel' & seen' & Eq & Hf' & Hmono & Hreq).
      assert (Hk1 : mem_N k seen' = true) by (apply Hmono; cbn [mem_N]; rewrite N.eqb_refl; reflexivity).
      exists fuel', seen'. split; [|split; [exact Hf'|split]].
      * replace (N.to_nat rem) with (S (N.to_nat (rem - 1))) by lia. rewrite <- Eq.
        apply (acc_fields_entry _ _ _ _ _ _ _ (acc s) _ (dec_head_m_luint _ _ _ Ek) (Hfresh k Hk0)).
        -- rewrite (Hlook k Hk0). cbn [acc_key]. rewrite N.eqb_refl. reflexivity.
        -- exact (IH ltac:(assumption) _ _ _ E).
      * intros k' Hm. apply Hmono. cbn [mem_N]. rewrite Hm. apply orb_true_r.
      * intros k' Hk'. cbn [req_keys] in Hk'. destruct p; [destruct Hk' as [<-|Hk']|..]; auto.
    + (* the key is skipped: it is optional *)
      destruct (IHr ltac:(assumption) ltac:(assumption) look rem bs l' rem' rest fuel seen Hlook_r
                  (fun k' Hk' => Hfresh k' (proj1 (Hin k' Hk'))) E2 Hf) as (fuel' & seen' & Eq & Hf' & Hmono & Hreq).
      exists fuel', seen'. destruct p; [contradiction|..]; cbn [req_keys]; auto.
  - (* ANil *) intros _ idx n pos bs v rest H. discriminate.
  - (* ACons *) intros i fs IH r IHr Hs idx n pos bs v rest H. split_ands. destruct (idx =? i).
    + destruct (n =? 1 + slen fs) eqn:En; [|discriminate]. apply N.eqb_eq in En. bok H as [l b1] E. injection H as _ <-.
      exists (slen fs), (acc_sl_n fs). split; [reflexivity|]. split; [exact En|]. rewrite acc_sl_n_all. exact (IH ltac:(assumption) _ _ _ E).
    + exact (IHr ltac:(assumption) _ _ _ _ _ _ H).
  - (* CNil *) intros tagged _ d pos bs v rest H. discriminate.
  - (* CCons *) intros d0 s IH r IHr tagged Hs d pos bs v rest H. split_ands. destruct (d =? d0).
    + bok H as [v0 b1] E. injection H as _ <-. exact (IH ltac:(assumption) _ _ _ E).
    + exact (IHr tagged ltac:(assumption) _ _ _ _ _ H).
Qed.
