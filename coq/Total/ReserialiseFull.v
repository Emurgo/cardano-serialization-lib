(* C02: the re-serialisation of what the schema decoder returns for ANY accepted input (non-minimal heads, unsorted or
   duplicate map keys, arbitrary chunking, anything behind the item) is one well-formed CBOR data item, for EVERY schema.
   Premises: the input is made of bytes (< 256; otherwise the argument of a head may exceed 64 bits) and is shorter than
   2^60 bytes (a re-encoding is at most nine times as long as the input it was decoded from, Total/SchemaTotal.v, so
   that the length of an embedded `bytes .cbor` item fits a CBOR head). *)
From CSL Require Import Base.Prelude Cbor.Head Cbor.HeadProofs Codec.Schema Codec.SchemaProofs
  Cbor.Item Total.SchemaTotal Total.ItemLink.
Local Open Scope N_scope.

Definition lim60 : N := 1152921504606846976.

(* the inputs the theorem speaks about; every part of such an input is one again *)
Definition inp (bs : bytes) : Prop := bytes_ok bs /\ N.of_nat (length bs) < lim60.

Lemma binv_inp : binv inp.
Proof.
  split; [intros bs H; exact (proj1 H)|]. intros a b [Hb Hl]. apply Forall_app in Hb. rewrite app_length in Hl.
  unfold inp. split; (split; [tauto|lia]).
Qed.

(* what a parser returns on an input came out of a run of it *)
Lemma psound_run {A} {p : Schema.parser A} {P} :
  psound inp p P -> psound inp p (fun x => P x /\ exists bs r, p bs = Ok (x, r)).
Proof.
  intros Hp bs x r Hb H. destruct (Hp _ _ _ Hb H) as [Px Hr]. split; [split; [exact Px|exists bs, r; exact H]|exact Hr].
Qed.

(* No premise on the schema: every count and every key that the writer puts into a head was read out of a head. *)
Definition GS (s : schema) : Prop := psound inp (dec s) (fun v => parses (enc s v)).
Definition GSs (fs : slist) : Prop := psound inp (dec_sl fs) (fun l => items (slen fs) (enc_sl fs l)).
Definition GSk (fs : klist) : Prop := forall rem,
  psound inp (dec_kl fs rem) (fun lr => items (2 * count_kl fs (fst lr)) (enc_kl fs (fst lr))).
Definition GSv (alts : vlist) : Prop := forall idx n pos, idx < two64 -> n < two64 ->
  psound inp (dec_vl alts idx n pos) (fun v => exists i l, v = VVar (pos + i) l /\ parses (enc_vl alts i l)).
Definition GSc (alts : clist) : Prop := forall (tagged : bool) d pos, (if tagged then d < two64 else True) ->
  psound inp (dec_cl alts d pos) (fun v => exists i v', v = VAlt (pos + i) v' /\ parses (enc_cl tagged alts i v')).

Lemma reserialise_all : (forall s, GS s) /\ (forall fs, GSs fs) /\ (forall fs, GSk fs) /\ (forall a, GSv a) /\ (forall a, GSc a).
Proof.
  apply schema_mutind; unfold GS, GSs, GSk, GSv, GSc.
  - (* SUint *) intros lim. cbn [dec]. apply (psound_bind (dec_head_m_sound binv_inp 0)). intros n Hn. apply psound_guard.
    intros _. apply psound_ret. apply parses_uint, Hn.
  - (* SNint *) cbn [dec]. apply (psound_bind (dec_head_m_sound binv_inp 1)). intros n Hn. apply psound_ret.
    apply parses_nint, Hn.
  - (* SBytes *) intros lo hi. cbn [dec]. apply (psound_bind (dec_head_m_sound binv_inp 2)). intros n Hn. apply psound_guard.
    intros _. apply (psound_bind (take_bytes_sound binv_inp n)). intros b [_ L]. apply psound_ret.
    apply parses_bstr. unfold len. lia.
  - (* SText *) intros hi. cbn [dec]. apply (psound_bind (dec_head_m_sound binv_inp 3)). intros n Hn. apply psound_guard.
    intros _. apply (psound_bind (take_bytes_sound binv_inp n)). intros b [_ L]. apply psound_ret.
    apply parses_tstr. unfold len. lia.
  - (* SBool *) intros bs v rest Hi H. cbn [dec] in H. destruct bs as [|b r]; [discriminate|]. apply (binv_tail binv_inp) in Hi.
    destruct (b =? 244); [injection H as <- <-; split; [exact (parses_simple 20 eq_refl)|exact Hi]|].
    destruct (b =? 245); [injection H as <- <-; split; [exact (parses_simple 21 eq_refl)|exact Hi]|discriminate].
  - (* SArr *) intros fs IH. cbn [dec]. apply (psound_bind (dec_head_m_sound binv_inp 4)). intros n Hn. apply psound_guard.
    intros En. apply (psound_bind IH). intros l P. apply psound_ret. apply parses_array; [exact P|lia].
  - (* SMap: the key loop has read as many entries as the writer counts, at most the number in the head *)
    intros fs IH. cbn [dec]. apply (psound_bind (dec_head_m_sound binv_inp 5)). intros n Hn.
    apply (psound_bind (psound_run (IH n))). intros [l rem] (P & bs & r & E). apply psound_guard. intros _. apply psound_ret.
    apply dec_kl_count in E. apply parses_map; [exact P|lia].
  - (* SVar *) intros alts IH. cbn [dec]. apply (psound_bind (dec_head_m_sound binv_inp 4)). intros n Hn.
    apply (psound_bind (dec_head_m_sound binv_inp 0)). intros idx Hidx.
    apply (psound_weaken (IH idx n O Hidx Hn)). intros v (i & l & -> & P). exact P.
  - (* SArrOf *) intros lo s IH. cbn [dec]. apply (psound_bind (dec_head_m_sound binv_inp 4)). intros n Hn. apply psound_guard.
    intros _. apply (psound_bind (dec_counted_sound IH n)). intros l [P L]. apply psound_ret.
    apply parses_array; [apply items_map, P|lia].
  - (* SSetOf *) intros s IH. cbn [dec]. apply (psound_bind (dec_head_m_sound binv_inp 6)). intros t _. apply psound_guard.
    intros _. apply (psound_bind (dec_head_m_sound binv_inp 4)). intros n Hn.
    apply (psound_bind (dec_counted_sound IH n)). intros l [P L]. apply psound_ret.
    apply parses_tag; [unfold two64; lia|]. apply parses_array; [apply items_map, P|lia].
  - (* SMapOf *) intros lo ord k IHk v' IHv. cbn [dec]. apply (psound_bind (dec_head_m_sound binv_inp 5)). intros n Hn.
    apply psound_guard. intros _.
    assert (Hp : psound inp (fun b => let* '(x, b1) := dec k b in let* '(y, b2) := dec v' b1 in Ok ((x, y), b2))
                        (fun kv => parses (enc k (fst kv)) /\ parses (enc v' (snd kv)))).
    { apply (psound_bind IHk). intros x Px. apply (psound_bind IHv). intros y Py. apply psound_ret. split; assumption. }
    apply (psound_bind (dec_counted_sound Hp n)). intros l [P L]. apply psound_ret. apply parses_map; [|lia].
    exact (items_map2 (fun kv => enc k (fst kv)) (fun kv => enc v' (snd kv)) l P).
  - (* SNullable *) intros s IH bs v rest Hi H. cbn [dec] in H. destruct bs as [|b r]; [discriminate|]. destruct (b =? 246).
    + injection H as <- <-. split; [exact (parses_simple 22 eq_refl)|exact (binv_tail binv_inp _ _ Hi)].
    + destruct (IH _ _ _ Hi H) as [P Hrest]. split; [|exact Hrest].
      destruct v; cbn [enc]; try exact P. exact (parses_simple 22 eq_refl).
  - (* STag *) intros t s IH. cbn [dec]. apply (psound_bind (dec_head_m_sound binv_inp 6)). intros t' Ht. apply psound_guard.
    intros Et. apply (psound_weaken IH). intros v P. apply parses_tag; [lia|exact P].
  - (* SInBytes: the content is not looked at, its length fits a head *)
    intros s IH. cbn [dec]. apply (psound_bind (dec_head_m_sound binv_inp 2)). intros n _.
    apply (psound_bind (take_bytes_sound binv_inp n)). intros b [[_ Hb] _] r0 v rest Hr H.
    destruct (dec s b) as [[v0 [|? ?]]| | |] eqn:Ed; try discriminate. injection H as <- <-.
    split; [|exact Hr]. apply dec_size in Ed. cbn [enc]. apply parses_bstr. unfold len, lim60, two64 in *. lia.
  - (* SChoice *) intros alts IH bs v rest Hi H. cbn [dec] in H. destruct (peek_major bs) as [m|]; [|discriminate].
    destruct (IH false _ _ I _ _ _ Hi H) as [(i & v' & -> & P) Hrest]. split; assumption.
  - (* STagChoice *) intros alts IH. cbn [dec]. apply (psound_bind (dec_head_m_sound binv_inp 6)). intros t Ht.
    apply (psound_weaken (IH true t O Ht)). intros v (i & v' & -> & P). exact P.
  - (* SArrAny *) intros s IH. cbn [dec]. apply (psound_head binv_inp). intros m [n|] Hn; apply psound_guard; intros _.
    + apply (psound_bind (dec_counted_sound IH n)). intros l [P L]. apply psound_ret. specialize (Hn n eq_refl).
      apply parses_array; [apply items_map, P|lia].
    + apply (psound_bind (fun bs => dec_until_break_sound (binv_tail binv_inp) IH _ bs)). intros l P. apply psound_ret.
      eapply parses_array_indef, items_map, P.
  - (* SBBytes *) cbn [dec]. apply (psound_head binv_inp). intros m [n|] _; apply psound_guard; intros _.
    + apply (psound_bind (take_bytes_sound binv_inp n)). intros b _. apply psound_ret. apply parses_bbytes.
    + apply (psound_bind (fun bs => dec_until_break_sound (binv_tail binv_inp) (dec_chunk_sound binv_inp) _ bs)).
      intros cs _. apply psound_ret. apply parses_bbytes.
  - (* SNamed *) intros id s IH. exact IH.
  - (* SArrOpt *) intros fs IHfs o IHo. cbn [dec]. apply (psound_bind (dec_head_m_sound binv_inp 4)). intros n Hn.
    destruct (n =? slen fs) eqn:En; [|apply psound_guard; intros En1]; apply (psound_bind IHfs); intros l P.
    + apply psound_ret. apply parses_array; [exact P|lia].
    + apply (psound_bind IHo). intros x Px. apply psound_ret. apply parses_array; [apply items_snoc; assumption|lia].
  - (* SNil *) apply psound_ret. exact items_nil.
  - (* SCons *) intros s IH r IHr. cbn [dec_sl]. apply (psound_bind IH). intros v P. apply (psound_bind IHr). intros l Pl.
    apply psound_ret. apply items_cons; assumption.
  - (* KNil *) intros rem. apply psound_ret. exact items_nil.
  - (* KCons *) intros k p s IH r IHr rem. cbn [dec_kl]. apply (psound_key binv_inp).
    + intros Hk. apply (psound_bind IH). intros v P.
      destruct (match p with OptNE => is_empty_val v | _ => false end) eqn:Ee; [apply psound_err|].
      apply (psound_bind (IHr (rem - 1))). intros [l rem'] Pl. apply psound_ret.
      cbn [enc_kl count_kl fst]. rewrite (present_kept p v Ee). apply items_entry; assumption.
    + destruct p; [apply psound_err| |]; apply (psound_bind (IHr rem)); intros [l rem'] Pl; apply psound_ret;
        cbn [enc_kl count_kl present app fst]; rewrite N.add_0_l; exact Pl.
  - (* ANil *) intros idx n pos _ _. apply psound_err.
  - (* ACons *) intros i0 fs IH r IHr idx n pos Hidx Hn. cbn [dec_vl]. destruct (idx =? i0) eqn:Ei.
    + apply psound_guard. intros En. apply (psound_bind IH). intros l P. apply psound_ret.
      exists O, l. rewrite Nat.add_0_r. split; [reflexivity|]. cbn [enc_vl]. apply parses_array; [|lia].
      apply items_cons; [apply parses_uint; lia|exact P].
    + apply (psound_weaken (IHr idx n (S pos) Hidx Hn)). intros v (i & l & -> & P).
      exists (S i), l. rewrite Nat.add_succ_r. split; [reflexivity|exact P].
  - (* CNil *) intros tagged d pos _. apply psound_err.
  - (* CCons *) intros d0 s IH r IHr tagged d pos Hd. cbn [dec_cl]. destruct (d =? d0) eqn:Ed.
    + apply (psound_bind IH). intros v0 P. apply psound_ret. exists O, v0. rewrite Nat.add_0_r. split; [reflexivity|].
      cbn [enc_cl]. destruct tagged; [apply parses_tag; [lia|exact P]|exact P].
    + apply (psound_weaken (IHr tagged d (S pos) Hd)). intros v (i & v' & -> & P).
      exists (S i), v'. rewrite Nat.add_succ_r. split; [reflexivity|exact P].
Qed.

(* whatever the schema decoder accepts re-serialises to one well-formed data item *)
Theorem schema_reserialise_full s bs v rest :
  bytes_ok bs -> N.of_nat (length bs) < lim60 -> dec s bs = Ok (v, rest) -> item_wf (enc s v) = true.
Proof. intros Hb Hl H. exact (parses_item_wf _ (proj1 (proj1 reserialise_all s bs v rest (conj Hb Hl) H))). Qed.

(* and the re-serialisation is at most nine times as long as the input it was decoded from *)
Theorem schema_reserialise_size s bs v rest :
  wfs s = true -> bytes_ok bs -> N.of_nat (length bs) < lim60 -> dec s bs = Ok (v, rest) ->
  (length (enc s v) + 9 * length rest <= 9 * length bs)%nat.
Proof. intros _ _ _ H. exact (dec_size s bs v rest H). Qed.
