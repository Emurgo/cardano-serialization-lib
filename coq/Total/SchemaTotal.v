(* C02, schema layer: what holds of the schema-directed decoder of Codec/Schema.v for EVERY schema (well-formed or
   not) and EVERY input.  It is total over a two-valued outcome: it never answers Panic and its only fuelled loop
   (items until a break) never runs out of the fuel it is given.  When it accepts it has consumed at least one byte,
   and what it returns re-encodes to at most nine times the bytes it consumed. *)
From CSL Require Import Base.Prelude Base.Facts Cbor.Head Cbor.HeadProofs Codec.Schema Codec.SchemaProofs.
Local Open Scope N_scope.

(* a normal outcome: a value or an error value *)
Definition normal {A} (r : result A) : Prop :=
  match r with Ok _ | Err => True | Panic | OutOfFuel => False end.

Lemma normal_iff {A} (r : result A) : normal r <-> r <> Panic /\ r <> OutOfFuel.
Proof. destruct r; cbn; split; try tauto; try (intros [H1 H2]; congruence); intros _; split; discriminate. Qed.

Lemma normal_bind {A B} (r : result A) (f : A -> result B) :
  normal r -> (forall a, normal (f a)) -> normal (bind r f).
Proof. destruct r; cbn; auto; tauto. Qed.

Create HintDb nrm.

(* [normal] is closed under bind, if and match and holds of Ok and Err: [normal_cases] descends through a term built
   from these and leaves the calls it meets to the lemmas of the database [nrm] and to the hypotheses *)
Ltac normal_cases :=
  cbv beta iota zeta;
  repeat match goal with
         | |- normal (Ok _) => exact I
         | |- normal Err => exact I
         | |- normal (bind _ _) => apply normal_bind; [|intros ?]
         | |- normal (match ?x with _ => _ end) => destruct x
         end;
  auto with nrm.

Lemma dec_head_m_normal m bs : normal (dec_head_m m bs).
Proof. unfold dec_head_m. normal_cases. Qed.

Lemma take_bytes_normal n bs : normal (take_bytes n bs).
Proof. unfold take_bytes. normal_cases. Qed.

Lemma dec_n_normal {A} (p : parser A) : (forall bs, normal (p bs)) -> forall n bs, normal (dec_n p n bs).
Proof. intros Hp. induction n as [|n IH]; intros bs; cbn [dec_n]; normal_cases. Qed.

Lemma dec_counted_normal {A} (p : parser A) : (forall bs, normal (p bs)) -> forall n bs, normal (dec_counted p n bs).
Proof. intros Hp n bs. unfold dec_counted. destruct (_ <? _); [exact I|]. apply dec_n_normal, Hp. Qed.

(* the fuel is enough because every turn of the loop must make progress *)
Lemma dec_until_break_normal {A} (p : parser A) : (forall bs, normal (p bs)) ->
  forall fuel bs, (length bs < fuel)%nat -> normal (dec_until_break p fuel bs).
Proof.
  intros Hp. induction fuel as [|f IH]; intros bs Hf; [lia|]. cbn [dec_until_break].
  destruct bs as [|b r]; [exact I|]. destruct (b =? 255); [exact I|].
  apply normal_bind; [apply Hp|]. intros [x r'].
  destruct (length r' <? length (b :: r))%nat eqn:El; [|exact I].
  apply Nat.ltb_lt in El. apply normal_bind; [apply IH; lia|]. intros [xs r'']. exact I.
Qed.

#[export] Hint Resolve dec_head_m_normal take_bytes_normal dec_counted_normal : nrm.

Lemma dec_chunk_normal bs : normal (dec_chunk bs).
Proof. unfold dec_chunk. normal_cases. Qed.

Definition NS (s : schema) : Prop := forall bs, normal (dec s bs).
Definition NSs (fs : slist) : Prop := forall bs, normal (dec_sl fs bs).
Definition NSk (fs : klist) : Prop := forall rem bs, normal (dec_kl fs rem bs).
Definition NSv (alts : vlist) : Prop := forall idx n pos bs, normal (dec_vl alts idx n pos bs).
Definition NSc (alts : clist) : Prop := forall d pos bs, normal (dec_cl alts d pos bs).

(* no clause of the decoder mentions Panic, and OutOfFuel only comes out of the loop until a break, which its two callers ([SArrAny], [SBBytes])
   give one more unit of fuel than there are bytes *)
Lemma dec_normal_all :
  (forall s, NS s) /\ (forall fs, NSs fs) /\ (forall fs, NSk fs) /\ (forall a, NSv a) /\ (forall a, NSc a).
Proof.
  apply schema_mutind; unfold NS, NSs, NSk, NSv, NSc; intros; cbn [dec dec_sl dec_kl dec_vl dec_cl]; normal_cases.
  - (* SMapOf: a key, then a value *) apply dec_counted_normal. intros bs'. normal_cases.
  - (* SArrAny, until the break *) apply dec_until_break_normal; [assumption|lia].
  - (* SBBytes, chunks until the break *) apply dec_until_break_normal; [exact dec_chunk_normal|lia].
Qed.

Theorem schema_dec_normal s bs : normal (dec s bs).
Proof. exact (proj1 dec_normal_all s bs). Qed.

(* H : (let* p := e in k) = Ok y   becomes   E : e = Ok p   and   H : k = Ok y *)
Tactic Notation "bok" hyp(H) "as" simple_intropattern(p) ident(E) :=
  apply bind_ok in H; destruct H as (p & E & H); cbv beta iota in H.

(* the entry of a map structure under the first key of the schema is there, or the key is optional and skipped *)
Lemma dec_kl_cons_inv k p s r rem bs l rem' rest : dec_kl (KCons k p s r) rem bs = Ok (l, rem', rest) ->
  (exists b1 v b2 l', rem <> 0 /\ dec_head_m 0 bs = Ok (k, b1) /\ dec s b1 = Ok (v, b2) /\
     (match p with OptNE => is_empty_val v | _ => false end) = false /\
     dec_kl r (rem - 1) b2 = Ok (l', rem', rest) /\ l = Some v :: l') \/
  (exists l', p <> Req /\ dec_kl r rem bs = Ok (l', rem', rest) /\ l = None :: l').
Proof.
  intros H. cbn [dec_kl] in H.
  match type of H with (match ?h with _ => _ end) = _ => destruct h as [b1|] eqn:Eh end.
  - left. destruct (rem =? 0) eqn:E0; [discriminate|]. apply N.eqb_neq in E0.
    destruct (dec_head_m 0 bs) as [[k' b1']| | |] eqn:Ek; try discriminate.
    destruct (k' =? k) eqn:Ekk; [|discriminate]. apply N.eqb_eq in Ekk. subst k'. injection Eh as ->.
    bok H as [v b2] E. destruct (match p with OptNE => is_empty_val v | _ => false end) eqn:Ee; [discriminate|].
    bok H as [[l' rem1] b3] E2. injection H as <- <- <-. exists b1, v, b2, l'. auto 8.
  - right. destruct p; [discriminate| |]; (bok H as [[l' rem1] b3] E2; injection H as <- <- <-; exists l'; split; [discriminate|auto]).
Qed.

Lemma head_len9 m n : (1 <= length (encode_head m n) <= 9)%nat.
Proof. pose proof (head_length m n). pose proof (head_size_bounds n). lia. Qed.

(* [out] can be written for what was read between [bs] and [rest], at nine output bytes per input byte *)
Definition within (out bs rest : bytes) : Prop := (length out + 9 * length rest <= 9 * length bs)%nat.

Lemma within_nil bs : within [] bs bs.
Proof. unfold within. cbn. lia. Qed.
Lemma within_app a b bs r rest : within a bs r -> within b r rest -> within (a ++ b) bs rest.
Proof. unfold within. rewrite app_length. lia. Qed.
(* bytes copied; something written for a part of the input *)
Lemma within_copy b r : within b (b ++ r) r.
Proof. unfold within. rewrite app_length. lia. Qed.
Lemma within_frame out b r : within out b [] -> within out (b ++ r) r.
Proof. unfold within. rewrite app_length. cbn [length]. lia. Qed.
(* reading a head pays for writing one, and leaves less *)
Lemma head_then bs m a r m' n' b rest : decode_head bs = Some (m, a, r) -> within b r rest ->
  within (encode_head m' n' ++ b) bs rest /\ (length rest < length bs)%nat.
Proof.
  intros H W. apply decode_head_shorter in H. pose proof (head_len9 m' n'). unfold within in *. rewrite app_length. lia.
Qed.
Lemma head_then_m m bs n r m' n' b rest : dec_head_m m bs = Ok (n, r) -> within b r rest ->
  within (encode_head m' n' ++ b) bs rest /\ (length rest < length bs)%nat.
Proof. intros H. exact (head_then _ _ _ _ _ _ _ _ (dec_head_m_decode _ _ _ _ H)). Qed.
Lemma head_only m bs n r m' n' : dec_head_m m bs = Ok (n, r) ->
  within (encode_head m' n') bs r /\ (length r < length bs)%nat.
Proof. intros H. rewrite <- (app_nil_r (encode_head m' n')). exact (head_then_m _ _ _ _ _ _ _ _ H (within_nil r)). Qed.
Lemma dec_head_m_shorter m bs n r : dec_head_m m bs = Ok (n, r) -> (length r < length bs)%nat.
Proof. intros H. exact (proj2 (head_only _ _ _ _ 0 0 H)). Qed.

(* sequences of items read by one parser, the item [x] written as [e x] *)
Section Lists.
  Context {A : Type} (p : parser A) (e : A -> bytes).
  Hypothesis Hp : forall bs x r, p bs = Ok (x, r) -> within (e x) bs r.

  Lemma dec_n_within : forall n bs xs rest, dec_n p n bs = Ok (xs, rest) -> within (concat (map e xs)) bs rest.
  Proof.
    induction n as [|n IH]; intros bs xs rest H; cbn [dec_n] in H.
    - injection H as <- <-. apply within_nil.
    - bok H as [x r] E1. bok H as [xs' r'] E2. injection H as <- <-. exact (within_app _ _ _ _ _ (Hp _ _ _ E1) (IH _ _ _ E2)).
  Qed.

  Lemma dec_counted_within n bs xs rest : dec_counted p n bs = Ok (xs, rest) -> within (concat (map e xs)) bs rest.
  Proof. unfold dec_counted. destruct (_ <? _); [discriminate|]. apply dec_n_within. Qed.

  (* the break that is read pays for the break that is written *)
  Lemma dec_until_break_within : forall fuel bs xs rest, dec_until_break p fuel bs = Ok (xs, rest) ->
    within (concat (map e xs) ++ [255]) bs rest.
  Proof.
    induction fuel as [|f IH]; intros bs xs rest H; cbn [dec_until_break] in H; [discriminate|].
    destruct bs as [|b r]; [discriminate|]. destruct (b =? 255).
    - injection H as <- <-. unfold within. cbn. lia.
    - bok H as [x r'] E1. destruct (_ <? _)%nat; [|discriminate]. bok H as [xs' r''] E2. injection H as <- <-.
      cbn [map concat]. rewrite <- app_assoc. exact (within_app _ _ _ _ _ (Hp _ _ _ E1) (IH _ _ _ E2)).
  Qed.
End Lists.

(* chunks: what is read is at least what the chunks hold; what is written is at most three times that *)
Lemma dec_chunks_consumed : forall fuel bs cs rest, dec_until_break dec_chunk fuel bs = Ok (cs, rest) ->
  (length (concat cs) + length rest < length bs)%nat.
Proof.
  induction fuel as [|f IH]; intros bs cs rest H; cbn [dec_until_break] in H; [discriminate|].
  destruct bs as [|b r]; [discriminate|]. destruct (b =? 255).
  - injection H as <- <-. cbn. lia.
  - bok H as [c r'] E1. destruct (_ <? _)%nat; [|discriminate]. bok H as [cs' r''] E2. injection H as <- <-.
    apply IH in E2. unfold dec_chunk in E1. bok E1 as [n r0] E3. destruct (n <=? 64); [|discriminate].
    apply dec_head_m_shorter in E3. apply take_bytes_inv in E1 as [-> _]. cbn [concat]. rewrite app_length in *. lia.
Qed.
Lemma head_len2 m n : n < 256 -> (length (encode_head m n) <= 2)%nat.
Proof.
  intros H. pose proof (head_length m n) as L. unfold head_size in L. destruct (n <? 24); [lia|]. destruct (n <? 256) eqn:E; lia.
Qed.
Lemma enc_chunk_len c : (1 <= length c <= 64)%nat -> (length (enc_chunk c) <= 3 * length c)%nat.
Proof.
  intros Hc. unfold enc_chunk. rewrite app_length. pose proof (head_len2 2 (N.of_nat (length c)) ltac:(lia)). lia.
Qed.
Lemma chunks_len fuel : forall b, (length b <= fuel)%nat -> (length (concat (map enc_chunk (chunk64 fuel b))) <= 3 * length b)%nat.
Proof.
  induction fuel as [|f IH]; intros b Hb; [destruct b; cbn in *; lia|].
  cbn [chunk64]. destruct b as [|x t] eqn:E; [cbn; lia|]. rewrite <- E in *.
  cbn [map concat]. rewrite app_length.
  assert (H1 : (1 <= length (firstn 64 b) <= 64)%nat) by (rewrite firstn_length; subst b; cbn [length]; lia).
  pose proof (enc_chunk_len _ H1). specialize (IH (skipn 64 b)).
  assert (length (skipn 64 b) <= f)%nat by (rewrite skipn_length; subst b; cbn [length] in *; lia).
  specialize (IH ltac:(assumption)). rewrite <- (firstn_skipn 64 b) at 3. rewrite app_length. lia.
Qed.
(* bounded bytes, in either form *)
Lemma enc_bbytes_len b : (length (enc SBBytes (VBytes b)) <= 3 * length b + 2)%nat.
Proof.
  cbn [enc]. destruct (_ <=? 64) eqn:E.
  - rewrite app_length. pose proof (head_len2 2 (N.of_nat (length b)) ltac:(lia)). lia.
  - cbn [length]. rewrite app_length. cbn [length]. pose proof (chunks_len (length b) b (Nat.le_refl _)). lia.
Qed.

Definition SZ (s : schema) : Prop := forall bs v rest, dec s bs = Ok (v, rest) ->
  within (enc s v) bs rest /\ (length rest < length bs)%nat.
Definition SZs (fs : slist) : Prop := forall bs l rest, dec_sl fs bs = Ok (l, rest) -> within (enc_sl fs l) bs rest.
Definition SZk (fs : klist) : Prop := forall rem bs l rem' rest, dec_kl fs rem bs = Ok (l, rem', rest) ->
  within (enc_kl fs l) bs rest.
(* the caller has read the two heads that the writer puts in front of the fields of a variant (the 18 of [SZv]), and the tag
   of a tagged choice (the 9 of [SZc]) *)
Definition SZv (alts : vlist) : Prop := forall idx n pos bs v rest, dec_vl alts idx n pos bs = Ok (v, rest) ->
  exists i l, v = VVar (pos + i) l /\ (length rest <= length bs)%nat /\
              (length (enc_vl alts i l) + 9 * length rest <= 9 * length bs + 18)%nat.
Definition SZc (alts : clist) : Prop := forall tagged d pos bs v rest, dec_cl alts d pos bs = Ok (v, rest) ->
  exists i v', v = VAlt (pos + i) v' /\ (length rest < length bs)%nat /\
               (length (enc_cl tagged alts i v') + 9 * length rest <= 9 * length bs + (if tagged then 9 else 0))%nat.

Lemma dec_size_all : (forall s, SZ s) /\ (forall fs, SZs fs) /\ (forall fs, SZk fs) /\ (forall a, SZv a) /\ (forall a, SZc a).
Proof.
  apply schema_mutind; unfold SZ, SZs, SZk, SZv, SZc; cbn [dec dec_sl dec_vl dec_cl].
  - (* SUint *) intros lim bs v rest H. bok H as [n r] E. destruct (n <? lim); [|discriminate].
    injection H as <- <-. exact (head_only _ _ _ _ _ _ E).
  - (* SNint *) intros bs v rest H. bok H as [n r] E. injection H as <- <-. exact (head_only _ _ _ _ _ _ E).
  - (* SBytes *) intros lo hi bs v rest H. bok H as [n r] E. destruct (_ && _); [|discriminate].
    bok H as [b r'] E2. injection H as <- <-. apply take_bytes_inv in E2 as [-> _].
    exact (head_then_m _ _ _ _ _ _ _ _ E (within_copy b r')).
  - (* SText *) intros hi bs v rest H. bok H as [n r] E. destruct (_ <=? _); [|discriminate].
    bok H as [b r'] E2. injection H as <- <-. apply take_bytes_inv in E2 as [-> _].
    exact (head_then_m _ _ _ _ _ _ _ _ E (within_copy b r')).
  - (* SBool *) intros bs v rest H. destruct bs as [|b r]; [discriminate|]. unfold within.
    destruct (b =? 244); [injection H as <- <-; cbn [enc length]; lia|].
    destruct (b =? 245); [injection H as <- <-; cbn [enc length]; lia|discriminate].
  - (* SArr *) intros fs IH bs v rest H. bok H as [n r] E. destruct (n =? slen fs); [|discriminate].
    bok H as [l r'] E2. injection H as <- <-. exact (head_then_m _ _ _ _ _ _ _ _ E (IH _ _ _ E2)).
  - (* SMap *) intros fs IH bs v rest H. bok H as [n r] E. bok H as [[l rem] r'] E2.
    destruct (rem =? 0); [|discriminate]. injection H as <- <-. exact (head_then_m _ _ _ _ _ _ _ _ E (IH _ _ _ _ _ E2)).
  - (* SVar *) intros alts IH bs v rest H. bok H as [n r] E. bok H as [idx r'] E2.
    apply dec_head_m_shorter in E, E2. apply IH in H as (i & l & -> & Hr & Hz). cbn [Nat.add enc]. unfold within. lia.
  - (* SArrOf *) intros lo s IH bs v rest H. bok H as [n r] E. destruct (lo <=? n); [|discriminate].
    bok H as [l r'] E2. injection H as <- <-.
    exact (head_then_m _ _ _ _ _ _ _ _ E (dec_counted_within _ _ (fun b x r0 D => proj1 (IH b x r0 D)) _ _ _ _ E2)).
  - (* SSetOf *) intros s IH bs v rest H. bok H as [t r0] E. destruct (t =? 258); [|discriminate].
    bok H as [n r] E1. bok H as [l r'] E2. injection H as <- <-. apply (head_then_m _ _ _ _ _ _ _ _ E).
    exact (proj1 (head_then_m _ _ _ _ _ _ _ _ E1 (dec_counted_within _ _ (fun b x r1 D => proj1 (IH b x r1 D)) _ _ _ _ E2))).
  - (* SMapOf *) intros lo ord k IHk v' IHv bs v rest H. bok H as [n r] E. destruct (lo <=? n); [|discriminate].
    bok H as [l r'] E2. injection H as <- <-. apply (head_then_m _ _ _ _ _ _ _ _ E).
    apply (dec_counted_within _ (fun kv => enc k (fst kv) ++ enc v' (snd kv))) in E2; [exact E2|].
    intros b x r1 D. cbv beta in D. bok D as [x1 b1] E3. bok D as [y1 b2] E4. injection D as <- <-.
    exact (within_app _ _ _ _ _ (proj1 (IHk _ _ _ E3)) (proj1 (IHv _ _ _ E4))).
  - (* SNullable *) intros s IH bs v rest H. destruct bs as [|b r]; [discriminate|]. destruct (b =? 246).
    + injection H as <- <-. unfold within. cbn [enc length]. lia.
    + apply IH in H. destruct v; cbn [enc]; try exact H. unfold within in *. cbn [length] in *. lia.
  - (* STag *) intros t s IH bs v rest H. bok H as [t' r] E. destruct (t' =? t); [|discriminate].
    exact (head_then_m _ _ _ _ _ _ _ _ E (proj1 (IH _ _ _ H))).
  - (* SInBytes *) intros s IH bs v rest H. bok H as [n r] E. bok H as [b r'] E2.
    destruct (dec s b) as [[v0 [|? ?]]| | |] eqn:Ed; try discriminate. injection H as <- <-.
    apply take_bytes_inv in E2 as [-> _]. exact (head_then_m _ _ _ _ _ _ _ _ E (within_frame _ _ _ (proj1 (IH _ _ _ Ed)))).
  - (* SChoice *) intros alts IH bs v rest H. destruct (peek_major bs); [|discriminate].
    apply (IH false) in H as (i & v' & -> & Hr & Hz). cbn [Nat.add enc]. unfold within. lia.
  - (* STagChoice *) intros alts IH bs v rest H. bok H as [t r] E. apply dec_head_m_shorter in E.
    apply (IH true) in H as (i & v' & -> & Hr & Hz). cbn [Nat.add enc]. unfold within. lia.
  - (* SArrAny *) intros s IH bs v rest H. destruct (decode_head bs) as [[[m [n|]] r]|] eqn:E; try discriminate.
    + destruct (m =? 4); [|discriminate]. bok H as [l r'] E2. injection H as <- <-.
      exact (head_then _ _ _ _ _ _ _ _ E (dec_counted_within _ _ (fun b x r1 D => proj1 (IH b x r1 D)) _ _ _ _ E2)).
    + destruct (m =? 4); [|discriminate]. bok H as [l r'] E2. injection H as <- <-. apply decode_head_shorter in E.
      apply (dec_until_break_within _ _ (fun b x r1 D => proj1 (IH b x r1 D))) in E2.
      unfold within in *. cbn [enc length]. lia.
  - (* SBBytes *) intros bs v rest H. destruct (decode_head bs) as [[[m [n|]] r]|] eqn:E; try discriminate.
    + destruct (_ && _); [|discriminate]. bok H as [b r'] E2. injection H as <- <-. apply decode_head_shorter in E.
      apply take_bytes_inv in E2 as [-> _]. pose proof (enc_bbytes_len b). rewrite app_length in E. unfold within. lia.
    + destruct (m =? 2); [|discriminate]. bok H as [cs r'] E2. injection H as <- <-. apply decode_head_shorter in E.
      apply dec_chunks_consumed in E2. pose proof (enc_bbytes_len (concat cs)). unfold within. lia.
  - (* SNamed *) intros id s IH bs v rest H. exact (IH _ _ _ H).
  - (* SArrOpt *) intros fs IHfs o IHo bs v rest H. bok H as [n r] E. destruct (n =? slen fs).
    + bok H as [l r'] E2. injection H as <- <-. exact (head_then_m _ _ _ _ _ _ _ _ E (IHfs _ _ _ E2)).
    + destruct (n =? 1 + slen fs); [|discriminate]. bok H as [l r1] E2. bok H as [x r2] E3. injection H as <- <-.
      exact (head_then_m _ _ _ _ _ _ _ _ E (within_app _ _ _ _ _ (IHfs _ _ _ E2) (proj1 (IHo _ _ _ E3)))).
  - (* SNil *) intros bs l rest H. injection H as <- <-. apply within_nil.
  - (* SCons *) intros s IH r IHr bs l rest H. bok H as [v b1] E. bok H as [l' b2] E2. injection H as <- <-.
    exact (within_app _ _ _ _ _ (proj1 (IH _ _ _ E)) (IHr _ _ _ E2)).
  - (* KNil *) intros rem bs l rem' rest H. cbn [dec_kl] in H. injection H as <- _ <-. apply within_nil.
  - (* KCons *) intros k p s IH r IHr rem bs l rem' rest H.
    destruct (dec_kl_cons_inv _ _ _ _ _ _ _ _ _ H) as [(b1 & v & b2 & l' & _ & Ek & E & _ & E2 & ->)|(l' & _ & E2 & ->)].
    + destruct (head_then_m _ _ _ _ 0 k _ _ Ek (proj1 (IH _ _ _ E))) as [W _]. apply IHr in E2. cbn [enc_kl]. unfold enc_uint.
      destruct (present p (Some v)); [exact (within_app _ _ _ _ _ W E2)|]. cbn [app]. unfold within in *. lia.
    + exact (IHr _ _ _ _ _ E2).
  - (* ANil *) intros idx n pos bs v rest H. discriminate.
  - (* ACons *) intros i fs IH r IHr idx n pos bs v rest H. destruct (idx =? i).
    + destruct (n =? 1 + slen fs); [|discriminate]. bok H as [l b1] E. injection H as <- <-. apply IH in E.
      exists O, l. rewrite Nat.add_0_r. split; [reflexivity|]. cbn [enc_vl]. unfold enc_uint. rewrite !app_length.
      pose proof (head_len9 4 (1 + slen fs)). pose proof (head_len9 0 i). unfold within in E. lia.
    + apply IHr in H as (j & l & -> & Hz). exists (S j), l. rewrite Nat.add_succ_r. split; [reflexivity|exact Hz].
  - (* CNil *) intros tagged d pos bs v rest H. discriminate.
  - (* CCons *) intros d0 s IH r IHr tagged d pos bs v rest H. destruct (d =? d0).
    + bok H as [v0 b1] E. injection H as <- <-. apply IH in E. exists O, v0. rewrite Nat.add_0_r. split; [reflexivity|].
      cbn [enc_cl]. rewrite app_length. pose proof (head_len9 6 d0). unfold within in E. destruct tagged; cbn [length]; lia.
    + apply (IHr tagged) in H as (j & v' & -> & Hz). exists (S j), v'. rewrite Nat.add_succ_r. split; [reflexivity|exact Hz].
Qed.

(* the strict decoder consumes at least one byte, and nine times what it consumed is room enough to write the value again *)
Theorem dec_shorter s bs v rest : dec s bs = Ok (v, rest) -> (length rest < length bs)%nat.
Proof. intros H. exact (proj2 (proj1 dec_size_all s bs v rest H)). Qed.
Theorem dec_size s bs v rest : dec s bs = Ok (v, rest) -> (length (enc s v) + 9 * length rest <= 9 * length bs)%nat.
Proof. intros H. exact (proj1 (proj1 dec_size_all s bs v rest H)). Qed.

(* the writer emits a key that the decoder has kept *)
Lemma present_kept p v : (match p with OptNE => is_empty_val v | _ => false end) = false -> present p (Some v) = true.
Proof. intros H. unfold present. destruct p; [reflexivity|reflexivity|rewrite H; reflexivity]. Qed.

(* the key loop of a map structure reads exactly the entries the writer will count, each at least one byte long *)
Lemma dec_kl_count : forall fs rem bs l rem' rest, dec_kl fs rem bs = Ok (l, rem', rest) ->
  rem = rem' + count_kl fs l /\ (N.to_nat (count_kl fs l) + length rest <= length bs)%nat.
Proof.
  induction fs as [|k p s r IH]; intros rem bs l rem' rest H.
  - cbn [dec_kl] in H. injection H as <- <- <-. cbn [count_kl]. lia.
  - destruct (dec_kl_cons_inv _ _ _ _ _ _ _ _ _ H) as [(b1 & v & b2 & l' & R0 & Ek & E & Ee & E2 & ->)|(l' & _ & E2 & ->)].
    + apply dec_head_m_shorter in Ek. apply dec_shorter in E. apply IH in E2. cbn [count_kl].
      rewrite (present_kept p v Ee). lia.
    + apply IH in E2. cbn [count_kl present]. lia.
Qed.
