(* C02: everything the schema-directed writer emits for a schema-valid value is ONE well-formed CBOR data item
   for the independent generic parser of Cbor/Item.v (which knows nothing about schemas).
   Generic in the schema: one proof for every ledger type. *)
From CSL Require Import Base.Prelude Cbor.Head Cbor.HeadProofs Codec.Schema Codec.SchemaProofs Cbor.Item Cbor.ItemProofs
  Total.SchemaTotal.
Local Open Scope N_scope.

(* [b] is exactly one data item: followed by anything it parses to the same item and leaves the rest; a fuel (nesting
   budget) of [length b] is enough *)
Definition parses (b : bytes) : Prop :=
  exists it, forall rest f, (length b <= f)%nat -> parse_item f (b ++ rest) = Ok (it, rest).

Lemma parses_first b : parses b -> starts_ok b.
Proof.
  intros [it H]. destruct b as [|c t].
  - specialize (H [] O (Nat.le_refl _)). discriminate.
  - exists c, t. split; [reflexivity|]. intros ->.
    specialize (H [] (length (255 :: t)) (Nat.le_refl _)). cbn in H. discriminate.
Qed.

(* a head followed by a body [b]: it is enough to say what the parser does after the head, one level deeper *)
Lemma parses_after m n b it : n < two64 ->
  (forall f rest, (length b <= f)%nat ->
     parse_after (parse_item f) (hd 0 (encode_head m n ++ b ++ rest)) m (Arg n) (b ++ rest) = Ok (it, rest)) ->
  parses (encode_head m n ++ b).
Proof.
  intros Hn H. exists it. intros rest f Hf. rewrite app_length in Hf. pose proof (head_len9 m n).
  destruct f as [|f]; [lia|]. rewrite <- app_assoc.
  etransitivity; [exact (parse_body_head _ _ _ _ _ (decode_encode_head m n (b ++ rest) Hn))|apply H; lia].
Qed.
Lemma parses_head m n it : n < two64 ->
  (forall f rest, parse_after (parse_item f) (hd 0 (encode_head m n ++ rest)) m (Arg n) rest = Ok (it, rest)) ->
  parses (encode_head m n).
Proof. intros Hn H. rewrite <- (app_nil_r (encode_head m n)). apply (parses_after m n [] it Hn). intros f rest _. apply H. Qed.

Lemma parses_uint n : n < two64 -> parses (encode_head 0 n).
Proof. intros H. apply (parses_head 0 n (IUint n) H). reflexivity. Qed.
Lemma parses_nint n : n < two64 -> parses (encode_head 1 n).
Proof. intros H. apply (parses_head 1 n (INint n) H). reflexivity. Qed.
Lemma parses_bstr b : len b < two64 -> parses (encode_head 2 (len b) ++ b).
Proof.
  intros H. apply (parses_after 2 (len b) b (IBytes b) H). intros f rest _. cbn [parse_after major_of].
  rewrite take_bytes_app by reflexivity. reflexivity.
Qed.
Lemma parses_tstr b : len b < two64 -> parses (encode_head 3 (len b) ++ b).
Proof.
  intros H. apply (parses_after 3 (len b) b (IText b) H). intros f rest _. cbn [parse_after major_of].
  rewrite take_bytes_app by reflexivity. reflexivity.
Qed.
(* false, true, null: simple values in the initial byte *)
Lemma parses_simple n : n < 24 -> parses (encode_head 7 n).
Proof.
  intros H. apply (parses_head 7 n (ISimple n)); [unfold two64; lia|]. intros f rest. unfold encode_head.
  destruct (n <? 24) eqn:E; [|lia]. cbn [parse_after major_of app hd].
  rewrite (proj2 (initial_byte 7 n ltac:(lia))), E. reflexivity.
Qed.
Lemma parses_tag t b : t < two64 -> parses b -> parses (encode_head 6 t ++ b).
Proof.
  intros Ht [it Hit]. apply (parses_after 6 t b (ITag t it) Ht). intros f rest Hf. cbn [parse_after major_of].
  rewrite Hit by exact Hf. reflexivity.
Qed.

(* [b] is read by [p] as [o], whatever follows, and does not look like a break *)
Definition reads {A} (p : Item.parser A) (b : bytes) (o : A) : Prop := starts_ok b /\ forall r, p (b ++ r) = Ok (o, r).

Lemma parse_n_gen {A} (p : Item.parser A) (bl : list bytes) (outs : list A) : Forall2 (reads p) bl outs ->
  forall rest, parse_n p (length bl) (concat bl ++ rest) = Ok (outs, rest).
Proof.
  induction 1 as [|b o bl outs [_ Hb] _ IH]; intros rest; [reflexivity|].
  cbn [length concat parse_n]. rewrite <- app_assoc, Hb. cbn [bind]. rewrite IH. reflexivity.
Qed.

Fixpoint pair_up {A} (l : list A) : list (A * A) :=
  match l with a :: b :: t => (a, b) :: pair_up t | _ => [] end.

Lemma parse_n_pairs {A} (p : Item.parser A) : forall n (bl : list bytes) (outs : list A), Forall2 (reads p) bl outs ->
  length bl = (2 * n)%nat -> forall rest, parse_n (parse_pair p) n (concat bl ++ rest) = Ok (pair_up outs, rest).
Proof.
  induction n as [|n IH]; intros bl outs H Hl rest.
  - destruct H; [reflexivity|discriminate].
  - destruct H as [|k ko ? ? [_ Hk] H]; [discriminate|]. destruct H as [|v vo bl outs [_ Hv] H]; [cbn in Hl; lia|].
    cbn [concat parse_n pair_up]. unfold parse_pair at 1. rewrite <- !app_assoc, Hk. cbn [bind]. rewrite Hv. cbn [bind].
    rewrite (IH bl outs H) by (cbn [length] in Hl; lia). reflexivity.
Qed.

Lemma until_break_gen {A} (p : Item.parser A) (bl : list bytes) (outs : list A) : Forall2 (reads p) bl outs ->
  forall k rest, (length bl <= k)%nat -> parse_until_break p k (concat bl ++ 255 :: rest) = Ok (outs, rest).
Proof.
  induction 1 as [|b o bl outs [(c & t & -> & Hc) Hb] _ IH]; intros k rest Hk.
  - apply parse_until_break_nil.
  - cbn [length] in Hk. destruct k as [|k]; [lia|]. cbn [concat]. rewrite <- app_assoc.
    specialize (Hb (concat bl ++ 255 :: rest)). cbn [app] in *. rewrite parse_until_break_step by exact Hc.
    rewrite Hb. cbn [bind]. rewrite IH by lia. reflexivity.
Qed.

(* [b] is [n] data items back to back *)
Definition items (n : N) (b : bytes) : Prop := exists bl : list bytes, b = concat bl /\ len bl = n /\ Forall parses bl.

Lemma items_nil : items 0 [].
Proof. exists []. repeat split. constructor. Qed.
Lemma items_cons x n b : parses x -> items n b -> items (1 + n) (x ++ b).
Proof.
  intros Hx (bl & -> & <- & Hbl). exists (x :: bl). split; [reflexivity|]. split; [unfold len; cbn [length]; lia|].
  constructor; assumption.
Qed.
Lemma items_snoc n b x : items n b -> parses x -> items (1 + n) (b ++ x).
Proof.
  intros (bl & -> & <- & Hbl) Hx. exists (bl ++ [x]). split; [rewrite concat_app; cbn [concat]; rewrite app_nil_r; reflexivity|].
  split; [unfold len; rewrite app_length; cbn [length]; lia|]. apply Forall_app. split; [exact Hbl|]. constructor; [exact Hx|constructor].
Qed.
Lemma items_map {A} (e : A -> bytes) l : Forall (fun x => parses (e x)) l -> items (N.of_nat (length l)) (concat (map e l)).
Proof.
  intros H. exists (map e l). split; [reflexivity|]. split; [unfold len; rewrite map_length; reflexivity|]. apply Forall_map, H.
Qed.
Lemma items_map2 {A} (e1 e2 : A -> bytes) l : Forall (fun x => parses (e1 x) /\ parses (e2 x)) l ->
  items (2 * N.of_nat (length l)) (concat (map (fun x => e1 x ++ e2 x) l)).
Proof.
  induction 1 as [|x t [H1 H2] _ IH]; [exact items_nil|]. cbn [map concat length]. rewrite <- app_assoc.
  replace (2 * N.of_nat (S (length t))) with (1 + (1 + 2 * N.of_nat (length t))) by lia.
  apply items_cons; [exact H1|]. apply items_cons; [exact H2|exact IH].
Qed.

(* one more entry of a map structure: its key and its value *)
Lemma items_entry k x n b : k < two64 -> parses x -> items (2 * n) b -> items (2 * (1 + n)) ((enc_uint k ++ x) ++ b).
Proof.
  intros Hk Hx Hb. replace (2 * (1 + n)) with (1 + (1 + 2 * n)) by lia. rewrite <- app_assoc.
  apply items_cons; [apply parses_uint, Hk|]. apply items_cons; assumption.
Qed.

(* every item takes at least one byte *)
Lemma items_count_le (bl : list bytes) : Forall parses bl -> (length bl <= length (concat bl))%nat.
Proof.
  induction 1 as [|x t Hx _ IH]; [cbn; lia|]. destruct (parses_first x Hx) as (c & t' & -> & _). cbn [concat length app]. rewrite app_length. lia.
Qed.
(* the items a sequence parses to do not depend on the fuel *)
Lemma parses_outs (bl : list bytes) : Forall parses bl ->
  exists outs, forall f, (length (concat bl) <= f)%nat -> Forall2 (reads (parse_item f)) bl outs.
Proof.
  induction 1 as [|b t Hb _ IH]; [exists []; constructor|].
  destruct IH as [outs Ho]. pose proof (parses_first b Hb) as F. destruct Hb as [it Hit]. exists (it :: outs).
  intros f Hf. cbn [concat] in Hf. rewrite app_length in Hf. constructor; [|apply Ho; lia].
  split; [exact F|]. intros r. apply Hit. lia.
Qed.

Lemma parses_array n b : items n b -> n < two64 -> parses (encode_head 4 n ++ b).
Proof.
  intros (bl & -> & <- & Hbl) Hn. destruct (parses_outs bl Hbl) as [outs Ho].
  apply (parses_after 4 (len bl) (concat bl) (IArray true outs) Hn). intros f rest Hf. cbn [parse_after major_of].
  pose proof (items_count_le bl Hbl) as Hge.
  destruct (len bl <=? len (concat bl ++ rest)) eqn:E; [|unfold len in E; rewrite app_length in E; lia].
  unfold len at 1. rewrite Nat2N.id, (parse_n_gen (parse_item f) bl outs); [reflexivity|]. apply Ho, Hf.
Qed.

Lemma parses_array_indef n b : items n b -> parses (159 :: b ++ [255]).
Proof.
  intros (bl & -> & _ & Hbl). destruct (parses_outs bl Hbl) as [outs Ho].
  exists (IArray false outs). intros rest f Hf. cbn [length] in Hf. rewrite app_length in Hf.
  destruct f as [|f]; [lia|].
  change (parse_item (S f) ((159 :: concat bl ++ [255]) ++ rest))
    with (parse_after (parse_item f) 159 4 Indef ((concat bl ++ [255]) ++ rest)).
  cbn [parse_after major_of]. rewrite <- app_assoc. cbn [app].
  pose proof (items_count_le bl Hbl) as Hge.
  rewrite (until_break_gen (parse_item f) bl outs); [reflexivity|apply Ho; lia|rewrite app_length; lia].
Qed.

(* a map of [n] entries is a head followed by 2n items *)
Lemma parses_map n b : items (2 * n) b -> n < two64 -> parses (encode_head 5 n ++ b).
Proof.
  intros (bl & -> & Hl & Hbl) Hn. destruct (parses_outs bl Hbl) as [outs Ho].
  apply (parses_after 5 n (concat bl) (IMap true (pair_up outs)) Hn). intros f rest Hf. cbn [parse_after major_of].
  pose proof (items_count_le bl Hbl) as Hge. unfold len in Hl.
  destruct (n <=? len (concat bl ++ rest)) eqn:E; [|unfold len in E; rewrite app_length in E; lia].
  rewrite (parse_n_pairs (parse_item f) (N.to_nat n) bl outs); [reflexivity|apply Ho, Hf|lia].
Qed.

(* chunked byte string: 0x5f, definite chunks, 0xff *)
Lemma parses_chunked (cs : list bytes) : Forall (fun c => len c < two64) cs -> parses (95 :: concat (map enc_chunk cs) ++ [255]).
Proof.
  intros Hcs. exists (IBytesChunked cs). intros rest f Hf. destruct f as [|f]; [cbn in Hf; lia|].
  assert (Hrt : Forall (rt_elem (parse_chunk 2) enc_chunk) cs).
  { eapply Forall_impl; [|exact Hcs]. intros c Hc. split; [intros r; exact (parse_chunk_rt 2 c r Hc)|].
    apply encode_head_starts. lia. }
  rewrite <- flat_map_concat_map.
  change (parse_item (S f) ((95 :: flat_map enc_chunk cs ++ [255]) ++ rest))
    with (parse_after (parse_item f) 95 2 Indef ((flat_map enc_chunk cs ++ [255]) ++ rest)).
  cbn [parse_after major_of]. rewrite <- app_assoc. cbn [app].
  rewrite (parse_until_break_rt _ enc_chunk cs rest Hrt). reflexivity.
Qed.

(* bounded bytes, in either form *)
Lemma parses_bbytes b : parses (enc SBBytes (VBytes b)).
Proof.
  cbn [enc]. destruct (N.of_nat (length b) <=? 64) eqn:E.
  - apply parses_bstr. unfold len, two64. lia.
  - apply parses_chunked. apply Forall_forall. intros c Hc. apply chunk64_bounds in Hc. unfold len, two64. lia.
Qed.

Definition PI (s : schema) : Prop := wfs s = true -> forall v, wfv s v = true -> parses (enc s v).
Definition PIs (fs : slist) : Prop := wfs_sl fs = true -> forall l, wfv_sl fs l = true -> items (slen fs) (enc_sl fs l).
Definition PIk (fs : klist) : Prop := wfs_kl fs = true -> keys_nodup fs = true -> forall l, wfv_kl fs l = true ->
  items (2 * count_kl fs l) (enc_kl fs l).
Definition PIv (alts : vlist) : Prop := wfs_vl alts = true -> forall i l, wfv_vl alts i l = true -> parses (enc_vl alts i l).
Definition PIc (alts : clist) : Prop := forall tagged, wfs_cl tagged alts = true -> forall i v, wfv_cl alts i v = true ->
  parses (enc_cl tagged alts i v).

Lemma forallb_Forall {A} (f : A -> bool) (P : A -> Prop) l : (forall x, f x = true -> P x) -> forallb f l = true -> Forall P l.
Proof. intros H Hl. apply Forall_forall. intros x Hx. apply H. exact (forallb_In _ _ _ Hl Hx). Qed.

Lemma item_link_all : (forall s, PI s) /\ (forall fs, PIs fs) /\ (forall fs, PIk fs) /\ (forall a, PIv a) /\ (forall a, PIc a).
Proof.
  apply schema_mutind; unfold PI, PIs, PIk, PIv, PIc.
  - (* SUint *) intros lim Hs v Hv. destruct v; try discriminate. cbn [enc wfv wfs] in *. apply parses_uint. lia.
  - (* SNint *) intros _ v Hv. destruct v; try discriminate. cbn [enc wfv] in *. apply parses_nint. lia.
  - (* SBytes *) intros lo hi Hs v Hv. destruct v; try discriminate. cbn [enc wfv wfs] in *. split_ands.
    apply parses_bstr. unfold len. lia.
  - (* SText *) intros hi Hs v Hv. destruct v; try discriminate. cbn [enc wfv wfs] in *. split_ands.
    apply parses_tstr. unfold len. lia.
  - (* SBool *) intros _ v Hv. destruct v; try discriminate. cbn [enc]. destruct b; [exact (parses_simple 21 eq_refl)|exact (parses_simple 20 eq_refl)].
  - (* SArr *) intros fs IH Hs v Hv. destruct v; try discriminate. cbn [enc wfv wfs] in *. split_ands.
    apply parses_array; [apply IH; assumption|lia].
  - (* SMap *) intros fs IH Hs v Hv. destruct v; try discriminate. cbn [enc wfv wfs] in *. split_ands.
    pose proof (count_kl_le fs l). apply parses_map; [apply IH; assumption|lia].
  - (* SVar *) intros alts IH Hs v Hv. destruct v; try discriminate. cbn [enc wfv wfs] in *. apply IH; assumption.
  - (* SArrOf *) intros lo s IH Hs v Hv. destruct v; try discriminate. cbn [enc wfv wfs] in *. split_ands.
    apply parses_array; [|lia]. apply items_map. eapply forallb_Forall; [|eassumption]. exact (IH Hs).
  - (* SSetOf *) intros s IH Hs v Hv. destruct v; try discriminate. cbn [enc wfv wfs] in *. split_ands.
    apply parses_tag; [unfold two64; lia|]. apply parses_array; [|lia]. apply items_map.
    eapply forallb_Forall; [|eassumption]. exact (IH Hs).
  - (* SMapOf *) intros lo ord k IHk v' IHv Hs v Hv. destruct v; try discriminate. cbn [enc wfv wfs] in *. split_ands.
    apply parses_map; [|lia]. apply (items_map2 (fun kv => enc k (fst kv)) (fun kv => enc v' (snd kv))).
    eapply forallb_Forall; [|eassumption]. cbv beta. intros kv Hkv. apply andb_prop in Hkv. split; [apply IHk|apply IHv]; tauto.
  - (* SNullable *) intros s IH Hs v Hv. cbn [wfs] in Hs. split_ands.
    destruct v; cbn [enc wfv] in *; try (apply IH; assumption). exact (parses_simple 22 eq_refl).
  - (* STag *) intros t s IH Hs v Hv. cbn [enc wfv wfs] in *. split_ands. apply parses_tag; [lia|]. apply IH; assumption.
  - (* SInBytes: the content of a byte string is not looked at *) intros s IH Hs v Hv. cbn [enc wfv wfs] in *. split_ands.
    apply parses_bstr. unfold len. lia.
  - (* SChoice *) intros alts IH Hs v Hv. destruct v; try discriminate. cbn [enc wfv wfs] in *. apply IH; assumption.
  - (* STagChoice *) intros alts IH Hs v Hv. destruct v; try discriminate. cbn [enc wfv wfs] in *. apply IH; assumption.
  - (* SArrAny *) intros s IH Hs v Hv. cbn [wfs] in Hs. split_ands.
    destruct v as [| | | | | | | | | |i v0]; try discriminate. destruct i as [|[|i]]; destruct v0; try discriminate; cbn [enc wfv] in *.
    + split_ands. apply parses_array; [|lia]. apply items_map. eapply forallb_Forall; [|eassumption]. auto.
    + eapply parses_array_indef, items_map. eapply forallb_Forall; [|eassumption]. auto.
  - (* SBBytes *) intros _ v Hv. destruct v; try discriminate. apply parses_bbytes.
  - (* SNamed *) intros id s IH Hs v Hv. cbn [enc wfv wfs] in *. apply IH; assumption.
  - (* SArrOpt *) intros fs IHfs o IHo Hs v Hv. cbn [wfs] in Hs. split_ands.
    destruct v as [| | | | | | | | | |i v0]; try discriminate. destruct i as [|[|i]]; destruct v0; try discriminate; cbn [enc wfv] in *.
    + apply parses_array; [apply IHfs; assumption|lia].
    + destruct l as [|x l]; [discriminate|]. split_ands.
      apply parses_array; [|lia]. apply items_snoc; [apply IHfs|apply IHo]; assumption.
  - (* SNil *) intros _ l Hl. destruct l; try discriminate. exact items_nil.
  - (* SCons *) intros s IH r IHr Hs l Hl. destruct l as [|v t]; try discriminate. cbn [wfs_sl wfv_sl enc_sl slen] in *. split_ands.
    apply items_cons; [apply IH|apply IHr]; assumption.
  - (* KNil *) intros _ _ l Hl. destruct l; try discriminate. exact items_nil.
  - (* KCons *) intros k p s IH r IHr Hs Hk l Hl. destruct l as [|o t]; try discriminate.
    cbn [wfs_kl wfv_kl enc_kl keys_nodup count_kl] in *. split_ands.
    specialize (IHr ltac:(assumption) ltac:(assumption) t ltac:(assumption)).
    destruct o as [v|]; [split_ands; destruct (present p (Some v))|]; cbn [app present]; try (rewrite N.add_0_l; exact IHr).
    apply items_entry; [lia|apply IH; assumption|exact IHr].
  - (* ANil *) intros _ i l H. discriminate.
  - (* ACons *) intros idx fs IH r IHr Hs i l Hl. cbn [wfs_vl] in Hs. split_ands. destruct i as [|i]; cbn [wfv_vl enc_vl] in *.
    + apply parses_array; [|lia]. apply items_cons; [apply parses_uint; lia|apply IH; assumption].
    + apply IHr; assumption.
  - (* CNil *) intros tagged _ i v H. discriminate.
  - (* CCons *) intros d s IH r IHr tagged Hs i v Hv. cbn [wfs_cl] in Hs. split_ands. destruct i as [|i]; cbn [wfv_cl enc_cl] in *.
    + destruct tagged; [apply parses_tag; [lia|apply IH; assumption]|cbn [app]; apply IH; assumption].
    + apply (IHr tagged); assumption.
Qed.

Theorem schema_enc_parses s v : wfs s = true -> wfv s v = true -> parses (enc s v).
Proof. intros Hs Hv. exact (proj1 item_link_all s Hs v Hv). Qed.

Lemma parses_item_wf b : parses b -> item_wf b = true.
Proof.
  intros [it H]. unfold item_wf, parse_exact, parse_one, default_fuel.
  specialize (H [] (S (length b)) ltac:(lia)). rewrite app_nil_r in H. rewrite H. reflexivity.
Qed.
