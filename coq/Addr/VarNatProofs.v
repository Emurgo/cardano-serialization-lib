(* Proofs about the variable-length naturals (VarNat.v). *)
From CSL Require Import Base.Prelude Addr.VarNat.
Local Open Scope N_scope.

(* most-significant-first form of the continuation groups *)
Fixpoint venc_hi (fuel : nat) (num : N) : bytes :=
  match fuel with
  | O => []
  | S f => if num =? 0 then [] else venc_hi f (num / 128) ++ [num mod 128 + 128]
  end.

Lemma venc_loop_hi f : forall m out, venc_loop f m out = out ++ rev (venc_hi f m).
Proof.
  induction f as [|f IH]; intros m out; cbn [venc_loop venc_hi].
  - now rewrite app_nil_r.
  - destruct (m =? 0); [now rewrite app_nil_r|].
    rewrite IH, rev_app_distr. cbn [rev app]. now rewrite <- app_assoc.
Qed.

Lemma varnat_encode_hi n : varnat_encode n = venc_hi 10 (n / 128) ++ [n mod 128].
Proof.
  unfold varnat_encode. rewrite venc_loop_hi. cbn [app rev]. now rewrite rev_involutive.
Qed.

Lemma venc_hi_zero f : venc_hi f 0 = [].
Proof. destruct f; reflexivity. Qed.

Lemma pow128_S f : 128 ^ N.of_nat (S f) = 128 * 128 ^ N.of_nat f.
Proof. rewrite Nat2N.inj_succ, N.pow_succ_r'. reflexivity. Qed.
Lemma pow128_0 m : m < 128 ^ N.of_nat 0 -> m = 0.
Proof. change (128 ^ N.of_nat 0) with 1. lia. Qed.

(* fuel does not matter once it suffices *)
Lemma venc_hi_fuel f : forall m f', m < 128 ^ N.of_nat f -> (f <= f')%nat -> venc_hi f m = venc_hi f' m.
Proof.
  induction f as [|f IH]; intros m f' Hm Hf.
  - apply pow128_0 in Hm as ->. now rewrite !venc_hi_zero.
  - destruct f' as [|f']; [lia|]. cbn [venc_hi]. destruct (m =? 0); [reflexivity|].
    rewrite pow128_S in Hm. rewrite (IH (m / 128) f'); [reflexivity| |lia].
    apply N.div_lt_upper_bound; lia.
Qed.

Lemma venc_hi_S f m :
  venc_hi (S f) m = if m =? 0 then [] else venc_hi f (m / 128) ++ [m mod 128 + 128].
Proof. reflexivity. Qed.

Lemma snoc_group acc g : g < 128 -> (acc * 128 + g) / 128 = acc /\ (acc * 128 + g) mod 128 = g.
Proof.
  intros H. split; [rewrite N.div_add_l, N.div_small by lia; apply N.add_0_r|].
  rewrite N.add_comm, N.mod_add, N.mod_small by lia. reflexivity.
Qed.

Lemma venc_hi_step f acc g : acc * 128 + g <> 0 -> acc < 128 ^ N.of_nat f -> g < 128 ->
  venc_hi (S f) (acc * 128 + g) = venc_hi (S f) acc ++ [g + 128].
Proof.
  intros Ha Hb Hg. rewrite (venc_hi_S f (acc * 128 + g)).
  destruct (N.eqb_spec (acc * 128 + g) 0); [contradiction|]. destruct (snoc_group acc g Hg) as [-> ->].
  rewrite (venc_hi_fuel f acc (S f)); [reflexivity|exact Hb|apply Nat.le_succ_diag_r].
Qed.

(* the accumulator after a run of continuation groups *)
Definition shl (acc : N) (hi : bytes) : N := fold_left (fun a b => a * 128 + b mod 128) hi acc.

Lemma shl_cons acc b t : shl acc (b :: t) = shl (acc * 128 + b mod 128) t.
Proof. reflexivity. Qed.

Lemma shl_ge hi : forall acc, acc <= shl acc hi.
Proof.
  induction hi as [|b t IH]; intros acc; [apply N.le_refl|].
  rewrite shl_cons. etransitivity; [|apply IH]. generalize (b mod 128). intros g. lia.
Qed.

(* The decoder succeeds exactly on a run of continuation bytes followed by a terminating byte whose
   value is a u64: decode_go_intro and decode_go_inv. *)
Lemma decode_go_intro hi : Forall (fun b => 128 <= b) hi -> forall acc r b tail,
  b < 128 -> shl acc hi * 128 + b < two64 ->
  varnat_decode_go (hi ++ b :: tail) acc r = Some (shl acc hi * 128 + b, (r + S (length hi))%nat).
Proof.
  induction 1 as [|c t Hc _ IH]; intros acc r b tail Hb Hv; cbn [app length varnat_decode_go].
  - change (shl acc []) with acc in *. rewrite N.mod_small by exact Hb.
    destruct (N.leb_spec two64 (acc * 128 + b)); [lia|]. destruct (N.ltb_spec b 128); [|lia].
    now rewrite Nat.add_1_r.
  - rewrite shl_cons in *. generalize dependent (acc * 128 + c mod 128). intros acc' Hv.
    pose proof (shl_ge t acc') as G.
    destruct (N.leb_spec two64 acc'); [lia|]. destruct (N.ltb_spec c 128); [lia|].
    rewrite IH by assumption. now rewrite Nat.add_succ_comm.
Qed.

Lemma decode_go_inv bs : forall acc r v k, varnat_decode_go bs acc r = Some (v, k) ->
  exists hi b tail, bs = hi ++ b :: tail /\ Forall (fun b => 128 <= b) hi /\ b < 128 /\
    v = shl acc hi * 128 + b /\ v < two64 /\ k = (r + S (length hi))%nat.
Proof.
  induction bs as [|b t IH]; intros acc r v k H; cbn [varnat_decode_go] in H; [discriminate|].
  destruct (N.leb_spec two64 (acc * 128 + b mod 128)) as [|Hv]; [discriminate|].
  destruct (N.ltb_spec b 128) as [Hb|Hb].
  - injection H as <- <-. rewrite N.mod_small in * by exact Hb.
    exists [], b, t. rewrite Nat.add_1_r. repeat split; [constructor|exact Hb|exact Hv].
  - apply IH in H as (hi & c & tail & -> & Hhi & Hc & -> & Hv' & ->).
    exists (b :: hi), c, tail. rewrite Nat.add_succ_comm. repeat split; [constructor|..]; assumption.
Qed.

Lemma venc_hi_cont f : forall m, Forall (fun b => 128 <= b) (venc_hi f m).
Proof.
  induction f as [|f IH]; intros m; cbn [venc_hi]; [constructor|]. destruct (m =? 0); [constructor|].
  apply Forall_app; split; [apply IH|]. repeat constructor. lia.
Qed.

(* shl and venc_hi undo each other *)
Lemma shl_venc_hi f : forall m, m < 128 ^ N.of_nat f -> shl 0 (venc_hi f m) = m.
Proof.
  induction f as [|f IH]; intros m Hm.
  - apply pow128_0 in Hm as ->. reflexivity.
  - cbn [venc_hi]. destruct (N.eqb_spec m 0) as [->|Hz]; [reflexivity|]. rewrite pow128_S in Hm.
    unfold shl in *. rewrite fold_left_app, IH by (apply N.div_lt_upper_bound; lia). cbn [fold_left].
    change (m mod 128 + 128) with (m mod 128 + 1 * 128). rewrite N.mod_add, N.mod_mod, N.mul_comm by discriminate.
    symmetry. apply N.div_mod'.
Qed.

(* ... provided the run does not start with a padding group 0x80 on an empty accumulator *)
Lemma venc_hi_shl f hi : Forall (fun b => 128 <= b /\ b < 256) hi -> forall acc,
  acc <> 0 \/ varnat_padded hi = false -> shl acc hi < 128 ^ N.of_nat (S f) ->
  venc_hi (S f) (shl acc hi) = venc_hi (S f) acc ++ hi.
Proof.
  induction 1 as [|b t [Hb Hb'] _ IH]; intros acc Ha Hlt; [now rewrite app_nil_r|].
  rewrite shl_cons in *. cbn [varnat_padded] in Ha.
  assert (Hg : b mod 128 + 128 = b) by lia.
  revert Hg Hlt. generalize (b mod 128). intros g Hg Hlt.
  assert (Hnz : acc * 128 + g <> 0) by lia.
  pose proof (shl_ge t (acc * 128 + g)) as G.
  rewrite IH by (auto || exact Hlt). rewrite pow128_S in Hlt.
  rewrite venc_hi_step, Hg, <- app_assoc by lia. reflexivity.
Qed.

Lemma u64_groups n : n < two64 -> n / 128 < 128 ^ N.of_nat 10.
Proof.
  intros Hn. apply N.div_lt_upper_bound; [discriminate|]. unfold two64 in Hn.
  change (128 ^ N.of_nat 10) with 1180591620717411303424. lia.
Qed.

(* C11_varnat: every u64 decodes back, whatever follows, and the count is the encoded length *)
Theorem varnat_roundtrip n rest : n < two64 ->
  varnat_decode (varnat_encode n ++ rest) = Some (n, length (varnat_encode n)).
Proof.
  intros Hn. unfold varnat_decode. rewrite varnat_encode_hi, <- app_assoc. cbn [app].
  pose proof (shl_venc_hi 10 _ (u64_groups n Hn)) as S.
  rewrite decode_go_intro; rewrite ?S; [|apply venc_hi_cont|lia..].
  rewrite app_length, Nat.add_1_r, N.mul_comm, <- N.div_mod'. reflexivity.
Qed.

Lemma varnat_encode_nonempty n : varnat_encode n <> [].
Proof. rewrite varnat_encode_hi. destruct (venc_hi 10 (n / 128)); discriminate. Qed.

Lemma venc_hi_bytes_ok f : forall m, bytes_ok (venc_hi f m).
Proof.
  induction f as [|f IH]; intros m; cbn [venc_hi]; [constructor|].
  destruct (m =? 0); [constructor|]. apply Forall_app; split; [apply IH|].
  constructor; [|constructor]. lia.
Qed.

Lemma varnat_encode_bytes_ok n : bytes_ok (varnat_encode n).
Proof.
  rewrite varnat_encode_hi. apply Forall_app; split; [apply venc_hi_bytes_ok|].
  constructor; [|constructor]. lia.
Qed.

(* unterminated: every byte carries the continuation bit *)
Theorem varnat_unterminated bs : Forall (fun b => 128 <= b) bs -> forall acc r, varnat_decode_go bs acc r = None.
Proof.
  induction 1 as [|b t Hb _ IH]; intros acc r; cbn [varnat_decode_go]; [reflexivity|].
  destruct (two64 <=? acc * 128 + b mod 128); [reflexivity|].
  destruct (N.ltb_spec b 128); [lia|]. apply IH.
Qed.

(* a decoded value is always a u64 and the count is within the input *)
Theorem varnat_decode_range bs v k : varnat_decode bs = Some (v, k) ->
  v < two64 /\ (1 <= k <= length bs)%nat.
Proof.
  intros H. apply decode_go_inv in H as (hi & b & tail & -> & _ & _ & _ & Hv & ->).
  rewrite app_length. cbn [length]. split; [exact Hv|lia].
Qed.

(* overflow: a value of 2^64 or more is refused, for any continuation *)
Theorem varnat_overflow_rejected bs acc r : two64 <= acc -> varnat_decode_go bs acc r = None.
Proof.
  intros Ha. destruct bs as [|b t]; cbn [varnat_decode_go]; [reflexivity|].
  destruct (N.leb_spec two64 (acc * 128 + b mod 128)); [reflexivity|lia].
Qed.

(* the decoder ignores what follows the terminating byte *)
Lemma varnat_decode_go_firstn bs : forall acc r v k, varnat_decode_go bs acc r = Some (v, k) ->
  forall rest, varnat_decode_go (firstn (k - r) bs ++ rest) acc r = Some (v, k).
Proof.
  intros acc r v k H rest. apply decode_go_inv in H as (hi & b & tail & -> & Hhi & Hb & -> & Hv & ->).
  replace (r + S (length hi) - r)%nat with (length hi + 1)%nat by lia.
  rewrite firstn_app_2, <- app_assoc. now apply decode_go_intro.
Qed.

(* minimal encodings are reproduced, provided the first byte is not a padding group 0x80 *)
Theorem varnat_decode_canonical bs v k : bytes_ok bs -> varnat_padded bs = false ->
  varnat_decode bs = Some (v, k) -> varnat_encode v = firstn k bs.
Proof.
  intros Hok Hp H. apply decode_go_inv in H as (hi & b & tail & -> & Hhi & Hb & -> & Hv & ->).
  apply Forall_app in Hok as [Hok _].
  cbn [Nat.add]. rewrite <- Nat.add_1_r, firstn_app_2, varnat_encode_hi. destruct (snoc_group (shl 0 hi) b Hb) as [-> ->].
  rewrite (venc_hi_shl 9); [reflexivity|now apply Forall_and|right; now destruct hi|].
  unfold two64 in Hv. change (128 ^ N.of_nat 10) with 1180591620717411303424. lia.
Qed.

(* the first byte the encoder writes is never the padding group 0x80 *)
Lemma venc_hi_not_padded f : forall m l, m <> 0 -> m < 128 ^ N.of_nat f -> varnat_padded (venc_hi f m ++ l) = false.
Proof.
  induction f as [|f IH]; intros m l Hm Hlt; [apply pow128_0 in Hlt; contradiction|].
  cbn [venc_hi]. destruct (N.eqb_spec m 0); [contradiction|]. rewrite pow128_S in Hlt. rewrite <- app_assoc.
  destruct (N.eq_dec (m / 128) 0) as [Hz|Hz].
  - rewrite Hz, venc_hi_zero. apply N.div_small_iff in Hz; [|discriminate].
    rewrite (N.mod_small m 128 Hz). cbn [app varnat_padded]. lia.
  - apply IH; [exact Hz|]. apply N.div_lt_upper_bound; lia.
Qed.

Lemma varnat_encode_not_padded v : v < two64 -> varnat_padded (varnat_encode v) = false.
Proof.
  intros Hv. rewrite varnat_encode_hi. destruct (N.eq_dec (v / 128) 0) as [Hz|Hz].
  - rewrite Hz, venc_hi_zero. cbn [app varnat_padded]. lia.
  - apply venc_hi_not_padded; [exact Hz|apply u64_groups, Hv].
Qed.

Theorem varnat_padded_not_canonical bs v k : v < two64 -> varnat_padded bs = true ->
  varnat_encode v <> firstn k bs.
Proof.
  intros Hv Hp He. pose proof (varnat_encode_not_padded v Hv) as Hn. rewrite He in Hn.
  destruct bs as [|b t]; [discriminate|]. destruct k as [|k]; [|cbn [firstn varnat_padded] in Hn, Hp; congruence].
  now apply (varnat_encode_nonempty v).
Qed.

(* the decoder does not look beyond the terminating byte: appending bytes changes nothing *)
Lemma varnat_decode_go_app bs acc r v k x : varnat_decode_go bs acc r = Some (v, k) ->
  varnat_decode_go (bs ++ x) acc r = Some (v, k).
Proof.
  intros H. rewrite <- (firstn_skipn (k - r) bs), <- app_assoc. now apply varnat_decode_go_firstn.
Qed.

Lemma varnat_decode_app bs v k x : varnat_decode bs = Some (v, k) -> varnat_decode (bs ++ x) = Some (v, k).
Proof. apply varnat_decode_go_app. Qed.

(* the mathematical value of the first n groups *)
Fixpoint gval (bs : bytes) (acc : N) (n : nat) {struct n} : N :=
  match n, bs with
  | S n', b :: t => gval t (acc * 128 + b mod 128) n'
  | _, _ => acc
  end.

Lemma gval_app hi : forall acc l n, gval (hi ++ l) acc (length hi + n) = gval l (shl acc hi) n.
Proof. induction hi as [|b t IH]; intros acc l n; [reflexivity|]. cbn [app length Nat.add gval]. apply IH. Qed.

(* the test vector of tests/address.rs (variable_nat_decode_too_big) *)
Example varnat_too_big : varnat_decode [129; 255; 255; 255; 255; 255; 255; 255; 255; 255; 127] = None.
Proof. vm_compute. reflexivity. Qed.
Example varnat_max : varnat_decode (varnat_encode 18446744073709551615) = Some (18446744073709551615, 10%nat).
Proof. vm_compute. reflexivity. Qed.
