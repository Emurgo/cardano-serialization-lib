(* The specification used by the judge agrees with the model of the strict parser. *)
From CSL Require Import Base.Prelude Cbor.Head Addr.VarNat Addr.VarNatProofs Addr.Crc32 Addr.Byron Addr.Base58 Addr.Base58Proofs
  Addr.Shelley Addr.ShelleyProofs Addr.Bech32Iface Addr.TextProofs Addr.Check.
Local Open Scope N_scope.

Lemma fixed_strict len size mk : is_ok (fixed false len size mk) = (len =? size)%nat.
Proof.
  unfold fixed. rewrite andb_true_r.
  destruct (Nat.ltb_spec len size); [|destruct (Nat.ltb_spec size len)]; cbn [is_ok]; symmetry;
    [apply Nat.eqb_neq|apply Nat.eqb_neq|apply Nat.eqb_eq]; lia.
Qed.

Lemma pointer_strict len d mk : length d = (len - 29)%nat ->
  is_ok (pointer_parse false len d mk) =
  match decode_pointer d with Some (_, off) => (29 + off =? len)%nat | None => false end.
Proof.
  intros Hl. unfold pointer_parse. destruct (decode_pointer d) as [[p off]|] eqn:Ed.
  - pose proof (decode_pointer_bound _ _ _ Ed) as B. rewrite (proj2 (Nat.ltb_ge _ _)), andb_true_r by lia.
    destruct (Nat.ltb_spec (29 + off) len); cbn [is_ok]; symmetry; [apply Nat.eqb_neq|apply Nat.eqb_eq]; lia.
  - destruct (_ <? _)%nat; reflexivity.
Qed.

(* the strict parser accepts exactly the byte strings the header table + exact lengths allow *)
Theorem strict_accepts_iff data : bytes_ok data -> is_ok (from_bytes data) = spec_strict_ok data.
Proof.
  intros Hok. destruct data as [|h payload]; [reflexivity|].
  inversion Hok as [|? ? Hh _]; subst.
  unfold from_bytes, spec_strict_ok. rewrite parse_by_class by exact Hh. unfold parse_class. cbv zeta.
  destruct (classify_header h) as [ps ss|ps|ps|ps| |]; try apply fixed_strict.
  - apply pointer_strict. cbn [length]. apply skipn_length.
  - destruct (byron_from_bytes crc32 (h :: payload)); reflexivity.
  - reflexivity.
Qed.

(* the judge accepts what the model observes for the Base58 codec, for every non-empty input *)
Theorem judge_b58_accepts_model bs : bytes_ok bs -> bs <> [] -> judge_b58 bs (snd (model_b58 bs)) = Holds.
Proof.
  intros Hok Hne. unfold judge_b58, model_b58. cbn [snd].
  rewrite base58_roundtrip by assumption. destruct bs; [congruence|].
  cbn [res_eqb]. now rewrite bytes_eqb_refl.
Qed.

Lemma cred_eqb_refl c : cred_eqb c c = true.
Proof. destruct c; cbn; apply bytes_eqb_refl. Qed.
Lemma opt_eqb_refl {A} (eqb : A -> A -> bool) (H : forall x, eqb x x = true) o : opt_eqb eqb o o = true.
Proof. destruct o; cbn; auto. Qed.
Lemma res_eqb_refl {A} (eqb : A -> A -> bool) (H : forall x, eqb x x = true) r : res_eqb eqb r r = true.
Proof. destruct r; cbn; auto. Qed.
Lemma byron_eqb_refl b : byron_eqb b b = true.
Proof.
  unfold byron_eqb, byron_type_eqb. rewrite bytes_eqb_refl, N.eqb_refl.
  rewrite (opt_eqb_refl bytes_eqb bytes_eqb_refl), (opt_eqb_refl N.eqb N.eqb_refl). reflexivity.
Qed.
Lemma address_eqb_refl a : address_eqb a a = true.
Proof.
  destruct a as [n p s|n p q|n p|n p|b|m]; cbn [address_eqb];
    rewrite ?N.eqb_refl, ?cred_eqb_refl, ?bytes_eqb_refl; try reflexivity. apply byron_eqb_refl.
Qed.

Lemma shelley_agrees k n ps x :
  (kind_code k =? kind_code k) && res_eqb N.eqb (Ok n) (Ok n)
  && opt_eqb cred_eqb (Some (mk_cred ps x)) (Some (cred_of ps x)) = true.
Proof. cbn [res_eqb opt_eqb]. rewrite !N.eqb_refl. apply cred_eqb_refl. Qed.

Lemma acc_agrees_of_header a data : agrees_with_header a data = true -> acc_agrees (accessors a) data = true.
Proof.
  intros H. destruct data as [|h payload]; [discriminate|].
  pose proof (agrees_inv a h payload H) as I. unfold acc_agrees.
  destruct (classify_header h) as [ps ss|ps|ps|ps| |].
  1,3,4: subst a; apply shelley_agrees.
  - destruct I as [q ->]. apply shelley_agrees.
  - destruct I as [b ->]. reflexivity.
  - destruct I.
Qed.

(* the only failures the judge can report on the model's own observations are the known classes *)
Definition known_only (v : verdict) : Prop := v = Holds \/ exists c, c <> 0 /\ v = Fails c.

Lemma combine_known a b : known_only a -> known_only b -> known_only (combine a b).
Proof.
  intros [->|(c & Hc & ->)] [->|(d & Hd & ->)]; cbn [combine].
  - now left.
  - right; eauto.
  - right; eauto.
  - destruct (c =? 0) eqn:E; [lia|]. destruct (d =? 0) eqn:E2; [lia|]. right; eauto.
Qed.

Lemma panic_known data : known_huge_length data = true -> known_only (Fails (panic_class data)).
Proof. intros K. right. exists cls_huge. split; [discriminate|]. unfold panic_class. now rewrite K. Qed.

(* what the strict parser accepts passes every comparison of the strict half *)
Lemma judge_strict_holds data a : bytes_ok data -> N.of_nat (length data) < 4611686018427387904 ->
  from_bytes data = Ok a -> judge_dec_strict data (model_dec data) = Holds.
Proof.
  intros Hok HL S. pose proof (strict_accepts_iff data Hok) as Hspec.
  pose proof (classify_parsed false data a Hok S) as Hc.
  unfold judge_dec_strict, model_dec, reward_address_decode. cbn [d_strict d_acc d_reparsed d_reward d_hex].
  rewrite (res_eqb_refl address_eqb address_eqb_refl), S in *. cbn [negb is_ok] in *.
  rewrite <- Hspec, Hc, (acc_agrees_of_header a data Hc), (res_eqb_refl N.eqb N.eqb_refl).
  rewrite (reparse_same false data a Hok HL S), (res_eqb_refl address_eqb address_eqb_refl).
  destruct a; cbn [andb]; rewrite ?(res_eqb_refl address_eqb address_eqb_refl); reflexivity.
Qed.

Theorem judge_dec_accepts_model data : bytes_ok data -> N.of_nat (length data) < 4611686018427387904 ->
  known_only (judge_dec data (model_dec data)).
Proof.
  intros Hok HL. unfold judge_dec. apply combine_known.
  - destruct (from_bytes data) as [a| | |] eqn:S.
    + left. exact (judge_strict_holds data a Hok HL S).
    + left. pose proof (strict_accepts_iff data Hok) as Hspec.
      unfold judge_dec_strict, model_dec, reward_address_decode. cbn [d_strict d_reward d_hex].
      rewrite (res_eqb_refl address_eqb address_eqb_refl), S in *. cbn [negb is_ok] in *. now rewrite <- Hspec.
    + unfold judge_dec_strict, model_dec. cbn [d_strict d_hex]. rewrite S. cbn [res_eqb negb].
      destruct (known_huge_length data) eqn:K; [apply panic_known, K|].
      destruct (strict_total data K) as [E|[a E]]; congruence.
    + unfold judge_dec_strict, model_dec. cbn [d_strict d_hex]. rewrite S. cbn [res_eqb negb].
      destruct (known_huge_length data) eqn:K; [apply panic_known, K|].
      destruct (strict_total data K) as [E|[a E]]; congruence.
  - unfold judge_dec_embedded, model_dec. cbn [d_embedded d_emb_bytes].
    destruct (embedded_decode data) as [a| | |] eqn:E.
    + destruct (bytes_eqb (to_bytes a) data) eqn:B; [now left|]. right.
      exists (lenient_class data). split; [|reflexivity]. unfold lenient_class.
      destruct (known_trailing data) eqn:K1; [discriminate|].
      destruct (known_padded_pointer data) eqn:K2; [discriminate|].
      destruct (known_noncanonical_byron data) eqn:K3; [discriminate|].
      rewrite (embedded_verbatim data a Hok K1 K2 K3 E), bytes_eqb_refl in B. discriminate.
    + exfalso. unfold embedded_decode in E. destruct (from_bytes_internal true data); discriminate.
    + destruct (known_huge_length data) eqn:K; [apply panic_known, K|].
      destruct (embedded_total data K) as [a Ea]. congruence.
    + destruct (known_huge_length data) eqn:K; [apply panic_known, K|].
      destruct (embedded_total data K) as [a Ea]. congruence.
Qed.

