(* Round trips of the text forms (Bech32Iface.v).  The Bech32 form of an address: for any codec that satisfies the round-trip
   law, and for the model of the crate (Bech32.v), which does.  The first lemmas say that what the writers emit is made of bytes. *)
From CSL Require Import Base.Prelude Cbor.Head Cbor.HeadProofs Addr.Crc32 Addr.Crc32Proofs Addr.Byron Addr.ByronProofs
  Addr.Base58 Addr.Base58Proofs Addr.VarNat Addr.VarNatProofs Addr.Shelley Addr.ShelleyProofs Addr.Bech32Iface
  Addr.Bech32 Addr.Bech32Proofs.
Local Open Scope N_scope.

(* the default prefix is a function of kind and network id *)
Theorem default_prefix_table a :
  default_prefix a =
  match kind a, network_id a with
  | KMalformed, _ => Ok (s_addr ++ s_malformed)
  | KReward, Ok n => Ok (s_stake ++ (if n =? 0 then s_test else []))
  | _, Ok n => Ok (s_addr ++ (if n =? 0 then s_test else []))
  | _, Err => Err
  | _, Panic => Panic
  | _, OutOfFuel => OutOfFuel
  end.
Proof.
  destruct a as [net p s|net p q|net p|net p|b|m]; try reflexivity.
Qed.

Lemma enc_bytes_ok b : bytes_ok b -> bytes_ok (enc_bytes b).
Proof. intros H. apply Forall_app; split; [apply encode_head_bytes_ok; lia|exact H]. Qed.

Lemma byron_inner_ok a : wf_byron a -> bytes_ok (byron_inner a).
Proof.
  intros (_ & Ha & Hd & _). unfold byron_inner, enc_uint.
  apply Forall_app; split; [apply encode_head_bytes_ok; lia|].
  apply Forall_app; split; [apply enc_bytes_ok, Ha|].
  apply Forall_app; split; [|apply encode_head_bytes_ok; lia].
  unfold enc_attrs, enc_uint.
  apply Forall_app; split; [apply encode_head_bytes_ok; lia|].
  apply Forall_app; split.
  - destruct (b_dpath a) as [d|]; [|constructor].
    apply Forall_app; split; [apply encode_head_bytes_ok; lia|apply enc_bytes_ok; tauto].
  - destruct (b_magic a) as [m|]; [|constructor].
    apply Forall_app; split; [apply encode_head_bytes_ok; lia|].
    apply enc_bytes_ok. apply encode_head_bytes_ok. lia.
Qed.

Lemma byron_encode_ok crc a : wf_byron a -> bytes_ok (byron_encode crc a).
Proof.
  intros H. unfold byron_encode, enc_uint.
  apply Forall_app; split; [apply encode_head_bytes_ok; lia|].
  apply Forall_app; split; [apply encode_head_bytes_ok; lia|].
  apply Forall_app; split; [|apply encode_head_bytes_ok; lia].
  apply enc_bytes_ok, byron_inner_ok, H.
Qed.

Lemma to_bytes_ok a : wf_address a -> bytes_ok (to_bytes a).
Proof.
  intros Hwf. destruct a as [net p s|net p q|net p|net p|b|m]; cbn [to_bytes]; rewrite ?cred_kind_bit.
  - destruct Hwf as (Hn & [_ Hp] & [_ Hs]).
    destruct (written_all net (is_script p) (is_script s) Hn) as ((H & _) & _).
    constructor; [exact H|]. apply Forall_app; split; assumption.
  - destruct Hwf as (Hn & [_ Hp] & _). destruct (written_all net (is_script p) false Hn) as (_ & (H & _) & _).
    constructor; [exact H|]. repeat (apply Forall_app; split); try assumption; apply varnat_encode_bytes_ok.
  - destruct Hwf as (Hn & [_ Hp]). destruct (written_all net (is_script p) false Hn) as (_ & _ & (H & _) & _).
    constructor; [exact H|exact Hp].
  - destruct Hwf as (Hn & [_ Hp]). destruct (written_all net (is_script p) false Hn) as (_ & _ & _ & (H & _)).
    constructor; [exact H|exact Hp].
  - apply byron_encode_ok, Hwf.
  - destruct Hwf.
Qed.

Section Bech32.
  (* the external crate *)
  Variable b32_encode : list N -> bytes -> option (list N).
  Variable b32_decode : list N -> option (list N * bytes).
  (* its law: what encode produced decodes to the same payload (under some spelling of the prefix) *)
  Hypothesis b32_law : forall hrp data s, bytes_ok data -> b32_encode hrp data = Some s ->
    exists hrp', b32_decode s = Some (hrp', data).

  (* C11_bech32_any_codec: for every prefix, given or default *)
  Theorem bech32_roundtrip prefix a s : wf_address a ->
    to_bech32 b32_encode prefix a = Ok s -> from_bech32 b32_decode s = Ok a.
  Proof.
    intros Hwf H. unfold to_bech32 in H.
    destruct (match prefix with Some p => Ok p | None => default_prefix a end) as [p| | |]; cbn [bind] in H; try discriminate.
    destruct (b32_encode p (to_bytes a)) as [s'|] eqn:E; [|discriminate]. injection H as <-.
    destruct (b32_law _ _ _ (to_bytes_ok a Hwf) E) as [hrp' D]. unfold from_bech32. rewrite D. apply address_roundtrip, Hwf.
  Qed.
End Bech32.

(* the model of the bech32 crate (Bech32.v) satisfies the law, so the round trip holds of it WITHOUT the premise
   (C11_bech32) *)
Lemma bech32_model_law : forall hrp data s, bytes_ok data -> Bech32.b32_encode hrp data = Some s ->
  exists hrp', Bech32.b32_decode s = Some (hrp', data).
Proof.
  intros hrp data s Hok H. destruct (b32_roundtrip hrp data s Hok H) as (c & _ & D). eauto.
Qed.

Theorem bech32_roundtrip_concrete prefix a s : wf_address a ->
  to_bech32 Bech32.b32_encode prefix a = Ok s -> from_bech32 Bech32.b32_decode s = Ok a.
Proof. apply (bech32_roundtrip Bech32.b32_encode Bech32.b32_decode bech32_model_law). Qed.

(* with the default prefix the text form always exists (every CIP5 prefix the library picks is a valid HRP) *)
Theorem to_bech32_default_total a p : default_prefix a = Ok p ->
  exists s, to_bech32 Bech32.b32_encode None a = Ok s.
Proof.
  intros Hp. unfold to_bech32. rewrite Hp. cbn [bind].
  assert (Hc : exists c, check_hrp p = Ok c).
  { unfold default_prefix in Hp.
    destruct a as [net q s|net q r|net q|net q|b|m]; cbn [network_id bind] in Hp;
      try (injection Hp as <-; match goal with |- context [if ?c then _ else _] => destruct c end;
           eexists; vm_compute; reflexivity).
    - destruct (byron_network_id b) as [n| | |]; cbn [bind] in Hp; try discriminate.
      injection Hp as <-. destruct (n =? 0); eexists; vm_compute; reflexivity.
    - injection Hp as <-. eexists; vm_compute; reflexivity. }
  destruct Hc as [c Hc]. destruct (b32_encode_total p (to_bytes a) c Hc) as [s Hs]. rewrite Hs. eauto.
Qed.

