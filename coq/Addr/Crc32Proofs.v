(* Facts about the CRC-32 model (Crc32.v). *)
From CSL Require Import Base.Prelude Addr.Crc32.
Local Open Scope N_scope.

(* the table transcribed from crc32.rs is the standard CRC-32 (IEEE, reflected) table *)
Theorem crc_table_standard : crc_table = map (fun i => crc_entry (N.of_nat i)) (seq 0 256).
Proof. vm_compute. reflexivity. Qed.

(* the test vector of crc32.rs *)
Example crc32_quick_brown_fox :
  crc32 [84;104;101;32;113;117;105;99;107;32;98;114;111;119;110;32;102;111;120;32;106;117;109;112;115;
         32;111;118;101;114;32;116;104;101;32;108;97;122;121;32;100;111;103] = 1095738169.
Proof. vm_compute. reflexivity. Qed.

Lemma lxor_lt_pow2 a b n : a < 2 ^ n -> b < 2 ^ n -> N.lxor a b < 2 ^ n.
Proof.
  intros Ha Hb. apply N.div_small_iff; [apply N.pow_nonzero; discriminate|].
  rewrite <- N.shiftr_div_pow2, N.shiftr_lxor, !N.shiftr_div_pow2, !N.div_small by assumption. reflexivity.
Qed.

Lemma crc_table_bound : forallb (fun v => v <? 4294967296) crc_table = true.
Proof. vm_compute. reflexivity. Qed.

Lemma crc_table_nth i : nth i crc_table 0 < 2 ^ 32.
Proof.
  destruct (Nat.lt_ge_cases i (length crc_table)) as [H|H].
  - pose proof crc_table_bound as B. rewrite forallb_forall in B.
    specialize (B _ (nth_In crc_table 0 H)). change (2 ^ 32) with 4294967296. lia.
  - rewrite nth_overflow by exact H. change (2 ^ 32) with 4294967296. lia.
Qed.

Lemma crc_update_bound st b : st < 2 ^ 32 -> crc_update st b < 2 ^ 32.
Proof.
  intros H. unfold crc_update. apply lxor_lt_pow2; [|apply crc_table_nth].
  rewrite N.shiftr_div_pow2. eapply N.le_lt_trans; [|exact H].
  apply N.div_le_upper_bound; [lia|]. change (2 ^ 8) with 256. lia.
Qed.

Lemma crc_fold_bound bs : forall st, st < 2 ^ 32 -> fold_left crc_update bs st < 2 ^ 32.
Proof.
  induction bs as [|b t IH]; intros st H; cbn [fold_left]; [exact H|].
  apply IH, crc_update_bound, H.
Qed.

(* the checksum is a u32 *)
Theorem crc32_bound bs : crc32 bs < two32.
Proof.
  unfold crc32, two32. change 4294967296 with (2 ^ 32). apply lxor_lt_pow2.
  - apply crc_fold_bound. change (2 ^ 32) with 4294967296. lia.
  - change (2 ^ 32) with 4294967296. lia.
Qed.
