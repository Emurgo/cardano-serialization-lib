(* Proofs about the Bech32 model (Bech32.v): the checksum the writer appends always verifies
   (polymod is XOR-linear), 8 -> 5 -> 8 bit conversion is the identity on byte strings, and
   decode (encode hrp data) = Ok (lower-cased hrp, data) for every valid HRP and ALL data. *)
From Coq Require Import Btauto.
From CSL Require Import Base.Prelude Addr.Crc32Proofs Addr.Bech32.
Local Open Scope N_scope.

Lemma sel_spec b i g n : N.testbit (sel b i g) n = N.testbit b i && N.testbit g n.
Proof. unfold sel. destruct (N.testbit b i); [reflexivity|apply N.bits_0]. Qed.

Lemma sel_lxor b1 b2 i g : sel (N.lxor b1 b2) i g = N.lxor (sel b1 i g) (sel b2 i g).
Proof.
  unfold sel. rewrite N.lxor_spec.
  destruct (N.testbit b1 i), (N.testbit b2 i); cbn [xorb]; now rewrite ?N.lxor_nilpotent, ?N.lxor_0_r.
Qed.

Lemma land_lxor a b m : N.land (N.lxor a b) m = N.lxor (N.land a m) (N.land b m).
Proof. apply N.bits_inj. intros n. rewrite !N.lxor_spec, !N.land_spec, N.lxor_spec. btauto. Qed.

(* one step is linear over GF(2): xor of states and xor of symbols give the xor of the results.  Shifts, the mask and
   the selection of a generator each commute with xor; what is left is a reordering of xors. *)
Lemma step_linear c1 c2 v1 v2 :
  polymod_step (N.lxor c1 c2) (N.lxor v1 v2) = N.lxor (polymod_step c1 v1) (polymod_step c2 v2).
Proof.
  unfold polymod_step. rewrite N.shiftr_lxor, !sel_lxor, land_lxor, N.shiftl_lxor.
  apply N.bits_inj. intros n. rewrite !N.lxor_spec. btauto.
Qed.

Lemma polymod_from_linear l : forall c1 c2,
  polymod_from (N.lxor c1 c2) (map (fun p => N.lxor (fst p) (snd p)) l) =
  N.lxor (polymod_from c1 (map fst l)) (polymod_from c2 (map snd l)).
Proof.
  induction l as [|[a b] t IH]; intros c1 c2; [reflexivity|].
  unfold polymod_from in *. cbn [map fold_left fst snd]. rewrite step_linear. apply IH.
Qed.

Lemma testbit_small v k n : v < 2 ^ k -> k <= n -> N.testbit v n = false.
Proof.
  intros Hv Hk. destruct (N.eq_dec v 0) as [->|Hz]; [apply N.bits_0|].
  apply N.bits_above_log2. apply N.log2_lt_pow2; [lia|].
  eapply N.lt_le_trans; [exact Hv|]. apply N.pow_le_mono_r; lia.
Qed.

Lemma land_disj a v k : a mod 2 ^ k = 0 -> v < 2 ^ k -> N.land a v = 0.
Proof.
  intros Ha Hv. apply N.bits_inj. intros n. rewrite N.land_spec, N.bits_0.
  destruct (N.lt_ge_cases n k) as [H|H].
  - rewrite <- (N.mod_pow2_bits_low a k n H), Ha. reflexivity.
  - rewrite (testbit_small v k n Hv H). apply andb_false_r.
Qed.

Lemma lxor_disj a v k : a mod 2 ^ k = 0 -> v < 2 ^ k -> N.lxor a v = a + v.
Proof. intros Ha Hv. symmetry. apply N.add_nocarry_lxor. eapply land_disj; eassumption. Qed.

Lemma lor_disj a v k : a mod 2 ^ k = 0 -> v < 2 ^ k -> N.lor a v = a + v.
Proof.
  intros Ha Hv. rewrite <- N.lxor_lor by (eapply land_disj; eassumption).
  eapply lxor_disj; eassumption.
Qed.

Lemma sel_zero i g : sel 0 i g = 0.
Proof. unfold sel. now rewrite N.bits_0. Qed.

(* while the state is short no generator is selected: the step just appends the symbol *)
Lemma step_small c v : c < 33554432 -> v < 32 -> polymod_step c v = c * 32 + v.
Proof.
  intros Hc Hv. unfold polymod_step.
  rewrite N.shiftr_div_pow2. change (2 ^ 25) with 33554432. rewrite N.div_small by exact Hc.
  rewrite !sel_zero, !N.lxor_0_r.
  change 33554431 with (N.ones 25). rewrite N.land_ones. change (2 ^ 25) with 33554432.
  rewrite N.mod_small by exact Hc. rewrite N.shiftl_mul_pow2. change (2 ^ 5) with 32.
  apply (lxor_disj (c * 32) v 5); [change (2 ^ 5) with 32; apply N.mod_mul; discriminate|exact Hv].
Qed.

(* the state stays below 2^30 *)
Lemma step_bound c v : v < 32 -> polymod_step c v < 2 ^ 30.
Proof.
  intros Hv. unfold polymod_step.
  assert (G : forall b i g, g < 2 ^ 30 -> sel b i g < 2 ^ 30).
  { intros b i g Hg. unfold sel. destruct (N.testbit b i); [exact Hg|]. apply N.neq_0_lt_0. apply N.pow_nonzero. lia. }
  repeat apply lxor_lt_pow2; try (apply G; vm_compute; reflexivity).
  - rewrite N.shiftl_mul_pow2. change 33554431 with (N.ones 25). rewrite N.land_ones.
    pose proof (N.mod_lt c (2 ^ 25) ltac:(apply N.pow_nonzero; lia)).
    change (2 ^ 30) with (2 ^ 25 * 2 ^ 5). apply N.mul_lt_mono_pos_r; [vm_compute; reflexivity|exact H].
  - eapply N.lt_trans; [exact Hv|vm_compute; reflexivity].
Qed.

Lemma polymod_from_app c l1 l2 : polymod_from c (l1 ++ l2) = polymod_from (polymod_from c l1) l2.
Proof. unfold polymod_from. apply fold_left_app. Qed.

(* six symbols fed into the zero state spell the number they are the base-32 digits of *)
Lemma polymod_from_zero6 v0 v1 v2 v3 v4 v5 :
  v0 < 32 -> v1 < 32 -> v2 < 32 -> v3 < 32 -> v4 < 32 -> v5 < 32 ->
  polymod_from 0 [v0; v1; v2; v3; v4; v5] = ((((v0 * 32 + v1) * 32 + v2) * 32 + v3) * 32 + v4) * 32 + v5.
Proof.
  intros. unfold polymod_from. cbn [fold_left].
  rewrite (step_small 0 v0) by lia. rewrite (step_small _ v1) by lia.
  rewrite (step_small _ v2) by lia. rewrite (step_small _ v3) by lia.
  rewrite (step_small _ v4) by lia. rewrite (step_small _ v5) by lia. lia.
Qed.

Lemma linear6 S v0 v1 v2 v3 v4 v5 :
  polymod_from S [v0; v1; v2; v3; v4; v5] =
  N.lxor (polymod_from S [0; 0; 0; 0; 0; 0]) (polymod_from 0 [v0; v1; v2; v3; v4; v5]).
Proof.
  pose proof (polymod_from_linear [(0, v0); (0, v1); (0, v2); (0, v3); (0, v4); (0, v5)] S 0) as L.
  cbn [map fst snd] in L. rewrite !N.lxor_0_l, N.lxor_0_r in L. exact L.
Qed.


Lemma digit_glue p m m' : m' = m * 32 -> m <> 0 -> p / m' * 32 + p / m mod 32 = p / m.
Proof. intros -> Hm. rewrite <- N.div_div by lia. symmetry. rewrite N.mul_comm. apply N.div_mod'. Qed.

(* the six base-32 digits of a 30-bit number, most significant first *)
Lemma polymod_digits p : p < 2 ^ 30 ->
  polymod_from 0 [p / 33554432 mod 32; p / 1048576 mod 32; p / 32768 mod 32; p / 1024 mod 32; p / 32 mod 32; p mod 32] = p.
Proof.
  intros Hp. rewrite polymod_from_zero6 by (apply N.mod_lt; discriminate).
  rewrite (N.mod_small (p / 33554432)) by (apply N.div_lt_upper_bound; [discriminate|exact Hp]).
  rewrite (digit_glue p 1048576), (digit_glue p 32768), (digit_glue p 1024), (digit_glue p 32) by easy.
  rewrite (N.mul_comm (p / 32)). symmetry. apply N.div_mod'.
Qed.

(* verify_checksum accepts what create_checksum appends: for EVERY hrp and EVERY data.  With S the
   state after hrp and data and chk the state after six more zeros, the appended symbols are the
   digits of chk xor 1, and by linearity they move S to chk xor (chk xor 1). *)
Theorem checksum_valid hrp data :
  polymod (hrp_expand hrp ++ data ++ create_checksum hrp data) = 1.
Proof.
  unfold polymod, create_checksum. rewrite !app_assoc, !polymod_from_app, linear6.
  rewrite polymod_digits by (apply lxor_lt_pow2; [apply step_bound|]; reflexivity).
  rewrite <- N.lxor_assoc, N.lxor_nilpotent. reflexivity.
Qed.

(* the decoder with its accumulator normalised to the bits that are still unread *)
Fixpoint D (data : list N) (y bits : N) (ret : bytes) : result bytes :=
  match data with
  | [] => if (5 <=? bits) || negb (y =? 0) then Err else Ok ret
  | v :: t =>
      if 32 <=? v then Err
      else
        let y' := y * 32 + v in
        if 8 <=? bits + 5 then D t (y' mod 2 ^ (bits + 5 - 8)) (bits + 5 - 8) (ret ++ [y' / 2 ^ (bits + 5 - 8)])
        else D t y' (bits + 5) ret
  end.

Lemma pow2_nz n : 2 ^ n <> 0.
Proof. apply N.pow_nonzero. discriminate. Qed.

(* a number written as high part and low part at weight Q *)
Lemma glue_div hi lo Q : lo < Q -> (hi * Q + lo) / Q = hi.
Proof. intros H. rewrite N.div_add_l, N.div_small by lia. apply N.add_0_r. Qed.
Lemma glue_mod hi lo Q : lo < Q -> (hi * Q + lo) mod Q = lo.
Proof. intros H. rewrite N.add_comm, N.mod_add, N.mod_small by lia. reflexivity. Qed.

Lemma glue_lt hi lo P Q : hi < P -> lo < Q -> hi * Q + lo < P * Q.
Proof. intros Hh Hl. apply N.lt_le_trans with ((hi + 1) * Q); [lia|]. apply N.mul_le_mono_r. lia. Qed.

Lemma mul_pow2_mod a m k n : n = m + k -> (a * 2 ^ k) mod 2 ^ n = a mod 2 ^ m * 2 ^ k.
Proof. intros ->. rewrite N.pow_add_r. apply N.mul_mod_distr_r; apply pow2_nz. Qed.

Lemma mod_pow2_mod a m n : m <= n -> (a mod 2 ^ n) mod 2 ^ m = a mod 2 ^ m.
Proof.
  intros H. replace n with (m + (n - m)) by lia.
  rewrite N.pow_add_r, N.mod_mul_r, N.mul_comm, N.mod_add, N.mod_mod by apply pow2_nz. reflexivity.
Qed.

Lemma div_pow2_mod a k n : (a / 2 ^ k) mod 2 ^ n = (a mod 2 ^ (k + n)) / 2 ^ k.
Proof.
  rewrite N.pow_add_r, N.mod_mul_r, N.add_comm, N.mul_comm by apply pow2_nz.
  symmetry. apply glue_div. apply N.mod_lt, pow2_nz.
Qed.

(* the accumulator after one more symbol, seen through its low bits *)
Lemma acc_step acc bits v : v < 32 -> bits < 8 ->
  N.lor (N.shiftl acc 5 mod 4294967296) v mod 2 ^ (bits + 5) = acc mod 2 ^ bits * 32 + v.
Proof.
  intros Hv Hb. rewrite N.shiftl_mul_pow2. change 4294967296 with (2 ^ 32).
  rewrite (mul_pow2_mod _ 27 5 32), (lor_disj _ v 5) by (reflexivity || apply N.mod_mul, pow2_nz || exact Hv).
  rewrite <- N.add_mod_idemp_l, (mul_pow2_mod _ bits 5), mod_pow2_mod by (apply pow2_nz || lia).
  pose proof (N.mod_lt acc (2 ^ bits) (pow2_nz _)). rewrite N.pow_add_r.
  apply N.mod_small. change (2 ^ 5) with 32. lia.
Qed.

Lemma dec_D data : forall acc bits ret, bits < 8 ->
  from_base32_go data acc bits ret = D data (acc mod 2 ^ bits) bits ret.
Proof.
  induction data as [|v t IH]; intros acc bits ret Hb; cbn [from_base32_go D].
  - rewrite N.shiftl_mul_pow2. change 256 with (2 ^ 8). rewrite (mul_pow2_mod _ bits) by lia.
    replace (_ * _ =? 0) with (acc mod 2 ^ bits =? 0); [reflexivity|].
    apply eq_iff_eq_true. rewrite !N.eqb_eq, N.eq_mul_0. pose proof (pow2_nz (8 - bits)). tauto.
  - rewrite N.shiftr_div_pow2. change (2 ^ 5) with 32.
    destruct (32 <=? v) eqn:Ev.
    + rewrite (proj2 (N.eqb_neq _ _)); [reflexivity|]. lia.
    + rewrite (proj2 (N.eqb_eq (v / 32) 0)) by (apply N.div_small; lia). cbn [negb].
      assert (Hv : v < 32) by lia.
      (* what is emitted and what is kept are read off the low bits + 5 bits of the accumulator *)
      destruct (N.leb_spec 8 (bits + 5)) as [E|E]; rewrite IH by lia.
      * rewrite N.shiftr_div_pow2. change 256 with (2 ^ 8).
        rewrite div_pow2_mod, N.sub_add by exact E.
        rewrite <- (mod_pow2_mod _ (bits + 5 - 8) (bits + 5)), acc_step by (assumption || lia). reflexivity.
      * rewrite acc_step by assumption. reflexivity.
Qed.

Lemma D_emit v t y bits ret k : v < 32 -> bits + 5 = k + 8 ->
  D (v :: t) y bits ret = D t ((y * 32 + v) mod 2 ^ k) k (ret ++ [(y * 32 + v) / 2 ^ k]).
Proof.
  intros Hv Hk. cbn [D]. destruct (32 <=? v) eqn:E; [lia|].
  destruct (8 <=? bits + 5) eqn:E2; [|lia]. replace (bits + 5 - 8) with k by lia. reflexivity.
Qed.
Lemma D_keep v t y bits ret : v < 32 -> bits + 5 < 8 ->
  D (v :: t) y bits ret = D t (y * 32 + v) (bits + 5) ret.
Proof.
  intros Hv Hk. cbn [D]. destruct (32 <=? v) eqn:E; [lia|].
  destruct (8 <=? bits + 5) eqn:E2; [lia|reflexivity].
Qed.
Lemma D_end y bits ret : bits < 5 -> y = 0 -> D [] y bits ret = Ok ret.
Proof. intros Hb ->. cbn [D]. destruct (5 <=? bits) eqn:E; [lia|reflexivity]. Qed.

(* (buffer & 0b1111_1000) >> 3 is buffer >> 3 for a u8 *)
Lemma mask_shift b : b < 256 -> N.land b 248 / 8 = b / 8.
Proof.
  intros H. change 8 with (2 ^ 3). rewrite <- !N.shiftr_div_pow2, N.shiftr_land.
  change (N.shiftr 248 3) with (N.ones 5). rewrite N.land_ones, N.shiftr_div_pow2.
  apply N.mod_small, N.div_lt_upper_bound; [discriminate|exact H].
Qed.

(* the encoder's three moves *)
Lemma enc_flush bs r buffer : 5 <= r < 10 ->
  to_base32_go bs r buffer = N.land buffer 248 / 8 :: to_base32_go bs (r - 5) ((buffer * 32) mod 256).
Proof.
  intros H. destruct bs as [|b t]; cbn [to_base32_go];
    rewrite (proj2 (N.leb_le 5 r)), (proj2 (N.leb_gt 5 (r - 5))) by lia; reflexivity.
Qed.
Lemma enc_take b t r buffer : r < 5 -> to_base32_go (b :: t) r buffer =
  N.lor (buffer / 8) (N.shiftr b (3 + r)) :: to_base32_go t (r + 3) (N.shiftl b (5 - r) mod 256).
Proof. intros H. cbn [to_base32_go]. rewrite (proj2 (N.leb_gt 5 r)) by exact H. reflexivity. Qed.
Lemma enc_end r buffer : r < 5 -> to_base32_go [] r buffer = if r =? 0 then [] else [buffer / 8].
Proof. intros H. cbn [to_base32_go]. rewrite (proj2 (N.leb_gt 5 r)) by exact H. reflexivity. Qed.

Lemma pow2_32 r k : r + k = 5 -> 2 ^ r * 2 ^ k = 32.
Proof. intros H. rewrite <- N.pow_add_r, H. reflexivity. Qed.

(* a decoder holding 8 - r bits reads a symbol: r bits complete the byte, the other k are kept *)
Lemma D_read r k v y t ret : r + k = 5 -> 0 < r -> v < 32 ->
  D (v :: t) y (8 - r) ret = D t (v mod 2 ^ k) k (ret ++ [y * 2 ^ r + v / 2 ^ k]).
Proof.
  intros Hk Hr Hv. rewrite (D_emit v t y (8 - r) ret k) by lia.
  rewrite <- (pow2_32 r k Hk), N.mul_assoc, N.div_add_l, N.add_comm, N.mod_add by apply pow2_nz. reflexivity.
Qed.

(* The state of the simulation: the encoder holds r pending bits, of value p, at the top of its u8
   buffer (the buffer is p * 2 ^ (8 - r)); the decoder has read the other 8 - r bits of that byte, of
   value y (none when r = 0).  [pend] is the byte they share. *)
Definition bits_of (r : N) : N := if r =? 0 then 0 else 8 - r.
Definition pend (r p y : N) : bytes := if r =? 0 then [] else [y * 2 ^ r + p].
Definition st_ok (r p y : N) : Prop := r < 8 /\ p < 2 ^ r /\ y < 2 ^ bits_of r.

Lemma buffer_top r k p : r + k = 5 -> p * 2 ^ (8 - r) / 8 = p * 2 ^ k.
Proof.
  intros H. replace (8 - r) with (k + 3) by lia.
  rewrite N.pow_add_r, N.mul_assoc. apply N.div_mul. discriminate.
Qed.

(* the three moves on a buffer p * 2 ^ (8 - r): a byte is cut at bit 3 + r, its high part fills the
   symbol and its low part is the new pending value *)
Lemma enc_take_p b t r k p : r + k = 5 -> 0 < k -> b < 256 -> to_base32_go (b :: t) r (p * 2 ^ (8 - r)) =
  (p * 2 ^ k + b / 2 ^ (3 + r)) :: to_base32_go t (r + 3) (b mod 2 ^ (3 + r) * 2 ^ k).
Proof.
  intros H Hk Hb. rewrite enc_take, (buffer_top r k), N.shiftr_div_pow2, N.shiftl_mul_pow2 by lia.
  replace (5 - r) with k by lia.
  change 256 with (2 ^ 8). rewrite (mul_pow2_mod _ (3 + r)) by lia.
  rewrite (lor_disj _ _ k); [reflexivity|apply N.mod_mul, pow2_nz|].
  apply N.div_lt_upper_bound; [apply pow2_nz|]. rewrite <- N.pow_add_r. replace (3 + r + k) with 8 by lia. exact Hb.
Qed.
Lemma enc_end_p r k p : r + k = 5 -> 0 < k ->
  to_base32_go [] r (p * 2 ^ (8 - r)) = if r =? 0 then [] else [p * 2 ^ k].
Proof. intros H Hk. rewrite enc_end, (buffer_top r k) by lia. reflexivity. Qed.

Lemma enc_flush_p bs r j p : r = j + 5 -> r < 8 -> p < 2 ^ r ->
  to_base32_go bs r (p * 2 ^ (8 - r)) = p / 2 ^ j :: to_base32_go bs j (p mod 2 ^ j * 2 ^ (8 - j)).
Proof.
  intros -> Hr Hp. replace (8 - (j + 5)) with (3 - j) by lia.
  assert (E8 : 2 ^ j * 2 ^ (3 - j) = 8) by (rewrite <- N.pow_add_r; replace (j + (3 - j)) with 3 by lia; reflexivity).
  assert (E256 : 2 ^ (j + 5) * 2 ^ (3 - j) = 256) by (rewrite <- N.pow_add_r; replace (j + 5 + (3 - j)) with 8 by lia; reflexivity).
  assert (Hbuf : p * 2 ^ (3 - j) < 256).
  { rewrite <- E256. apply N.mul_lt_mono_pos_r; [apply N.neq_0_lt_0, pow2_nz|exact Hp]. }
  rewrite enc_flush, mask_shift by (exact Hbuf || lia).
  rewrite <- E8 at 1. rewrite N.div_mul_cancel_r by apply pow2_nz.
  rewrite <- N.mul_assoc. change 32 with (2 ^ 5). rewrite <- N.pow_add_r. replace (3 - j + 5) with (8 - j) by lia.
  change 256 with (2 ^ 8). rewrite (mul_pow2_mod _ j), N.add_sub by lia. reflexivity.
Qed.

Lemma bits_of_pos r : r <> 0 -> bits_of r = 8 - r.
Proof. intros H. unfold bits_of. now rewrite (proj2 (N.eqb_neq r 0)). Qed.
Lemma pend_pos r p y : r <> 0 -> pend r p y = [y * 2 ^ r + p].
Proof. intros H. unfold pend. now rewrite (proj2 (N.eqb_neq r 0)). Qed.

Definition sim_at (bs : bytes) (r p y : N) : Prop := forall ret,
  D (to_base32_go bs r (p * 2 ^ (8 - r))) y (bits_of r) ret = Ok (ret ++ pend r p y ++ bs).

(* five or more pending bits are written out first; the state that remains has fewer *)
Lemma sim_flush bs : (forall r p y, r < 5 -> st_ok r p y -> sim_at bs r p y) ->
  forall r p y, st_ok r p y -> sim_at bs r p y.
Proof.
  intros Small r p y Hst. destruct (N.lt_ge_cases r 5) as [H|H]; [apply Small; assumption|].
  destruct Hst as (Hr & Hp & Hy). intros ret. rewrite bits_of_pos in * by lia. rewrite pend_pos by lia.
  assert (Ej : exists j, r = j + 5) by (exists (r - 5); lia). destruct Ej as [j ->].
  rewrite (enc_flush_p bs _ j) by (reflexivity || assumption).
  assert (Hv : p / 2 ^ j < 32).
  { apply N.div_lt_upper_bound; [apply pow2_nz|]. change 32 with (2 ^ 5). rewrite <- N.pow_add_r. exact Hp. }
  destruct (N.eq_dec j 0) as [->|Ej].
  - rewrite (D_read _ 0) by (reflexivity || assumption).
    rewrite N.pow_0_r, !N.div_1_r, !N.mod_1_r, (Small 0 0 0) by (repeat split; reflexivity).
    rewrite <- app_assoc. reflexivity.
  - rewrite D_keep by (exact Hv || (clear - Hr Ej; lia)).
    replace (8 - (j + 5) + 5) with (bits_of j) by (rewrite bits_of_pos; clear - Hr Ej; lia).
    rewrite Small, pend_pos; [|exact Ej|clear - Hr; lia|].
    + do 4 f_equal. rewrite N.mul_add_distr_r, <- N.add_assoc, (N.mul_comm (p / 2 ^ j)), <- N.div_mod', <- N.mul_assoc.
      change 32 with (2 ^ 5). rewrite <- N.pow_add_r, (N.add_comm 5). reflexivity.
    + split; [lia|]. split; [apply N.mod_lt, pow2_nz|]. rewrite bits_of_pos by exact Ej.
      replace (8 - j) with (8 - (j + 5) + 5) by lia. rewrite N.pow_add_r. change (2 ^ 5) with 32. lia.
Qed.

Lemma sim bs : bytes_ok bs -> forall r p y, st_ok r p y -> sim_at bs r p y.
Proof.
  induction 1 as [|b t Hb _ IH]; apply sim_flush; intros r p y Hr (_ & Hp & Hy) ret.
  - rewrite (enc_end_p r (5 - r)), app_nil_r by lia. destruct (N.eq_dec r 0) as [->|Hz].
    + rewrite app_nil_r. apply D_end; [reflexivity|]. change (y < 1) in Hy. lia.
    + rewrite (proj2 (N.eqb_neq r 0) Hz), bits_of_pos, pend_pos by exact Hz.
      rewrite (D_read r (5 - r)), N.mod_mul, N.div_mul; try apply pow2_nz; try lia.
      * apply D_end; [lia|reflexivity].
      * rewrite <- (pow2_32 r (5 - r)) by lia. apply N.mul_lt_mono_pos_r; [apply N.neq_0_lt_0, pow2_nz|exact Hp].
  - rewrite (enc_take_p b t r (5 - r)) by lia.
    assert (Hh : b / 2 ^ (3 + r) < 2 ^ (5 - r)).
    { apply N.div_lt_upper_bound; [apply pow2_nz|]. rewrite <- N.pow_add_r. replace (3 + r + (5 - r)) with 8 by lia. exact Hb. }
    assert (Hst : st_ok (r + 3) (b mod 2 ^ (3 + r)) (b / 2 ^ (3 + r))).
    { split; [lia|]. rewrite (N.add_comm r), bits_of_pos by lia. split; [apply N.mod_lt, pow2_nz|].
      replace (8 - (3 + r)) with (5 - r) by lia. exact Hh. }
    assert (Eb : b / 2 ^ (3 + r) * 2 ^ (r + 3) + b mod 2 ^ (3 + r) = b).
    { rewrite (N.add_comm r), N.mul_comm. symmetry. apply N.div_mod'. }
    specialize (IH _ _ _ Hst). unfold sim_at in IH. rewrite pend_pos, bits_of_pos in IH by (clear; lia).
    replace (8 - (r + 3)) with (5 - r) in IH by (clear - Hr; lia). rewrite Eb in IH. clear Hst Eb.
    (* from here on b is h * 2 ^ (r + 3) + l and nothing else *)
    revert Hh IH. generalize (b / 2 ^ (3 + r)) as h, (b mod 2 ^ (3 + r)) as l. intros h l Hh IH.
    destruct (N.eq_dec r 0) as [->|Hz].
    + change (p < 1) in Hp. change (y < 1) in Hy. assert (p = 0) as -> by lia. assert (y = 0) as -> by lia.
      change (2 ^ (5 - 0)) with 32 in *. change (bits_of 0) with 0.
      rewrite D_keep, !N.mul_0_l, !N.add_0_l by lia. apply IH.
    + rewrite bits_of_pos, pend_pos, (D_read r (5 - r)), glue_mod, glue_div; try lia.
      * rewrite IH, <- app_assoc. reflexivity.
      * rewrite <- (pow2_32 r (5 - r)) by lia. apply glue_lt; assumption.
Qed.

Lemma st_ok_0 : st_ok 0 0 0.
Proof. repeat split. Qed.
Theorem base32_roundtrip bs : bytes_ok bs -> from_base32 (to_base32 bs) = Ok bs.
Proof.
  intros H. unfold from_base32, to_base32. rewrite dec_D by reflexivity.
  exact (sim bs H 0 0 0 st_ok_0 []).
Qed.

Lemma D_ok_lt32 data : forall y bits ret r, D data y bits ret = Ok r -> Forall (fun d => d < 32) data.
Proof.
  induction data as [|v t IH]; intros y bits ret r H; [constructor|]. cbn [D] in H.
  destruct (32 <=? v) eqn:E; [discriminate|]. constructor; [lia|].
  destruct (8 <=? bits + 5); eapply IH; exact H.
Qed.

(* ToBase32 produces u5 values *)
Theorem to_base32_lt32 bs : bytes_ok bs -> Forall (fun d => d < 32) (to_base32 bs).
Proof. intros H. eapply D_ok_lt32. exact (sim bs H 0 0 0 st_ok_0 []). Qed.

Definition char_ok (d : N) : bool :=
  let c := to_char d in
  (c <? 128) && negb (is_upper c) && negb (c =? 49)
  && (nth (N.to_nat c) charset_rev (-1)%Z =? Z.of_N d)%Z.
Lemma charset_sweep : forallb (fun i => char_ok (N.of_nat i)) (seq 0 32) = true.
Proof. vm_compute. reflexivity. Qed.
Lemma char_ok_all d : d < 32 -> char_ok d = true.
Proof.
  intros H. pose proof charset_sweep as S. rewrite forallb_forall in S.
  specialize (S (N.to_nat d)). rewrite N2Nat.id in S. apply S. apply in_seq. lia.
Qed.

Lemma char_ok_spec d : d < 32 ->
  to_char d < 128 /\ is_upper (to_char d) = false /\ to_char d <> 49 /\
  nth (N.to_nat (to_char d)) charset_rev (-1)%Z = Z.of_N d.
Proof.
  intros Hd. pose proof (char_ok_all d Hd) as K. unfold char_ok in K. cbv zeta in K.
  rewrite !andb_true_iff, !negb_true_iff in K. destruct K as (((K1 & K2) & K3) & K4).
  repeat split; [lia|exact K2|lia|lia].
Qed.

Lemma decode_char_to_char case d : d < 32 -> case <> CUpper ->
  exists case', decode_char case (to_char d) = Ok (case', d) /\ case' <> CUpper.
Proof.
  intros Hd Hc. destruct (char_ok_spec d Hd) as (K1 & K2 & _ & K4).
  unfold decode_char. rewrite (proj2 (N.leb_gt 128 _) K1), K2, K4.
  replace ((31 <? Z.of_N d)%Z || (Z.of_N d <? 0)%Z) with false by lia. rewrite N2Z.id.
  destruct (is_lower (to_char d)).
  - destruct case; [congruence| |]; (eexists; split; [reflexivity|discriminate]).
  - eexists; split; [reflexivity|exact Hc].
Qed.

Lemma decode_chars_to_char ds : Forall (fun d => d < 32) ds -> forall case, case <> CUpper ->
  decode_chars case (map to_char ds) = Ok ds.
Proof.
  induction 1 as [|d t Hd _ IH]; intros case Hc; [reflexivity|]. cbn [map decode_chars].
  destruct (decode_char_to_char case d Hd Hc) as (case' & E & Hc'). rewrite E. cbn [bind].
  rewrite (IH case' Hc'). reflexivity.
Qed.

Lemma to_char_not_sep ds : Forall (fun d => d < 32) ds -> Forall (fun c => c <> 49) (map to_char ds).
Proof.
  induction 1 as [|d t Hd _ IH]; [constructor|]. cbn [map]. constructor; [|exact IH].
  apply (char_ok_spec d Hd).
Qed.

(* The separator is the LAST '1'. *)
Lemma rfind_go_notin c b : Forall (fun x => x <> c) b -> forall i last, rfind_go c b i last = last.
Proof.
  induction 1 as [|x t Hx _ IH]; intros i last; [reflexivity|]. cbn [rfind_go].
  destruct (x =? c) eqn:E; [lia|]. apply IH.
Qed.
Lemma rfind_go_last c a b : Forall (fun x => x <> c) b -> forall i last,
  rfind_go c (a ++ c :: b) i last = Some (i + length a)%nat.
Proof.
  intros Hb. induction a as [|x t IH]; intros i last.
  - cbn [app rfind_go length]. rewrite N.eqb_refl, rfind_go_notin by exact Hb. f_equal. lia.
  - cbn [app rfind_go length]. rewrite IH. f_equal. lia.
Qed.
Lemma rfind_last c a b : Forall (fun x => x <> c) b -> rfind c (a ++ c :: b) = Some (length a).
Proof. intros H. unfold rfind. now rewrite rfind_go_last. Qed.

Lemma check_go_has_lower hrp : forall hu c, check_hrp_go hrp true hu = Ok c -> c <> CUpper.
Proof.
  induction hrp as [|b t IH]; intros hu c H; cbn [check_hrp_go] in H.
  - destruct hu; injection H as <-; discriminate.
  - destruct ((b <? 33) || (126 <? b)); [discriminate|].
    destruct (is_lower b).
    + cbn [andb] in H. destruct hu; [discriminate|]. eapply IH; exact H.
    + destruct (is_upper b); cbn [andb] in H; [discriminate|].
      destruct hu; [discriminate|]. eapply IH; exact H.
Qed.

Lemma is_lower_lowercase b : is_upper b = true -> is_lower (lowercase b) = true /\ is_upper (lowercase b) = false
  /\ ((lowercase b <? 33) || (126 <? lowercase b)) = false.
Proof. intros H. unfold lowercase. rewrite H. unfold is_upper, is_lower in *. lia. Qed.

Lemma lowercase_id b : is_upper b = false -> lowercase b = b.
Proof. unfold lowercase. now intros ->. Qed.

Lemma check_go_upper hrp : forall hu, check_hrp_go hrp false hu = Ok CUpper ->
  check_hrp_go (map lowercase hrp) hu false = Ok CLower.
Proof.
  induction hrp as [|b t IH]; intros hu H; cbn [check_hrp_go map] in *.
  - destruct hu; [reflexivity|discriminate].
  - destruct ((b <? 33) || (126 <? b)) eqn:R; [discriminate|].
    destruct (is_lower b) eqn:L.
    + cbn [andb] in H. destruct hu; [discriminate|]. exfalso. eapply check_go_has_lower; [exact H|reflexivity].
    + destruct (is_upper b) eqn:U.
      * cbn [andb] in H. destruct (is_lower_lowercase b U) as (L' & U' & R'). rewrite R', L'.
        cbn [andb]. apply IH in H. destruct hu; exact H.
      * cbn [andb] in H. rewrite (lowercase_id b U), R, L, U.
        destruct hu; cbn [andb]; apply IH; exact H.
Qed.

Lemma check_hrp_lowered hrp c : check_hrp hrp = Ok c ->
  exists c', check_hrp (hrp_lower c hrp) = Ok c' /\ c' <> CUpper.
Proof.
  unfold check_hrp. intros H. destruct c; cbn [hrp_lower].
  - rewrite map_length. destruct ((length hrp =? 0)%nat || (83 <? length hrp)%nat); [discriminate|].
    exists CLower. split; [apply check_go_upper; exact H|discriminate].
  - exists CLower. split; [exact H|discriminate].
  - exists CNone. split; [exact H|discriminate].
Qed.

Lemma check_hrp_nonempty hrp c : check_hrp hrp = Ok c -> (1 <= length hrp <= 83)%nat.
Proof.
  unfold check_hrp. destruct (length hrp =? 0)%nat eqn:E1; [discriminate|].
  destruct (83 <? length hrp)%nat eqn:E2; [discriminate|]. intros _.
  apply Nat.eqb_neq in E1. apply Nat.ltb_ge in E2. lia.
Qed.

Lemma firstn_len {A} (l r : list A) : firstn (length l) (l ++ r) = l.
Proof. induction l as [|x t IH]; [reflexivity|]. cbn. now rewrite IH. Qed.
Lemma skipn_len {A} (l r : list A) : skipn (length l) (l ++ r) = r.
Proof. induction l as [|x t IH]; [reflexivity|]. cbn. exact IH. Qed.
Lemma skipn_len_cons {A} (l : list A) x r : skipn (S (length l)) (l ++ x :: r) = r.
Proof. induction l as [|y t IH]; [reflexivity|exact IH]. Qed.

Lemma create_checksum_props hrp data :
  length (create_checksum hrp data) = 6%nat /\ Forall (fun d => d < 32) (create_checksum hrp data).
Proof. unfold create_checksum. split; [reflexivity|]. repeat constructor; apply N.mod_lt; discriminate. Qed.

Lemma encode_shape hrp data c : check_hrp hrp = Ok c ->
  encode hrp data = Ok (hrp_lower c hrp ++ 49 :: map to_char (data ++ create_checksum (hrp_lower c hrp) data)).
Proof. intros H. unfold encode. rewrite H, map_app. reflexivity. Qed.

(* the decoder on a lower-case or caseless HRP, the separator and the characters of u5 values: only the
   checksum is left to decide *)
Lemma decode_shape hl ds c : check_hrp hl = Ok c -> c <> CUpper -> Forall (fun d => d < 32) ds ->
  (6 <= length ds)%nat ->
  decode (hl ++ 49 :: map to_char ds) = if verify_checksum hl ds then Ok (hl, firstn (length ds - 6) ds) else Err.
Proof.
  intros Ec Hc Hds Hlen. pose proof (check_hrp_nonempty hl c Ec) as Lhl.
  assert (L8 : Nat.ltb (length (hl ++ 49 :: map to_char ds)) 8 = false).
  { apply Nat.ltb_ge. rewrite app_length. cbn [length]. rewrite map_length. lia. }
  unfold decode. rewrite L8.
  rewrite rfind_last by (apply to_char_not_sep; exact Hds).
  rewrite firstn_len, skipn_len_cons, map_length, (proj2 (Nat.ltb_ge _ 6)), Ec by exact Hlen. cbn [bind].
  replace (hrp_lower c hl) with hl by (now destruct c).
  rewrite (decode_chars_to_char _ Hds c Hc). reflexivity.
Qed.

(* decode (encode hrp data) = (lower-cased hrp, data): every accepted HRP, every u5 list, no length limit *)
Theorem decode_encode hrp data s : Forall (fun d => d < 32) data -> encode hrp data = Ok s ->
  exists c, check_hrp hrp = Ok c /\ decode s = Ok (hrp_lower c hrp, data).
Proof.
  intros Hd He. destruct (check_hrp hrp) as [c| | |] eqn:Ec;
    try (unfold encode in He; rewrite Ec in He; discriminate).
  rewrite (encode_shape hrp data c Ec) in He. injection He as <-. exists c. split; [reflexivity|].
  destruct (check_hrp_lowered hrp c Ec) as (c' & Ec' & Hc').
  destruct (create_checksum_props (hrp_lower c hrp) data) as [Lcs Hcs].
  rewrite (decode_shape _ _ c' Ec' Hc') by (rewrite ?app_length, ?Lcs; (now apply Forall_app) || lia).
  unfold verify_checksum. rewrite checksum_valid, app_length, Lcs, Nat.add_sub, firstn_len. reflexivity.
Qed.

(* the two calls the library makes, composed: for every byte string *)
Theorem b32_roundtrip hrp bs s : bytes_ok bs -> b32_encode hrp bs = Some s ->
  exists c, check_hrp hrp = Ok c /\ b32_decode s = Some (hrp_lower c hrp, bs).
Proof.
  intros Hok H. unfold b32_encode in H.
  destruct (encode hrp (to_base32 bs)) as [s'| | |] eqn:E; try discriminate. injection H as <-.
  destruct (decode_encode hrp (to_base32 bs) s' (to_base32_lt32 bs Hok) E) as (c & Hc & Hd).
  exists c. split; [exact Hc|]. unfold b32_decode. rewrite Hd, (base32_roundtrip bs Hok). reflexivity.
Qed.

(* encode fails only on the HRP: any valid HRP, any data, any length *)
Theorem b32_encode_total hrp bs c : check_hrp hrp = Ok c -> exists s, b32_encode hrp bs = Some s.
Proof. intros H. unfold b32_encode. rewrite (encode_shape hrp _ c H). eauto. Qed.

Theorem decode_rejects_short s : (length s < 8)%nat -> decode s = Err.
Proof. intros H. unfold decode. apply Nat.ltb_lt in H. now rewrite H. Qed.

Theorem decode_rejects_no_separator s : Forall (fun x => x <> 49) s -> decode s = Err.
Proof.
  intros H. unfold decode. destruct (length s <? 8)%nat; [reflexivity|].
  unfold rfind. now rewrite rfind_go_notin.
Qed.

Lemma check_hrp_go_cases hrp : forall hl hu, (exists c, check_hrp_go hrp hl hu = Ok c) \/ check_hrp_go hrp hl hu = Err.
Proof.
  induction hrp as [|b t IH]; intros hl hu; cbn [check_hrp_go]; [left; eexists; reflexivity|].
  destruct ((b <? 33) || (126 <? b)); [now right|].
  match goal with |- context [if ?c then Err else _] => destruct c end; [now right|apply IH].
Qed.
Lemma check_hrp_cases hrp : (exists c, check_hrp hrp = Ok c) \/ check_hrp hrp = Err.
Proof. unfold check_hrp. destruct (_ || _); [now right|apply check_hrp_go_cases]. Qed.

Lemma decode_char_cases case c : (exists p, decode_char case c = Ok p) \/ decode_char case c = Err.
Proof.
  unfold decode_char. destruct (128 <=? c); [now right|].
  generalize (nth (N.to_nat c) charset_rev (-1)%Z). intros num.
  destruct (is_lower c); [destruct case|destruct (is_upper c); [destruct case|]];
    try (now right);
    destruct ((31 <? num)%Z || (num <? 0)%Z);
    (now right) || (left; eexists; reflexivity).
Qed.

Lemma decode_chars_cases cs : forall case, (exists ds, decode_chars case cs = Ok ds) \/ decode_chars case cs = Err.
Proof.
  induction cs as [|x t IH]; intros case; cbn [decode_chars]; [left; eexists; reflexivity|].
  destruct (decode_char_cases case x) as [[[case' v] E]|E]; rewrite E; cbn [bind]; [|now right].
  destruct (IH case') as [[ds E']|E']; rewrite E'; cbn [bind]; [left; eexists; reflexivity|now right].
Qed.

(* decode fails as soon as the data part does, whatever case the HRP had *)
Lemma decode_data_err s sep : rfind 49 s = Some sep ->
  (forall case, check_hrp (firstn sep s) = Ok case -> decode_chars case (skipn (S sep) s) = Err) -> decode s = Err.
Proof.
  intros Hr H. unfold decode. destruct (length s <? 8)%nat; [reflexivity|]. rewrite Hr.
  destruct (length (skipn (S sep) s) <? 6)%nat; [reflexivity|].
  destruct (check_hrp_cases (firstn sep s)) as [[case E]|E]; rewrite E; cbn [bind]; [|reflexivity].
  now rewrite (H case E).
Qed.

Lemma decode_chars_bad c cs : In c cs -> (forall case, decode_char case c = Err) ->
  forall case, decode_chars case cs = Err.
Proof.
  intros Hin Hbad. induction cs as [|x t IH]; [destruct Hin|]. intros case. cbn [decode_chars].
  destruct Hin as [->|Hin]; [now rewrite Hbad|].
  destruct (decode_char_cases case x) as [[[case' v] E]|E]; rewrite E; cbn [bind]; [|reflexivity].
  now rewrite (IH Hin case').
Qed.

(* a data character outside the charset (or outside ASCII) makes decode fail *)
Theorem decode_rejects_bad_char s sep c : rfind 49 s = Some sep -> In c (skipn (S sep) s) ->
  (forall case, decode_char case c = Err) -> decode s = Err.
Proof. intros Hr Hin Hbad. apply (decode_data_err s sep Hr). intros case _. now apply (decode_chars_bad c). Qed.

Example bad_chars : forall case, decode_char case 98 = Err /\ decode_char case 49 = Err /\ decode_char case 200 = Err.
Proof. intros case. destruct case; repeat split; vm_compute; reflexivity. Qed.   (* 'b', '1', a non-ASCII byte *)

Lemma lower_upper_excl c : is_lower c = true -> is_upper c = true -> False.
Proof. unfold is_lower, is_upper. lia. Qed.


(* an accepted character leaves a case that was set alone, and a letter sets its own *)
Lemma decode_char_case case c case' v : decode_char case c = Ok (case', v) ->
  (case <> CNone -> case' = case) /\ (is_lower c = true -> case' = CLower) /\ (is_upper c = true -> case' = CUpper).
Proof.
  unfold decode_char. destruct (128 <=? c); [discriminate|].
  (* the table look-up plays no part: set it aside before the cases on the letter and the case so far *)
  generalize (nth (N.to_nat c) charset_rev (-1)%Z). intros num.
  destruct (is_lower c) eqn:L, (is_upper c) eqn:U; [destruct (lower_upper_excl c L U)| | |];
    destruct case; try discriminate; destruct (_ || _); try discriminate;
    intros [= <- _]; repeat split; intros; congruence.
Qed.

(* accepted data has one case: [fc] is the case the scan ends in *)
Lemma decode_chars_case cs : forall case ds, decode_chars case cs = Ok ds ->
  exists fc, (case <> CNone -> fc = case) /\
    forall x, In x cs -> (is_lower x = true -> fc = CLower) /\ (is_upper x = true -> fc = CUpper).
Proof.
  induction cs as [|c t IH]; intros case ds H; cbn [decode_chars] in H.
  - exists case. split; [reflexivity|intros x []].
  - destruct (decode_char case c) as [[case' v]| | |] eqn:E; try discriminate. cbn [bind] in H.
    destruct (decode_chars case' t) as [vs| | |] eqn:Et; try discriminate.
    destruct (decode_char_case _ _ _ _ E) as (K & Lc & Uc). destruct (IH _ _ Et) as (fc & Kf & Hf).
    exists fc. split.
    + intros Hn. rewrite (K Hn) in Kf. exact (Kf Hn).
    + intros x [<-|Hin]; [|exact (Hf x Hin)].
      split; intros Hx; [specialize (Lc Hx)|specialize (Uc Hx)]; subst case'; now apply Kf.
Qed.

(* mixed case in the data part is refused whatever the case of the HRP *)
Theorem decode_chars_mixed_case cs lo up : In lo cs -> In up cs -> is_lower lo = true -> is_upper up = true ->
  forall case, decode_chars case cs = Err.
Proof.
  intros Hlo Hup Ll Uu case. destruct (decode_chars_cases cs case) as [[ds E]|E]; [exfalso|exact E].
  destruct (decode_chars_case _ _ _ E) as (fc & _ & Hf).
  pose proof (proj1 (Hf lo Hlo) Ll). pose proof (proj2 (Hf up Hup) Uu). congruence.
Qed.

Lemma decode_chars_lower_then_upper cs up : In up cs -> is_upper up = true -> decode_chars CLower cs = Err.
Proof.
  intros Hin Hup. destruct (decode_chars_cases cs CLower) as [[ds E]|E]; [exfalso|exact E].
  destruct (decode_chars_case _ _ _ E) as (fc & Kf & Hf).
  pose proof (Kf ltac:(discriminate)). pose proof (proj2 (Hf up Hin) Hup). congruence.
Qed.

Lemma decode_chars_upper_then_lower cs lo : In lo cs -> is_lower lo = true -> decode_chars CUpper cs = Err.
Proof.
  intros Hin Hlo. destruct (decode_chars_cases cs CUpper) as [[ds E]|E]; [exfalso|exact E].
  destruct (decode_chars_case _ _ _ E) as (fc & Kf & Hf).
  pose proof (Kf ltac:(discriminate)). pose proof (proj1 (Hf lo Hin) Hlo). congruence.
Qed.

Theorem decode_rejects_mixed_case s sep lo up : rfind 49 s = Some sep ->
  In lo (skipn (S sep) s) -> In up (skipn (S sep) s) -> is_lower lo = true -> is_upper up = true ->
  decode s = Err.
Proof.
  intros Hr Hlo Hup Ll Uu. apply (decode_data_err s sep Hr). intros case _.
  now apply (decode_chars_mixed_case _ lo up).
Qed.

(* an upper-case HRP with a lower-case data character (or the converse) is refused *)
Theorem decode_rejects_hrp_data_case s sep x : rfind 49 s = Some sep -> In x (skipn (S sep) s) ->
  (check_hrp (firstn sep s) = Ok CUpper /\ is_lower x = true) \/
  (check_hrp (firstn sep s) = Ok CLower /\ is_upper x = true) -> decode s = Err.
Proof.
  intros Hr Hin H. apply (decode_data_err s sep Hr). intros case Ec.
  destruct H as [[E Hx]|[E Hx]]; rewrite E in Ec; injection Ec as <-.
  - now apply (decode_chars_upper_then_lower _ x).
  - now apply (decode_chars_lower_then_upper _ x).
Qed.

Definition mixf (b : N) : N :=
  N.lxor (N.lxor (N.lxor (N.lxor (sel b 0 gen0) (sel b 1 gen1)) (sel b 2 gen2)) (sel b 3 gen3)) (sel b 4 gen4).

Lemma step_split c v :
  polymod_step c v = N.lxor (N.lxor (N.shiftl (N.land c 33554431) 5) v) (mixf (N.shiftr c 25)).
Proof. unfold polymod_step, mixf. apply N.bits_inj. intros n. rewrite !N.lxor_spec. btauto. Qed.

Lemma mixf_low_sweep :
  forallb (fun i => (N.of_nat i =? 0) || negb (mixf (N.of_nat i) mod 32 =? 0)) (seq 0 32) = true.
Proof. vm_compute. reflexivity. Qed.
Lemma mixf_low b : b < 32 -> mixf b mod 32 = 0 -> b = 0.
Proof.
  intros Hb H. pose proof mixf_low_sweep as S. rewrite forallb_forall in S.
  specialize (S (N.to_nat b)). rewrite N2Nat.id in S.
  assert (I : In (N.to_nat b) (seq 0 32)) by (apply in_seq; lia). specialize (S I). lia.
Qed.

(* multiplying a non-zero state by x never gives zero: the step with symbol 0 is injective *)
Lemma step0_nonzero d : d < 2 ^ 30 -> polymod_step d 0 = 0 -> d = 0.
Proof.
  intros Hd H. rewrite step_split, N.lxor_0_r in H. apply N.lxor_eq in H.
  rewrite N.shiftl_mul_pow2, N.shiftr_div_pow2 in H. change 33554431 with (N.ones 25) in H.
  rewrite N.land_ones in H. change (2 ^ 5) with 32 in H. change (2 ^ 25) with 33554432 in *.
  change (2 ^ 30) with 1073741824 in Hd.
  assert (Hb : d / 33554432 < 32) by (apply N.div_lt_upper_bound; lia).
  assert (Hz : d / 33554432 = 0).
  { apply mixf_low; [exact Hb|]. rewrite <- H. apply N.mod_mul. discriminate. }
  rewrite Hz in H. change (mixf 0) with 0 in H. lia.
Qed.

Lemma polymod_zeros_nonzero k : forall d, d < 2 ^ 30 -> d <> 0 -> polymod_from d (repeat 0 k) <> 0.
Proof.
  induction k as [|k IH]; intros d Hd Hz; [exact Hz|]. unfold polymod_from in *. cbn [repeat fold_left].
  apply IH; [apply step_bound; lia|]. intros E. apply Hz. now apply step0_nonzero.
Qed.

(* two states fed the same symbols: their difference runs through zeros *)
Lemma polymod_from_diff z : forall c d,
  N.lxor (polymod_from c z) (polymod_from d z) = polymod_from (N.lxor c d) (repeat 0 (length z)).
Proof.
  induction z as [|x t IH]; intros c d; [reflexivity|]. unfold polymod_from in *. cbn [length repeat fold_left].
  rewrite IH, <- step_linear, N.lxor_nilpotent. reflexivity.
Qed.

Theorem single_substitution_detected c a e e' z : e < 32 -> e' < 32 -> e <> e' ->
  polymod_from c (a ++ e :: z) <> polymod_from c (a ++ e' :: z).
Proof.
  intros He He' Hne Heq. rewrite !polymod_from_app in Heq.
  set (S := polymod_from c a) in *.
  change (polymod_from S (e :: z)) with (polymod_from (polymod_step S e) z) in Heq.
  change (polymod_from S (e' :: z)) with (polymod_from (polymod_step S e') z) in Heq.
  pose proof (polymod_from_diff z (polymod_step S e) (polymod_step S e')) as L.
  rewrite Heq, <- step_linear, !N.lxor_nilpotent in L.
  assert (Hx : N.lxor e e' < 32) by (change 32 with (2 ^ 5); apply lxor_lt_pow2; assumption).
  rewrite step_small in L by lia. change (0 * 32 + N.lxor e e') with (N.lxor e e') in L.
  symmetry in L. revert L. apply polymod_zeros_nonzero.
  - eapply N.lt_trans; [exact Hx|vm_compute; reflexivity].
  - intros E. apply Hne. now apply N.lxor_eq.
Qed.

(* a valid string with ONE data or checksum symbol replaced by another one never verifies *)
Theorem verify_rejects_symbol_substitution hrp a e e' z : e < 32 -> e' < 32 -> e <> e' ->
  verify_checksum hrp (a ++ e :: z) = true -> verify_checksum hrp (a ++ e' :: z) = false.
Proof.
  unfold verify_checksum, polymod. intros He He' Hne H.
  destruct (polymod_from 1 (hrp_expand hrp ++ a ++ e' :: z) =? 1) eqn:E; [|reflexivity]. exfalso.
  rewrite !app_assoc in H, E.
  apply (single_substitution_detected 1 (hrp_expand hrp ++ a) e e' z He He' Hne). lia.
Qed.

(* the expansion of an HRP around one of its characters: what precedes the low five bits of x
   depends on x only through x / 32 *)
Definition hrp_pre (h1 : list N) (q : N) (h2 : list N) : list N :=
  map (fun b => b / 32) h1 ++ q :: map (fun b => b / 32) h2 ++ 0 :: map (fun b => b mod 32) h1.
Lemma hrp_expand_at h1 x h2 data : hrp_expand (h1 ++ x :: h2) ++ data =
  hrp_pre h1 (x / 32) h2 ++ x mod 32 :: map (fun b => b mod 32) h2 ++ data.
Proof.
  unfold hrp_expand, hrp_pre. rewrite !map_app. cbn [map]. repeat (rewrite <- !app_assoc; cbn [app]). reflexivity.
Qed.

(* a wrong human-readable part: one character replaced by another with the same top three bits
   (e.g. any lower-case letter by another lower-case letter) never verifies *)
Theorem verify_rejects_hrp_substitution h1 x x' h2 data : x / 32 = x' / 32 -> x mod 32 <> x' mod 32 ->
  verify_checksum (h1 ++ x :: h2) data = true -> verify_checksum (h1 ++ x' :: h2) data = false.
Proof.
  unfold verify_checksum, polymod. rewrite !hrp_expand_at. intros <- Hlo H.
  apply not_true_is_false. intros E.
  apply (single_substitution_detected 1 (hrp_pre h1 (x / 32) h2) (x mod 32) (x' mod 32)
           (map (fun b => b mod 32) h2 ++ data)); try (apply N.mod_lt; discriminate); [exact Hlo|lia].
Qed.
