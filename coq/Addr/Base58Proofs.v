(* Round trip of the Base58 digit-array algorithm (Base58.v): for EVERY non-empty byte string,
   decode (encode bs) = Ok bs; the empty string does not round-trip (C11_base58_empty_refuted). *)
From CSL Require Import Base.Prelude Addr.Base58.
Local Open Scope N_scope.

(* value of a little-endian digit list *)
Fixpoint val (b : N) (ds : list N) : N :=
  match ds with [] => 0 | d :: t => d + b * val b t end.
(* no most-significant zero digit *)
Fixpoint trimmed (l : list N) : bool :=
  match l with
  | [] => true
  | d :: t => match t with [] => negb (d =? 0) | _ => trimmed t end
  end.
Definition digits_lt (b : N) (l : list N) : Prop := Forall (fun d => d < b) l.
(* Horner evaluation, most significant first *)
Definition horner (m : N) (xs : list N) (v0 : N) : N := fold_left (fun v x => m * v + x) xs v0.

Lemma trimmed_tail d t : trimmed (d :: t) = true -> trimmed t = true.
Proof. destruct t; [reflexivity|]. cbn [trimmed]. auto. Qed.

Lemma trimmed_app l p : p <> [] -> trimmed (l ++ p) = trimmed p.
Proof.
  intros Hp. induction l as [|d t IH]; [reflexivity|]. cbn [app].
  destruct (t ++ p) eqn:E.
  - destruct t; [cbn in E; congruence|discriminate].
  - change (trimmed (d :: n :: l)) with (trimmed (n :: l)). exact IH.
Qed.

Lemma pow_S b n : b ^ N.of_nat (S n) = b * b ^ N.of_nat n.
Proof. rewrite Nat2N.inj_succ, N.pow_succ_r'. reflexivity. Qed.

Lemma val_app b l1 l2 : val b (l1 ++ l2) = val b l1 + b ^ N.of_nat (length l1) * val b l2.
Proof.
  induction l1 as [|d t IH]; cbn [app val length].
  - change (N.of_nat 0) with 0. rewrite N.pow_0_r. lia.
  - rewrite IH, pow_S. lia.
Qed.

Lemma horner_app m l1 l2 v : horner m (l1 ++ l2) v = horner m l2 (horner m l1 v).
Proof. unfold horner. apply fold_left_app. Qed.

Lemma horner_rev b l : horner b (rev l) 0 = val b l.
Proof.
  induction l as [|d t IH]; [reflexivity|]. cbn [rev val]. rewrite horner_app, IH.
  unfold horner. cbn [fold_left]. lia.
Qed.

Lemma horner_ge m xs : 1 <= m -> forall v, v <= horner m xs v.
Proof.
  intros Hm. induction xs as [|x t IH]; intros v; unfold horner in *; cbn [fold_left]; [lia|].
  etransitivity; [|apply IH]. nia.
Qed.

(* the digit array between two rounds: no most-significant zero, or the single digit 0; such an array is
   determined by its value *)
Section Canonical.
  Variable base : N.
  Hypothesis Hb : 2 <= base.

  Definition good (ds : list N) : Prop :=
    digits_lt base ds /\ (ds = [0] \/ (ds <> [] /\ trimmed ds = true)).

  Lemma val_zero_trimmed l : trimmed l = true -> val base l = 0 -> l = [].
  Proof.
    induction l as [|d t IH]; intros Ht Hv; [reflexivity|]. cbn [val] in Hv.
    assert (d = 0) by lia. assert (val base t = 0) by nia. subst d.
    destruct t as [|d2 t2]; [cbn in Ht; discriminate|].
    specialize (IH (trimmed_tail _ _ Ht) H0). discriminate.
  Qed.

  Lemma trimmed_unique l1 : forall l2, digits_lt base l1 -> digits_lt base l2 ->
    trimmed l1 = true -> trimmed l2 = true -> val base l1 = val base l2 -> l1 = l2.
  Proof.
    induction l1 as [|d1 t1 IH]; intros l2 H1 H2 T1 T2 Hv.
    - symmetry. apply val_zero_trimmed; [exact T2|]. cbn [val] in Hv. lia.
    - destruct l2 as [|d2 t2].
      + apply val_zero_trimmed; [exact T1|exact Hv].
      + inversion H1 as [|? ? Hd1 H1']; inversion H2 as [|? ? Hd2 H2']; subst.
        cbn [val] in Hv. rewrite (N.add_comm d1), (N.add_comm d2) in Hv.
        destruct (N.div_mod_unique base _ _ d1 d2 Hd1 Hd2 Hv) as [Ht <-]. f_equal.
        apply IH; [assumption|assumption|eapply trimmed_tail; eassumption|eapply trimmed_tail; eassumption|exact Ht].
  Qed.

  Lemma good_unique l1 l2 : good l1 -> good l2 -> val base l1 = val base l2 -> l1 = l2.
  Proof.
    intros [H1 S1] [H2 S2] Hv.
    destruct S1 as [->|[N1 T1]], S2 as [->|[N2 T2]].
    - reflexivity.
    - cbn [val] in Hv. exfalso. apply N2. apply val_zero_trimmed; [exact T2|lia].
    - cbn [val] in Hv. exfalso. apply N1. apply val_zero_trimmed; [exact T1|lia].
    - apply trimmed_unique; assumption.
  Qed.

  Lemma good_val_zero l : good l -> val base l = 0 -> l = [0].
  Proof.
    intros [_ [->|[Hn Ht]]] Hv; [reflexivity|]. exfalso. apply Hn. now apply val_zero_trimmed.
  Qed.

  (* the most significant digit of a non-zero array is not zero *)
  Lemma good_top l : good l -> val base l <> 0 -> match rev l with x :: _ => x <> 0 | [] => False end.
  Proof.
    intros [_ [->|[Hn Ht]]] Hv; [cbn in Hv; lia|]. destruct (exists_last Hn) as (l' & x & ->).
    rewrite trimmed_app in Ht by discriminate. rewrite rev_app_distr. cbn in *. lia.
  Qed.
End Canonical.

Section Digits.
  Variables m base : N.
  Hypothesis Hm : 1 <= m.
  Hypothesis Hb : 2 <= base.

  Lemma muladd_spec ds : forall c ds' c', muladd_digits m base ds c = (ds', c') ->
    length ds' = length ds /\ digits_lt base ds' /\
    val base ds' + base ^ N.of_nat (length ds) * c' = m * val base ds + c.
  Proof.
    induction ds as [|d t IH]; intros c ds' c' H; cbn [muladd_digits] in H.
    - injection H as <- <-. cbn [length val]. change (N.of_nat 0) with 0. rewrite N.pow_0_r.
      repeat split; [constructor|lia].
    - destruct (muladd_digits m base t ((c + d * m) / base)) as [t' c1] eqn:E.
      injection H as <- <-. destruct (IH _ _ _ E) as (Hl & Hlt & Hv).
      cbn [length val]. rewrite pow_S. repeat split.
      + now rewrite Hl.
      + constructor; [apply N.mod_lt; lia|exact Hlt].
      + assert (Hb0 : base <> 0) by lia. pose proof (N.div_mod (c + d * m) base Hb0) as Hdm. clear E IH.
        revert Hv Hdm. generalize ((c + d * m) / base) ((c + d * m) mod base). intros q r Hv Hdm.
        apply (f_equal (N.mul base)) in Hv. lia.
  Qed.

  Lemma muladd_carry ds : forall c ds' c', digits_lt base ds -> c < m ->
    muladd_digits m base ds c = (ds', c') -> c' < m.
  Proof.
    induction ds as [|d t IH]; intros c ds' c' Hlt Hc H; cbn [muladd_digits] in H.
    - injection H as _ <-. exact Hc.
    - destruct (muladd_digits m base t ((c + d * m) / base)) as [t' c1] eqn:E.
      injection H as _ <-. inversion Hlt as [|? ? Hd Hlt']; subst.
      eapply IH; [exact Hlt'| |exact E].
      apply N.div_lt_upper_bound; [lia|]. nia.
  Qed.

  Lemma muladd_trimmed ds : forall c ds', ds <> [] -> trimmed ds = true ->
    muladd_digits m base ds c = (ds', 0) -> trimmed ds' = true.
  Proof.
    induction ds as [|d t IH]; intros c ds' Hne Ht H; [congruence|].
    cbn [muladd_digits] in H.
    destruct (muladd_digits m base t ((c + d * m) / base)) as [t' c1] eqn:E.
    injection H as <- ->. destruct t as [|d2 t2].
    - cbn [muladd_digits] in E. injection E as <- E. cbn [trimmed] in *.
      apply N.div_small_iff in E; [|lia]. rewrite N.mod_small by exact E.
      destruct (d =? 0) eqn:E0; [discriminate|].
      destruct (c + d * m =? 0) eqn:E1; [nia|reflexivity].
    - assert (Ht' : trimmed t' = true) by (eapply IH; [discriminate|exact Ht|exact E]).
      destruct (muladd_spec _ _ _ _ E) as (Hl & _). destruct t'; [discriminate|]. exact Ht'.
  Qed.

  Lemma push_carry_zero f : push_carry f base 0 = [].
  Proof. destruct f; reflexivity. Qed.

  Lemma push_carry_spec f : forall c, c < base ^ N.of_nat f ->
    val base (push_carry f base c) = c /\ digits_lt base (push_carry f base c) /\
    trimmed (push_carry f base c) = true /\ (c <> 0 -> push_carry f base c <> []).
  Proof.
    induction f as [|f IH]; intros c Hc.
    - change (N.of_nat 0) with 0 in Hc. rewrite N.pow_0_r in Hc. assert (c = 0) by lia. subst.
      cbn. repeat split; [constructor|congruence].
    - cbn [push_carry]. destruct (c =? 0) eqn:E.
      + assert (c = 0) by lia. subst. cbn. repeat split; [constructor|congruence].
      + rewrite pow_S in Hc.
        assert (Hd : c / base < base ^ N.of_nat f) by (apply N.div_lt_upper_bound; lia).
        destruct (IH _ Hd) as (Hv & Hlt & Ht & Hne). clear IH Hd Hc.
        assert (Hb0 : base <> 0) by lia.
        pose proof (N.div_mod c base Hb0) as Hdm. pose proof (N.mod_lt c base Hb0) as Hml.
        (* c is base * q + r from here on *)
        revert Hv Hlt Ht Hne Hdm Hml. generalize (c / base) (c mod base). intros q r Hv Hlt Ht Hne Hdm Hml.
        cbn [val]. rewrite Hv. repeat split; [lia|constructor; assumption| |discriminate].
        cbn [trimmed]. destruct (push_carry f base q) eqn:Ep; [|exact Ht].
        destruct (N.eq_dec q 0) as [->|Hz]; [|now apply Hne in Hz]. rewrite N.mul_0_r in Hdm.
        destruct (r =? 0) eqn:E2; [lia|reflexivity].
  Qed.

  Hypothesis Hfuel : m <= base ^ N.of_nat 32.

  Lemma step_good ds x : good base ds -> x < m ->
    good base (digits_step m base ds x) /\ val base (digits_step m base ds x) = m * val base ds + x.
  Proof.
    intros [Hlt Hshape] Hx. unfold digits_step.
    destruct (muladd_digits m base ds x) as [ds' c'] eqn:E.
    destruct (muladd_spec _ _ _ _ E) as (Hl & Hlt' & Hv).
    pose proof (muladd_carry _ _ _ _ Hlt Hx E) as Hc.
    destruct (push_carry_spec 32 c' ltac:(lia)) as (Hpv & Hplt & Hpt & Hpne).
    split.
    - split; [apply Forall_app; split; assumption|].
      destruct (N.eq_dec c' 0) as [Hz|Hz].
      + subst c'. rewrite push_carry_zero, app_nil_r.
        destruct Hshape as [->|[Hne Ht]].
        * cbn [muladd_digits] in E. injection E as <- E.
          rewrite N.mul_0_l, N.add_0_r in *. apply N.div_small_iff in E; [|lia].
          rewrite N.mod_small by exact E.
          destruct (N.eq_dec x 0) as [->|Hx0]; [now left|right].
          split; [discriminate|]. cbn [trimmed]. destruct (x =? 0) eqn:E0; [lia|reflexivity].
        * right. split; [destruct ds'; [destruct ds; [congruence|discriminate]|discriminate]|].
          eapply muladd_trimmed; eassumption.
      + right. specialize (Hpne Hz). split; [destruct ds'; [exact Hpne|discriminate]|].
        rewrite trimmed_app by exact Hpne. exact Hpt.
    - rewrite val_app, Hpv, Hl. exact Hv.
  Qed.

  Lemma fold_good xs : forall ds, good base ds -> Forall (fun x => x < m) xs ->
    good base (fold_left (digits_step m base) xs ds) /\
    val base (fold_left (digits_step m base) xs ds) = horner m xs (val base ds).
  Proof.
    induction xs as [|x t IH]; intros ds Hg Hxs; cbn [fold_left]; [split; [exact Hg|reflexivity]|].
    inversion Hxs as [|? ? Hx Hxs']; subst.
    destruct (step_good ds x Hg Hx) as [Hg' Hv'].
    destruct (IH _ Hg' Hxs') as [Hg'' Hv'']. split; [exact Hg''|].
    rewrite Hv'', Hv'. reflexivity.
  Qed.

  Lemma digits_from_zero xs : Forall (fun x => x < m) xs ->
    good base (fold_left (digits_step m base) xs [0]) /\
    val base (fold_left (digits_step m base) xs [0]) = horner m xs 0.
  Proof.
    intros Hxs. assert (G0 : good base [0]) by (split; [constructor; [lia|constructor]|now left]).
    destruct (fold_good xs [0] G0 Hxs) as [Hg Hv]. split; [exact Hg|].
    rewrite Hv. cbn [val]. now rewrite N.mul_0_r.
  Qed.
End Digits.

Fixpoint drop_while (p : N -> bool) (l : list N) : list N :=
  match l with [] => [] | x :: t => if p x then drop_while p t else l end.

Lemma take_drop p l : l = take_while p l ++ drop_while p l.
Proof. induction l as [|x t IH]; [reflexivity|]. cbn. destruct (p x); [cbn; now f_equal|reflexivity]. Qed.

Lemma drop_while_head p l : match drop_while p l with [] => True | x :: _ => p x = false end.
Proof. induction l as [|x t IH]; [exact I|]. cbn. destruct (p x) eqn:E; [exact IH|exact E]. Qed.

Lemma take_while_all p l : Forall (fun x => p x = true) (take_while p l).
Proof. induction l as [|x t IH]; [constructor|]. cbn. destruct (p x) eqn:E; constructor; assumption. Qed.

Lemma take_while_app_stop p l1 l2 : Forall (fun x => p x = true) l1 ->
  match l2 with [] => True | x :: _ => p x = false end -> take_while p (l1 ++ l2) = l1.
Proof.
  induction 1 as [|x t Hx _ IH]; intros H2; cbn [app take_while].
  - destruct l2 as [|y r]; [reflexivity|]. cbn. now rewrite H2.
  - rewrite Hx. f_equal. now apply IH.
Qed.

Lemma zeros_repeat l : Forall (fun x => (x =? 0) = true) l -> l = repeat 0 (length l).
Proof. induction 1 as [|x t Hx _ IH]; [reflexivity|]. cbn. f_equal; [lia|exact IH]. Qed.

Lemma rev_repeat (x : N) n : rev (repeat x n) = repeat x n.
Proof.
  induction n as [|n IH]; [reflexivity|]. cbn [repeat rev]. rewrite IH. symmetry. apply repeat_cons.
Qed.

Lemma horner_zeros m n : horner m (repeat 0 n) 0 = 0.
Proof.
  induction n as [|n IH]; [reflexivity|]. unfold horner in *. cbn [repeat fold_left]. now rewrite N.mul_0_r.
Qed.

Lemma alphabet_sweep :
  forallb (fun i => match position (alpha (N.of_nat i)) with Some j => j =? N.of_nat i | None => false end)
          (seq 0 58) = true.
Proof. vm_compute. reflexivity. Qed.

Lemma position_alpha d : d < 58 -> position (alpha d) = Some d.
Proof.
  intros Hd. pose proof alphabet_sweep as S. rewrite forallb_forall in S.
  specialize (S (N.to_nat d)). rewrite N2Nat.id in S.
  assert (Hin : In (N.to_nat d) (seq 0 58)) by (apply in_seq; lia).
  specialize (S Hin). destruct (position (alpha d)) as [j|]; [|discriminate]. f_equal. lia.
Qed.

Lemma positions_alpha ds : digits_lt 58 ds -> positions (map alpha ds) = Some ds.
Proof.
  induction 1 as [|d t Hd _ IH]; [reflexivity|]. cbn [map positions].
  now rewrite position_alpha, IH.
Qed.

Lemma alpha_zero_inj d : d < 58 -> (alpha d =? alpha 0) = true -> d = 0.
Proof.
  intros Hd He. assert (alpha d = alpha 0) by lia.
  pose proof (position_alpha d Hd) as P. rewrite H in P. rewrite position_alpha in P by lia. congruence.
Qed.

Lemma pow58_fuel : 256 <= 58 ^ N.of_nat 32. Proof. vm_compute. discriminate. Qed.
Lemma pow256_fuel : 58 <= 256 ^ N.of_nat 32. Proof. vm_compute. discriminate. Qed.

Definition is_zero (b : N) : bool := b =? 0.
Definition is_one (c : N) : bool := c =? alpha 0.

Lemma map_const {A} (c : N) (l : list A) : map (fun _ => c) l = repeat c (length l).
Proof. induction l as [|x t IH]; [reflexivity|]. cbn [map length repeat]. now rewrite IH. Qed.

Lemma skipn_repeat (c : N) n l : skipn n (repeat c n ++ l) = l.
Proof. induction n as [|n IH]; [reflexivity|exact IH]. Qed.

(* the encoder writes one '1' per leading zero byte, then the digits most significant first *)
Lemma base58_encode_split bs : base58_encode bs =
  repeat (alpha 0) (length (take_while is_zero bs)) ++ map alpha (rev (fold_left (digits_step 256 58) bs [0])).
Proof. unfold base58_encode. now rewrite map_const. Qed.

Lemma encode_digits bs : bytes_ok bs ->
  good 58 (fold_left (digits_step 256 58) bs [0]) /\ val 58 (fold_left (digits_step 256 58) bs [0]) = horner 256 bs 0.
Proof. apply digits_from_zero; [discriminate|discriminate|exact pow58_fuel]. Qed.

Lemma split_zeros bs : bs = repeat 0 (length (take_while is_zero bs)) ++ drop_while is_zero bs.
Proof. rewrite <- zeros_repeat by apply take_while_all. apply take_drop. Qed.

(* the decoder on n characters '1' followed by digits that do not start with a zero: the ones are counted,
   the digits are read back *)
Lemma decode_ones n ds : digits_lt 58 ds -> match ds with [] => True | d :: _ => d <> 0 end ->
  base58_decode (repeat (alpha 0) n ++ map alpha ds) =
  let bytes0 := fold_left (digits_step 58 256) ds [0] in
  let lz := length (take_while is_zero (rev bytes0)) in
  Ok (rev (bytes0 ++ repeat 0 (if (lz <? n)%nat then if (0 <? lz)%nat then (n - lz - 1)%nat else n else 0%nat))).
Proof.
  intros Hlt Hhd. unfold base58_decode. fold is_one.
  assert (Htw : take_while is_one (repeat (alpha 0) n ++ map alpha ds) = repeat (alpha 0) n).
  { apply take_while_app_stop.
    - apply Forall_forall. intros c Hc. apply repeat_spec in Hc as ->. apply N.eqb_refl.
    - destruct Hlt as [|d t Hd _]; [exact I|]. cbn [map]. destruct (is_one (alpha d)) eqn:E; [|reflexivity].
      now apply alpha_zero_inj in E. }
  rewrite Htw, repeat_length, skipn_repeat, positions_alpha by exact Hlt. reflexivity.
Qed.

Theorem base58_roundtrip bs : bytes_ok bs -> bs <> [] -> base58_decode (base58_encode bs) = Ok bs.
Proof.
  intros Hok Hne. rewrite base58_encode_split. destruct (encode_digits bs Hok) as [HgD HvD].
  pose proof (split_zeros bs) as Hsplit. pose proof (drop_while_head is_zero bs) as Hrest.
  set (n := length (take_while is_zero bs)) in *. set (D := fold_left (digits_step 256 58) bs [0]) in *.
  rewrite Hsplit, horner_app, horner_zeros in HvD.
  destruct (drop_while is_zero bs) as [|r rt].
  - (* all bytes are zero: the digit array is [0], written as one more '1' *)
    rewrite (good_val_zero 58 ltac:(discriminate) D HgD HvD). cbn [rev map app].
    replace (repeat (alpha 0) n ++ [alpha 0]) with (repeat (alpha 0) (S n) ++ map alpha [])
      by (rewrite app_nil_r; apply repeat_cons).
    rewrite decode_ones by (constructor || exact I). cbv zeta. cbn [fold_left].
    change (length (take_while is_zero (rev [0]))) with 1%nat.
    rewrite app_nil_r in Hsplit. destruct n as [|n]; [now subst bs|]. rewrite Hsplit. cbn [Nat.ltb Nat.leb Nat.sub].
    rewrite Nat.sub_0_r. apply f_equal, (rev_repeat 0 (S n)).
  - (* some byte is not zero: the digit array starts with a non-zero digit and determines the bytes after the zeros *)
    assert (Hr : r <> 0) by (unfold is_zero in Hrest; lia).
    assert (Hokr : bytes_ok (r :: rt)) by (rewrite Hsplit in Hok; now apply Forall_app in Hok).
    assert (HVpos : horner 256 (r :: rt) 0 <> 0).
    { pose proof (horner_ge 256 rt ltac:(discriminate) r) as G. unfold horner in *. cbn [fold_left]. rewrite N.mul_0_r, N.add_0_l. lia. }
    pose proof (good_top 58 ltac:(discriminate) D HgD ltac:(lia)) as Htop. destruct HgD as [HltD _].
    apply Forall_rev in HltD.
    rewrite decode_ones by (exact HltD || (destruct (rev D); [destruct Htop|exact Htop])). cbv zeta.
    destruct (digits_from_zero 58 256 ltac:(discriminate) ltac:(discriminate) pow256_fuel (rev D) HltD) as [HgB HvB].
    rewrite horner_rev, HvD in HvB.
    rewrite (good_unique 256 ltac:(discriminate) _ (rev (r :: rt)) HgB).
    + rewrite rev_involutive. cbn [take_while]. rewrite Hrest. cbn [length Nat.ltb Nat.leb].
      rewrite rev_app_distr, rev_repeat, rev_involutive, Hsplit. now destruct n.
    + split; [apply Forall_rev, Hokr|]. right. cbn [rev]. split; [now destruct (rev rt)|].
      rewrite trimmed_app by discriminate. cbn. now destruct (N.eqb_spec r 0).
    + now rewrite HvB, <- horner_rev, rev_involutive.
Qed.

(* leading zero bytes <-> leading '1' characters *)
Theorem base58_leading_ones bs : bytes_ok bs ->
  exists body, base58_encode bs = repeat (alpha 0) (length (take_while (fun b => b =? 0) bs)) ++ body /\ body <> [].
Proof.
  intros Hok. eexists. split; [apply base58_encode_split|]. destruct (encode_digits bs Hok) as [[_ HD] _].
  intros H. apply map_eq_nil in H. apply (f_equal (@rev N)) in H. rewrite rev_involutive in H. cbn [rev] in H.
  rewrite H in HD. destruct HD as [HD|[HD _]]; [discriminate|congruence].
Qed.
