(* Proofs about the Byron address codec (Byron.v): round trip for every checksum function with
   u64 range (instantiated with CRC-32 in ShelleyProofs.v), trailing bytes refused, totality
   (the fuel of the two loops always suffices). *)
From CSL Require Import Base.Prelude Cbor.Head Cbor.HeadProofs Addr.Crc32 Addr.Byron.
Local Open Scope N_scope.

Lemma firstn_exact {A} (l r : list A) : firstn (length l) (l ++ r) = l.
Proof. induction l as [|x t IH]; [reflexivity|]. cbn. now rewrite IH. Qed.
Lemma skipn_exact {A} (l r : list A) : skipn (length l) (l ++ r) = r.
Proof. induction l as [|x t IH]; [reflexivity|]. cbn. exact IH. Qed.

Section Readers.
  Variable crc : bytes -> N.

  Lemma rd_len_enc major n rest : n < two64 ->
    rd_len major (encode_head major n ++ rest) = Ok (Arg n, rest).
  Proof. intros H. unfold rd_len. rewrite decode_encode_head by exact H. now rewrite N.eqb_refl. Qed.

  Lemma rd_arg_enc major n rest : n < two64 ->
    rd_arg major (encode_head major n ++ rest) = Ok (n, rest).
  Proof. intros H. unfold rd_arg. rewrite decode_encode_head by exact H. now rewrite N.eqb_refl. Qed.

  Lemma rd_bytes_enc b rest : N.of_nat (length b) < two64 ->
    rd_bytes (enc_bytes b ++ rest) = Ok (b, rest).
  Proof.
    intros H. unfold rd_bytes, enc_bytes. rewrite <- app_assoc, decode_encode_head by exact H.
    change (2 =? 2) with true. cbv iota.
    destruct (N.of_nat (length (b ++ rest)) <? N.of_nat (length b)) eqn:E.
    - rewrite app_length in E. lia.
    - rewrite Nat2N.id, firstn_exact, skipn_exact. reflexivity.
  Qed.

  Lemma attrs_loop_zero fuel bs dp pm : attrs_loop fuel 0 bs dp pm = Ok (dp, pm, bs).
  Proof. destruct fuel; reflexivity. Qed.

  Lemma attrs_step_dp f n d rest dp pm : n <> 0 -> N.of_nat (length d) < two64 ->
    attrs_loop (S f) n (enc_uint 1 ++ enc_bytes d ++ rest) dp pm = attrs_loop f (n - 1) rest (Some d) pm.
  Proof.
    intros Hn Hd. cbn [attrs_loop]. destruct (n =? 0) eqn:E; [lia|].
    unfold enc_uint. rewrite rd_arg_enc by reflexivity. cbn [bind].
    change (1 =? 1) with true. cbv iota. rewrite rd_bytes_enc by exact Hd. reflexivity.
  Qed.

  Lemma attrs_step_pm f n m rest dp pm : n <> 0 -> m < two32 ->
    attrs_loop (S f) n (enc_uint 2 ++ enc_bytes (enc_uint m) ++ rest) dp pm = attrs_loop f (n - 1) rest dp (Some m).
  Proof.
    intros Hn Hm. cbn [attrs_loop]. destruct (n =? 0) eqn:E; [lia|].
    unfold enc_uint at 1. rewrite rd_arg_enc by reflexivity. cbn [bind].
    change (2 =? 1) with false. change (2 =? 2) with true. cbv iota.
    assert (Hl : N.of_nat (length (enc_uint m)) < two64).
    { unfold enc_uint. rewrite head_length. pose proof (head_size_bounds m). unfold two64. lia. }
    rewrite rd_bytes_enc by exact Hl. cbn [bind].
    unfold enc_uint. rewrite <- (app_nil_r (encode_head 0 m)).
    rewrite rd_arg_enc by (unfold two32, two64 in *; lia). cbn [bind].
    destruct (m <? two32) eqn:E2; [reflexivity|lia].
  Qed.

  Definition wf_attrs (dp : option bytes) (pm : option N) : Prop :=
    (match dp with Some d => N.of_nat (length d) < two64 | None => True end) /\
    (match pm with Some m => m < two32 | None => True end).

  Lemma rd_attrs_enc dp pm rest : wf_attrs dp pm ->
    rd_attrs (enc_attrs dp pm ++ rest) = Ok (dp, pm, rest).
  Proof.
    intros [Hd Hm]. unfold rd_attrs, enc_attrs. rewrite <- !app_assoc.
    rewrite rd_len_enc by (destruct dp, pm; reflexivity). cbn [bind].
    destruct dp as [d|], pm as [m|]; cbn [app].
    - change (1 + 1) with 2. rewrite <- !app_assoc.
      rewrite attrs_step_dp by (try exact Hd; lia).
      change (2 - 1) with 1.
      change (enc_uint 1) with [1]. cbn [app length].
      rewrite attrs_step_pm by (try exact Hm; lia).
      change (1 - 1) with 0. apply attrs_loop_zero.
    - change (1 + 0) with 1. rewrite <- ?app_assoc.
      rewrite attrs_step_dp by (try exact Hd; lia). change (1 - 1) with 0. apply attrs_loop_zero.
    - change (0 + 1) with 1. rewrite <- ?app_assoc.
      rewrite attrs_step_pm by (try exact Hm; lia). change (1 - 1) with 0. apply attrs_loop_zero.
    - change (0 + 0) with 0. apply attrs_loop_zero.
  Qed.

  Lemma byron_type_roundtrip t : byron_type_of (byron_type_code t) = Some t.
  Proof. destruct t; reflexivity. Qed.

  Lemma wf_byron_attrs a : wf_byron a -> wf_attrs (b_dpath a) (b_magic a).
  Proof.
    intros (_ & _ & Hd & Hm). split; [|exact Hm].
    destruct (b_dpath a); [|exact I]. unfold two64. lia.
  Qed.

  Lemma byron_decode_inner_enc a junk : wf_byron a -> byron_decode_inner (byron_inner a ++ junk) = Ok a.
  Proof.
    intros Hwf. pose proof Hwf as (Hl & _ & _ & _). unfold byron_decode_inner, byron_inner.
    rewrite <- !app_assoc. rewrite rd_len_enc by reflexivity. cbn [bind].
    rewrite rd_bytes_enc by (rewrite Hl; reflexivity). cbn [bind].
    rewrite Hl. change (28 =? 28)%nat with true. cbv iota.
    rewrite rd_attrs_enc by (apply wf_byron_attrs; exact Hwf). cbn [bind].
    unfold enc_uint. rewrite rd_arg_enc by (destruct (b_type a); unfold two64; cbn; lia). cbn [bind].
    rewrite byron_type_roundtrip. destruct a; reflexivity.
  Qed.

  Lemma enc_bytes_length b : N.of_nat (length (enc_bytes b)) <= 9 + N.of_nat (length b).
  Proof.
    unfold enc_bytes. rewrite app_length, Nat2N.inj_add, head_length.
    pose proof (head_size_bounds (N.of_nat (length b))). lia.
  Qed.

  (* the inner tuple is far below 2^63 bytes long, so its length fits the head of the byte string that wraps it *)
  Lemma byron_inner_length a : wf_byron a -> N.of_nat (length (byron_inner a)) < two63.
  Proof.
    intros (Hl & _ & Hd & Hm). unfold byron_inner, enc_attrs, enc_uint.
    rewrite !app_length, !Nat2N.inj_add, !head_length.
    pose proof (enc_bytes_length (b_addr a)) as H1. rewrite Hl in H1.
    pose proof (head_size_bounds 3). pose proof (head_size_bounds (byron_type_code (b_type a))).
    assert (H2 : N.of_nat (length (match b_dpath a with Some d => encode_head 0 1 ++ enc_bytes d | None => [] end))
                 <= 20 + 4611686018427387904).
    { destruct (b_dpath a) as [d|]; [|cbn; lia]. destruct Hd as [_ Hd].
      rewrite app_length, Nat2N.inj_add, head_length. pose proof (head_size_bounds 1).
      pose proof (enc_bytes_length d). lia. }
    assert (H3 : N.of_nat (length (match b_magic a with Some m => encode_head 0 2 ++ enc_bytes (encode_head 0 m) | None => [] end))
                 <= 40).
    { destruct (b_magic a) as [m|]; [|cbn; lia].
      rewrite app_length, Nat2N.inj_add, head_length. pose proof (head_size_bounds 2).
      pose proof (enc_bytes_length (encode_head 0 m)) as Hx. rewrite head_length in Hx.
      pose proof (head_size_bounds m). lia. }
    pose proof (head_size_bounds ((match b_dpath a with Some _ => 1 | None => 0 end) + (match b_magic a with Some _ => 1 | None => 0 end))).
    unfold two63. lia.
  Qed.

  Hypothesis crc_range : forall bs, crc bs < two64.

  Theorem byron_decode_prefix_enc a rest : wf_byron a ->
    byron_decode_prefix crc (byron_encode crc a ++ rest) = Ok (a, rest).
  Proof.
    intros Hwf. unfold byron_decode_prefix, byron_encode. rewrite <- !app_assoc.
    rewrite rd_len_enc by reflexivity. cbn [bind].
    rewrite rd_arg_enc by reflexivity. cbn [bind]. change (24 =? 24) with true. cbv iota.
    pose proof (byron_inner_length a Hwf) as Hlen.
    rewrite rd_bytes_enc by (unfold two63, two64 in *; lia). cbn [bind].
    unfold enc_uint. rewrite rd_arg_enc by apply crc_range. cbn [bind].
    rewrite N.eqb_refl. rewrite <- (app_nil_r (byron_inner a)).
    rewrite byron_decode_inner_enc by exact Hwf. reflexivity.
  Qed.

  (* C11_byron_roundtrip (raw bytes) *)
  Theorem byron_roundtrip a : wf_byron a -> byron_from_bytes crc (byron_encode crc a) = Ok a.
  Proof.
    intros Hwf. unfold byron_from_bytes. rewrite <- (app_nil_r (byron_encode crc a)).
    rewrite byron_decode_prefix_enc by exact Hwf. reflexivity.
  Qed.

  Theorem byron_rejects_trailing a x t : wf_byron a ->
    byron_from_bytes crc (byron_encode crc a ++ x :: t) = Err.
  Proof.
    intros Hwf. unfold byron_from_bytes. rewrite byron_decode_prefix_enc by exact Hwf. reflexivity.
  Qed.

  Lemma byron_encode_head a : exists tl, byron_encode crc a = 130 :: tl.
  Proof. unfold byron_encode. eexists. reflexivity. Qed.

End Readers.

Lemma bytes_ok_firstn k (l : bytes) : bytes_ok l -> bytes_ok (firstn k l).
Proof.
  unfold bytes_ok. revert l; induction k as [|k IH]; intros l H; [constructor|].
  destruct l as [|x t]; [constructor|]. inversion H; subst. cbn. constructor; auto.
Qed.
Lemma bytes_ok_skipn k (l : bytes) : bytes_ok l -> bytes_ok (skipn k l).
Proof.
  unfold bytes_ok. revert l; induction k as [|k IH]; intros l H; [exact H|].
  destruct l as [|x t]; [constructor|]. inversion H; subst. cbn. auto.
Qed.

Lemma decode_head_rest_ok bs m a r : bytes_ok bs -> decode_head bs = Some (m, a, r) -> bytes_ok r.
Proof.
  intros Hok H. destruct (decode_head_suffix _ _ _ _ H) as (pre & -> & _).
  unfold bytes_ok in *. apply Forall_app in Hok. tauto.
Qed.

(* What a reader returns: never OutOfFuel (the fuel of the two loops always suffices), and when it is Ok, something
   with the property P; for the primitive readers, a shorter rest that is made of bytes if the input was. *)
Definition yields {A} (r : result A) (P : A -> Prop) : Prop :=
  match r with Ok x => P x | OutOfFuel => False | _ => True end.

Lemma yields_bind {A B} (r : result A) (f : A -> result B) (P : A -> Prop) (Q : B -> Prop) :
  yields r P -> (forall a, P a -> yields (f a) Q) -> yields (bind r f) Q.
Proof. destruct r; cbn [bind yields]; auto. Qed.

Definition shorter_rest {A} (bs : bytes) (x : A * bytes) : Prop :=
  (length (snd x) < length bs)%nat /\ (bytes_ok bs -> bytes_ok (snd x)).

Lemma decode_head_spec bs m a r : decode_head bs = Some (m, a, r) -> shorter_rest bs (a, r).
Proof.
  intros E. split; [exact (decode_head_shorter _ _ _ _ E)|intros H; exact (decode_head_rest_ok _ _ _ _ H E)].
Qed.

Lemma rd_arg_spec major bs : yields (rd_arg major bs) (shorter_rest bs).
Proof.
  unfold rd_arg. destruct (decode_head bs) as [[[m [k|]] r]|] eqn:E; try exact I.
  destruct (m =? major); [|exact I]. exact (decode_head_spec _ _ _ _ E).
Qed.

Lemma rd_len_spec major bs : yields (rd_len major bs) (shorter_rest bs).
Proof.
  unfold rd_len. destruct (decode_head bs) as [[[m k] r]|] eqn:E; try exact I.
  destruct (m =? major); [|exact I]. exact (decode_head_spec _ _ _ _ E).
Qed.

Lemma rd_chunks_spec fuel : forall bs acc, (length bs < fuel)%nat ->
  yields (rd_chunks fuel bs acc) (fun '(v, r) =>
    (length r <= length bs)%nat /\ (length v + length r <= length acc + length bs)%nat /\
    (bytes_ok bs -> bytes_ok acc -> bytes_ok v /\ bytes_ok r)).
Proof.
  induction fuel as [|f IH]; intros bs acc Hl; [lia|]. cbn [rd_chunks].
  destruct bs as [|b t]; [exact I|].
  destruct (b / 32 =? 7).
  { destruct (b mod 32 =? 31); [|exact I]. cbn [yields length]. split; [lia|]. split; [lia|].
    intros Hb Ha. split; [exact Ha|now inversion Hb]. }
  destruct (decode_head (b :: t)) as [[[m [n|]] r']|] eqn:E; try exact I.
  destruct (m =? 2); [|exact I]. destruct (N.of_nat (length r') <? n) eqn:En; [exact I|].
  pose proof (decode_head_shorter _ _ _ _ E) as Hs.
  specialize (IH (skipn (N.to_nat n) r') (acc ++ firstn (N.to_nat n) r')).
  rewrite skipn_length, app_length, firstn_length in IH. specialize (IH ltac:(lia)).
  destruct (rd_chunks f _ _) as [[v r]| | |]; try exact IH. destruct IH as (A & B & C).
  split; [lia|]. split; [lia|]. intros Hb Ha. pose proof (decode_head_rest_ok _ _ _ _ Hb E) as Hr'.
  apply C; [apply bytes_ok_skipn, Hr'|]. apply Forall_app; split; [exact Ha|apply bytes_ok_firstn, Hr'].
Qed.

Lemma rd_bytes_spec bs :
  yields (rd_bytes bs) (fun '(v, r) => (length v + length r <= length bs)%nat /\ (bytes_ok bs -> bytes_ok v /\ bytes_ok r)).
Proof.
  unfold rd_bytes. destruct (decode_head bs) as [[[m [n|]] r]|] eqn:E; try exact I;
    (destruct (m =? 2); [|exact I]); pose proof (decode_head_shorter _ _ _ _ E) as Hs.
  - destruct (N.of_nat (length r) <? n) eqn:En; [destruct (two63 <=? n); exact I|]. cbn [yields].
    rewrite firstn_length, skipn_length. split; [lia|]. intros Hb.
    pose proof (decode_head_rest_ok _ _ _ _ Hb E) as Hr. split; [apply bytes_ok_firstn, Hr|apply bytes_ok_skipn, Hr].
  - pose proof (rd_chunks_spec (S (length r)) r [] ltac:(lia)) as S.
    destruct (rd_chunks _ r []) as [[v r0]| | |]; try exact S. destruct S as (A & B & C). cbn [length] in B.
    split; [lia|]. intros Hb. apply C; [exact (decode_head_rest_ok _ _ _ _ Hb E)|constructor].
Qed.

Definition dp_ok (L : nat) (dp : option bytes) : Prop :=
  match dp with Some d => bytes_ok d /\ (length d <= L)%nat | None => True end.
Definition pm_ok (pm : option N) : Prop := match pm with Some m => m < two32 | None => True end.

Lemma attrs_loop_spec L fuel : forall n bs dp pm, (length bs < fuel)%nat -> (length bs <= L)%nat ->
  yields (attrs_loop fuel n bs dp pm) (fun '(dp', pm', r) =>
    bytes_ok bs -> dp_ok L dp -> pm_ok pm -> dp_ok L dp' /\ pm_ok pm' /\ bytes_ok r).
Proof.
  induction fuel as [|f IH]; intros n bs dp pm Hl HL; [lia|]. cbn [attrs_loop].
  destruct (n =? 0); [cbn [yields]; auto|].
  apply (yields_bind _ _ _ _ (rd_arg_spec 0 bs)). intros [key r1] [L1 B1]. cbn [snd] in *.
  destruct (key =? 1); [|destruct (key =? 2); [|exact I]];
    apply (yields_bind _ _ _ _ (rd_bytes_spec r1)); intros [v r2] [L2 B2].
  - specialize (IH (n - 1) r2 (Some v) pm ltac:(lia) ltac:(lia)).
    destruct (attrs_loop f _ r2 _ _) as [[[dp' pm'] r]| | |]; try exact IH.
    intros Hb Hdp Hpm. destruct (B2 (B1 Hb)) as [Hv Hr2]. apply IH; [exact Hr2| |exact Hpm]. split; [exact Hv|lia].
  - apply (yields_bind _ _ _ _ (rd_arg_spec 0 v)). intros [magic r3] _.
    destruct (magic <? two32) eqn:Em; [|exact I].
    specialize (IH (n - 1) r2 dp (Some magic) ltac:(lia) ltac:(lia)).
    destruct (attrs_loop f _ r2 _ _) as [[[dp' pm'] r]| | |]; try exact IH.
    intros Hb Hdp Hpm. destruct (B2 (B1 Hb)) as [Hv Hr2]. apply IH; [exact Hr2|exact Hdp|]. cbn [pm_ok]. lia.
Qed.

Lemma byron_decode_inner_spec inner :
  yields (byron_decode_inner inner) (fun a => bytes_ok inner ->
    length (b_addr a) = 28%nat /\ bytes_ok (b_addr a) /\ dp_ok (length inner) (b_dpath a) /\ pm_ok (b_magic a)).
Proof.
  unfold byron_decode_inner, rd_attrs.
  apply (yields_bind _ _ _ _ (rd_len_spec 4 inner)). intros [len i1] [L1 B1]. cbn [snd] in *.
  destruct len as [[|[[p|p|]|p|]]|]; try exact I.
  apply (yields_bind _ _ _ _ (rd_bytes_spec i1)). intros [addr i2] [L2 B2].
  destruct (length addr =? 28)%nat eqn:E28; [|exact I]. apply Nat.eqb_eq in E28.
  apply (yields_bind _ _ (fun x => bytes_ok i2 -> dp_ok (length inner) (fst (fst x)) /\ pm_ok (snd (fst x))) _).
  - apply (yields_bind _ _ _ _ (rd_len_spec 5 i2)). intros [[n|] r] [L3 B3]; [|exact I]. cbn [snd] in *.
    pose proof (attrs_loop_spec (length inner) (S (length r)) n r None None ltac:(lia) ltac:(lia)) as S4.
    destruct (attrs_loop _ n r None None) as [[[dp pm] i3]| | |]; try exact S4.
    intros Hi2. destruct (S4 (B3 Hi2) I I) as (Hdp & Hpm & _). exact (conj Hdp Hpm).
  - intros [[dp pm] i3] S4. cbn [fst snd] in S4.
    apply (yields_bind _ _ _ _ (rd_arg_spec 0 i3)). intros [ty r'] _.
    destruct (byron_type_of ty); [|exact I]. intros Hb. destruct (B2 (B1 Hb)) as [Ha Hi2].
    destruct (S4 Hi2) as [Hdp Hpm]. cbn. auto.
Qed.

Section Parsed.
  Variable crc : bytes -> N.

  Lemma byron_from_bytes_spec data :
    yields (byron_from_bytes crc data) (fun a =>
      bytes_ok data -> N.of_nat (length data) < 4611686018427387904 -> wf_byron a).
  Proof.
    unfold byron_from_bytes, byron_decode_prefix.
    apply (yields_bind _ _ (fun x => bytes_ok data -> N.of_nat (length data) < 4611686018427387904 -> wf_byron (fst x)) _).
    2:{ intros [a [|x t]] S; [exact S|exact I]. }
    apply (yields_bind _ _ _ _ (rd_len_spec 4 data)). intros [len r1] [L1 B1]. cbn [snd] in *.
    destruct len as [[|[p|[p|p|]|]]|]; try exact I.
    apply (yields_bind _ _ _ _ (rd_arg_spec 6 r1)). intros [tag r2] [L2 B2]. cbn [snd] in *.
    destruct (tag =? 24); [|exact I].
    apply (yields_bind _ _ _ _ (rd_bytes_spec r2)). intros [inner r3] [L3 B3].
    apply (yields_bind _ _ _ _ (rd_arg_spec 0 r3)). intros [c r4] _.
    destruct (c =? crc inner); [|exact I].
    apply (yields_bind _ _ _ _ (byron_decode_inner_spec inner)). intros a S5 Hb HL.
    destruct (B3 (B2 (B1 Hb))) as [Hi _]. destruct (S5 Hi) as (A & B & C & D).
    unfold wf_byron. cbn [fst]. repeat split; auto.
    unfold dp_ok in C. destruct (b_dpath a); [|exact I]. destruct C as [C1 C2]. split; [exact C1|lia].
  Qed.

  (* the loops never run out of fuel *)
  Theorem byron_from_bytes_total bs : byron_from_bytes crc bs <> OutOfFuel.
  Proof. intros E. pose proof (byron_from_bytes_spec bs) as S. now rewrite E in S. Qed.

  (* every Byron address the parser returns satisfies wf_byron (inputs shorter than 2^62 bytes) *)
  Theorem byron_from_bytes_wf data a : bytes_ok data -> N.of_nat (length data) < 4611686018427387904 ->
    byron_from_bytes crc data = Ok a -> wf_byron a.
  Proof. intros Hok HL E. pose proof (byron_from_bytes_spec data) as S. rewrite E in S. exact (S Hok HL). Qed.
End Parsed.


Lemma split_at_short k (l : bytes) : (length l < k)%nat -> split_at k l = None.
Proof. intros H. unfold split_at. destruct (k <=? length l)%nat eqn:E; [apply Nat.leb_le in E; lia|reflexivity]. Qed.

(* a head with additional info 24..27 carries a payload of 1, 2, 4 or 8 bytes *)
Lemma decode_head_payload b r k :
  b mod 32 = 24 /\ k = 1%nat \/ b mod 32 = 25 /\ k = 2%nat \/ b mod 32 = 26 /\ k = 4%nat \/ b mod 32 = 27 /\ k = 8%nat ->
  decode_head (b :: r) =
  match split_at k r with Some (p, r') => Some (b / 32, Arg (unbe p 0), r') | None => None end.
Proof. intros H. cbn [decode_head]. destruct H as [[-> ->]|[[-> ->]|[[-> ->]|[-> ->]]]]; reflexivity. Qed.

(* a proper prefix of a head is not a head *)
Lemma decode_head_truncated m n j : m < 8 -> (j < length (encode_head m n))%nat ->
  decode_head (firstn j (encode_head m n)) = None.
Proof.
  intros Hm Hj. destruct j as [|j]; [reflexivity|]. unfold encode_head in *.
  assert (G : forall c k, c = 24 /\ k = 1%nat \/ c = 25 /\ k = 2%nat \/ c = 26 /\ k = 4%nat \/ c = 27 /\ k = 8%nat ->
            (j < k)%nat -> decode_head (firstn (S j) ((m * 32 + c) :: be k n)) = None).
  { intros c k Hck Hk. cbn [firstn]. rewrite (decode_head_payload _ _ k), split_at_short; [reflexivity| |].
    - rewrite firstn_length, be_length. lia.
    - rewrite (proj2 (initial_byte m c ltac:(lia))). exact Hck. }
  destruct (n <? 24); [cbn [length] in Hj; lia|].
  destruct (n <? 256); [|destruct (n <? 65536); [|destruct (n <? 4294967296)]];
    (apply G; [tauto|]; cbn [length] in Hj; rewrite be_length in Hj; lia).
Qed.

Section Truncation.
  Variable crc : bytes -> N.
  Hypothesis crc_range : forall bs, crc bs < two64.

  Lemma rd_len_truncated major n j : major < 8 -> (j < length (encode_head major n))%nat ->
    rd_len major (firstn j (encode_head major n)) = Err.
  Proof. intros Hm Hj. unfold rd_len. now rewrite decode_head_truncated. Qed.
  Lemma rd_arg_truncated major n j : major < 8 -> (j < length (encode_head major n))%nat ->
    rd_arg major (firstn j (encode_head major n)) = Err.
  Proof. intros Hm Hj. unfold rd_arg. now rewrite decode_head_truncated. Qed.

  Lemma rd_bytes_truncated b rest j : N.of_nat (length b) < two63 -> (j < length (enc_bytes b))%nat ->
    rd_bytes (firstn j (enc_bytes b ++ rest)) = Err.
  Proof.
    intros Hb Hj. unfold enc_bytes in *. rewrite <- app_assoc, firstn_app.
    set (H := encode_head 2 (N.of_nat (length b))) in *.
    destruct (Nat.lt_ge_cases j (length H)) as [Hlt|Hge].
    - replace (j - length H)%nat with 0%nat by lia. cbn [firstn]. rewrite app_nil_r.
      unfold rd_bytes, H. rewrite decode_head_truncated by (fold H; lia). reflexivity.
    - rewrite firstn_all2 by lia. rewrite app_length in Hj.
      unfold rd_bytes, H. rewrite decode_encode_head by (unfold two63, two64 in *; lia).
      change (2 =? 2) with true. cbv iota. fold H.
      assert (Hl : (length (firstn (j - length H) (b ++ rest)) < length b)%nat).
      { rewrite firstn_length. lia. }
      destruct (N.of_nat (length (firstn (j - length H) (b ++ rest))) <? N.of_nat (length b)) eqn:E; [|lia].
      destruct (two63 <=? N.of_nat (length b)) eqn:E2; [lia|reflexivity].
  Qed.

  (* every proper prefix of a written Byron address is refused (an error, not a panic) *)
  Theorem byron_rejects_truncation a k : wf_byron a -> (k < length (byron_encode crc a))%nat ->
    byron_from_bytes crc (firstn k (byron_encode crc a)) = Err.
  Proof.
    intros Hwf Hk. unfold byron_from_bytes, byron_decode_prefix.
    pose proof (byron_inner_length crc a Hwf) as Hlen.
    unfold byron_encode in *. set (inner := byron_inner a) in *.
    change (encode_head 4 2) with [130] in *. change (encode_head 6 24) with [216; 24] in *.
    destruct k as [|k]; [reflexivity|].
    cbn [app firstn]. change (130 :: ?x) with (encode_head 4 2 ++ x).
    rewrite rd_len_enc by reflexivity. cbn [bind].
    cbn [app length] in Hk.
    destruct k as [|[|k]].
    - reflexivity.
    - reflexivity.
    - cbn [firstn]. change (216 :: 24 :: ?x) with (encode_head 6 24 ++ x).
      rewrite rd_arg_enc by reflexivity. cbn [bind]. change (24 =? 24) with true. cbv iota.
      rewrite app_length in Hk.
      destruct (Nat.lt_ge_cases k (length (enc_bytes inner))) as [Hlt|Hge].
      + rewrite rd_bytes_truncated by assumption. reflexivity.
      + rewrite firstn_app, firstn_all2 by lia.
        rewrite (rd_bytes_enc crc) by (unfold two63, two64 in *; lia). cbn [bind].
        unfold enc_uint. rewrite rd_arg_truncated by (lia || (unfold enc_uint in Hk; lia)). reflexivity.
  Qed.
End Truncation.
