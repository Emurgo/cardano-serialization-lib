(* Proofs about Address (Shelley.v): round trip, classification by header, strict rejections,
   embedded decoding total and verbatim outside the known classes.  The parser is described once,
   by nibble (from_bytes_internal_nib) and, for a header byte, by header class (parse_by_class);
   the theorems about what it accepts, refuses or returns start from one of the two. *)
From CSL Require Import Base.Prelude Cbor.Head Cbor.HeadProofs Addr.VarNat Addr.VarNatProofs
  Addr.Crc32 Addr.Crc32Proofs Addr.Byron Addr.ByronProofs Addr.Shelley.
Local Open Scope N_scope.

Definition headers : list N := map N.of_nat (seq 0 256).

Lemma in_headers h : h < 256 -> In h headers.
Proof.
  intros H. unfold headers. apply in_map_iff. exists (N.to_nat h). split; [apply N2Nat.id|].
  apply in_seq. lia.
Qed.

(* the parser's nibble dispatch is the header table of shelley.cddl *)
Definition dispatch_ok (h : N) : bool :=
  let nib := h / 16 in
  match classify_header h with
  | HBase ps ss => (nib <? 4) && Bool.eqb ps (N.testbit h 4) && Bool.eqb ss (N.testbit h 5)
  | HPointer ps => negb (nib <? 4) && (nib <? 6) && Bool.eqb ps (N.testbit h 4)
  | HEnterprise ps => negb (nib <? 6) && (nib <? 8) && Bool.eqb ps (N.testbit h 4)
  | HByron => negb (nib <? 8) && (nib =? 8)
  | HReward ps => negb (nib <? 8) && negb (nib =? 8) && (14 <=? nib) && Bool.eqb ps (N.testbit h 4)
  | HInvalid => negb (nib <? 8) && negb (nib =? 8) && negb (14 <=? nib)
  end.

Lemma dispatch_sweep : forallb dispatch_ok headers = true.
Proof. vm_compute. reflexivity. Qed.

Lemma dispatch_ok_all h : h < 256 -> dispatch_ok h = true.
Proof. intros H. pose proof dispatch_sweep as S. rewrite forallb_forall in S. apply S, in_headers, H. Qed.

(* the writer recomputes the header the parser dispatched on *)
Definition bit (b : bool) : N := if b then 1 else 0.
Definition rewrite_ok (h : N) : bool :=
  let nib := h / 16 in
  let k4 := bit (N.testbit h 4) in let k5 := bit (N.testbit h 5) in
  if nib <? 4 then k4 * 16 + k5 * 32 + (h mod 16) mod 16 =? h
  else if nib <? 6 then 64 + k4 * 16 + (h mod 16) mod 16 =? h
  else if nib <? 8 then 96 + k4 * 16 + (h mod 16) mod 16 =? h
  else if nib =? 8 then true
  else if 14 <=? nib then 224 + k4 * 16 + (h mod 16) mod 16 =? h
  else true.

Lemma rewrite_sweep : forallb rewrite_ok headers = true.
Proof. vm_compute. reflexivity. Qed.

Lemma rewrite_ok_all h : h < 256 -> rewrite_ok h = true.
Proof. intros H. pose proof rewrite_sweep as S. rewrite forallb_forall in S. apply S, in_headers, H. Qed.

(* the header the writer produces for (script bits, network) falls in the class it was written for *)
Definition class_eqb (a b : header_class) : bool :=
  match a, b with
  | HBase p s, HBase p' s' => Bool.eqb p p' && Bool.eqb s s'
  | HPointer p, HPointer p' | HEnterprise p, HEnterprise p' | HReward p, HReward p' => Bool.eqb p p'
  | HByron, HByron | HInvalid, HInvalid => true
  | _, _ => false
  end.
Lemma class_eqb_eq a b : class_eqb a b = true -> a = b.
Proof.
  destruct a, b; cbn [class_eqb]; try discriminate; rewrite ?andb_true_iff, ?eqb_true_iff;
    try intros [-> ->]; try intros ->; reflexivity.
Qed.

Definition written_as (h net : N) (c : header_class) : Prop := h < 256 /\ h mod 16 = net /\ classify_header h = c.
Definition written_asb (h net : N) (c : header_class) : bool :=
  (h <? 256) && (h mod 16 =? net) && class_eqb (classify_header h) c.

Lemma written_asb_spec h net c : written_asb h net c = true -> written_as h net c.
Proof.
  unfold written_asb, written_as. rewrite !andb_true_iff. intros ((H1 & H2) & H3).
  split; [apply N.ltb_lt, H1|]. split; [apply N.eqb_eq, H2|apply class_eqb_eq, H3].
Qed.

Definition nets : list N := map N.of_nat (seq 0 16).
Lemma written_sweep :
  forallb (fun net => forallb (fun k4 => forallb (fun k5 =>
     written_asb (bit k4 * 16 + bit k5 * 32 + net mod 16) net (HBase k4 k5)
     && written_asb (64 + bit k4 * 16 + net mod 16) net (HPointer k4)
     && written_asb (96 + bit k4 * 16 + net mod 16) net (HEnterprise k4)
     && written_asb (224 + bit k4 * 16 + net mod 16) net (HReward k4))
     [false; true]) [false; true]) nets = true.
Proof. vm_compute. reflexivity. Qed.

Lemma written_all net k4 k5 : net < 16 ->
  written_as (bit k4 * 16 + bit k5 * 32 + net mod 16) net (HBase k4 k5) /\
  written_as (64 + bit k4 * 16 + net mod 16) net (HPointer k4) /\
  written_as (96 + bit k4 * 16 + net mod 16) net (HEnterprise k4) /\
  written_as (224 + bit k4 * 16 + net mod 16) net (HReward k4).
Proof.
  intros H. pose proof written_sweep as S. rewrite forallb_forall in S.
  assert (I : In net nets).
  { apply in_map_iff. exists (N.to_nat net). split; [apply N2Nat.id|apply in_seq; lia]. }
  specialize (S _ I). rewrite forallb_forall in S.
  specialize (S k4 ltac:(destruct k4; cbn; auto)). rewrite forallb_forall in S.
  specialize (S k5 ltac:(destruct k5; cbn; auto)). rewrite !andb_true_iff in S.
  destruct S as (((S1 & S2) & S3) & S4). split; [|split; [|split]]; apply written_asb_spec; assumption.
Qed.

Lemma firstn_firstn_skipn {A} (a b : nat) (l : list A) :
  firstn a l ++ firstn b (skipn a l) = firstn (a + b) l.
Proof.
  revert l; induction a as [|a IH]; intros l; [reflexivity|].
  destruct l as [|x t]; [cbn; now rewrite firstn_nil|]. cbn. now rewrite IH.
Qed.

Lemma skipn_app_le {A} (k : nat) (l x : list A) : (k <= length l)%nat -> skipn k (l ++ x) = skipn k l ++ x.
Proof.
  intros H. rewrite skipn_app. replace (k - length l)%nat with 0%nat by lia. reflexivity.
Qed.

Lemma skipn_add {A} (a b : nat) (l : list A) : skipn (a + b) l = skipn b (skipn a l).
Proof.
  revert l; induction a as [|a IH]; intros l; [reflexivity|].
  destruct l as [|x t]; [cbn; now rewrite skipn_nil|]. cbn. apply IH.
Qed.

Lemma skipn_S {A} n (x : A) l : skipn (S n) (x :: l) = skipn n l.
Proof. reflexivity. Qed.

Lemma bytes_eqb_refl a : bytes_eqb a a = true.
Proof. induction a as [|x t IH]; [reflexivity|]. cbn. now rewrite N.eqb_refl, IH. Qed.

Lemma bytes_eqb_eq a : forall b, bytes_eqb a b = true -> a = b.
Proof.
  induction a as [|x t IH]; intros [|y u] H; cbn in H; try discriminate; [reflexivity|].
  apply andb_true_iff in H. destruct H as [H1 H2]. f_equal; [lia|now apply IH].
Qed.

Definition mk_cred (script : bool) (h : bytes) : cred := if script then ScriptHash h else KeyHash h.
Lemma mk_cred_id c : mk_cred (is_script c) (cred_bytes c) = c.
Proof. destruct c; reflexivity. Qed.
Lemma read_cred_mk header data b pos :
  read_cred header data b pos = mk_cred (N.testbit header b) (firstn 28 (skipn pos data)).
Proof. unfold read_cred, mk_cred, hash_len. destruct (N.testbit header b); reflexivity. Qed.
Lemma cred_kind_bit c : cred_kind c = bit (is_script c).
Proof. destruct c; reflexivity. Qed.

Lemma decode_pointer_enc s t c rest : s < two64 -> t < two64 -> c < two64 ->
  decode_pointer (varnat_encode s ++ varnat_encode t ++ varnat_encode c ++ rest) =
  Some (mkPtr s t c, (length (varnat_encode s) + length (varnat_encode t) + length (varnat_encode c))%nat).
Proof.
  intros Hs Ht Hc. unfold decode_pointer.
  rewrite varnat_roundtrip by exact Hs. rewrite skipn_exact.
  rewrite varnat_roundtrip by exact Ht.
  rewrite skipn_add, skipn_exact, skipn_exact.
  rewrite varnat_roundtrip by exact Hc. reflexivity.
Qed.

Lemma decode_pointer_inv d p off : decode_pointer d = Some (p, off) ->
  exists k1 k2 k3, varnat_decode d = Some (p_slot p, k1) /\ varnat_decode (skipn k1 d) = Some (p_tx p, k2) /\
    varnat_decode (skipn (k1 + k2) d) = Some (p_cert p, k3) /\ off = (k1 + k2 + k3)%nat.
Proof.
  unfold decode_pointer.
  destruct (varnat_decode d) as [[s k1]|] eqn:E1; [|discriminate].
  destruct (varnat_decode (skipn k1 d)) as [[t k2]|] eqn:E2; [|discriminate].
  destruct (varnat_decode (skipn (k1 + k2) d)) as [[c k3]|] eqn:E3; [|discriminate].
  intros [= <- <-]. exists k1, k2, k3. cbn. auto.
Qed.

Lemma decode_pointer_bound d p off : decode_pointer d = Some (p, off) -> (3 <= off <= length d)%nat.
Proof.
  intros H. destruct (decode_pointer_inv _ _ _ H) as (k1 & k2 & k3 & E1 & E2 & E3 & ->).
  apply varnat_decode_range in E1, E2, E3. rewrite skipn_length in E2, E3. lia.
Qed.

Lemma decode_pointer_app d p off x : decode_pointer d = Some (p, off) ->
  decode_pointer (d ++ x) = Some (p, off).
Proof.
  intros H. destruct (decode_pointer_inv _ _ _ H) as (k1 & k2 & k3 & E1 & E2 & E3 & ->).
  pose proof (varnat_decode_range _ _ _ E1) as R1. pose proof (varnat_decode_range _ _ _ E2) as R2.
  rewrite skipn_length in R2. unfold decode_pointer.
  rewrite (varnat_decode_app _ _ _ x E1), skipn_app_le, (varnat_decode_app _ _ _ x E2), skipn_app_le,
    (varnat_decode_app _ _ _ x E3) by lia.
  destruct p; reflexivity.
Qed.

(* some field of the pointer starts with a padding group (the test inside known_padded_pointer) *)
Definition pointer_padded (d : bytes) : bool :=
  match varnat_decode d with
  | None => false
  | Some (_, k1) =>
    varnat_padded d ||
    match varnat_decode (skipn k1 d) with
    | None => false
    | Some (_, k2) =>
      varnat_padded (skipn k1 d) ||
      match varnat_decode (skipn (k1 + k2) d) with
      | None => false
      | Some _ => varnat_padded (skipn (k1 + k2) d)
      end
    end
  end.

(* a pointer without padded fields is written back as the bytes it was read from *)
Lemma decode_pointer_canonical d p off : bytes_ok d -> pointer_padded d = false -> decode_pointer d = Some (p, off) ->
  varnat_encode (p_slot p) ++ varnat_encode (p_tx p) ++ varnat_encode (p_cert p) = firstn off d.
Proof.
  intros Hd KP Ed. destruct (decode_pointer_inv _ _ _ Ed) as (k1 & k2 & k3 & V1 & V2 & V3 & ->).
  unfold pointer_padded in KP. rewrite V1, V2, V3 in KP.
  apply orb_false_iff in KP as [P1 KP]. apply orb_false_iff in KP as [P2 P3].
  rewrite (varnat_decode_canonical _ _ _ Hd P1 V1), (varnat_decode_canonical _ _ _ (bytes_ok_skipn k1 _ Hd) P2 V2),
    (varnat_decode_canonical _ _ _ (bytes_ok_skipn (k1 + k2) _ Hd) P3 V3).
  rewrite (skipn_add k1 k2 d), (firstn_firstn_skipn k2 k3), (firstn_firstn_skipn k1 (k2 + k3)), Nat.add_assoc.
  reflexivity.
Qed.

(* The parser, with its two length checks named. *)
(* a kind of fixed size: exactly [size] bytes, or at least that many when leftovers are ignored *)
Definition fixed (ig : bool) (len size : nat) (mk : address) : result address :=
  if (len <? size)%nat then Err else if (size <? len)%nat && negb ig then Err else Ok mk.
Definition pointer_parse (ig : bool) (len : nat) (d : bytes) (mk : pointer -> address) : result address :=
  if (len <? 32)%nat then Err
  else match decode_pointer d with
       | Some (p, off) => if (29 + off <? len)%nat && negb ig then Err else Ok (mk p)
       | None => Err
       end.

Lemma fixed_ok ig len size mk a : fixed ig len size mk = Ok a ->
  a = mk /\ (size <= len)%nat /\ ((size <? len)%nat && negb ig = false).
Proof.
  unfold fixed. destruct (Nat.ltb_spec len size); [discriminate|].
  destruct (_ && _); [discriminate|]. intros [= <-]. auto.
Qed.
Lemma fixed_total ig len size mk : fixed ig len size mk = Err \/ exists a, fixed ig len size mk = Ok a.
Proof. unfold fixed. destruct (_ <? _)%nat; [now left|]. destruct (_ && _); eauto. Qed.
Lemma fixed_short ig len size mk : (len < size)%nat -> fixed ig len size mk = Err.
Proof. intros H. unfold fixed. now rewrite (proj2 (Nat.ltb_lt _ _) H). Qed.
Definition nonempty (l : bytes) : bool := match l with [] => false | _ => true end.
Lemma fixed_junk ig size mk (junk : bytes) :
  fixed ig (size + length junk) size mk = if negb ig && nonempty junk then Err else Ok mk.
Proof.
  unfold fixed. rewrite (proj2 (Nat.ltb_ge _ _)) by lia. destruct junk; cbn [length nonempty].
  - rewrite Nat.add_0_r, Nat.ltb_irrefl, andb_false_r. reflexivity.
  - rewrite (proj2 (Nat.ltb_lt size _)) by lia. rewrite andb_comm. reflexivity.
Qed.

Lemma pointer_parse_ok ig len d mk a : pointer_parse ig len d mk = Ok a ->
  exists p off, decode_pointer d = Some (p, off) /\ a = mk p /\ (32 <= len)%nat /\ ((29 + off <? len)%nat && negb ig = false).
Proof.
  unfold pointer_parse. destruct (Nat.ltb_spec len 32); [discriminate|].
  destruct (decode_pointer d) as [[p off]|]; [|discriminate].
  destruct (_ && _) eqn:E; [discriminate|]. intros [= <-]. eauto 6.
Qed.
Lemma pointer_parse_short ig len d mk : (len < 32)%nat -> pointer_parse ig len d mk = Err.
Proof. intros H. unfold pointer_parse. now rewrite (proj2 (Nat.ltb_lt _ _) H). Qed.
Lemma pointer_parse_none ig len d mk : decode_pointer d = None -> pointer_parse ig len d mk = Err.
Proof. intros H. unfold pointer_parse. rewrite H. now destruct (_ <? _)%nat. Qed.
Lemma pointer_parse_total ig len d mk : pointer_parse ig len d mk = Err \/ exists a, pointer_parse ig len d mk = Ok a.
Proof.
  unfold pointer_parse. destruct (_ <? _)%nat; [now left|].
  destruct (decode_pointer d) as [[p off]|]; [|now left]. destruct (_ && _); eauto.
Qed.

(* from_bytes_internal_impl, by nibble *)
Lemma from_bytes_internal_nib ig h payload :
  from_bytes_internal ig (h :: payload) =
  let len := S (length payload) in
  let pay := mk_cred (N.testbit h 4) (firstn 28 payload) in
  if h / 16 <? 4 then fixed ig len 57 (Base (h mod 16) pay (mk_cred (N.testbit h 5) (firstn 28 (skipn 28 payload))))
  else if h / 16 <? 6 then pointer_parse ig len (skipn 28 payload) (Ptr (h mod 16) pay)
  else if h / 16 <? 8 then fixed ig len 29 (Enterprise (h mod 16) pay)
  else if h / 16 =? 8 then lift_byron (byron_from_bytes crc32 (h :: payload))
  else if 14 <=? h / 16 then fixed ig len 29 (Reward (h mod 16) pay)
  else Err.
Proof. unfold from_bytes_internal. rewrite !read_cred_mk. reflexivity. Qed.

(* the header class, read off the high nibble in the order the parser tests it *)
Lemma classify_by_nibble h : h < 256 ->
  classify_header h =
  if h / 16 <? 4 then HBase (N.testbit h 4) (N.testbit h 5)
  else if h / 16 <? 6 then HPointer (N.testbit h 4)
  else if h / 16 <? 8 then HEnterprise (N.testbit h 4)
  else if h / 16 =? 8 then HByron
  else if 14 <=? h / 16 then HReward (N.testbit h 4)
  else HInvalid.
Proof.
  intros Hh. pose proof (dispatch_ok_all h Hh) as D. unfold dispatch_ok in D. cbv zeta in D.
  (* only the order of the nibble's thresholds matters from here on *)
  generalize dependent (h / 16). intros nib D.
  destruct (classify_header h) as [ps ss|ps|ps|ps| |];
    rewrite ?andb_true_iff, ?negb_true_iff, ?eqb_true_iff in D.
  - destruct D as ((-> & ->) & ->). reflexivity.
  - destruct D as ((-> & ->) & ->). reflexivity.
  - destruct D as ((E6 & ->) & ->). rewrite E6. replace (nib <? 4) with false by lia. reflexivity.
  - destruct D as (((E8 & ->) & ->) & ->). rewrite E8.
    replace (nib <? 4) with false by lia. replace (nib <? 6) with false by lia. reflexivity.
  - destruct D as (E8 & ->). rewrite E8.
    replace (nib <? 4) with false by lia. replace (nib <? 6) with false by lia. reflexivity.
  - destruct D as ((E8 & ->) & ->). rewrite E8.
    replace (nib <? 4) with false by lia. replace (nib <? 6) with false by lia. reflexivity.
Qed.

(* ... and so the parser goes by header class: what it does for a class, a network id and the payload *)
Definition parse_class (ig : bool) (c : header_class) (net h : N) (payload : bytes) : result address :=
  let len := S (length payload) in
  let pay ps := mk_cred ps (firstn 28 payload) in
  match c with
  | HBase ps ss => fixed ig len 57 (Base net (pay ps) (mk_cred ss (firstn 28 (skipn 28 payload))))
  | HPointer ps => pointer_parse ig len (skipn 28 payload) (Ptr net (pay ps))
  | HEnterprise ps => fixed ig len 29 (Enterprise net (pay ps))
  | HReward ps => fixed ig len 29 (Reward net (pay ps))
  | HByron => lift_byron (byron_from_bytes crc32 (h :: payload))
  | HInvalid => Err
  end.

Theorem parse_by_class ig h payload : h < 256 ->
  from_bytes_internal ig (h :: payload) = parse_class ig (classify_header h) (h mod 16) h payload.
Proof.
  intros Hh. rewrite from_bytes_internal_nib, (classify_by_nibble h Hh). cbv zeta.
  destruct (h / 16 <? 4); [reflexivity|]. destruct (h / 16 <? 6); [reflexivity|].
  destruct (h / 16 <? 8); [reflexivity|]. destruct (h / 16 =? 8); [reflexivity|].
  destruct (14 <=? h / 16); reflexivity.
Qed.

(* a header written for a class and a network id is parsed as that class *)
Lemma parse_written_header ig h net c payload : written_as h net c ->
  from_bytes_internal ig (h :: payload) = parse_class ig c net h payload.
Proof. intros (H & <- & <-). now apply parse_by_class. Qed.

Definition shelley_kind (a : address) : bool :=
  match a with Base _ _ _ | Ptr _ _ _ | Enterprise _ _ | Reward _ _ => true | _ => false end.

Lemma firstn_hash (x r : bytes) : length x = 28%nat -> firstn 28 (x ++ r) = x.
Proof. intros <-. apply firstn_exact. Qed.
Lemma skipn_hash (x r : bytes) : length x = 28%nat -> skipn 28 (x ++ r) = r.
Proof. intros <-. apply skipn_exact. Qed.

Lemma pointer_parse_junk ig len off d mk q (junk : bytes) : decode_pointer d = Some (q, off) ->
  len = (29 + off + length junk)%nat ->
  pointer_parse ig len d mk = if negb ig && nonempty junk then Err else Ok (mk q).
Proof.
  intros Hd ->. pose proof (decode_pointer_bound _ _ _ Hd) as B. unfold pointer_parse. rewrite Hd.
  rewrite (proj2 (Nat.ltb_ge _ _)) by lia. destruct junk; cbn [length nonempty].
  - rewrite Nat.add_0_r, Nat.ltb_irrefl, andb_false_r. reflexivity.
  - rewrite (proj2 (Nat.ltb_lt (29 + off) _)) by lia. rewrite andb_comm. reflexivity.
Qed.

Lemma crc32_range bs : crc32 bs < two64.
Proof. pose proof (crc32_bound bs). unfold two32, two64 in *. lia. Qed.

Lemma from_bytes_internal_byron ig tl :
  from_bytes_internal ig (130 :: tl) = lift_byron (byron_from_bytes crc32 (130 :: tl)).
Proof. unfold from_bytes_internal. change (130 / 16) with 8. reflexivity. Qed.

(* What either parser makes of a written address followed by anything: the strict one wants nothing after it,
   the lenient one drops what follows a Shelley-era address, a Byron address must end the input in both. *)
Lemma parse_written ig a junk : wf_address a ->
  from_bytes_internal ig (to_bytes a ++ junk) =
  if (negb ig || negb (shelley_kind a)) && nonempty junk then Err else Ok a.
Proof.
  intros Hwf. destruct a as [net p s|net p q|net p|net p|b|m]; cbn [shelley_kind negb];
    rewrite ?orb_false_r, ?orb_true_r; cbn [to_bytes app andb]; rewrite ?cred_kind_bit.
  - destruct Hwf as (Hn & [Lp _] & [Ls _]).
    destruct (written_all net (is_script p) (is_script s) Hn) as (Hw & _).
    rewrite (parse_written_header ig _ _ _ _ Hw). unfold parse_class. cbv zeta.
    rewrite <- app_assoc, (firstn_hash _ _ Lp), (skipn_hash _ _ Lp), (firstn_hash _ _ Ls), !mk_cred_id.
    rewrite !app_length, Lp, Ls. exact (fixed_junk ig 57 _ junk).
  - destruct Hwf as (Hn & [Lp _] & (Hs & Ht & Hc')).
    destruct (written_all net (is_script p) false Hn) as (_ & Hw & _).
    rewrite (parse_written_header ig _ _ _ _ Hw). unfold parse_class. cbv zeta.
    rewrite <- !app_assoc, (firstn_hash _ _ Lp), (skipn_hash _ _ Lp), mk_cred_id.
    destruct q as [sl tx ce]. cbn [p_slot p_tx p_cert] in *.
    apply pointer_parse_junk with (1 := decode_pointer_enc sl tx ce junk Hs Ht Hc').
    rewrite !app_length, Lp. lia.
  - destruct Hwf as (Hn & [Lp _]).
    destruct (written_all net (is_script p) false Hn) as (_ & _ & Hw & _).
    rewrite (parse_written_header ig _ _ _ _ Hw). unfold parse_class. cbv zeta.
    rewrite (firstn_hash _ _ Lp), mk_cred_id, app_length, Lp. exact (fixed_junk ig 29 _ junk).
  - destruct Hwf as (Hn & [Lp _]).
    destruct (written_all net (is_script p) false Hn) as (_ & _ & _ & Hw).
    rewrite (parse_written_header ig _ _ _ _ Hw). unfold parse_class. cbv zeta.
    rewrite (firstn_hash _ _ Lp), mk_cred_id, app_length, Lp. exact (fixed_junk ig 29 _ junk).
  - destruct (byron_encode_head crc32 b) as [tl Htl]. destruct junk as [|x t].
    + rewrite app_nil_r, Htl, from_bytes_internal_byron, <- Htl, (byron_roundtrip crc32 crc32_range b Hwf). reflexivity.
    + pose proof (byron_rejects_trailing crc32 crc32_range b x t Hwf) as R.
      rewrite Htl in *. cbn [app] in *. rewrite from_bytes_internal_byron, R. reflexivity.
  - destruct Hwf.
Qed.

Theorem address_roundtrip a : wf_address a -> from_bytes (to_bytes a) = Ok a.
Proof.
  intros Hwf. unfold from_bytes. rewrite <- (app_nil_r (to_bytes a)), parse_written by exact Hwf.
  cbn [nonempty]. now rewrite andb_false_r.
Qed.

(* a pointer header followed by a payment hash and var-nats that do not decode is refused in
   both modes (unterminated field, field beyond u64, missing field) *)
Lemma pointer_bad_varnat ig h pay d : (h / 16 <? 4) = false -> (h / 16 <? 6) = true ->
  length pay = 28%nat -> decode_pointer d = None -> from_bytes_internal ig (h :: pay ++ d) = Err.
Proof.
  intros E1 E2 Lp Hd. rewrite from_bytes_internal_nib, E1, E2. cbv zeta.
  apply pointer_parse_none. now rewrite (skipn_hash _ _ Lp).
Qed.

Theorem strict_rejects_unterminated h pay s t u : (h / 16 <? 4) = false -> (h / 16 <? 6) = true ->
  length pay = 28%nat -> s < two64 -> t < two64 -> Forall (fun b => 128 <= b) u ->
  from_bytes (h :: pay ++ u) = Err /\
  from_bytes (h :: pay ++ varnat_encode s ++ u) = Err /\
  from_bytes (h :: pay ++ varnat_encode s ++ varnat_encode t ++ u) = Err.
Proof.
  intros E1 E2 Lp Hs Ht Hu. unfold from_bytes.
  repeat split; apply pointer_bad_varnat; try assumption; unfold decode_pointer.
  - unfold varnat_decode. now rewrite varnat_unterminated.
  - rewrite varnat_roundtrip by exact Hs. rewrite skipn_exact.
    unfold varnat_decode at 1. now rewrite varnat_unterminated.
  - rewrite varnat_roundtrip by exact Hs. rewrite skipn_exact.
    rewrite varnat_roundtrip by exact Ht. rewrite skipn_add, skipn_exact, skipn_exact.
    unfold varnat_decode. now rewrite varnat_unterminated.
Qed.

(* every field of a decoded pointer is a u64: a field worth 2^64 or more is never accepted *)
Theorem strict_rejects_overflow d p off : decode_pointer d = Some (p, off) ->
  p_slot p < two64 /\ p_tx p < two64 /\ p_cert p < two64.
Proof.
  intros H. destruct (decode_pointer_inv _ _ _ H) as (k1 & k2 & k3 & E1 & E2 & E3 & _).
  apply varnat_decode_range in E1, E2, E3. tauto.
Qed.

(* no proper prefix of three written var-nats is three var-nats *)
Lemma decode_pointer_prefix s t c j : s < two64 -> t < two64 -> c < two64 ->
  let d := varnat_encode s ++ varnat_encode t ++ varnat_encode c in
  (j < length d)%nat -> decode_pointer (firstn j d) = None.
Proof.
  intros Hs Ht Hc d Hj. destruct (decode_pointer (firstn j d)) as [[p off]|] eqn:Ed; [exfalso|reflexivity].
  pose proof (decode_pointer_bound _ _ _ Ed) as B. rewrite firstn_length in B.
  apply (decode_pointer_app _ _ _ (skipn j d)) in Ed. rewrite firstn_skipn in Ed. unfold d in Ed, Hj.
  rewrite <- (app_nil_r (varnat_encode c)), decode_pointer_enc in Ed by assumption.
  injection Ed as _ <-. rewrite !app_length in Hj. lia.
Qed.

(* truncation: every proper prefix of a written address is refused (an error, never a panic), in both modes *)
Theorem strict_rejects_truncation ig a k : wf_address a ->
  (k < length (to_bytes a))%nat -> from_bytes_internal ig (firstn k (to_bytes a)) = Err.
Proof.
  intros Hwf Hlt. destruct k as [|k]; [reflexivity|].
  destruct a as [net p s|net p q|net p|net p|b|m]; cbn [to_bytes firstn length] in *; rewrite ?cred_kind_bit.
  - destruct Hwf as (Hn & [Lp _] & [Ls _]).
    destruct (written_all net (is_script p) (is_script s) Hn) as (Hw & _).
    rewrite (parse_written_header ig _ _ _ _ Hw). apply fixed_short.
    rewrite firstn_length. rewrite app_length, Lp, Ls in Hlt. lia.
  - destruct Hwf as (Hn & [Lp _] & (Hs & Ht & Hc')).
    destruct (written_all net (is_script p) false Hn) as (_ & Hw & _).
    rewrite (parse_written_header ig _ _ _ _ Hw). unfold parse_class. cbv zeta.
    rewrite app_length, Lp in Hlt.
    destruct (Nat.le_gt_cases k 28) as [Hk|Hk].
    + apply pointer_parse_short. rewrite firstn_length. lia.
    + apply pointer_parse_none. rewrite firstn_app, Lp, firstn_all2, (skipn_hash _ _ Lp) by lia.
      apply decode_pointer_prefix; assumption || lia.
  - destruct Hwf as (Hn & [Lp _]).
    destruct (written_all net (is_script p) false Hn) as (_ & _ & Hw & _).
    rewrite (parse_written_header ig _ _ _ _ Hw). apply fixed_short. rewrite firstn_length. lia.
  - destruct Hwf as (Hn & [Lp _]).
    destruct (written_all net (is_script p) false Hn) as (_ & _ & _ & Hw).
    rewrite (parse_written_header ig _ _ _ _ Hw). apply fixed_short. rewrite firstn_length. lia.
  - pose proof (byron_rejects_truncation crc32 crc32_range b (S k) Hwf Hlt) as T.
    destruct (byron_encode_head crc32 b) as [tl Htl]. rewrite Htl in *.
    cbn [firstn] in *. rewrite from_bytes_internal_byron, T. reflexivity.
  - destruct Hwf.
Qed.

Lemma is_script_mk b x : is_script (mk_cred b x) = b.
Proof. destruct b; reflexivity. Qed.
Lemma cred_bytes_mk b x : cred_bytes (mk_cred b x) = x.
Proof. destruct b; reflexivity. Qed.
Lemma cred_kind_mk b x : cred_kind (mk_cred b x) = bit b.
Proof. destruct b; reflexivity. Qed.

Lemma cred_ok_mk ps x : Bool.eqb (is_script (mk_cred ps x)) ps && bytes_eqb (cred_bytes (mk_cred ps x)) x = true.
Proof. now rewrite is_script_mk, cred_bytes_mk, eqb_reflx, bytes_eqb_refl. Qed.

Lemma cred_ok_inv c ps x : Bool.eqb (is_script c) ps && bytes_eqb (cred_bytes c) x = true -> c = mk_cred ps x.
Proof.
  rewrite andb_true_iff, eqb_true_iff. intros [<- H]. apply bytes_eqb_eq in H. subst x. symmetry. apply mk_cred_id.
Qed.

Theorem classify_parsed ig data a : bytes_ok data -> from_bytes_internal ig data = Ok a ->
  agrees_with_header a data = true.
Proof.
  intros Hok H. destruct data as [|h payload]; [discriminate|].
  inversion Hok as [|? ? Hh _]; subst. rewrite parse_by_class in H by exact Hh. unfold parse_class in H. cbv zeta in H.
  unfold agrees_with_header. destruct (classify_header h) as [ps ss|ps|ps|ps| |].
  - apply fixed_ok in H as (-> & _). now rewrite N.eqb_refl, !cred_ok_mk.
  - apply pointer_parse_ok in H as (q & off & _ & -> & _). now rewrite N.eqb_refl, cred_ok_mk.
  - apply fixed_ok in H as (-> & _). now rewrite N.eqb_refl, cred_ok_mk.
  - apply fixed_ok in H as (-> & _). now rewrite N.eqb_refl, cred_ok_mk.
  - destruct (byron_from_bytes crc32 (h :: payload)); try discriminate. injection H as <-. reflexivity.
  - discriminate.
Qed.

(* agreement determines the address, up to the pointer fields and the Byron content *)
Lemma agrees_inv a h payload : agrees_with_header a (h :: payload) = true ->
  match classify_header h with
  | HBase ps ss => a = Base (h mod 16) (mk_cred ps (firstn 28 payload)) (mk_cred ss (firstn 28 (skipn 28 payload)))
  | HPointer ps => exists q, a = Ptr (h mod 16) (mk_cred ps (firstn 28 payload)) q
  | HEnterprise ps => a = Enterprise (h mod 16) (mk_cred ps (firstn 28 payload))
  | HReward ps => a = Reward (h mod 16) (mk_cred ps (firstn 28 payload))
  | HByron => exists b, a = Byron b
  | HInvalid => False
  end.
Proof.
  unfold agrees_with_header.
  destruct (classify_header h) as [ps ss|ps|ps|ps| |];
    destruct a as [net p s|net p q|net p|net p|b|m]; try discriminate; intros H.
  - apply andb_true_iff in H as [H Hs]. apply andb_true_iff in H as [Hn Hp].
    apply N.eqb_eq in Hn. apply cred_ok_inv in Hp, Hs. now subst.
  - apply andb_true_iff in H as [Hn Hp]. apply N.eqb_eq in Hn. apply cred_ok_inv in Hp. subst. now exists q.
  - apply andb_true_iff in H as [Hn Hp]. apply N.eqb_eq in Hn. apply cred_ok_inv in Hp. now subst.
  - apply andb_true_iff in H as [Hn Hp]. apply N.eqb_eq in Hn. apply cred_ok_inv in Hp. now subst.
  - now exists b.
Qed.

(* neither mode panics or runs out of fuel outside the one known class *)
Lemma from_bytes_internal_total ig data : known_huge_length data = false ->
  from_bytes_internal ig data = Err \/ exists a, from_bytes_internal ig data = Ok a.
Proof.
  destruct data as [|h t]; [now left|]. unfold known_huge_length. rewrite from_bytes_internal_nib. cbv zeta.
  intros K. destruct (h / 16 <? 4); [apply fixed_total|]. destruct (h / 16 <? 6); [apply pointer_parse_total|].
  destruct (h / 16 <? 8); [apply fixed_total|]. destruct (h / 16 =? 8).
  - pose proof (byron_from_bytes_total crc32 (h :: t)) as T.
    destruct (byron_from_bytes crc32 (h :: t)); cbn [lift_byron]; eauto; congruence.
  - destruct (14 <=? h / 16); [apply fixed_total|now left].
Qed.

Theorem embedded_total data : known_huge_length data = false -> exists a, embedded_decode data = Ok a.
Proof.
  intros K. unfold embedded_decode. destruct (from_bytes_internal_total true data K) as [->|[a ->]]; eauto.
Qed.

(* the strict parser never panics either, outside that class, and never runs out of fuel *)
Theorem strict_total data : known_huge_length data = false ->
  from_bytes data = Err \/ exists a, from_bytes data = Ok a.
Proof. exact (from_bytes_internal_total false data). Qed.

Theorem embedded_verbatim data a : bytes_ok data ->
  known_trailing data = false -> known_padded_pointer data = false ->
  known_noncanonical_byron data = false ->
  embedded_decode data = Ok a -> to_bytes a = data.
Proof.
  intros Hok KT KP KB H. unfold embedded_decode in H.
  destruct (from_bytes_internal true data) as [a'| | |] eqn:E; try discriminate.
  2:{ injection H as <-. reflexivity. }
  injection H as ->.
  destruct data as [|h payload]; [discriminate|].
  inversion Hok as [|? ? Hh Hok']; subst.
  pose proof (rewrite_ok_all h Hh) as R. unfold rewrite_ok in R.
  rewrite from_bytes_internal_nib in E. cbv zeta in E. unfold known_trailing in KT. cbn [length] in *.
  destruct (h / 16 <? 4) eqn:E4.
  { apply N.eqb_eq in R. apply fixed_ok in E as (-> & L1 & _). apply Nat.ltb_ge in KT.
    cbn [to_bytes]. rewrite !cred_kind_mk, !cred_bytes_mk.
    f_equal; [exact R|]. clear R. rewrite firstn_firstn_skipn. apply firstn_all2. lia. }
  destruct (h / 16 <? 6) eqn:E6.
  { apply N.eqb_eq in R. apply pointer_parse_ok in E as (p & off & Ed & -> & L1 & _).
    unfold known_padded_pointer in KP. cbn [length] in KP. rewrite (proj2 (Nat.leb_le 32 _) L1) in KT, KP.
    assert (E46 : (4 <=? h / 16) = true) by (clear - E4; lia). rewrite E46, E6 in KP. cbn [andb] in KP.
    rewrite skipn_S in *. rewrite Ed in KT. cbn [andb] in KT. apply Nat.ltb_ge in KT.
    cbn [to_bytes]. rewrite cred_kind_mk, cred_bytes_mk. f_equal; [exact R|]. clear R.
    rewrite (decode_pointer_canonical _ _ _ (bytes_ok_skipn 28 _ Hok') KP Ed), firstn_firstn_skipn.
    apply firstn_all2. lia. }
  destruct (h / 16 <? 8) eqn:E8.
  { apply N.eqb_eq in R. apply fixed_ok in E as (-> & L1 & _). apply Nat.ltb_ge in KT.
    cbn [to_bytes]. rewrite cred_kind_mk, cred_bytes_mk. f_equal; [exact R|]. apply firstn_all2. clear R. lia. }
  destruct (h / 16 =? 8) eqn:E88.
  { unfold known_noncanonical_byron in KB. rewrite E88 in KB.
    destruct (byron_from_bytes crc32 (h :: payload)) as [b| | |]; try discriminate.
    injection E as <-. cbn [to_bytes]. apply negb_false_iff in KB. now apply bytes_eqb_eq. }
  destruct (14 <=? h / 16) eqn:E14; [|discriminate].
  apply N.eqb_eq in R. apply fixed_ok in E as (-> & L1 & _). apply Nat.ltb_ge in KT.
  cbn [to_bytes]. rewrite cred_kind_mk, cred_bytes_mk. f_equal; [exact R|]. apply firstn_all2. clear R. lia.
Qed.

(* bytes that the lenient parser refuses are kept verbatim as Malformed *)
Theorem embedded_malformed_verbatim data : from_bytes_internal true data = Err ->
  embedded_decode data = Ok (Malformed data) /\ to_bytes (Malformed data) = data.
Proof. intros H. unfold embedded_decode. rewrite H. split; reflexivity. Qed.

(* the full-strength statement is false: witnesses of the known classes *)
Definition w_trailing : bytes := 97 :: repeat 7 28 ++ [255].
Definition w_padded : bytes := 65 :: repeat 9 28 ++ [128; 1; 2; 3].
Definition w_byron_inner : bytes := byron_inner (mkByron (repeat 3 28) None None ATPubKey).
(* tag 24 written with a two-byte argument (d9 0018) instead of d8 18 *)
Definition w_byron : bytes :=
  encode_head 4 2 ++ encode_head_w 6 24 2 ++ enc_bytes w_byron_inner ++ enc_uint (crc32 w_byron_inner).
Definition w_huge : bytes := [130; 216; 24; 91; 255; 255; 255; 255; 255; 255; 255; 255; 0].

Definition verbatim_fails (data : bytes) : Prop :=
  bytes_ok data /\ exists a, embedded_decode data = Ok a /\ to_bytes a <> data.

Theorem embedded_verbatim_refuted_trailing : verbatim_fails w_trailing /\ known_trailing w_trailing = true.
Proof.
  split; [|vm_compute; reflexivity]. split; [unfold w_trailing; repeat constructor|].
  eexists. split; [vm_compute; reflexivity|]. vm_compute. discriminate.
Qed.

Theorem embedded_verbatim_refuted_padded : verbatim_fails w_padded /\ known_padded_pointer w_padded = true.
Proof.
  split; [|vm_compute; reflexivity]. split; [unfold w_padded; repeat constructor|].
  eexists. split; [vm_compute; reflexivity|]. vm_compute. discriminate.
Qed.

Lemma w_byron_value : w_byron =
  [130; 217; 0; 24; 88; 33; 131; 88; 28; 3; 3; 3; 3; 3; 3; 3; 3; 3; 3; 3; 3; 3; 3; 3; 3; 3; 3; 3; 3; 3; 3; 3; 3; 3; 3; 3; 3;
   160; 0; 26; 59; 40; 209; 119].
Proof. vm_compute. reflexivity. Qed.

Theorem embedded_verbatim_refuted_byron : verbatim_fails w_byron /\ known_noncanonical_byron w_byron = true.
Proof.
  split; [|vm_compute; reflexivity]. split; [rewrite w_byron_value; repeat constructor|].
  eexists. split; [vm_compute; reflexivity|]. vm_compute. discriminate.
Qed.

Theorem embedded_total_refuted : embedded_decode w_huge = Panic /\ known_huge_length w_huge = true.
Proof. split; vm_compute; reflexivity. Qed.

(* the premises of embedded_verbatim are satisfiable on a decoded (non-malformed) address *)
Example embedded_verbatim_nonvacuous :
  let data := 65 :: repeat 9 28 ++ [129; 0; 2; 3] in
  bytes_ok data /\ known_trailing data = false /\ known_padded_pointer data = false /\
  known_noncanonical_byron data = false /\
  embedded_decode data = Ok (Ptr 1 (KeyHash (repeat 9 28)) (mkPtr 128 2 3)).
Proof. cbv zeta. split; [repeat constructor|]. repeat split; vm_compute; reflexivity. Qed.

(* the length premise has the shape in which the parser's length checks give it *)
Lemma mk_cred_wf ps (l : bytes) pos : bytes_ok l -> (S (pos + 28) <= S (length l))%nat ->
  wf_cred (mk_cred ps (firstn 28 (skipn pos l))).
Proof.
  intros Hok Hl. unfold wf_cred. rewrite cred_bytes_mk. split.
  - rewrite firstn_length, skipn_length. lia.
  - apply bytes_ok_firstn, bytes_ok_skipn, Hok.
Qed.

Theorem parsed_wf ig data a : bytes_ok data -> N.of_nat (length data) < 4611686018427387904 ->
  from_bytes_internal ig data = Ok a -> wf_address a.
Proof.
  intros Hok HL H. destruct data as [|h t]; [discriminate|].
  inversion Hok as [|? ? Hh Ht]; subst. rewrite parse_by_class in H by exact Hh. unfold parse_class in H. cbv zeta in H.
  assert (Hnet : h mod 16 < 16) by (apply N.mod_lt; discriminate).
  destruct (classify_header h) as [ps ss|ps|ps|ps| |].
  - apply fixed_ok in H as (-> & L & _). split; [exact Hnet|].
    split; [apply (mk_cred_wf ps t 0 Ht); clear - L; lia|exact (mk_cred_wf ss t 28 Ht L)].
  - apply pointer_parse_ok in H as (q & off & Ed & -> & L & _). split; [exact Hnet|].
    split; [apply (mk_cred_wf ps t 0 Ht); clear - L; lia|exact (strict_rejects_overflow _ _ _ Ed)].
  - apply fixed_ok in H as (-> & L & _). exact (conj Hnet (mk_cred_wf ps t 0 Ht L)).
  - apply fixed_ok in H as (-> & L & _). exact (conj Hnet (mk_cred_wf ps t 0 Ht L)).
  - destruct (byron_from_bytes crc32 (h :: t)) as [b| | |] eqn:E; try discriminate. injection H as <-.
    exact (byron_from_bytes_wf crc32 _ b Hok HL E).
  - discriminate.
Qed.

(* so the strict parser is idempotent through the writer: parse, write, parse again = the same value *)
Theorem reparse_same ig data a : bytes_ok data -> N.of_nat (length data) < 4611686018427387904 ->
  from_bytes_internal ig data = Ok a -> from_bytes (to_bytes a) = Ok a.
Proof. intros Hok HL H. apply address_roundtrip. eapply parsed_wf; eassumption. Qed.
