(* C16, part 1 — theorems about the vector + index set types (DedupVec.v).
   Everything is proved for an arbitrary element type with a decidable equality that decides
   Leibniz equality ([eqb_spec], the contract of a derived Eq/Hash/Ord) and for ALL histories;
   the instance at byte strings, which the correspondence run evaluates, closes the file. *)
From CSL Require Import Base.Prelude Base.Facts Cbor.Head Sets.DedupVec.
From Coq Require Import Permutation.
Local Open Scope N_scope.

Lemma filter_all {B} (f : B -> bool) l : (forall x, f x = true) -> filter f l = l.
Proof. intros H. induction l as [|a l IH]; cbn; [reflexivity | now rewrite H, IH]. Qed.
Lemma filter_filter {B} (f g : B -> bool) l : filter f (filter g l) = filter (fun y => g y && f y) l.
Proof.
  induction l as [|a l IH]; cbn; [reflexivity|]. destruct (g a); cbn; [destruct (f a)|]; now rewrite IH.
Qed.

Lemma NoDup_map_inj_in {A B} (f : A -> B) l : (forall x y, In x l -> In y l -> f x = f y -> x = y) -> NoDup l -> NoDup (map f l).
Proof.
  intros Inj ND. induction ND as [|a l H ND IH]; cbn; constructor.
  - rewrite in_map_iff. intros [y [E Hy]]. apply Inj in E; [subst; contradiction | now right | now left].
  - apply IH. intros x y Hx Hy. apply Inj; now right.
Qed.

(* the elements a decoder reads: the set tags skipped, no further tag, then the element loop *)
Definition wire_elems {A} (k : kind_cfg) (f : frame A) : result (list A) :=
  let* t1 := skip_set_tag (f_tags f) in
  let* t2 := (if double_tag k then skip_set_tag t1 else Ok t1) in
  match t2 with _ :: _ => Err | [] => frame_elems k f end.
Lemma wire_elems_frame {A} k (f : frame A) e : wire_elems k f = Ok e -> frame_elems k f = Ok e.
Proof.
  unfold wire_elems. intros H. apply bind_ok in H as [t1 [_ H]]. apply bind_ok in H as [[|] [_ H]]; [exact H | discriminate].
Qed.

Section Proofs.
  Context {A : Type} (eqb : A -> A -> bool).
  Hypothesis eqb_spec : forall x y, eqb x y = true <-> x = y.

  Lemma eqb_refl x : eqb x x = true.
  Proof. now apply eqb_spec. Qed.
  Lemma eqb_sym x y : eqb x y = eqb y x.
  Proof. apply eq_true_iff_eq. rewrite !eqb_spec. split; auto. Qed.
  Lemma eqb_false x y : eqb x y = false <-> x <> y.
  Proof. now rewrite <- not_true_iff_false, eqb_spec. Qed.

  Lemma mem_In x l : mem eqb x l = true <-> In x l.
  Proof.
    unfold mem. rewrite existsb_exists. split.
    - intros [y [Hy E]]. apply eqb_spec in E. now subst.
    - intros H. exists x. split; [assumption | apply eqb_refl].
  Qed.
  Lemma mem_false x l : mem eqb x l = false <-> ~ In x l.
  Proof. now rewrite <- not_true_iff_false, mem_In. Qed.
  (* membership only sees the set of elements *)
  Lemma mem_ext x l l' : (forall y, In y l <-> In y l') -> mem eqb x l = mem eqb x l'.
  Proof. intros H. apply eq_true_iff_eq. rewrite !mem_In. apply H. Qed.

  (* the invariant: the vector is duplicate-free and the index holds the same elements *)
  Definition wf (s : dset A) : Prop :=
    NoDup (items s) /\ forall x, In x (index s) <-> In x (items s).

  Lemma wf_empty : wf empty.
  Proof. split; [constructor | intros x; reflexivity]. Qed.

  Lemma add_eq s x : add eqb s x =
    if mem eqb x (index s) then (s, false) else (mk_dset (items s ++ [x]) (x :: index s), true).
  Proof. unfold add, index_insert. destruct (mem eqb x (index s)); [now destruct s | reflexivity]. Qed.

  Lemma wf_add_move s x : wf s -> wf (add_move eqb s x).
  Proof.
    intros [ND IX]. unfold add_move. rewrite add_eq. destruct (mem eqb x (index s)) eqn:M; [now split|].
    apply mem_false in M. rewrite IX in M. split; cbn [fst items index].
    - apply (Permutation_NoDup (Permutation_cons_append (items s) x)). now constructor.
    - intros y. cbn [In]. rewrite in_app_iff, IX. cbn [In]. tauto.
  Qed.
  Lemma wf_fold l s : wf s -> wf (fold_left (add_move eqb) l s).
  Proof. apply fold_left_inv. intros. now apply wf_add_move. Qed.
  Lemma wf_from_vec v : wf (from_vec eqb v).
  Proof. apply wf_fold, wf_empty. Qed.
  Lemma wf_step s o : wf s -> wf (step eqb s o).
  Proof. intros H. destruct o; cbn [step]; [now apply wf_add_move .. | now apply wf_fold | assumption]. Qed.
  Lemma wf_run h s : wf s -> wf (run eqb s h).
  Proof. apply fold_left_inv. intros. now apply wf_step. Qed.

  (* under wf the index test can be read on the vector *)
  Lemma add_spec s x : wf s -> add eqb s x =
    if mem eqb x (items s) then (s, false) else (mk_dset (items s ++ [x]) (x :: index s), true).
  Proof. intros [_ IX]. rewrite add_eq. now rewrite (mem_ext x _ _ IX). Qed.
  Lemma items_add_move s x : wf s ->
    items (add_move eqb s x) = if mem eqb x (items s) then items s else items s ++ [x].
  Proof. intros W. unfold add_move. rewrite add_spec by assumption. now destruct (mem eqb x (items s)). Qed.
  Lemma add_result s x : wf s -> snd (add eqb s x) = negb (mem eqb x (items s)).
  Proof. intros W. rewrite add_spec by assumption. now destruct (mem eqb x (items s)). Qed.
  Lemma contains_spec s x : wf s -> contains eqb s x = mem eqb x (items s).
  Proof. intros [_ IX]. apply mem_ext, IX. Qed.
  Lemma add_move_present s x : wf s -> In x (items s) -> add_move eqb s x = s.
  Proof. intros W H. unfold add_move. rewrite add_spec by assumption. apply mem_In in H. now rewrite H. Qed.
  Lemma In_items_add_move s x y : wf s -> In y (items (add_move eqb s x)) <-> In y (items s) \/ y = x.
  Proof.
    intros W. rewrite items_add_move by assumption. destruct (mem eqb x (items s)) eqn:M.
    - apply mem_In in M. split; [tauto | intros [?| ->]; assumption].
    - rewrite in_app_iff. cbn. intuition.
  Qed.

  Lemma In_first_occ l x : In x (first_occ eqb l) <-> In x l.
  Proof.
    induction l as [|a l IH]; cbn; [reflexivity|].
    rewrite filter_In, IH, negb_true_iff, eqb_false. split; [tauto|].
    intros [->|H]; [now left|]. destruct (eqb a x) eqn:F; [left; now apply eqb_spec | right; split; [assumption | now apply eqb_false]].
  Qed.
  Lemma NoDup_first_occ l : NoDup (first_occ eqb l).
  Proof.
    induction l as [|a l IH]; cbn; [constructor|]. constructor; [|now apply NoDup_filter].
    rewrite filter_In. intros [_ H]. now rewrite eqb_refl in H.
  Qed.
  Lemma first_occ_app l1 l2 :
    first_occ eqb (l1 ++ l2) = first_occ eqb l1 ++ filter (fun y => negb (mem eqb y l1)) (first_occ eqb l2).
  Proof.
    induction l1 as [|a l1 IH]; cbn [app first_occ].
    - cbn [app]. symmetry. apply filter_all. reflexivity.
    - rewrite IH, filter_app, filter_filter. cbn [app]. do 2 f_equal. apply filter_ext. intros y.
      cbn [mem existsb]. rewrite negb_orb, (eqb_sym y a). apply andb_comm.
  Qed.
  Lemma first_occ_nodup l : NoDup l -> first_occ eqb l = l.
  Proof.
    induction 1 as [|a l H ND IH]; cbn; [reflexivity|]. rewrite IH. f_equal.
    rewrite <- (filter_all (fun _ => true) l) at 2 by reflexivity. apply filter_ext_in. intros b Hb.
    apply negb_true_iff, eqb_false. now intros ->.
  Qed.
  Lemma first_occ_drop l1 x l2 : In x l1 -> first_occ eqb (l1 ++ x :: l2) = first_occ eqb (l1 ++ l2).
  Proof.
    intros H. apply mem_In in H. rewrite !first_occ_app. f_equal. cbn [first_occ filter]. rewrite H. cbn [negb].
    rewrite filter_filter. apply filter_ext. intros y. destruct (eqb x y) eqn:E; [|reflexivity].
    apply eqb_spec in E. subst. now rewrite H.
  Qed.
  Lemma first_occ_app_old l x : In x l -> first_occ eqb (l ++ [x]) = first_occ eqb l.
  Proof. intros H. rewrite (first_occ_drop l x [] H). now rewrite app_nil_r. Qed.

  Lemma first_occ_absorb a b : first_occ eqb (first_occ eqb a ++ b) = first_occ eqb (a ++ b).
  Proof.
    rewrite !first_occ_app, (first_occ_nodup (first_occ eqb a)) by apply NoDup_first_occ.
    f_equal. apply filter_ext. intros y. f_equal. apply mem_ext. intros z. apply In_first_occ.
  Qed.

  (* the vector after any fold of insertions: first occurrences of the old vector and what was offered *)
  Lemma items_fold l : forall s, wf s -> items (fold_left (add_move eqb) l s) = first_occ eqb (items s ++ l).
  Proof.
    induction l as [|x l IH]; intros s W; cbn [fold_left].
    - rewrite app_nil_r. symmetry. apply first_occ_nodup, W.
    - rewrite IH by now apply wf_add_move. rewrite items_add_move by assumption.
      destruct (mem eqb x (items s)) eqn:M.
      + apply mem_In in M. now rewrite first_occ_drop.
      + now rewrite <- app_assoc.
  Qed.
  Lemma In_items_fold l s y : wf s -> In y (items (fold_left (add_move eqb) l s)) <-> In y (items s) \/ In y l.
  Proof. intros W. now rewrite items_fold, In_first_occ, in_app_iff. Qed.
  Theorem items_from_vec v : items (from_vec eqb v) = first_occ eqb v.
  Proof. apply (items_fold v empty wf_empty). Qed.

  (* adding again what is already there changes nothing (vector AND index) *)
  Lemma fold_present l : forall s, wf s -> (forall y, In y l -> In y (items s)) ->
    fold_left (add_move eqb) l s = s.
  Proof.
    induction l as [|x l IH]; intros s W H; cbn; [reflexivity|].
    rewrite add_move_present by (try assumption; apply H; now left).
    apply IH; [assumption | intros y Hy; apply H; now right].
  Qed.
  (* offering the first occurrences only is the same as offering everything (equality of states: vector AND index) *)
  Lemma fold_filter_neq x l : forall s, wf s -> In x (items s) ->
    fold_left (add_move eqb) (filter (fun y => negb (eqb x y)) l) s = fold_left (add_move eqb) l s.
  Proof.
    induction l as [|a l IH]; intros s W H; cbn; [reflexivity|].
    destruct (eqb x a) eqn:E; cbn.
    - apply eqb_spec in E. subst a. rewrite add_move_present by assumption. now apply IH.
    - apply IH; [now apply wf_add_move | apply In_items_add_move; auto].
  Qed.
  Lemma fold_first_occ l : forall s, wf s ->
    fold_left (add_move eqb) (first_occ eqb l) s = fold_left (add_move eqb) l s.
  Proof.
    induction l as [|x l IH]; intros s W; cbn; [reflexivity|].
    rewrite fold_filter_neq; [apply IH; now apply wf_add_move | now apply wf_add_move |].
    apply In_items_add_move; auto.
  Qed.

  Lemma run_offered h : forall s, wf s -> run eqb s h = fold_left (add_move eqb) (offered h) s.
  Proof.
    unfold run. induction h as [|o h IH]; intros s W; [reflexivity|].
    cbn [fold_left]. rewrite IH by now apply wf_step. destruct o; cbn [step offered fold_left]; try reflexivity.
    rewrite fold_left_app. f_equal. unfold extend. rewrite items_from_vec. now apply fold_first_occ.
  Qed.

  (* Ed25519KeyHashes::from(&NativeScripts): a fold of extend_move is a history of OExtend steps *)
  Lemma extends_is_run vs : forall s,
    fold_left (fun s v => extend eqb s (from_vec eqb v)) vs s = run eqb s (map (@OExtend A) vs).
  Proof. unfold run. induction vs as [|v vs IH]; intros s; cbn; [reflexivity | apply IH]. Qed.
  Lemma offered_extends (vs : list (list A)) : offered (map (@OExtend A) vs) = concat vs.
  Proof. induction vs as [|v vs IH]; cbn; [reflexivity | now rewrite IH]. Qed.

  Theorem nodup_run s h : wf s -> NoDup (items (run eqb s h)).
  Proof. intros W. now apply (wf_run h s W). Qed.

  (* starting from any well-formed set (decoded, read from JSON, built earlier): old elements keep their
     places, new ones follow in order of first insertion *)
  Theorem first_insertion_order_from s h : wf s ->
    items (run eqb s h) = first_occ eqb (items s ++ offered h).
  Proof. intros W. rewrite run_offered by assumption. now apply items_fold. Qed.
  Theorem first_insertion_order h :
    items (run eqb empty h) = first_occ eqb (offered h).
  Proof. apply (first_insertion_order_from empty h wf_empty). Qed.

  Theorem nothing_lost s h x : wf s -> In x (items (run eqb s h)) <-> In x (items s) \/ In x (offered h).
  Proof. intros W. rewrite run_offered by assumption. now apply In_items_fold. Qed.

  Theorem add_returns_fresh s x : wf s -> snd (add eqb s x) = true <-> ~ In x (items s).
  Proof. intros W. rewrite add_result by assumption. rewrite negb_true_iff. apply mem_false. Qed.

  Lemma decode_eq k f : decode eqb k f = let* elems := wire_elems k f in Ok (from_vec eqb elems).
  Proof.
    unfold decode, wire_elems, frame_elems. destruct (skip_set_tag (f_tags f)) as [t1| | |]; cbn [bind]; try reflexivity.
    destruct (if double_tag k then skip_set_tag t1 else Ok t1) as [[|]| | |]; reflexivity.
  Qed.
  Lemma decode_ok k f s : decode eqb k f = Ok s -> exists elems, wire_elems k f = Ok elems /\ s = from_vec eqb elems.
  Proof. rewrite decode_eq. intros H. apply bind_ok in H as [e [W [= <-]]]. now exists e. Qed.

  Theorem serialised_nodup {B} (enc : A -> B) s :
    (forall x y, enc x = enc y -> x = y) -> wf s -> NoDup (map enc (items s)).
  Proof. intros Inj [ND _]. apply NoDup_map_inj_in; auto. Qed.

  Lemma observe_spec h : forall s pre, wf s -> (forall x, In x (items s) <-> In x pre) ->
    observe eqb s h = spec_bools eqb pre h.
  Proof.
    induction h as [|o h IH]; intros s pre W H; [reflexivity|].
    assert (ADD : forall x y, In y (items (add_move eqb s x)) <-> In y (pre ++ [x])).
    { intros x y. rewrite In_items_add_move, in_app_iff, H by assumption. cbn. intuition. }
    destruct o; cbn [observe spec_bools step].
    - rewrite add_result, (mem_ext x _ _ H) by assumption. f_equal. apply IH; [now apply wf_add_move | apply ADD].
    - apply IH; [now apply wf_add_move | apply ADD].
    - apply IH; [now apply wf_step with (o := OExtend v)|]. intros y. unfold extend.
      rewrite In_items_fold by assumption. rewrite items_from_vec, In_first_occ, in_app_iff, H. tauto.
    - rewrite contains_spec, (mem_ext x _ _ H) by assumption. f_equal. now apply IH.
  Qed.
End Proofs.

(* the instance the correspondence run evaluates: elements are byte strings (their canonical encodings) *)
Lemma bytes_eqb_spec a : forall b, bytes_eqb a b = true <-> a = b.
Proof.
  induction a as [|x a IH]; destruct b as [|y b]; cbn; try (split; [discriminate | congruence]); [tauto|].
  rewrite andb_true_iff, N.eqb_eq, IH. split; [intros [-> ->]; reflexivity | intros [= -> ->]; auto].
Qed.
Lemma bytes_eqb_refl a : bytes_eqb a a = true.
Proof. now apply bytes_eqb_spec. Qed.
Lemma nodupb_spec l : nodupb l = true <-> NoDup l.
Proof.
  induction l as [|x l IH]; cbn; [split; [constructor | reflexivity]|].
  now rewrite andb_true_iff, negb_true_iff, IH, (mem_false bytes_eqb bytes_eqb_spec), NoDup_cons_iff.
Qed.
Lemma list_eqb_refl l : list_eqb l l = true.
Proof. induction l as [|x l IH]; cbn; [reflexivity | now rewrite bytes_eqb_refl, IH]. Qed.
Lemma bools_eqb_refl l : bools_eqb l l = true.
Proof. induction l as [|x l IH]; cbn; [reflexivity | rewrite IH; now destruct x]. Qed.

(* every way of getting an initial set gives a well-formed one holding the first occurrences of what it was given *)
Lemma init_set_ok k i s0 : init_set k i = Ok s0 ->
  exists pre, init_offered k i = Ok pre /\ wf s0 /\ items s0 = first_occ bytes_eqb pre.
Proof.
  assert (FV : forall v, wf (from_vec bytes_eqb v) /\ items (from_vec bytes_eqb v) = first_occ bytes_eqb v)
    by (split; [apply (wf_from_vec bytes_eqb bytes_eqb_spec) | apply (items_from_vec bytes_eqb bytes_eqb_spec)]).
  destruct i as [|f|v|vs]; cbn [init_set init_offered].
  - intros [= <-]. exists []. split; [reflexivity | apply (FV [])].
  - intros D. apply (decode_ok bytes_eqb) in D as [e [W ->]]. exists e. split; [exact W | apply FV].
  - intros [= <-]. exists v. split; [reflexivity | apply FV].
  - intros [= <-]. exists (concat vs). rewrite (extends_is_run bytes_eqb). split; [reflexivity|]. split.
    + apply (wf_run bytes_eqb bytes_eqb_spec), wf_empty.
    + rewrite (first_insertion_order bytes_eqb bytes_eqb_spec). now rewrite (offered_extends (A := bytes)).
Qed.
