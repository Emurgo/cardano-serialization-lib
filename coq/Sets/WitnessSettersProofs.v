(* C16, part 3 — theorems about the witness-set setters, the builder's witness set and its reference inputs. *)
From CSL Require Import Base.Prelude Base.Facts Base.BytesOrd Cbor.Head Cbor.HeadProofs Sets.DedupVec Sets.DedupVecProofs Sets.CanonOrder Sets.CanonOrderProofs Sets.WitnessSetters.
From Coq Require Import Permutation.
Local Open Scope N_scope.

Lemma pscript_eqb_spec a b : pscript_eqb a b = true <-> a = b.
Proof.
  destruct a as [la ba], b as [lb bb]. unfold pscript_eqb. cbn. rewrite andb_true_iff, N.eqb_eq, bytes_eqb_spec.
  split; [intros [-> ->]; reflexivity | intros [= -> ->]; auto].
Qed.
Lemma txin_eqb_spec (a b : txin) : txin_eqb a b = true <-> a = b.
Proof.
  destruct a as [ha ia], b as [hb ib]. unfold txin_eqb. cbn. rewrite andb_true_iff, N.eqb_eq, bytes_eqb_spec.
  split; [intros [-> ->]; reflexivity | intros [= -> ->]; auto].
Qed.
(* the derived Ord of a datum looks at both fields: it is plain equality *)
Lemma datum_ord_eqb_spec a b : datum_ord_eqb a b = true <-> a = b.
Proof.
  destruct a as [va [oa|]], b as [vb [ob|]]; unfold datum_ord_eqb; cbn; rewrite andb_true_iff, ?bytes_eqb_spec.
  - split; [intros [-> ->]; reflexivity | intros [= -> ->]; auto].
  - split; [intros [_ [=]] | intros [=]].
  - split; [intros [_ [=]] | intros [=]].
  - split; [intros [-> _]; reflexivity | intros [= ->]; auto].
Qed.

Lemma mem_map {A B} (eqb : B -> B -> bool) (f : A -> B) x l :
  mem (fun x y => eqb (f x) (f y)) x l = mem eqb (f x) (map f l).
Proof. unfold mem. induction l as [|a l IH]; cbn; [reflexivity | now rewrite IH]. Qed.
(* comparing elements through a key function = de-duplicating the keys *)
Lemma from_vec_map {A B} (eqb : B -> B -> bool) (f : A -> B) l :
  map f (items (from_vec (fun x y => eqb (f x) (f y)) l)) = items (from_vec eqb (map f l)).
Proof.
  unfold from_vec.
  assert (G : forall (s : dset A) (t : dset B), map f (items s) = items t -> map f (index s) = index t ->
    map f (items (fold_left (add_move (fun x y => eqb (f x) (f y))) l s)) = items (fold_left (add_move eqb) (map f l) t)).
  { induction l as [|x l IH]; intros s t Hi Hx; cbn [fold_left map]; [assumption|].
    assert (M : mem (fun x y => eqb (f x) (f y)) x (index s) = mem eqb (f x) (index t)).
    { rewrite <- Hx. apply mem_map. }
    apply IH; unfold add_move, add, index_insert; rewrite M; destruct (mem eqb (f x) (index t)); cbn [fst items index]; try assumption.
    - now rewrite map_app, Hi.
    - cbn. now rewrite Hx. }
  now apply G.
Qed.
Lemma dedup_clone_spec {A} (eqb : A -> A -> bool) (H : forall x y, eqb x y = true <-> x = y) l :
  dedup_clone eqb l = first_occ eqb l.
Proof. apply (items_from_vec eqb H). Qed.
Lemma dedup_clone_nodup {A} (eqb : A -> A -> bool) (H : forall x y, eqb x y = true <-> x = y) l :
  NoDup (dedup_clone eqb l).
Proof. apply (wf_from_vec eqb H). Qed.

(* the repaired datum de-duplication: the bytes written are pairwise distinct, and they are the first
   occurrences of the bytes offered (nothing lost, first-insertion order) *)
Theorem datum_dedup_emits_once l :
  map d_emit (dedup_clone datum_emit_eqb l) = first_occ bytes_eqb (map d_emit l) /\
  NoDup (map d_emit (dedup_clone datum_emit_eqb l)).
Proof.
  unfold dedup_clone, datum_emit_eqb. rewrite (from_vec_map bytes_eqb d_emit l), (items_from_vec bytes_eqb bytes_eqb_spec).
  split; [reflexivity | apply (NoDup_first_occ bytes_eqb bytes_eqb_spec)].
Qed.
(* the code as found (key = derived Ord, which also looks at original_bytes) wrote the same datum twice *)
Theorem datum_dedup_by_ord_refuted :
  exists l, ~ NoDup (map d_emit (dedup_clone datum_ord_eqb l)) /\ known_datum_twice l = true.
Proof.
  exists [mk_datum [1] None; mk_datum [1] (Some [1])]. split; [|reflexivity].
  vm_compute. intros H. inversion H as [|? ? N _]. apply N. now left.
Qed.
(* [known_datum_twice] is by definition the complement of the emitted-once outcome of the code as found *)
Theorem datum_dedup_by_ord_outside_class l :
  known_datum_twice l = false -> NoDup (map d_emit (dedup_clone datum_ord_eqb l)).
Proof. unfold known_datum_twice. rewrite negb_false_iff. apply nodupb_spec. Qed.

(* a byte-string item determines its content: the head decodes back to the length *)
Lemma enc_bstr_inj a b : N.of_nat (length a) < two64 -> N.of_nat (length b) < two64 -> enc_bstr a = enc_bstr b -> a = b.
Proof.
  intros Ha Hb E. unfold enc_bstr in E.
  pose proof (decode_encode_head 2 (N.of_nat (length a)) a Ha) as Da.
  pose proof (decode_encode_head 2 (N.of_nat (length b)) b Hb) as Db.
  rewrite E in Da. rewrite Da in Db. now injection Db.
Qed.

(* plutus scripts of one language inside a de-duplicated list: pairwise distinct encodings *)
Lemma view_dedup_nodup v l :
  Forall (fun s => N.of_nat (length (ps_bytes s)) < two64) l ->
  NoDup (map (fun s => enc_bstr (ps_bytes s)) (view v (dedup_clone pscript_eqb l))).
Proof.
  intros L. rewrite dedup_clone_spec by apply pscript_eqb_spec. unfold view. apply NoDup_map_inj_in.
  - intros x y Hx Hy E. rewrite filter_In, (In_first_occ pscript_eqb pscript_eqb_spec), N.eqb_eq in Hx, Hy.
    rewrite Forall_forall in L. apply enc_bstr_inj in E; [| apply L, Hx | apply L, Hy].
    destruct x, y, Hx, Hy. cbn in *. congruence.
  - apply NoDup_filter, (NoDup_first_occ pscript_eqb pscript_eqb_spec).
Qed.

Definition op_ok (o : ws_op) : Prop :=
  match o with
  | SetPlutus l => Forall (fun s => N.of_nat (length (ps_bytes s)) < two64) l
  | _ => True
  end.
(* under every key, pairwise distinct encodings *)
Definition fields_ok (fs : list (N * list bytes)) : Prop := Forall (fun f => NoDup (snd f)) fs.
Lemma field_ok (c : bool) k els : NoDup els -> fields_ok (if c then [(k, els)] else []).
Proof. intros H. destruct c; repeat constructor. exact H. Qed.

Lemma ws_step_ok w o : fields_ok (ws_fields w) -> op_ok o -> fields_ok (ws_fields (ws_step_gen false w o)).
Proof.
  unfold fields_ok, ws_fields. intros G Hop. rewrite !Forall_app in G. destruct G as (G0 & G1 & G2 & G3 & G4). rewrite !Forall_app.
  destruct o; cbn [ws_step_gen op_ok] in *; try (destruct (nonempty _) eqn:NE; [|tauto]);
    cbn [ws_vkeys ws_native ws_boot ws_plutus ws_data]; repeat split; try assumption.
  - (* SetVkeys *) apply field_ok, (wf_from_vec bytes_eqb bytes_eqb_spec).
  - (* SetNative *) apply field_ok, dedup_clone_nodup, bytes_eqb_spec.
  - (* SetBoot *) apply field_ok, (wf_from_vec bytes_eqb bytes_eqb_spec).
  - (* SetPlutus *) rewrite !Forall_app. repeat split; now apply field_ok, view_dedup_nodup.
  - (* SetData *) apply field_ok, datum_dedup_emits_once.
Qed.

(* the switch is off: the model run by the check is the repaired one *)
Lemma switch_is_repaired : datum_dedup_by_ord = false.
Proof. reflexivity. Qed.

(* the typed setters (set_vkeys .. set_plutus_data): every reachable witness set writes each element once under each key *)
Theorem ws_setters_emit_once h :
  Forall op_ok h -> forall k els, In (k, els) (ws_fields (ws_run h)) -> NoDup els.
Proof.
  intros Hop. assert (F : fields_ok (ws_fields (ws_run h))); [|intros k els; apply (proj1 (Forall_forall _ _) F (k, els))].
  unfold ws_run, ws_step. rewrite switch_is_repaired. apply (fold_left_inv (fun w => fields_ok (ws_fields w))); [|constructor].
  intros w o Ho G. rewrite Forall_forall in Hop. now apply ws_step_ok, Hop.
Qed.

(* the builder's witness set (new_with_partial_dedup) *)
Theorem ws_builder_emits_once vk ns bs ps pd :
  (forall v, vk = Some v -> NoDup v) -> (forall b, bs = Some b -> NoDup b) ->
  (forall l, ps = Some l -> Forall (fun s => N.of_nat (length (ps_bytes s)) < two64) l) ->
  forall k els, In (k, els) (ws_fields (ws_partial_dedup_gen false vk ns bs ps pd)) -> NoDup els.
Proof.
  intros Hv Hb Hp. assert (F : fields_ok (ws_fields (ws_partial_dedup_gen false vk ns bs ps pd)));
    [|intros k els; apply (proj1 (Forall_forall _ _) F (k, els))].
  unfold fields_ok, ws_fields, ws_partial_dedup_gen, some_nonempty. cbn [ws_vkeys ws_native ws_boot ws_plutus ws_data].
  rewrite !Forall_app. repeat split.
  - destruct vk; [now apply field_ok, Hv | constructor].
  - destruct ns; [|constructor]. destruct (nonempty _); [apply field_ok, dedup_clone_nodup, bytes_eqb_spec | constructor].
  - destruct bs; [now apply field_ok, Hb | constructor].
  - destruct ps; [|constructor]. destruct (nonempty (dedup_clone _ _)); [|constructor].
    rewrite !Forall_app. repeat split; now apply field_ok, view_dedup_nodup, Hp.
  - destruct pd; [|constructor]. destruct (nonempty (pl_elems _)); [apply field_ok, datum_dedup_emits_once | constructor].
Qed.

(* reference inputs: a BTreeSet of transaction inputs *)
(* the derived Ord of TransactionInput unfolds to the product of the bytewise order on ids and < on indices *)
Lemma txin_ord : strict_total txin_ltb.
Proof. exact (lex_strict_total _ _ lex_ord N_strict_total). Qed.
(* the insertion loop of get_reference_inputs: skip what [f] excludes *)
Definition add_unless (f : txin -> bool) (s : tset) (l : list txin) : tset :=
  fold_left (fun s x => if f x then s else tset_add s x) l s.

Lemma add_unless_sorted f l s : sm_sorted txin_ltb s = true -> sm_sorted txin_ltb (add_unless f s l) = true.
Proof.
  apply (fold_left_inv (fun s => sm_sorted txin_ltb s = true)). intros s' x _ S.
  destruct (f x); [assumption | now apply (sorted_insert txin_ltb txin_ord)].
Qed.
Lemma in_add_unless f l k : forall s,
  In k (map fst (add_unless f s l)) <-> In k (map fst s) \/ (In k l /\ f k = false).
Proof.
  unfold add_unless. induction l as [|x l IH]; intros s; cbn [fold_left In]; [tauto|].
  rewrite IH. destruct (f x) eqn:F.
  - split; [tauto|]. intros [H|[[->|H] Fk]]; [tauto | congruence | tauto].
  - unfold tset_add. rewrite (In_insert_keys txin_ltb txin_ord). split.
    + intros [[<-|H]|H]; [right; split; [now left | exact F] | tauto | tauto].
    + intros [H|[[->|H] Fk]]; [tauto | left; now left | tauto].
Qed.
Lemma tset_ext (s1 s2 : tset) : sm_sorted txin_ltb s1 = true -> sm_sorted txin_ltb s2 = true ->
  (forall k, In k (map fst s1) <-> In k (map fst s2)) -> s1 = s2.
Proof.
  intros S1 S2 H. apply (sorted_ext txin_ltb txin_ord); try assumption.
  intros k. specialize (H k). rewrite !(lookup_keys txin_ltb txin_ord) in H.
  destruct (sm_lookup txin_ltb k s1) as [[]|], (sm_lookup txin_ltb k s2) as [[]|]; cbn in H; intuition congruence.
Qed.
Lemma perm_in {A} (l l' : list A) k : Permutation l l' -> (In k l <-> In k l').
Proof. intros P. split; apply Permutation_in; [assumption | now apply Permutation_sym]. Qed.

Definition ref_set (d : bool) (regular sources explicit : list txin) : tset :=
  let has_input x := mem txin_eqb x regular in
  add_unless (fun x => d && has_input x) (add_unless has_input [] sources) explicit.
Lemma ref_set_sorted d r s e : sm_sorted txin_ltb (ref_set d r s e) = true.
Proof. now do 2 apply add_unless_sorted. Qed.
Lemma ref_inputs_eq d r s e : ref_inputs d r s e = map fst (ref_set d r s e).
Proof.
  unfold ref_inputs. rewrite (items_from_vec txin_eqb txin_eqb_spec).
  replace (if d then _ else _) with (ref_set d r s e) by now destruct d.
  apply (first_occ_nodup txin_eqb txin_eqb_spec), (sorted_keys_nodup txin_ltb txin_ord), ref_set_sorted.
Qed.
Lemma in_ref_set d r s e k : In k (map fst (ref_set d r s e)) <->
  (In k s /\ ~ In k r) \/ (In k e /\ (d = false \/ ~ In k r)).
Proof.
  unfold ref_set. rewrite !in_add_unless, andb_false_iff, !(mem_false txin_eqb txin_eqb_spec). cbn. tauto.
Qed.

(* what get_reference_inputs returns: duplicate-free, in ascending TransactionInput order, and exactly the script-source
   reference inputs that are not regular inputs plus the explicit ones (filtered the same way when the config flag is set) *)
Theorem ref_inputs_spec d r s e :
  NoDup (ref_inputs d r s e) /\
  (forall k, In k (ref_inputs d r s e) <->
     (In k s /\ ~ In k r) \/ (In k e /\ (d = false \/ ~ In k r))).
Proof.
  rewrite ref_inputs_eq. split; [apply (sorted_keys_nodup txin_ltb txin_ord), ref_set_sorted | apply in_ref_set].
Qed.
(* the result does not depend on the order in which the sources or the explicit HashMap hand over their
   elements: any two iteration orders (permutations) give the same list, hence the same bytes *)
Theorem ref_inputs_order_independent d r r' s s' e e' :
  Permutation r r' -> Permutation s s' -> Permutation e e' ->
  ref_inputs d r s e = ref_inputs d r' s' e'.
Proof.
  intros Pr Ps Pe. rewrite !ref_inputs_eq. f_equal. apply tset_ext; try apply ref_set_sorted.
  intros k. rewrite !in_ref_set. now rewrite (perm_in _ _ k Pr), (perm_in _ _ k Ps), (perm_in _ _ k Pe).
Qed.

(* inputs / collateral: keys of a BTreeMap — the order of the add_*_input calls is irrelevant *)
Theorem tin_set_spec l :
  NoDup (tin_set l) /\ (forall k, In k (tin_set l) <-> In k l) /\
  (forall l', Permutation l l' -> tin_set l = tin_set l').
Proof.
  (* an unconditional insertion loop is add_unless with nothing excluded *)
  unfold tin_set. change (fold_left tset_add) with (fun l s => add_unless (fun _ => false) s l).
  assert (S : forall l, sm_sorted txin_ltb (add_unless (fun _ => false) [] l) = true) by (intros; now apply add_unless_sorted).
  assert (I : forall l k, In k (map fst (add_unless (fun _ => false) [] l)) <-> In k l).
  { intros l0 k. rewrite in_add_unless. cbn. tauto. }
  split; [apply (sorted_keys_nodup txin_ltb txin_ord), S|]. split; [apply I|].
  intros l' P. f_equal. apply tset_ext; try apply S. intros k. rewrite !I. now apply perm_in.
Qed.

(* the same case when every hash-seeded or call-ordered container hands its elements over in another order *)
Definition reorder (c : tx_case) (ins coll refs expl : list txin) : tx_case :=
  mk_tx ins coll (t_dedup_flag c) refs expl (t_signers c) (t_mint c) (t_native c) (t_plutus c) (t_wit_datums c) (t_extra_datums c).
(* one build: every set-like field is duplicate-free, required signers keep first-insertion order, every datum of the
   case is written *)
Theorem tx_build_sets c o : tx_build c = Ok o ->
  Forall (fun s => N.of_nat (length (ps_bytes s)) < two64) (t_plutus c) ->
  NoDup (x_inputs o) /\ NoDup (x_collateral o) /\ NoDup (x_refs o) /\ NoDup (x_signers o) /\
  x_signers o = first_occ bytes_eqb (t_signers c) /\ NoDup (x_native o) /\ NoDup (x_data o) /\
  (forall k els, In (k, els) (x_plutus o) -> NoDup els) /\
  (forall d, In d (t_wit_datums c ++ t_extra_datums c) -> In (d_emit d) (x_data o)).
Proof.
  unfold tx_build. destruct (match t_mint c with Some h => _ | None => _ end) as [m| | |]; cbn [bind]; try discriminate.
  intros [= <-] L. cbn [x_inputs x_collateral x_refs x_signers x_native x_data x_plutus].
  set (all := dedup_clone datum_ord_eqb (t_wit_datums c) ++ t_extra_datums c).
  set (h := [SetNative (t_native c); SetPlutus (dedup_clone pscript_eqb (t_plutus c)); SetData (mk_plist all None)]).
  assert (EO : forall k els, In (k, els) (ws_fields (ws_run h)) -> NoDup els).
  { apply ws_setters_emit_once. repeat constructor. cbn. rewrite dedup_clone_spec by apply pscript_eqb_spec.
    rewrite Forall_forall in *. intros x Hx. now apply L, (In_first_occ pscript_eqb pscript_eqb_spec). }
  (* the three setter calls leave the witness set with these native scripts and datums *)
  assert (E : ws_native (ws_run h) = (if nonempty (t_native c) then Some (dedup_clone bytes_eqb (t_native c)) else None) /\
              ws_data (ws_run h) = (if nonempty all then Some (plist_dedup_gen false (mk_plist all None)) else None)).
  { unfold ws_run, ws_step, h. rewrite switch_is_repaired. cbn.
    now destruct (nonempty (t_native c)), (nonempty (dedup_clone pscript_eqb (t_plutus c))), (nonempty all). }
  destruct E as [EN ED].
  rewrite EN, ED. repeat split.
  - apply tin_set_spec.
  - apply tin_set_spec.
  - apply ref_inputs_spec.
  - apply (wf_from_vec bytes_eqb bytes_eqb_spec).
  - apply (items_from_vec bytes_eqb bytes_eqb_spec).
  - destruct (nonempty (t_native c)); [apply dedup_clone_nodup, bytes_eqb_spec | constructor].
  - destruct (nonempty all); [apply datum_dedup_emits_once | constructor].
  - intros k els I. apply filter_In in I. apply (EO k els), I.
  - intros d Hd.
    (* de-duplication by the Ord key keeps every datum itself, the one by the bytes written keeps its bytes *)
    assert (IA : In (d_emit d) (map d_emit all)).
    { apply in_map. unfold all. rewrite dedup_clone_spec by apply datum_ord_eqb_spec.
      rewrite in_app_iff, (In_first_occ datum_ord_eqb datum_ord_eqb_spec). now apply in_app_iff. }
    destruct all; [destruct IA|]. cbn [nonempty plist_dedup_gen pl_elems].
    change (datum_key_eqb_gen false) with datum_emit_eqb.
    now rewrite (proj1 (datum_dedup_emits_once _)), (In_first_occ bytes_eqb bytes_eqb_spec).
Qed.
