(* C16, part 2 — theorems about the ordered asset maps (CanonOrder.v). *)
From CSL Require Import Base.Prelude Base.Facts Base.BytesOrd Cbor.Head Cbor.HeadProofs Sets.DedupVec Sets.DedupVecProofs Sets.CanonOrder.
From Coq Require Import Permutation.
Local Open Scope N_scope.

Lemma lex_ltb_bytes a : forall b, lex_ltb a b = bytes_ltb a b.
Proof. induction a as [|x a IH]; intros [|y b]; cbn; [..| rewrite IH]; reflexivity. Qed.
Lemma lex_ord : strict_total lex_ltb.
Proof.
  destruct bytes_strict_total as [I T O]. constructor; intros *; rewrite !lex_ltb_bytes; [apply I | apply T | apply O].
Qed.
(* the AssetName order unfolds to the order induced by a |-> (length a, a) from the product of < on lengths and the bytewise order *)
Lemma name_ord : strict_total name_ltb.
Proof.
  exact (on_strict_total (fun a => (N.of_nat (length a), a)) _ (fun x y H => f_equal snd H)
           (lex_strict_total _ _ N_strict_total lex_ord)).
Qed.

Lemma lex_app p : forall a b, lex_ltb (p ++ a) (p ++ b) = lex_ltb a b.
Proof. induction p as [|x p IH]; intros; cbn; [reflexivity|]. now rewrite N.ltb_irrefl. Qed.
Lemma lex_length_lt_nil a b : lex_ltb a b = true -> b <> [].
Proof. destruct a, b; cbn; congruence. Qed.

Lemma enc_bstr_length b : N.of_nat (length (enc_bstr b)) = head_size (N.of_nat (length b)) + N.of_nat (length b).
Proof. unfold enc_bstr. rewrite app_length, Nat2N.inj_add, head_length. reflexivity. Qed.
(* head_size is monotone, so head + payload lengths compare as the payload lengths *)
Lemma enc_length_ltb la lb : (head_size la + la <? head_size lb + lb) = (la <? lb).
Proof.
  destruct (N.ltb_spec la lb) as [H|H].
  - pose proof (head_size_mono la lb). apply N.ltb_lt. lia.
  - pose proof (head_size_mono lb la H). apply N.ltb_ge. lia.
Qed.

(* RFC 7049 3.9 (length-first on the encoded keys): for ALL names, not only those of at most 32 bytes *)
Theorem name_order_is_canonical a b : name_ltb a b = canon_ltb (enc_bstr a) (enc_bstr b).
Proof.
  unfold name_ltb, canon_ltb. rewrite !enc_bstr_length, !enc_length_ltb.
  destruct (N.ltb_spec (N.of_nat (length a)) (N.of_nat (length b))); [reflexivity|].
  destruct (N.ltb_spec (N.of_nat (length b)) (N.of_nat (length a))); [reflexivity|].
  unfold enc_bstr. replace (length b) with (length a) by lia. now rewrite lex_app.
Qed.
(* policy ids: the derived bytewise order of hashes of equal length (28) is the canonical order too *)
Theorem policy_order_is_canonical a b : length a = length b -> lex_ltb a b = canon_ltb (enc_bstr a) (enc_bstr b).
Proof.
  intros H. unfold canon_ltb. rewrite !enc_bstr_length, H, N.ltb_irrefl. unfold enc_bstr. now rewrite H, lex_app.
Qed.

(* towards RFC 8949 4.2.1 (plain bytewise order of the encoded keys; C16_asset_order_is_deterministic in Props/C16.v):
   for keys shorter than 256 bytes (asset names are at most 32 bytes, policy ids 28) the heads [64+n] (n < 24) and
   [88; n] compare like the lengths *)
Lemma head2_small n : n < 24 -> encode_head 2 n = [64 + n].
Proof. intros H. unfold encode_head. now replace (n <? 24) with true by lia. Qed.
Lemma head2_mid n : 24 <= n -> n < 256 -> encode_head 2 n = [88; n].
Proof.
  intros H1 H2. unfold encode_head. replace (n <? 24) with false by lia. replace (n <? 256) with true by lia.
  cbn [be app]. now rewrite N.mod_small by lia.
Qed.
Lemma head2_lex n m x y : n < 256 -> m < 256 ->
  lex_ltb (encode_head 2 n ++ x) (encode_head 2 m ++ y) = if n <? m then true else if m <? n then false else lex_ltb x y.
Proof.
  intros Hn Hm.
  destruct (N.ltb_spec n 24); [rewrite (head2_small n) by lia | rewrite (head2_mid n) by lia];
    (destruct (N.ltb_spec m 24); [rewrite (head2_small m) by lia | rewrite (head2_mid m) by lia]); cbn [app lex_ltb].
  - replace (64 + n <? 64 + m) with (n <? m) by lia. now replace (64 + m <? 64 + n) with (m <? n) by lia.
  - replace (64 + n <? 88) with true by lia. now replace (n <? m) with true by lia.
  - replace (88 <? 64 + m) with false by lia. replace (64 + m <? 88) with true by lia.
    replace (n <? m) with false by lia. now replace (m <? n) with true by lia.
  - reflexivity.
Qed.

Section SMapProofs.
  Context {K V : Type} (ltb : K -> K -> bool) (ord : strict_total ltb).

  Lemma keq_eq a b : keq ltb a b = true <-> a = b.
  Proof. exact (eqb_of_true ltb ord a b). Qed.
  Lemma keq_refl a : keq ltb a a = true.
  Proof. now apply keq_eq. Qed.
  Lemma keq_lt a b : ltb a b = true -> keq ltb a b = false.
  Proof. intros H. unfold keq. now rewrite H. Qed.
  (* [keq] agrees with every boolean test that decides equality of keys *)
  Lemma keq_eqb (eqb : K -> K -> bool) : (forall a b, eqb a b = true <-> a = b) -> forall a b, keq ltb a b = eqb a b.
  Proof. intros E a b. apply eq_true_iff_eq. now rewrite keq_eq, E. Qed.

  Notation sorted m := (@sm_sorted K V ltb m = true) (only parsing).

  Lemma sorted_cons_iff k v (r : list (K * V)) :
    sorted ((k, v) :: r) <-> (forall k', In k' (map fst r) -> ltb k k' = true) /\ sorted r.
  Proof.
    revert k v. induction r as [|[k1 v1] r IH]; intros k v; [cbn; tauto|].
    change (sorted ((k, v) :: (k1, v1) :: r)) with (ltb k k1 && sm_sorted ltb ((k1, v1) :: r) = true).
    rewrite andb_true_iff. split; [|intros [L S]; split; [apply L; now left | exact S]].
    intros [H S]. split; [|exact S]. intros k' [<-|I]; [exact H|].
    apply (st_trans _ ord _ _ _ H). now apply (proj1 (IH k1 v1) S).
  Qed.

  Lemma In_insert_keys k v (m : list (K * V)) k' : In k' (map fst (sm_insert ltb k v m)) <-> k = k' \/ In k' (map fst m).
  Proof.
    induction m as [|[k1 v1] m IH]; cbn; [tauto|].
    destruct (ltb k k1) eqn:E1; [cbn; tauto|]. destruct (ltb k1 k) eqn:E2; cbn; [rewrite IH; tauto|].
    rewrite (st_total _ ord k k1) by assumption. tauto.
  Qed.

  Lemma sorted_insert k v (m : list (K * V)) : sorted m -> sorted (sm_insert ltb k v m).
  Proof.
    induction m as [|[k1 v1] m IH]; [reflexivity|]. cbn [sm_insert]. rewrite sorted_cons_iff. intros [L S].
    destruct (ltb k k1) eqn:E1; [|destruct (ltb k1 k) eqn:E2]; apply sorted_cons_iff.
    - split; [|now apply sorted_cons_iff]. intros k' [<-|I]; [exact E1 | apply (st_trans _ ord _ _ _ E1), L, I].
    - split; [|apply IH, S]. intros k' I. apply In_insert_keys in I. destruct I as [<-|I]; [exact E2 | apply L, I].
    - rewrite (st_total _ ord k k1) by assumption. now split.
  Qed.

  Lemma lookup_insert k v (m : list (K * V)) k' :
    sm_lookup ltb k' (sm_insert ltb k v m) = if keq ltb k' k then Some v else sm_lookup ltb k' m.
  Proof.
    induction m as [|[k1 v1] m IH]; cbn [sm_insert sm_lookup]; [reflexivity|].
    destruct (ltb k k1) eqn:E1; [reflexivity|]. destruct (ltb k1 k) eqn:E2; cbn [sm_lookup].
    - rewrite IH. destruct (keq ltb k' k1) eqn:Q; [|reflexivity].
      apply keq_eq in Q. subst k'. now rewrite (keq_lt _ _ E2).
    - rewrite (st_total _ ord k k1) by assumption. now destruct (keq ltb k' k1).
  Qed.

  Lemma lookup_In k (m : list (K * V)) v : sm_lookup ltb k m = Some v -> In (k, v) m.
  Proof.
    induction m as [|[k1 v1] m IH]; cbn; [discriminate|]. destruct (keq ltb k k1) eqn:Q; [|now right; apply IH].
    apply keq_eq in Q. intros [= ->]. subst. now left.
  Qed.
  Lemma lookup_keys k (m : list (K * V)) : In k (map fst m) <-> is_some (sm_lookup ltb k m) = true.
  Proof.
    induction m as [|[k1 v1] m IH]; cbn; [split; [tauto | discriminate]|]. destruct (keq ltb k k1) eqn:Q.
    - apply keq_eq in Q. subst. cbn. split; [reflexivity | now left].
    - rewrite <- IH. split; [intros [<-|I]; [now rewrite keq_refl in Q | exact I] | tauto].
  Qed.
  Lemma lookup_below k k1 v1 (r : list (K * V)) : sorted ((k1, v1) :: r) -> ltb k k1 = true \/ k = k1 ->
    sm_lookup ltb k r = None.
  Proof.
    intros S H. apply sorted_cons_iff in S. destruct (sm_lookup ltb k r) eqn:E; [exfalso | reflexivity].
    apply lookup_In, (in_map fst), S in E. cbn in E.
    destruct H as [H | ->]; [rewrite (st_asym _ ord _ _ H) in E | rewrite (st_irrefl _ ord) in E]; discriminate.
  Qed.

  Lemma sorted_keys_nodup (m : list (K * V)) : sorted m -> NoDup (map fst m).
  Proof.
    induction m as [|[k v] m IH]; cbn [map fst]; [constructor|]. rewrite sorted_cons_iff. intros [L S].
    constructor; [|apply IH, S]. intros I. apply L in I. now rewrite (st_irrefl _ ord) in I.
  Qed.

  Theorem sorted_ext (m1 : list (K * V)) : forall m2, sorted m1 -> sorted m2 ->
    (forall k, sm_lookup ltb k m1 = sm_lookup ltb k m2) -> m1 = m2.
  Proof.
    induction m1 as [|[k1 v1] r1 IH]; intros [|[k2 v2] r2] S1 S2 H.
    - reflexivity.
    - specialize (H k2). cbn in H. now rewrite keq_refl in H.
    - specialize (H k1). cbn in H. now rewrite keq_refl in H.
    - (* the smaller of two different heads would be missing from the other map *)
      assert (E : k1 = k2).
      { destruct (st_trichotomy ltb ord k1 k2) as [L | [E | L]]; [| exact E |].
        - specialize (H k1). cbn in H. now rewrite keq_refl, (keq_lt _ _ L), (lookup_below _ _ _ _ S2 (or_introl L)) in H.
        - specialize (H k2). cbn in H. now rewrite keq_refl, (keq_lt _ _ L), (lookup_below _ _ _ _ S1 (or_introl L)) in H. }
      subst k2. pose proof (H k1) as H1. cbn in H1. rewrite keq_refl in H1. injection H1 as ->.
      f_equal. apply IH; [now apply sorted_cons_iff in S1 | now apply sorted_cons_iff in S2 |].
      intros k. specialize (H k). cbn in H. destruct (keq ltb k k1) eqn:Q; [|assumption].
      apply keq_eq in Q. now rewrite (lookup_below _ _ _ _ S1 (or_intror Q)), (lookup_below _ _ _ _ S2 (or_intror Q)).
  Qed.

  (* sortedness only depends on the order restricted to the keys present *)
  Lemma sorted_transfer (ltb' : K -> K -> bool) (m : list (K * V)) :
    (forall a b, In a (map fst m) -> In b (map fst m) -> ltb a b = ltb' a b) ->
    sm_sorted ltb m = true -> sm_sorted ltb' m = true.
  Proof.
    induction m as [|[k v] m IH]; intros E S; [reflexivity|]. cbn in *. destruct m as [|[k' v'] m]; [reflexivity|].
    rewrite andb_true_iff in *. destruct S as [S1 S2]. split.
    - rewrite <- E; [assumption | now left | right; now left].
    - apply IH; [|assumption]. intros a b Ia Ib. apply E; now right.
  Qed.

  Lemma Forall_insert (P : K * V -> Prop) k v m : Forall P m -> P (k, v) -> Forall P (sm_insert ltb k v m).
  Proof.
    intros F H. induction F as [|[k1 v1] m H1 F IH]; cbn; [now constructor|].
    destruct (ltb k k1); [now repeat constructor|]. destruct (ltb k1 k); now constructor.
  Qed.
  Lemma insert_nonempty k (v : V) m : sm_insert ltb k v m <> [].
  Proof. destruct m as [|[k1 v1] m]; cbn; [discriminate|]. destruct (ltb k k1); [discriminate|]. destruct (ltb k1 k); discriminate. Qed.
End SMapProofs.

(* policy ids are ordered by lex_ltb, asset names by name_ltb *)
Lemma keq_lex a b : keq lex_ltb a b = bytes_eqb a b.
Proof. apply (keq_eqb lex_ltb lex_ord), bytes_eqb_spec. Qed.
Lemma keq_name a b : keq name_ltb a b = bytes_eqb a b.
Proof. apply (keq_eqb name_ltb name_ord), bytes_eqb_spec. Qed.
(* nv_get, the lookup of the judge (CanonOrder.v), is the lookup of the ordered maps *)
Lemma nv_get_lookup {V} ltb (ord : strict_total ltb) p (m : list (bytes * V)) : nv_get p m = sm_lookup ltb p m.
Proof. induction m as [|[k v] m IH]; cbn; [reflexivity|]. now rewrite (keq_eqb ltb ord bytes_eqb bytes_eqb_spec), IH. Qed.
Lemma nv_get_lex {V} p (m : list (bytes * V)) : nv_get p m = sm_lookup lex_ltb p m.
Proof. apply nv_get_lookup, lex_ord. Qed.
Lemma nv_get_name {V} p (m : list (bytes * V)) : nv_get p m = sm_lookup name_ltb p m.
Proof. apply nv_get_lookup, name_ord. Qed.

Section Two.
  Context {V : Type} (d : V).
  Notation M := (list (bytes * list (bytes * V))).

  (* invariant of every reachable two-level map: policies strictly ascending, names strictly ascending under each *)
  Definition inv2 (m : M) : Prop :=
    sm_sorted lex_ltb m = true /\ Forall (fun e => sm_sorted name_ltb (snd e) = true) m.
  Definition wf2 (m : M) : Prop := inv2 m /\ Forall (fun e => snd e <> []) m.

  Lemma inv2_nil : inv2 [].
  Proof. split; [reflexivity | constructor]. Qed.
  Lemma wf2_nil : wf2 [].
  Proof. split; [apply inv2_nil | constructor]. Qed.
  Lemma inv2_lookup m p a : inv2 m -> sm_lookup lex_ltb p m = Some a -> sm_sorted name_ltb a = true.
  Proof. intros [_ F] H. apply (lookup_In lex_ltb lex_ord) in H. rewrite Forall_forall in F. apply (F _ H). Qed.
  Lemma inv2_insert m p a : inv2 m -> sm_sorted name_ltb a = true -> inv2 (sm_insert lex_ltb p a m).
  Proof. intros [S F] Ha. split; [now apply (sorted_insert lex_ltb lex_ord) | now apply Forall_insert]. Qed.
  Lemma inv2_upd2 m p n f : inv2 m -> inv2 (upd2 d p n f m).
  Proof.
    intros I. unfold upd2. apply inv2_insert; [assumption|]. apply (sorted_insert name_ltb name_ord).
    destruct (sm_lookup lex_ltb p m) eqn:E; [eapply inv2_lookup; eassumption | reflexivity].
  Qed.
  Lemma wf2_upd2 m p n f : wf2 m -> wf2 (upd2 d p n f m).
  Proof.
    intros [I F]. split; [now apply inv2_upd2|]. unfold upd2. apply Forall_insert; [assumption|]. apply insert_nonempty.
  Qed.

  Lemma lookup2_upd2 m p n f p' n' :
    lookup2 (upd2 d p n f m) p' n' =
    if bytes_eqb p' p && bytes_eqb n' n
    then Some (f (match lookup2 m p n with Some x => x | None => d end))
    else lookup2 m p' n'.
  Proof.
    unfold lookup2, upd2. rewrite (lookup_insert lex_ltb lex_ord), keq_lex.
    destruct (bytes_eqb p' p) eqn:E; cbn [andb]; [|reflexivity]. apply bytes_eqb_spec in E. subst p'.
    rewrite (lookup_insert name_ltb name_ord), keq_name. now destruct (bytes_eqb n' n), (sm_lookup lex_ltb p m).
  Qed.

  (* a policy of a well-formed map is found, with the same names, in any map that agrees on every (policy, name) *)
  Lemma ext2_policy (m1 m2 : M) : wf2 m1 -> inv2 m2 -> (forall p n, lookup2 m1 p n = lookup2 m2 p n) ->
    forall p a, sm_lookup lex_ltb p m1 = Some a -> sm_lookup lex_ltb p m2 = Some a.
  Proof.
    intros [I1 N1] I2 H p a L1. pose proof (inv2_lookup _ _ _ I1 L1) as Sa.
    apply (lookup_In lex_ltb lex_ord) in L1 as Ia. rewrite Forall_forall in N1. apply N1 in Ia. cbn in Ia.
    (* [a] has a first name, which the other map binds under [p] as well *)
    destruct a as [|[n0 v0] a']; [contradiction|].
    pose proof (H p n0) as H0. unfold lookup2 in H0. rewrite L1 in H0. cbn in H0. rewrite (keq_refl name_ltb name_ord) in H0.
    destruct (sm_lookup lex_ltb p m2) as [b|] eqn:L2; [|discriminate].
    f_equal. symmetry. apply (sorted_ext name_ltb name_ord); [assumption | eapply inv2_lookup; eassumption |].
    intros n. specialize (H p n). unfold lookup2 in H. now rewrite L1, L2 in H.
  Qed.
  Theorem ext2 (m1 m2 : M) : wf2 m1 -> wf2 m2 ->
    (forall p n, lookup2 m1 p n = lookup2 m2 p n) -> m1 = m2.
  Proof.
    intros W1 W2 H. apply (sorted_ext lex_ltb lex_ord); [apply W1 | apply W2 |].
    intros p. destruct (sm_lookup lex_ltb p m1) as [a|] eqn:L1.
    - symmetry. exact (ext2_policy m1 m2 W1 (proj1 W2) H p a L1).
    - destruct (sm_lookup lex_ltb p m2) as [b|] eqn:L2; [|reflexivity].
      now rewrite (ext2_policy m2 m1 W2 (proj1 W1) (fun p n => eq_sym (H p n)) p b L2) in L1.
  Qed.

  Definition upd := (bytes * bytes * (V -> V))%type.
  Definition run2 (us : list upd) (m : M) : M := fold_left (fun m u => upd2 d (fst (fst u)) (snd (fst u)) (snd u) m) us m.
  Definition vstep (p n : bytes) (acc : option V) (u : upd) : option V :=
    if bytes_eqb p (fst (fst u)) && bytes_eqb n (snd (fst u))
    then Some (snd u (match acc with Some x => x | None => d end)) else acc.

  Lemma wf2_run2 us m : wf2 m -> wf2 (run2 us m).
  Proof. apply fold_left_inv. intros. now apply wf2_upd2. Qed.
  Lemma lookup2_run2 us p n m : lookup2 (run2 us m) p n = fold_left (vstep p n) us (lookup2 m p n).
  Proof.
    apply (fold_left_sim (fun m acc => lookup2 m p n = acc)); [|reflexivity].
    intros m' acc [[p0 n0] f] <-. rewrite lookup2_upd2. unfold vstep. cbn [fst snd].
    destruct (bytes_eqb p p0 && bytes_eqb n n0) eqn:E; [|reflexivity].
    rewrite andb_true_iff, !bytes_eqb_spec in E. now destruct E; subst.
  Qed.

  (* updates of the same (policy, name) commute *)
  Definition commuting (us : list upd) : Prop :=
    forall u1 u2, In u1 us -> In u2 us -> fst u1 = fst u2 -> forall x, snd u1 (snd u2 x) = snd u2 (snd u1 x).
  Lemma vstep_perm us us' : Permutation us us' -> commuting us ->
    forall p n acc, fold_left (vstep p n) us acc = fold_left (vstep p n) us' acc.
  Proof.
    induction 1 as [|u l l' P IH|u1 u2 l|l l' l'' P1 IH1 P2 IH2]; intros C p n acc.
    - reflexivity.
    - cbn. apply IH. intros a b Ia Ib. apply C; now right.
    - cbn. f_equal. unfold vstep.
      destruct (bytes_eqb p (fst (fst u2)) && bytes_eqb n (snd (fst u2))) eqn:E2,
               (bytes_eqb p (fst (fst u1)) && bytes_eqb n (snd (fst u1))) eqn:E1; try reflexivity.
      f_equal. apply C; [right; now left | now left |].
      rewrite andb_true_iff, !bytes_eqb_spec in E1, E2. destruct u1 as [[a1 b1] f1], u2 as [[a2 b2] f2]. cbn in *.
      destruct E1, E2. congruence.
    - rewrite IH1 by assumption. apply IH2. intros a b Ia Ib. apply C; eapply Permutation_in; try eassumption; now apply Permutation_sym.
  Qed.

  Theorem run2_perm us us' : Permutation us us' -> commuting us -> run2 us [] = run2 us' [].
  Proof.
    intros P C. apply ext2; try apply wf2_run2, wf2_nil.
    intros p n. rewrite !lookup2_run2. now apply vstep_perm.
  Qed.

  (* canonical CBOR key order of a map whose policy ids are hashes *)
  Lemma inv2_canonical (m : M) : inv2 m -> Forall (fun e => length (fst e) = 28%nat) m ->
    sorted_by_enc m = true /\ Forall (fun e => sorted_by_enc (snd e) = true) m.
  Proof.
    intros [S F] L. unfold sorted_by_enc. rewrite Forall_forall in L. split.
    - eapply sorted_transfer; [|exact S]. intros a b Ia Ib. apply policy_order_is_canonical.
      apply in_map_iff in Ia, Ib. destruct Ia as [ea [<- Ia]], Ib as [eb [<- Ib]]. exact (eq_trans (L _ Ia) (eq_sym (L _ Ib))).
    - eapply Forall_impl; [|exact F]. intros e. apply sorted_transfer. intros a b _ _. apply name_order_is_canonical.
  Qed.
  Lemma upd2_hashes m p n f : Forall (fun e => length (fst e) = 28%nat) m -> length p = 28%nat ->
    Forall (fun e => length (fst e) = 28%nat) (upd2 d p n f m).
  Proof. intros. now apply Forall_insert. Qed.
End Two.

(* Assets / MultiAsset *)
Lemma assets_of_sorted l : sm_sorted name_ltb (assets_of l) = true.
Proof.
  unfold assets_of. apply (fold_left_inv (fun a => sm_sorted name_ltb a = true)); [|reflexivity].
  intros. now apply (sorted_insert name_ltb name_ord).
Qed.
Theorem ma_run_inv h : inv2 (ma_run h).
Proof.
  unfold ma_run. apply fold_left_inv; [|apply inv2_nil]. intros m o _ I.
  destruct o; cbn [ma_step]; [now apply inv2_upd2 | apply inv2_insert; [assumption | apply assets_of_sorted]].
Qed.

(* canonical CBOR key order of the serialised bundle, for every history *)
Theorem ma_canonical h :
  Forall (fun o => length (ma_op_policy o) = 28%nat) h ->
  sorted_by_enc (ma_run h) = true /\ forallb (fun e => sorted_by_enc (snd e)) (ma_run h) = true.
Proof.
  intros L. rewrite forallb_forall, <- Forall_forall. apply inv2_canonical; [apply ma_run_inv|].
  unfold ma_run. apply fold_left_inv; [|constructor]. intros m o Ho Hm. rewrite Forall_forall in L. specialize (L o Ho).
  destruct o; now apply Forall_insert.
Qed.

(* content: the bundle holds exactly what the history wrote *)
Lemma lookup_assets_of n l : forall a,
  sm_lookup name_ltb n (fold_left (fun a e => sm_insert name_ltb (fst e) (snd e) a) l a) = last_qty n l (sm_lookup name_ltb n a).
Proof.
  induction l as [|[n' q] l IH]; intros a; cbn [fold_left last_qty]; [reflexivity|].
  rewrite IH. f_equal. cbn [fst snd]. now rewrite (lookup_insert name_ltb name_ord), keq_name.
Qed.
Theorem ma_content h p n : lookup2 (ma_run h) p n = ma_val h p n.
Proof.
  apply (fold_left_sim (fun m acc => lookup2 m p n = acc)); [|reflexivity].
  intros m acc o <-. destruct o; cbn [ma_step]; [apply lookup2_upd2|].
  unfold lookup2. rewrite (lookup_insert lex_ltb lex_ord), keq_lex.
  destruct (bytes_eqb p p0); [|reflexivity]. unfold assets_of. now rewrite lookup_assets_of.
Qed.
Theorem ma_presence h p : is_some (sm_lookup lex_ltb p (ma_run h)) = ma_present h p.
Proof.
  unfold ma_run, ma_present. induction h as [|o h IH] using rev_ind; [reflexivity|].
  rewrite fold_left_app, existsb_app, <- IH. cbn [fold_left existsb].
  destruct o; cbn [ma_step]; unfold upd2; rewrite (lookup_insert lex_ltb lex_ord), keq_lex;
    destruct (bytes_eqb p p0); cbn; now rewrite ?orb_true_r, ?orb_false_r.
Qed.

(* order independence: inserting the same (policy, name, quantity) triples in any order gives the same map *)
Definition set_ops (es : list (bytes * bytes * N)) : list ma_op := map (fun e => MSetAsset (fst (fst e)) (snd (fst e)) (snd e)) es.
Lemma ma_run_set_ops es : forall m, fold_left ma_step (set_ops es) m = run2 0 (map (fun e => (fst e, fun _ : N => snd e)) es) m.
Proof. induction es as [|[[p n] q] es IH]; intros m; cbn; [reflexivity | apply IH]. Qed.
Lemma NoDup_map_eq {A B} (f : A -> B) l : NoDup (map f l) -> forall a b, In a l -> In b l -> f a = f b -> a = b.
Proof.
  induction l as [|x l IH]; intros ND a b Ia Ib E; [destruct Ia|]. cbn in ND. inversion ND as [|? ? H ND']; subst.
  destruct Ia as [<-|Ia], Ib as [<-|Ib]; [reflexivity | | | now apply IH]; exfalso; apply H.
  - rewrite E. now apply in_map.
  - rewrite <- E. now apply in_map.
Qed.
Theorem ma_order_independent es es' :
  Permutation es es' -> NoDup (map fst es) -> ma_run (set_ops es) = ma_run (set_ops es').
Proof.
  intros P ND. unfold ma_run. rewrite !ma_run_set_ops. apply run2_perm; [now apply Permutation_map|].
  (* two writes to the same (policy, name) are the same write *)
  intros u1 u2 I1 I2 K x. rewrite in_map_iff in I1, I2. destruct I1 as [e1 [<- I1]], I2 as [e2 [<- I2]].
  cbn in K. now rewrite (NoDup_map_eq fst es ND e1 e2 I1 I2 K).
Qed.

(* decoding a map whose keys come in any (non-canonical) order: the result is ordered (a repeated key is an error
   in assets_of_wire / ma_of_wire) *)
Lemma assets_of_wire_sorted l : forall acc a, sm_sorted name_ltb acc = true -> assets_of_wire l acc = Ok a -> sm_sorted name_ltb a = true.
Proof.
  induction l as [|[n q] l IH]; intros acc a S; cbn; [now intros [= <-]|].
  destruct (sm_lookup name_ltb n acc); [discriminate|]. apply IH.
  now apply (sorted_insert name_ltb name_ord).
Qed.
Theorem ma_of_wire_inv l : forall acc m, inv2 acc -> ma_of_wire l acc = Ok m -> inv2 m.
Proof.
  induction l as [|[p a] l IH]; intros acc m I; cbn; [now intros [= <-]|].
  destruct (assets_of_wire a []) as [a'| | |] eqn:E; cbn [bind]; try (intros; discriminate).
  destruct (@sm_lookup bytes assets lex_ltb p acc); [intros; discriminate|]. apply IH, inv2_insert; [assumption|].
  now apply (assets_of_wire_sorted a [] a').
Qed.

(* MintBuilder *)
Theorem mb_run_wf h : wf2 (mb_run h).
Proof.
  unfold mb_run. apply fold_left_inv; [|apply wf2_nil]. intros m o _ W.
  destruct o; cbn [mb_step]; destruct (a =? 0)%Z; auto using wf2_upd2.
Qed.
Theorem mint_canonical h :
  Forall (fun o => length (fst (mint_op_key o)) = 28%nat) h ->
  sorted_by_enc (mb_run h) = true /\
  forallb (fun e => sorted_by_enc (snd e) && negb (match snd e with [] => true | _ => false end)) (mb_run h) = true.
Proof.
  intros L. destruct (mb_run_wf h) as [I NE]. destruct (inv2_canonical (mb_run h) I) as [S F].
  - unfold mb_run. apply fold_left_inv; [|constructor]. intros m o Ho Hm. rewrite Forall_forall in L. specialize (L o Ho).
    destruct o; cbn [mb_step]; destruct (a =? 0)%Z; auto using upd2_hashes.
  - split; [exact S|]. rewrite forallb_forall. rewrite Forall_forall in F, NE. intros e He.
    rewrite (F e He). specialize (NE e He). now destruct (snd e).
Qed.
Theorem mint_content h p n : lookup2 (mb_run h) p n = mint_val h p n.
Proof.
  apply (fold_left_sim (fun m acc => lookup2 m p n = acc)); [|reflexivity].
  intros m acc o <-. destruct o; cbn [mb_step]; destruct (a =? 0)%Z; try reflexivity; rewrite lookup2_upd2;
    destruct (bytes_eqb p p0 && bytes_eqb n n0) eqn:E; try reflexivity;
    rewrite andb_true_iff, !bytes_eqb_spec in E; now destruct E; subst.
Qed.

(* order independence of the mint: add_asset calls commute, in any order and with repeats *)
Definition mint_upds (h : list mint_op) : list (bytes * bytes * (Z -> Z)) :=
  flat_map (fun o => match o with
                     | MbAdd p n a => if (a =? 0)%Z then [] else [(p, n, fun old => (old + a)%Z)]
                     | MbSet p n a => if (a =? 0)%Z then [] else [(p, n, fun _ : Z => a)]
                     end) h.
Lemma mb_run_upds h : forall m, fold_left mb_step h m = run2 0%Z (mint_upds h) m.
Proof.
  unfold run2, mint_upds. induction h as [|o h IH]; intros m; cbn [fold_left flat_map]; [reflexivity|].
  rewrite fold_left_app, <- IH. f_equal. destruct o; cbn [mb_step]; now destruct (a =? 0)%Z.
Qed.
Definition is_add (o : mint_op) : bool := match o with MbAdd _ _ _ => true | MbSet _ _ _ => false end.
Theorem mint_order_independent h h' :
  Permutation h h' -> forallb is_add h = true -> mb_run h = mb_run h'.
Proof.
  intros P A. unfold mb_run. rewrite !mb_run_upds. apply run2_perm; [now apply Permutation_flat_map|].
  intros u1 u2 I1 I2 _ x. unfold mint_upds in I1, I2. rewrite in_flat_map in I1, I2.
  destruct I1 as [o1 [H1 I1]], I2 as [o2 [H2 I2]]. rewrite forallb_forall in A.
  pose proof (A _ H1) as A1. pose proof (A _ H2) as A2.
  destruct o1 as [p1 n1 a1|]; [|discriminate]. destruct o2 as [p2 n2 a2|]; [|discriminate].
  destruct (a1 =? 0)%Z; [destruct I1|]. destruct (a2 =? 0)%Z; [destruct I2|].
  destruct I1 as [<-|[]], I2 as [<-|[]]. cbn. lia.
Qed.
