(* C08 — witnesses: the inputs on which the code before its repairs goes wrong (Props/C08.v refutes with them the
   soundness of the variant of the model without that repair, or shows its panic), what the code as it is does on the
   same inputs, and non-vacuity examples for the premises of the theorems.  Every witness was replayed on the real
   code (corpus/C08/w-*.case). *)
From CSL Require Import Base.Prelude Num.Value CoinSel.CoinSel CoinSel.CoinSelSpec CoinSel.CoinSelLemmas CoinSel.CoinSelProofs
  CoinSel.CoinSelSound.
Local Open Scope N_scope.

Definition ada (c : N) : value := mkValue c None.
Definition zero_fee : imap -> result N := fun _ => Ok 0.
Definition zero_ffi : imap -> utxo -> result N := fun _ _ => Ok 0.

(* the variant [v] of the code reports a success of [strat] that is not sound *)
Definition unsound (v : variant) (strat : strategy) : Prop :=
  exists min_fee ffi cs offered sc st',
    scenario_wf offered sc /\ pre_distinct sc /\
    add_inputs_from min_fee ffi v strat cs offered sc = (st', Done tt) /\
    ~ sound_result min_fee ffi false offered offered sc st'.

Lemma unsound_witness v strat min_fee ffi cs offered sc st' :
  premises_b offered sc = true -> add_inputs_from min_fee ffi v strat cs offered sc = (st', Done tt) ->
  ~ sound_result min_fee ffi false offered offered sc st' -> unsound v strat.
Proof. intros Hp H Hn. destruct (premises_sound _ _ Hp). exists min_fee, ffi, cs, offered, sc, st'. auto. Qed.

(* the two ways the witnesses fail: an input added twice; the fee the selection itself charged is not covered *)
Lemma added_twice min_fee ffi offered sc st' :
  nodup_b (ids (added_utxos offered (st_trace st'))) = false -> ~ sound_result min_fee ffi false offered offered sc st'.
Proof. intros Hb [[Hnd _] _]. apply nodup_b_iff in Hnd. congruence. Qed.

Lemma fee_uncovered min_fee ffi offered sc st' fee :
  required_fee min_fee ffi (initial_map sc) (added_utxos offered (st_trace st')) = Ok fee ->
  covers_qb ByCoin sc (st_inputs st') fee = false -> ~ sound_result min_fee ffi false offered offered sc st'.
Proof.
  intros Hf Hb [_ [_ [fee' [Hf' [Hc _]]]]]. rewrite Hf in Hf'. inversion Hf'; subst fee'.
  apply covers_qb_iff in Hc. congruence.
Qed.

(* DESIGN.md section 7, row 10: phase 2 bookkeeping inverted (tx_builder.rs before b244700).  One output of 1 ADA, a
   deposit of 1.5 ADA, UTxOs of 1, 2 and 5 ADA, script [0; 1; 0]: phase 1 takes the 1-ADA UTxO, phase 2 swaps in the
   2-ADA one and leaves it selectable, phase 3 draws it again. *)
Definition w10_offered : list utxo := [mkUtxo 1 (ada 1000000) true; mkUtxo 2 (ada 2000000) true; mkUtxo 3 (ada 5000000) true].
Definition w10_sc : scenario :=
  mkScenario [] (ada 0) (ada 0) [mkOut 0 (ada 1000000)] 1500000 (ada 0) None.

(* the same input on the repaired code: two distinct inputs, sound *)
Example swap_witness_now_sound :
  exists st', add_inputs_from zero_fee zero_ffi current RandomImprove [0; 1; 0] w10_offered w10_sc = (st', Done tt) /\
              st_trace st' = [1%nat; 0%nat].
Proof. eexists. split; vm_compute; reflexivity. Qed.

(* DESIGN.md section 7, row 23: identical outputs share one associated entry, added once per duplicate (before 2a9f309) *)
Definition w23_offered : list utxo :=
  map (fun i => mkUtxo i (ada 520000) true) [1; 2; 3; 4; 5; 6; 7; 8].
Definition w23_sc : scenario :=
  mkScenario [] (ada 0) (ada 0) [mkOut 0 (ada 1000000); mkOut 0 (ada 1000000)] 0 (ada 0) None.

(* Pre-step: the input taken "to have at least one" was not charged its fee (before d550071) *)
Definition wps_fee : imap -> result N := fun m => Ok (164313 + 6028 * N.of_nat (length m)).
Definition wps_ffi : imap -> utxo -> result N := fun _ _ => Ok 6028.
Definition wps_offered : list utxo := [mkUtxo 5 (ada 1000) true].
Definition wps_sc : scenario :=
  mkScenario [] (ada 1164313) (ada 0) [mkOut 0 (ada 1000000)] 0 (ada 0) None.

Example prestep_witness_now_insufficient :
  exists st', add_inputs_from wps_fee wps_ffi current LargestFirst [] wps_offered wps_sc = (st', Insufficient).
Proof. eexists. vm_compute. reflexivity. Qed.

(* C08-burn-not-covered (before /repo ab61362): an asset that is burnt is part of the target (get_total_output) but
   only LargestFirstMultiAsset selected inputs for it and checked it *)
Definition wb_policy : bytes := [1].
Definition wb_name : bytes := [2].
Definition wb_offered : list utxo := [mkUtxo 1 (ada 5000000) true].
Definition wb_sc : scenario :=
  mkScenario [] (ada 0) (ada 0) [mkOut 0 (ada 1000000)] 0 (mkValue 0 (Some [(wb_policy, [(wb_name, 5)])])) None.

(* the code as it is reports insufficiency on the same scenario, for every strategy *)
Example burn_now_insufficient : forall strat,
  exists st', add_inputs_from zero_fee zero_ffi current strat [] wb_offered wb_sc = (st', Insufficient).
Proof. intros []; eexists; vm_compute; reflexivity. Qed.

(* Offered UTxO that is already an input of the builder (before /repo 0efa6ad): selected again, the map keeps it
   once, its amount is counted twice *)
Definition wo_offered : list utxo := [mkUtxo 5 (ada 3000000) true; mkUtxo 6 (ada 1000000) true].
Definition wo_sc : scenario :=
  mkScenario [mkUtxo 5 (ada 3000000) true] (ada 0) (ada 0) [mkOut 0 (ada 4000000)] 0 (ada 0) None.

Example overlap_now_sound :
  exists st', add_inputs_from zero_fee zero_ffi current LargestFirst [] wo_offered wo_sc = (st', Done tt) /\
              imap_ids (st_inputs st') = [5; 6].
Proof. eexists. split; vm_compute; reflexivity. Qed.

(* 2 * min, 3 * min in u64 (before /repo 844a848): an output of 2^63 lovelace panics in the profile with overflow
   checks (and wraps in release: witness corpus/C08/w-improve-overflow.case) *)
Definition wv_offered : list utxo :=
  [mkUtxo 1 (ada 9223372036855775808) true; mkUtxo 2 (ada 9300000000000000000) true; mkUtxo 3 (ada 5000000) true].
Definition wv_sc : scenario :=
  mkScenario [] (ada 0) (ada 0) [mkOut 0 (ada 9223372036854775808)] 0 (ada 0) None.

(* fee_for_input with a zero fee placeholder (before /repo d980bbe) under set_min_fee: the increments are differences
   of estimates raised to the requested fee, priced with a 5-byte fee field, while min_fee() prices a 9-byte field *)
Definition wf_raw : N -> imap -> result N :=
  fun field m => Ok (163000 + 44 * (if field <? two32 then 5 else 9) + 6028 * N.of_nat (length m)).
Definition wf_req : fee_request := NotLess 164000.
Definition wf_offered : list utxo := [mkUtxo 5 (ada 1169300) true].
Definition wf_sc : scenario := mkScenario [] (ada 0) (ada 0) [mkOut 0 (ada 1000000)] 0 (ada 0) None.

Example fee_placeholder_now_insufficient :
  exists st', add_inputs_from (min_fee_of wf_raw wf_req) (fee_for_input_of wf_raw wf_req two32) current LargestFirst []
                wf_offered wf_sc = (st', Insufficient).
Proof. eexists. vm_compute. reflexivity. Qed.

(* Non-vacuity of the premises *)

(* C08_sound: a multi-asset random-improve run with a present input that is also offered, an outpoint offered
   twice, two identical outputs, 5 draws *)
Definition ex_policy : bytes := [7; 7].
Definition ex_tok (q : N) : option multiasset := Some [(ex_policy, [([65], q)])].
Definition ex_offered : list utxo :=
  [mkUtxo 10 (mkValue 2000000 (ex_tok 30)) true; mkUtxo 3 (ada 700000) true; mkUtxo 11 (ada 3000000) true;
   mkUtxo 12 (mkValue 1500000 (ex_tok 50)) true; mkUtxo 10 (mkValue 2000000 (ex_tok 30)) true;
   mkUtxo 13 (ada 900000) true; mkUtxo 14 (mkValue 1200000 (ex_tok 5)) true].
Definition ex_sc : scenario :=
  mkScenario [mkUtxo 3 (ada 700000) true] (ada 0) (ada 0)
             [mkOut 0 (mkValue 1000000 (ex_tok 40)); mkOut 0 (mkValue 1000000 (ex_tok 40)); mkOut 2 (ada 3000000)]
             0 (ada 0) None.
Definition ex_fee : imap -> result N := fun m => Ok (170000 + 6000 * N.of_nat (length m)).
Definition ex_ffi : imap -> utxo -> result N := fun _ _ => Ok 6000.

Example sound_current_premises :
  exists st', scenario_wf ex_offered ex_sc /\ pre_distinct ex_sc /\
    add_inputs_from ex_fee ex_ffi current RandomImproveMultiAsset [1; 0; 2; 0; 1] ex_offered ex_sc = (st', Done tt) /\
    (3 <= length (st_trace st'))%nat /\ length (effective_offered current ex_offered ex_sc) = 5%nat.
Proof.
  destruct (premises_sound ex_offered ex_sc eq_refl) as [W1 W2]. eexists. split; [exact W1|split; [exact W2|split; [vm_compute; reflexivity|split; [|reflexivity]]]].
  vm_compute. repeat constructor.
Qed.

(* largest-first theorems: more lovelace needed than held, success with two inputs; and an insufficient run *)
Definition exl_offered : list utxo := [mkUtxo 1 (ada 900000) true; mkUtxo 2 (ada 2500000) true; mkUtxo 3 (ada 1400000) true].
Definition exl_sc (out : N) : scenario := mkScenario [] (ada 0) (ada 0) [mkOut 0 (ada out)] 0 (ada 0) None.

Example largest_first_premises :
  exists st0 st',
    scenario_wf exl_offered (exl_sc 3000000) /\ pre_distinct (exl_sc 3000000) /\
    initial_state ex_fee (exl_sc 3000000) = (st0, Done tt) /\ coin (st_in st0) < coin (st_out st0) /\
    add_inputs_from ex_fee ex_ffi current LargestFirst [] exl_offered (exl_sc 3000000) = (st', Done tt) /\
    st_trace st' = [1%nat; 2%nat].
Proof.
  destruct (premises_sound exl_offered (exl_sc 3000000) eq_refl) as [W1 W2]. eexists. eexists.
  split; [exact W1|split; [exact W2|split; [vm_compute; reflexivity|split; [vm_compute; reflexivity|split; vm_compute; reflexivity]]]].
Qed.

Example largest_first_insufficient_premises :
  exists st0 st',
    initial_state ex_fee (exl_sc 9000000) = (st0, Done tt) /\ coin (st_in st0) < coin (st_out st0) /\
    add_inputs_from ex_fee ex_ffi current LargestFirst [] exl_offered (exl_sc 9000000) = (st', Insufficient) /\
    st_trace st' = [1%nat; 2%nat; 0%nat] /\ asset_guard st' = true.
Proof. eexists. eexists. split; [vm_compute; reflexivity|split; [vm_compute; reflexivity|split; [|split]; vm_compute; reflexivity]]. Qed.

(* fee_additive is satisfiable by non-trivial functions: the derived fee_for_input of any min_fee *)
Example fee_additive_premise : fee_additive ex_fee (derived_ffi ex_fee).
Proof. apply derived_additive. Qed.
