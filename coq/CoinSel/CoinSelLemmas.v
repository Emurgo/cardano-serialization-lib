(* C08 — auxiliary lemmas: Vec / BTreeSet / BTreeMap helpers of the model, quantities of values, the input map, the offered list. *)
From CSL Require Import Base.Prelude Base.Facts Num.Value Num.ValueProofs Num.ValueNorm Num.ValueNormProofs CoinSel.CoinSel CoinSel.CoinSelSpec.
From Coq Require Import Permutation Sorting.Sorted.
Local Open Scope N_scope.

Lemma NoDup_app_iff {A} (l1 l2 : list A) :
  NoDup (l1 ++ l2) <-> NoDup l1 /\ NoDup l2 /\ (forall x, In x l1 -> ~ In x l2).
Proof.
  induction l1 as [|a l1 IH]; cbn [app In].
  - split; [intros H|tauto]. split; [constructor|tauto].
  - split.
    + intros H. inversion H as [|? ? Ha Hr]; subst. rewrite in_app_iff in Ha. apply IH in Hr. destruct Hr as [H1 [H2 H3]].
      split; [constructor; tauto|]. split; [exact H2|]. intros x [<-|Hx]; [tauto|apply H3; exact Hx].
    + intros [H1 [H2 H3]]. inversion H1; subst. constructor.
      * rewrite in_app_iff. intros [Hi|Hi]; [tauto|]. apply (H3 a); auto.
      * apply IH. split; [assumption|]. split; [assumption|]. intros x Hx. apply H3. right. exact Hx.
Qed.

Lemma StronglySorted_app_iff {A} (R : A -> A -> Prop) l1 l2 :
  StronglySorted R (l1 ++ l2) <->
  StronglySorted R l1 /\ StronglySorted R l2 /\ (forall a b, In a l1 -> In b l2 -> R a b).
Proof.
  induction l1 as [|x l1 IH]; cbn [app].
  - split; [intros H|tauto]. split; [constructor|]. split; [exact H|intros a b []].
  - split.
    + intros H. inversion H as [|? ? Hs Hf]; subst. apply IH in Hs. destruct Hs as [S1 [S2 S3]].
      apply Forall_app in Hf. destruct Hf as [F1 F2]. split; [constructor; assumption|]. split; [exact S2|].
      intros a b [<-|Ha] Hb; [|apply S3; assumption]. rewrite Forall_forall in F2. apply F2. exact Hb.
    + intros [S1 [S2 S3]]. inversion S1 as [|? ? Hs Hf]; subst. constructor.
      * apply IH. split; [exact Hs|]. split; [exact S2|]. intros a b Ha Hb. apply S3; [right|]; assumption.
      * apply Forall_app. split; [exact Hf|]. apply Forall_forall. intros b Hb. apply S3; [left; reflexivity|exact Hb].
Qed.

Lemma StronglySorted_rev {A} (R : A -> A -> Prop) l : StronglySorted R l -> StronglySorted (fun a b => R b a) (rev l).
Proof.
  induction 1 as [|x l Hl IH Hx]; cbn [rev]; [constructor|]. apply StronglySorted_app_iff.
  split; [exact IH|]. split; [repeat constructor|]. intros a b Ha [<-|[]].
  rewrite Forall_forall in Hx. apply Hx, in_rev, Ha.
Qed.

Lemma existsb_eqb_in x l : existsb (N.eqb x) l = true <-> In x l.
Proof.
  rewrite existsb_exists. split.
  - intros [y [Hy E]]. apply N.eqb_eq in E. subst. exact Hy.
  - intros H. exists x. split; [exact H|apply N.eqb_refl].
Qed.

Lemma filter_none {A} (f : A -> bool) l : (forall x, In x l -> f x = false) -> filter f l = [].
Proof.
  induction l as [|a l IH]; cbn [filter]; intros H; [reflexivity|].
  rewrite (H a) by (left; reflexivity). apply IH. intros x Hx. apply H. right. exact Hx.
Qed.

Lemma filter_split {A} (f : A -> bool) l : Permutation (filter f l ++ filter (fun x => negb (f x)) l) l.
Proof.
  induction l as [|x l IH]; cbn [filter]; [reflexivity|].
  destruct (f x); cbn [negb app]; [constructor; exact IH|].
  apply Permutation_sym, Permutation_cons_app, Permutation_sym. exact IH.
Qed.

(* Vec::swap_remove, position *)

Lemma nth_error_perm {A} (l : list A) : forall p x, nth_error l p = Some x -> Permutation l (x :: firstn p l ++ skipn (S p) l).
Proof.
  induction l as [|y l IH]; intros [|p] x; cbn [nth_error]; try discriminate.
  - intros H; inversion H. reflexivity.
  - intros H. cbn [firstn skipn app]. rewrite perm_swap. constructor. apply IH. exact H.
Qed.
Lemma swap_remove_perm {A} (p : nat) (l : list A) x l' :
  swap_remove p l = Some (x, l') -> Permutation l (x :: l') /\ nth_error l p = Some x.
Proof.
  unfold swap_remove. destruct (nth_error l p) as [y|] eqn:E; [|discriminate].
  intros H. inversion H; subst y l'; clear H. split; [|reflexivity].
  assert (Hne : l <> []) by (intro; subst; destruct p; discriminate).
  rewrite (app_removelast_last x Hne) in E at 1. rewrite (app_removelast_last x Hne) at 1.
  generalize dependent (removelast l). generalize (last l x). clear. intros la rl E.
  assert (Hlen : (p < length (rl ++ [la]))%nat) by (apply nth_error_Some; congruence).
  rewrite app_length in Hlen. cbn in Hlen.
  destruct (Nat.eqb p (length rl)) eqn:Ep.
  - apply Nat.eqb_eq in Ep. subst p. rewrite nth_error_app2, Nat.sub_diag in E by lia. inversion E.
    symmetry. apply Permutation_cons_append.
  - apply Nat.eqb_neq in Ep. rewrite nth_error_app1 in E by lia.
    change (match rl with [] => [] | _ :: l => skipn p l end) with (skipn (S p) rl).
    apply Permutation_trans with (la :: rl); [symmetry; apply Permutation_cons_append|].
    rewrite (nth_error_perm rl p x E) at 1. rewrite perm_swap. constructor. apply Permutation_middle.
Qed.

Lemma position_nth i l p : position i l = Some p -> nth_error l p = Some i.
Proof.
  revert p. induction l as [|x l IH]; intros p; cbn; [discriminate|].
  destruct (Nat.eqb x i) eqn:E.
  - intros H; inversion H; subst. apply Nat.eqb_eq in E. subst. reflexivity.
  - destruct (position i l) as [q|]; cbn; [|discriminate]. intros H; inversion H; subst. cbn. apply IH. reflexivity.
Qed.

Lemma position_some i l : In i l -> exists p, position i l = Some p.
Proof.
  induction l as [|x l IH]; cbn; [tauto|]. intros [->|H].
  - rewrite Nat.eqb_refl. eauto.
  - destruct (Nat.eqb x i); [eauto|]. destruct (IH H) as [p ->]. cbn. eauto.
Qed.

Lemma replace_nth_length {A} p (x : A) l : length (replace_nth p x l) = length l.
Proof. revert p; induction l; intros [|p]; cbn; auto. Qed.

Lemma replace_nth_perm {A} p (i j : A) l :
  nth_error l p = Some j -> Permutation (j :: replace_nth p i l) (i :: l).
Proof.
  revert p. induction l as [|y l IH]; intros [|p]; cbn; try discriminate.
  - intros H; inversion H; subst. apply perm_swap.
  - intros H. apply Permutation_trans with (y :: j :: replace_nth p i l); [apply perm_swap|].
    apply Permutation_trans with (y :: i :: l); [constructor; apply IH; exact H|apply perm_swap].
Qed.

(* BTreeSet<usize>: membership, and the set as a permutation of its elements *)

Lemma set_remove_in i s x : In x (set_remove i s) <-> In x s /\ x <> i.
Proof.
  unfold set_remove. rewrite filter_In, Bool.negb_true_iff, Nat.eqb_neq. reflexivity.
Qed.

Lemma set_remove_perm i s : NoDup s -> In i s -> Permutation s (i :: set_remove i s).
Proof.
  intros Hn Hi. apply NoDup_Permutation; [exact Hn| |].
  - constructor; [rewrite set_remove_in; tauto|apply NoDup_filter; exact Hn].
  - intros x. cbn [In]. rewrite set_remove_in. destruct (Nat.eq_dec x i) as [->|]; intuition congruence.
Qed.

Lemma set_remove_move i s l : NoDup s -> In i s -> Permutation ((i :: l) ++ set_remove i s) (l ++ s).
Proof.
  intros Hn Hi. apply Permutation_trans with (l ++ i :: set_remove i s); [apply Permutation_middle|].
  apply Permutation_app_head, Permutation_sym, set_remove_perm; assumption.
Qed.

Lemma set_insert_in i s x : In x (set_insert i s) <-> i = x \/ In x s.
Proof.
  induction s as [|y s IH]; cbn [set_insert]; [reflexivity|].
  destruct (Nat.ltb i y); [reflexivity|].
  destruct (Nat.eqb i y) eqn:E.
  - apply Nat.eqb_eq in E. subst. cbn [In]. tauto.
  - cbn [In]. rewrite IH. tauto.
Qed.

Lemma set_insert_perm i s : ~ In i s -> Permutation (set_insert i s) (i :: s).
Proof.
  induction s as [|y s IH]; cbn [set_insert In]; intros Hn; [reflexivity|].
  destruct (Nat.ltb i y); [reflexivity|].
  destruct (Nat.eqb i y) eqn:E; [apply Nat.eqb_eq in E; subst; tauto|].
  rewrite IH by tauto. apply perm_swap.
Qed.

(* sort_by_key *)

Lemma ins_sorted_perm {A} (k : A -> N) x l : Permutation (ins_sorted k x l) (x :: l).
Proof.
  induction l as [|y l IH]; cbn; [reflexivity|].
  destruct (k x <=? k y); [reflexivity|].
  rewrite IH. apply perm_swap.
Qed.

Lemma stable_sort_perm {A} (k : A -> N) l : Permutation (stable_sort k l) l.
Proof.
  induction l as [|x l IH]; cbn; [reflexivity|].
  rewrite ins_sorted_perm, IH. reflexivity.
Qed.

Definition key_sorted {A} (k : A -> N) (l : list A) : Prop := StronglySorted (fun a b => k a <= k b) l.

Lemma ins_sorted_sorted {A} (k : A -> N) x l : key_sorted k l -> key_sorted k (ins_sorted k x l).
Proof.
  induction 1 as [|y l Hl IH Hy]; cbn; [repeat constructor|].
  destruct (k x <=? k y) eqn:E.
  - apply N.leb_le in E. constructor; [constructor; auto|].
    constructor; auto. rewrite Forall_forall in *. intros z Hz. specialize (Hy _ Hz). cbn in *. lia.
  - apply N.leb_gt in E. constructor; auto.
    apply Forall_forall. intros z Hz.
    apply (Permutation_in _ (ins_sorted_perm k x l)) in Hz. destruct Hz as [<-|Hz]; [lia|].
    rewrite Forall_forall in Hy. auto.
Qed.

Lemma stable_sort_sorted {A} (k : A -> N) l : key_sorted k (stable_sort k l).
Proof. induction l; cbn; [constructor|apply ins_sorted_sorted; auto]. Qed.

(* gen_range under the script *)

Lemma next_choice_lt n cs : n <> O -> (fst (next_choice n cs) < n)%nat.
Proof.
  intros Hn. unfold next_choice. destruct cs as [|c cs]; cbn; [lia|].
  destruct (Nat.eqb n O) eqn:E; [apply Nat.eqb_eq in E; lia|].
  assert (c mod N.of_nat n < N.of_nat n) by (apply N.mod_lt; lia). lia.
Qed.

Lemma by_or_zero_Q sel v : by_or_zero sel v = Q sel v.
Proof.
  destruct sel as [|p n]; [reflexivity|]. unfold by_or_zero, by_val, Q, qty, opt_ma_qty, ma_qty, ma_get_asset.
  destruct (multiasset_of v) as [m|]; [|reflexivity]. destruct (ma_get p m); reflexivity.
Qed.

Lemma by_val_Q sel v x : by_val sel v = Some x -> Q sel v = x.
Proof. intros H. rewrite <- by_or_zero_Q. unfold by_or_zero. rewrite H. reflexivity. Qed.

Lemma by_val_none_Q sel v : by_val sel v = None -> Q sel v = 0.
Proof. intros H. rewrite <- by_or_zero_Q. unfold by_or_zero. rewrite H. reflexivity. Qed.

Lemma vadd_Q a b c : value_wf a -> value_wf b -> value_checked_add a b = Ok c ->
  (forall sel, Q sel c = Q sel a + Q sel b) /\ value_wf c.
Proof.
  intros Wa Wb E. destruct (value_checked_add_ok a b c Wa Wb E) as [C [Qq Wc]].
  split; [|exact Wc]. intros [|p n]; cbn; auto.
Qed.

Lemma value_new_wf x : x < two64 -> value_wf (value_new x).
Proof. intros H. unfold value_wf, value_wfb. cbn. apply N.ltb_lt in H. rewrite H. reflexivity. Qed.

Lemma Q_value_new sel x : Q sel (value_new x) = coin_only sel x.
Proof. destruct sel; reflexivity. Qed.

Lemma vadd_new a f c : value_wf a -> value_checked_add a (value_new f) = Ok c ->
  (forall sel, Q sel c = Q sel a + coin_only sel f) /\ value_wf c.
Proof.
  intros Wa E.
  assert (Hf : f < two64).
  { unfold value_checked_add in E. cbn [coin value_new] in E. unfold u64_add in E.
    destruct (coin a + f <? two64) eqn:L; cbn [bind] in E; [|discriminate]. apply N.ltb_lt in L. lia. }
  destruct (vadd_Q _ _ _ Wa (value_new_wf f Hf) E) as [Qc Wc]. split; [|exact Wc].
  intros sel. rewrite Qc. rewrite Q_value_new. reflexivity.
Qed.

Lemma sumQ_app sel l1 l2 : sumQ sel (l1 ++ l2) = sumQ sel l1 + sumQ sel l2.
Proof. unfold sumQ. induction l1; cbn [app fold_right]; [reflexivity|]. rewrite IHl1. lia. Qed.

Lemma sumQ_perm sel l1 l2 : Permutation l1 l2 -> sumQ sel l1 = sumQ sel l2.
Proof. unfold sumQ. induction 1; cbn [fold_right]; lia. Qed.

Lemma sum_values_Q acc l r : value_wf acc -> Forall value_wf l -> sum_values acc l = Ok r ->
  (forall sel, Q sel r = Q sel acc + sumQ sel l) /\ value_wf r.
Proof.
  revert acc. induction l as [|x l IH]; intros acc Wacc Wl; cbn [sum_values].
  - intros H; inversion H; subst. split; auto. intros; unfold sumQ; cbn [fold_right]; lia.
  - destruct (value_checked_add acc x) as [a| | |] eqn:E; cbn [bind]; try discriminate.
    inversion Wl; subst. destruct (vadd_Q _ _ _ Wacc H1 E) as [Qa Wa].
    intros H. destruct (IH a Wa H2 H) as [Qr Wr]. split; auto.
    intros sel. rewrite Qr, Qa. unfold sumQ; cbn [fold_right]. lia.
Qed.

(* the selectors and the guard of the assets of a target *)
Lemma selectors_complete v p n : qty v p n <> 0 -> In (ByAsset p n) (asset_selectors v).
Proof.
  unfold qty, opt_ma_qty, asset_selectors. destruct (multiasset_of v) as [m|]; [|tauto].
  intros H. apply qty_in_entries in H.
  apply in_map_iff. exists (p, n, ma_qty m p n). split; auto.
Qed.

Lemma asset_guard_covers st : asset_guard st = true -> forall p n, Q (ByAsset p n) (st_out st) <= Q (ByAsset p n) (st_in st).
Proof.
  unfold asset_guard. intros H p n. cbn [Q]. unfold qty at 1, opt_ma_qty.
  destruct (multiasset_of (st_out st)) as [m|]; [|lia].
  destruct (N.eq_dec (ma_qty m p n) 0) as [E|E]; [rewrite E; lia|].
  pose proof (qty_in_entries m p n E) as Hin. rewrite forallb_forall in H. specialize (H _ Hin). cbn in H.
  apply N.leb_le in H. exact H.
Qed.

Lemma asset_guard_complete st : value_wf (st_out st) ->
  (forall p n, Q (ByAsset p n) (st_out st) <= Q (ByAsset p n) (st_in st)) -> asset_guard st = true.
Proof.
  unfold asset_guard. intros W H. destruct (multiasset_of (st_out st)) as [m|] eqn:Em; [|reflexivity].
  apply value_wf_iff in W. rewrite Em in W. destruct W as [_ Wm].
  apply forallb_forall. intros [[p n] q] Hin.
  specialize (H p n). cbn [Q] in H. unfold qty at 1 in H. rewrite Em in H. cbn [opt_ma_qty] in H.
  rewrite (entries_in_qty m p n q Wm Hin) in H. apply N.leb_le. exact H.
Qed.

Lemma imap_insert_perm u m : ~ In (u_id u) (ids m) -> Permutation (imap_insert u m) (u :: m).
Proof.
  induction m as [|x m IH]; cbn; [reflexivity|]. intros Hn.
  destruct (N.compare (u_id u) (u_id x)) eqn:E.
  - apply N.compare_eq in E. exfalso. apply Hn. left. congruence.
  - reflexivity.
  - rewrite IH by tauto. apply perm_swap.
Qed.

Definition insert_all (added : list utxo) (m : imap) : imap := fold_left (fun m u => imap_insert u m) added m.

Lemma insert_all_perm added m : NoDup (ids m ++ ids added) -> Permutation (insert_all added m) (m ++ added).
Proof.
  revert m. induction added as [|u l IH]; intros m Hnd; cbn.
  - rewrite app_nil_r. reflexivity.
  - unfold ids in Hnd. cbn [map] in Hnd. rewrite <- Permutation_middle in Hnd. inversion Hnd as [|? ? Hu Hnd']; subst.
    rewrite in_app_iff in Hu. pose proof (imap_insert_perm u m) as Hp.
    rewrite IH; unfold ids; rewrite Hp by tauto; [apply Permutation_middle|exact Hnd].
Qed.

Lemma imap_of_list_perm l : NoDup (ids l) -> Permutation (imap_of_list l) l.
Proof. intros H. apply (insert_all_perm l []). exact H. Qed.

(* push_input's normalisation: same outpoint, same quantities, well formed *)

Lemma ids_norm l : ids (map norm_utxo l) = ids l.
Proof. unfold ids. rewrite map_map. reflexivity. Qed.

Lemma Q_norm sel v : value_wf v -> Q sel (value_without_empty_entries v) = Q sel v.
Proof.
  intros W. destruct (value_without_empty_entries_sem v W) as [C Hq]. destruct sel; cbn [Q]; auto.
Qed.

Lemma sumQ_norm sel l : Forall (fun u => value_wf (u_val u)) l ->
  sumQ sel (map u_val (map norm_utxo l)) = sumQ sel (map u_val l).
Proof.
  induction 1 as [|u l W _ IH]; [reflexivity|]. unfold sumQ in *. cbn [map fold_right norm_utxo u_val].
  rewrite IH. rewrite (Q_norm sel _ W). reflexivity.
Qed.

Lemma norm_wf l : Forall (fun u => value_wf (u_val u)) l -> Forall (fun u => value_wf (u_val u)) (map norm_utxo l).
Proof.
  induction 1; cbn [map]; constructor; auto. cbn [norm_utxo u_val]. apply value_without_empty_entries_wf. assumption.
Qed.

(* get_total_input and get_total_output are the supply and the demand (before any fee) of the specification *)

Lemma demand_fee s sc f g : demand s sc (f + g) = demand s sc f + coin_only s g.
Proof. unfold demand. destruct s; cbn [coin_only]; lia. Qed.

Lemma total_input_Q sc m v :
  Forall (fun u => value_wf (u_val u)) m -> value_wf (sc_implicit sc) -> value_wf (sc_mint sc) ->
  total_input sc m = Ok v -> (forall s, Q s v = supply s sc m) /\ value_wf v.
Proof.
  intros Wm Wimp Wmint E. unfold total_input in E.
  apply bind_ok in E. destruct E as [e [E1 E]]. apply bind_ok in E. destruct E as [x [E2 E]].
  apply Forall_map in Wm.
  destruct (sum_values_Q _ _ _ (value_new_wf 0 eq_refl) Wm E1) as [Qe We].
  destruct (vadd_Q _ _ _ We Wimp E2) as [Qx Wx]. destruct (vadd_Q _ _ _ Wx Wmint E) as [Qv Wv].
  split; [|exact Wv]. intros s. unfold supply. rewrite Qv, Qx, Qe. destruct s; cbn [Q value_zero value_new coin qty multiasset_of opt_ma_qty]; lia.
Qed.

Lemma total_output_Q sc t :
  Forall (fun o => value_wf (o_val o)) (sc_outputs sc) -> value_wf (sc_burn sc) ->
  total_output sc = Ok t -> (forall s, Q s t = demand s sc 0) /\ value_wf t.
Proof.
  intros Wo Wburn E. unfold total_output in E.
  apply bind_ok in E. destruct E as [e [E1 E]]. apply bind_ok in E. destruct E as [x [E2 E]].
  apply bind_ok in E. destruct E as [y [E3 E]]. apply Forall_map in Wo.
  destruct (sum_values_Q _ _ _ (value_new_wf 0 eq_refl) Wo E1) as [Qe We].
  destruct (vadd_new _ _ _ We E2) as [Qx Wx]. destruct (vadd_Q _ _ _ Wx Wburn E3) as [Qy Wy].
  assert (Ht : (forall s, Q s t = Q s y + coin_only s (match sc_donation sc with Some d => d | None => 0 end)) /\ value_wf t).
  { destruct (sc_donation sc) as [d|]; [exact (vadd_new _ _ _ Wy E)|].
    inversion E; subst. split; [|exact Wy]. intros s. destruct s; cbn [coin_only]; lia. }
  destruct Ht as [Qt Wt]. split; [|exact Wt].
  intros s. unfold demand. rewrite Qt, Qy, Qx, Qe. destruct s; cbn [Q value_new coin qty multiasset_of opt_ma_qty coin_only]; lia.
Qed.

(* The offered list: the pre-step's last element, filter_offered, the UTxOs at a list of positions (added_utxos) *)

Lemma rev_last_nth {A} (l : list A) u r : rev l = u :: r -> nth_error l (length l - 1) = Some u /\ removelast l = rev r.
Proof.
  intros H. assert (Hl : l = rev r ++ [u]) by (rewrite <- (rev_involutive l), H; reflexivity).
  subst l. split.
  - rewrite app_length. cbn [length]. rewrite nth_error_app2 by lia.
    replace (length (rev r) + 1 - 1 - length (rev r))%nat with O by lia. reflexivity.
  - apply removelast_last.
Qed.

Lemma removelast_prefix {A} (l : list A) i x : nth_error (removelast l) i = Some x -> nth_error l i = Some x.
Proof.
  destruct l as [|y l0] eqn:E; [cbn; auto|]. rewrite <- E in *.
  assert (Hne : l <> []) by (subst; discriminate).
  intros H. rewrite (app_removelast_last y Hne). rewrite nth_error_app1; auto.
  apply nth_error_Some. congruence.
Qed.

Lemma nodup_ids_nth (l : list utxo) i j u w :
  NoDup (ids l) -> nth_error l i = Some u -> nth_error l j = Some w -> u_id u = u_id w -> i = j.
Proof.
  intros Hnd Hi Hj Heq.
  assert (Hi' : nth_error (ids l) i = Some (u_id u)) by (unfold ids; rewrite nth_error_map, Hi; reflexivity).
  assert (Hj' : nth_error (ids l) j = Some (u_id u)) by (unfold ids; rewrite nth_error_map, Hj, Heq; reflexivity).
  rewrite NoDup_nth_error in Hnd. apply Hnd; [apply nth_error_Some; congruence|congruence].
Qed.

Lemma added_in offered tr u : In u (added_utxos offered tr) -> exists i, In i tr /\ nth_error offered i = Some u.
Proof.
  unfold added_utxos. intros H. apply in_flat_map in H. destruct H as [i [Hi Hu]].
  exists i. split; auto. destruct (nth_error offered i) as [w|]; [|destruct Hu].
  destruct Hu as [->|[]]. reflexivity.
Qed.

Lemma nodup_added offered tr : NoDup (ids offered) -> NoDup tr -> NoDup (ids (added_utxos offered tr)).
Proof.
  intros Hnd. induction tr as [|i tr IH]; intros Ht; [constructor|].
  inversion Ht; subst. change (i :: tr) with ([i] ++ tr). unfold added_utxos in *. rewrite flat_map_app. cbn [flat_map].
  destruct (nth_error offered i) as [u|] eqn:Eu; cbn [app]; [|apply IH; auto].
  unfold ids. cbn [map]. constructor; [|apply IH; auto].
  intro Hin. apply in_map_iff in Hin. destruct Hin as [w [Hw Hin]].
  apply added_in in Hin. destruct Hin as [j [Hj Hnj]].
  assert (i = j) by (eapply nodup_ids_nth; eauto). subst. tauto.
Qed.

Lemma filter_offered_incl l : forall seen, incl (filter_offered seen l) l.
Proof.
  induction l as [|u r IH]; intros seen; cbn [filter_offered]; [apply incl_refl|].
  destruct (id_mem (u_id u) seen).
  - apply incl_tl. apply IH.
  - intros x [<-|Hx]; [left; reflexivity|right; apply (IH _ x Hx)].
Qed.

Lemma filter_offered_nodup l : forall seen,
  NoDup (ids (filter_offered seen l)) /\ (forall x, In x (ids (filter_offered seen l)) -> ~ In x seen).
Proof.
  induction l as [|u r IH]; intros seen; cbn [filter_offered].
  - split; [constructor|intros x []].
  - destruct (id_mem (u_id u) seen) eqn:E; [apply IH|].
    destruct (IH (u_id u :: seen)) as [Hn Hd]. unfold ids in *. cbn [map]. split.
    + constructor; auto. intro Hin. apply (Hd _ Hin). left; reflexivity.
    + intros x [<-|Hx].
      * intro Hin. apply existsb_eqb_in in Hin. unfold id_mem in E. congruence.
      * intro Hin. apply (Hd _ Hx). right; exact Hin.
Qed.

Lemma initial_map_perm sc : pre_distinct sc -> Permutation (initial_map sc) (map norm_utxo (sc_pre sc)).
Proof. intros Hp. apply imap_of_list_perm. rewrite ids_norm. exact Hp. Qed.

Lemma initial_ids sc : pre_distinct sc -> Permutation (ids (initial_map sc)) (ids (sc_pre sc)).
Proof. intros Hp. rewrite <- (ids_norm (sc_pre sc)). apply Permutation_map, initial_map_perm. exact Hp. Qed.

Lemma has_key_coin offered j : has_key ByCoin offered j = true <-> (j < length offered)%nat.
Proof.
  unfold has_key. rewrite <- nth_error_Some. destruct (nth_error offered j); cbn [is_some by_val]; split; congruence.
Qed.

Lemma added_seq offered : added_utxos offered (seq 0 (length offered)) = offered.
Proof.
  unfold added_utxos.
  assert (G : forall pre l : list utxo, flat_map (fun i => match nth_error (pre ++ l) i with Some u => [u] | None => [] end)
                                     (seq (length pre) (length l)) = l).
  { intros pre l. revert pre. induction l as [|x l IH]; intros pre; cbn [length seq flat_map]; [reflexivity|].
    rewrite nth_error_app2 by lia. rewrite Nat.sub_diag. cbn [nth_error app]. f_equal.
    specialize (IH (pre ++ [x])). rewrite <- app_assoc in IH. cbn [app] in IH.
    rewrite app_length in IH. cbn [length] in IH. rewrite Nat.add_1_r in IH. exact IH. }
  apply (G [] offered).
Qed.

Lemma added_perm offered l1 l2 : Permutation l1 l2 -> Permutation (added_utxos offered l1) (added_utxos offered l2).
Proof. apply Permutation_flat_map. Qed.

Lemma sumQ_zero_rest s eff rest :
  (forall i, In i rest -> has_key s eff i = false) -> sumQ s (map u_val (added_utxos eff rest)) = 0.
Proof.
  induction rest as [|i rest IH]; intros H; [reflexivity|].
  change (i :: rest) with ([i] ++ rest). unfold added_utxos in *. rewrite flat_map_app, map_app, sumQ_app.
  rewrite IH by (intros j Hj; apply H; right; exact Hj). cbn [flat_map app].
  pose proof (H i (or_introl eq_refl)) as Hk. unfold has_key in Hk.
  destruct (nth_error eff i) as [u|]; [|reflexivity].
  destruct (by_val s (u_val u)) eqn:E; [discriminate Hk|].
  unfold sumQ. cbn [app map fold_right]. rewrite (by_val_none_Q _ _ E). lia.
Qed.

(* the positions left out hold nothing of the quantity *)
Lemma sumQ_all_candidates s eff l rest :
  Permutation (l ++ rest) (seq 0 (length eff)) -> (forall i, In i rest -> has_key s eff i = false) ->
  sumQ s (map u_val (added_utxos eff l)) = sumQ s (map u_val eff).
Proof.
  intros P Hr. transitivity (sumQ s (map u_val (added_utxos eff (seq 0 (length eff))))); [|rewrite added_seq; reflexivity].
  rewrite <- (sumQ_perm s _ _ (Permutation_map u_val (added_perm eff _ _ P))).
  unfold added_utxos at 2. rewrite flat_map_app, map_app, sumQ_app. fold (added_utxos eff rest).
  rewrite (sumQ_zero_rest _ _ _ Hr). unfold added_utxos. lia.
Qed.
