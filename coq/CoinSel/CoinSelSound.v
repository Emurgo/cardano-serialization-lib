(* C08 — add_inputs_from as a whole (the code as it is now), for every offered list, every builder content, every
   sequence of random choices and arbitrary min_fee / fee_for_input: a success takes distinct positions of the effective
   offered list, starting from the initial state ([select_run]); in every state reached that way input_total and
   output_total are the supply and the demand of the specification ([reach_account]); so the clauses of the
   specification hold ([run_sound]).  For largest-first without the pre-step: no proper prefix of a pass covers the
   target ([uncovered_prefix]), and what an insufficiency report means ([insufficient_means]).  Props/C08.v derives the
   theorems of the property from these.  Last, the judge that the check evaluates is sound. *)
From CSL Require Import Base.Prelude Base.Facts Num.Value Num.ValueProofs Num.ValueNorm Num.ValueNormProofs CoinSel.CoinSel CoinSel.CoinSelSpec CoinSel.CoinSelLemmas
  CoinSel.CoinSelProofs.
From Coq Require Import Permutation Sorting.Sorted.
Local Open Scope N_scope.

Lemma no_asset_qty v : value_has_asset v = false -> forall p n, qty v p n = 0.
Proof.
  unfold value_has_asset, qty, opt_ma_qty. destruct (multiasset_of v) as [m|]; [|reflexivity].
  intros H p n. destruct (N.eq_dec (ma_qty m p n) 0) as [E|E]; [exact E|].
  exfalso. pose proof (qty_in_entries m p n E) as Hin.
  assert (Hex : existsb (fun e : bytes * bytes * N => let '(_, _, q) := e in 0 <? q) (ma_entries m) = true).
  { apply existsb_exists. exists (p, n, ma_qty m p n). split; auto. apply N.ltb_lt. lia. }
  rewrite Hex in H. discriminate.
Qed.

Lemma outputs_no_assets sc : outputs_have_assets sc = false ->
  forall p n, sumQ (ByAsset p n) (map o_val (sc_outputs sc)) = 0.
Proof.
  unfold outputs_have_assets. intros H p n. induction (sc_outputs sc) as [|o l IH]; [reflexivity|].
  cbn [existsb] in H. apply Bool.orb_false_iff in H. destruct H as [H1 H2].
  unfold sumQ in *. cbn [map fold_right]. rewrite (IH H2).
  cbn [Q]. unfold qty. destruct (multiasset_of (o_val o)); [discriminate|]. reflexivity.
Qed.

Section Sound.
  Variable min_fee : imap -> result N.
  Variable ffi : imap -> utxo -> result N.

  Lemma initial_trace sc st0 : initial_state min_fee sc = (st0, Done tt) -> st_trace st0 = [].
  Proof. unfold initial_state. intros H. do 2 ob H. inversion H. reflexivity. Qed.

  (* get_total_input / get_total_output + min_fee: the totals selection starts from *)
  Lemma initial_ok offered sc st0 :
    scenario_wf offered sc -> pre_distinct sc -> initial_state min_fee sc = (st0, Done tt) ->
    let m0 := initial_map sc in
    st_inputs st0 = m0 /\ st_trace st0 = [] /\ wf_st st0 /\
    (forall s, Q s (st_in st0) = supply s sc m0) /\
    exists f0, min_fee m0 = Ok f0 /\ forall s, Q s (st_out st0) = demand s sc f0.
  Proof.
    intros [_ [Wpre [Wout [Wimp [Wmint Wburn]]]]] Hnd H m0. unfold initial_state in H. fold m0 in H.
    assert (Wm0 : Forall (fun u => value_wf (u_val u)) m0).
    { unfold m0. rewrite (initial_map_perm sc Hnd). apply norm_wf. exact Wpre. }
    destruct (total_input sc m0) as [it0| | |] eqn:Ei; cbn [of_result obind] in H; try discriminate H.
    match type of H with obind _ (of_result ?r) _ = _ => destruct r as [ot0| | |] eqn:Eo end;
      cbn [of_result obind] in H; try discriminate H.
    inversion H; subst st0; clear H. cbn [st_inputs st_in st_out st_trace].
    destruct (total_input_Q _ _ _ Wm0 Wimp Wmint Ei) as [Qi Wi].
    apply bind_ok in Eo. destruct Eo as [t [Et Eo]]. apply bind_ok in Eo. destruct Eo as [f0 [Ef Eo]].
    destruct (total_output_Q _ _ Wout Wburn Et) as [Qt Wt]. destruct (vadd_new _ _ _ Wt Eo) as [Qo Wo].
    conj; auto; [split; assumption|].
    exists f0. split; [exact Ef|]. intros s. rewrite Qo, Qt, <- demand_fee. reflexivity.
  Qed.

  (* the offered UTxOs that selection looks at *)
  Lemma effective_ok offered sc :
    scenario_wf offered sc -> pre_distinct sc ->
    let eff := effective_offered current offered sc in
    incl eff offered /\ Forall (fun u => value_wf (u_val u)) eff /\ distinct_outpoints eff sc.
  Proof.
    intros Hwf Hp eff. assert (Hi : incl eff offered) by apply filter_offered_incl.
    conj; [exact Hi| |].
    - apply (incl_Forall Hi). apply Hwf.
    - destruct (filter_offered_nodup offered (imap_ids (initial_map sc))) as [Hn Hdis].
      apply NoDup_app_iff. conj; [exact Hn|exact Hp|]. intros x Hx Hpre. apply (Hdis x Hx).
      apply (Permutation_in _ (Permutation_sym (initial_ids sc Hp))). exact Hpre.
  Qed.

  (* input_total and output_total of every state reached from the initial one are supply and demand *)
  Lemma reach_account offered sc st0 P l st :
    scenario_wf offered sc -> pre_distinct sc -> initial_state min_fee sc = (st0, Done tt) ->
    let eff := effective_offered current offered sc in
    let m0 := initial_map sc in
    run ffi eff P st0 l st ->
    st_trace st = l /\ st_inputs st = insert_all (map norm_utxo (added_utxos eff l)) m0 /\
    (forall s, Q s (st_in st) = supply s sc (m0 ++ added_utxos eff l)) /\
    exists fee, required_fee min_fee ffi m0 (added_utxos eff l) = Ok fee /\
                forall s, Q s (st_out st) = demand s sc fee.
  Proof.
    intros Hwf Hp E0 eff m0 R. subst eff m0.
    destruct (initial_ok _ _ _ Hwf Hp E0) as [Hm0 [Ht0 [W0 [Qi0 [f0 [Hf0 Qo0]]]]]]. cbn zeta in *.
    destruct (effective_ok _ _ Hwf Hp) as [_ [Weff _]].
    destruct (run_spec _ _ Weff _ _ _ _ R W0) as [_ [Ht [Hm [Qi [fees [Hfees Qo]]]]]].
    rewrite Ht0 in Ht. rewrite Hm0 in Hm, Hfees. conj; auto.
    - intros s. rewrite Qi, Qi0. unfold supply. rewrite map_app, sumQ_app. lia.
    - exists (f0 + fees). unfold required_fee. rewrite Hf0. cbn [bind]. rewrite Hfees. split; [reflexivity|].
      intros s. rewrite Qo, Qo0, demand_fee. reflexivity.
  Qed.

  (* "just add first input": the pre-step takes the last position, which is then no longer selectable, or nothing *)
  Lemma prestep_takes eff st0 avail st1 :
    prestep ffi current eff st0 = (avail, (st1, Done tt)) ->
    takes ffi eff st0 (seq 0 (length eff)) st1 (seq 0 (length avail)) /\
    forall i u, nth_error avail i = Some u -> nth_error eff i = Some u.
  Proof.
    unfold prestep. destruct ((coin (st_out st0) <=? coin (st_in st0)) && is_nil (st_inputs st0)).
    - destruct (rev eff) as [|u r] eqn:Er; [discriminate|]. intros H.
      destruct (rev_last_nth _ _ _ Er) as [Hu Hrl]. injection H as <- Hadd. cbn [v_prestep_fee current] in Hadd.
      assert (Hlen : length eff = S (length (removelast eff))).
      { rewrite Hrl, rev_length, <- (rev_length eff), Er. reflexivity. }
      split; [|intros i x; apply removelast_prefix].
      exists [(length eff - 1)%nat]. split.
      + apply (run_cons _ _ _ _ _ _ _ _ _ I Hu Hadd). constructor.
      + rewrite Hlen, seq_S, Nat.sub_succ, Nat.sub_0_r. apply Permutation_cons_append.
    - intros H. injection H as <- <-. split; [apply takes_refl|auto].
  Qed.

  (* a successful selection takes positions out of those of the effective offered list, from the initial state *)
  Lemma select_run strat cs offered sc st' :
    scenario_wf offered sc -> pre_distinct sc ->
    add_inputs_from min_fee ffi current strat cs offered sc = (st', Done tt) ->
    exists st0 rest, initial_state min_fee sc = (st0, Done tt) /\
      takes ffi (effective_offered current offered sc) st0 (seq 0 (length (effective_offered current offered sc))) st' rest /\
      coin (st_out st') <= coin (st_in st') /\ asset_guard st' = true.
  Proof.
    intros Hwf Hp H. destruct (effective_ok _ _ Hwf Hp) as [_ [Weff _]].
    unfold add_inputs_from in H. set (eff := effective_offered current offered sc) in *.
    destruct (initial_state min_fee sc) as [st0 x0] eqn:E0. ob H. destruct a.
    destruct (prestep ffi current eff st0) as [avail [st1 x1]] eqn:Epre. ob H. destruct a.
    destruct (prestep_takes _ _ _ _ Epre) as [T0 Havail].
    destruct (run_strategy ffi current strat cs avail sc st1) as [st2 x2] eqn:Erun. ob H. destruct a.
    cbn [v_asset_guard current andb] in H.
    destruct (asset_guard st2) eqn:Eg; cbn [negb] in H; [|discriminate H]. inversion H; subst st2; clear H.
    destruct (strategy_run _ _ Weff _ Havail _ _ _ _ _ Erun) as [rest [T Hc]].
    exists st0, rest. conj; auto. eapply takes_trans; eauto.
  Qed.

  (* the clauses of the specification hold whenever positions have been taken from the initial state and the lovelace
     and the assets of the target are covered *)
  Lemma run_sound offered sc st0 rest st' :
    scenario_wf offered sc -> pre_distinct sc -> initial_state min_fee sc = (st0, Done tt) ->
    takes ffi (effective_offered current offered sc) st0 (seq 0 (length (effective_offered current offered sc))) st' rest ->
    coin (st_out st') <= coin (st_in st') -> asset_guard st' = true ->
    sound_result min_fee ffi false offered (effective_offered current offered sc) sc st'.
  Proof.
    intros Hwf Hp E0 [l [R P]] Hc Hg.
    assert (Hn : NoDup l).
    { pose proof (seq_NoDup (length (effective_offered current offered sc)) 0) as Hn. rewrite <- P in Hn.
      apply NoDup_app_iff in Hn. apply Hn. }
    destruct (reach_account _ _ _ _ _ _ Hwf Hp E0 R) as [Ht [Hm [Qi [fee [Hf Qo]]]]].
    destruct (effective_ok _ _ Hwf Hp) as [Hincl [Weff Hd]].
    set (eff := effective_offered current offered sc) in *. set (m0 := initial_map sc) in *.
    unfold sound_result. fold m0. rewrite Ht. set (added := added_utxos eff l) in *.
    apply NoDup_app_iff in Hd. destruct Hd as [Hnd_eff [_ Hdis]].
    assert (Hsub : incl added eff).
    { intros u Hu. apply added_in in Hu. destruct Hu as [i [_ Hi]]. eapply nth_error_In; eauto. }
    assert (Hperm : Permutation (st_inputs st') (m0 ++ map norm_utxo added)).
    { rewrite Hm. apply insert_all_perm. rewrite ids_norm. unfold m0. rewrite (initial_ids sc Hp).
      apply NoDup_app_iff. conj; [exact Hp|apply nodup_added; assumption|].
      intros x Hx Ha. apply (Hdis x); [|exact Hx]. apply (incl_map u_id Hsub). exact Ha. }
    assert (Hsup : forall s, supply s sc (st_inputs st') = Q s (st_in st')).
    { intros s. rewrite Qi. unfold supply. rewrite (sumQ_perm s _ _ (Permutation_map u_val Hperm)), !map_app, !sumQ_app, sumQ_norm; [reflexivity|].
      apply (incl_Forall Hsub Weff). }
    unfold distinct_members, preserved, covers_coin, covers_assets, covers_q. conj.
    - apply nodup_added; assumption.
    - eapply incl_tran; eauto.
    - intros u Hu. rewrite Hperm. apply in_or_app; auto.
    - intros u Hu. rewrite Hperm in Hu. apply in_app_or in Hu. exact Hu.
    - intros u Hu. rewrite Hperm. apply in_or_app; auto.
    - rewrite Hperm. apply app_length.
    - exists fee. conj; [exact Hf|rewrite Hsup, <- Qo; exact Hc|].
      intros _ p n. rewrite Hsup. change (demand (ByAsset p n) sc 0) with (demand (ByAsset p n) sc fee).
      rewrite <- Qo. apply asset_guard_covers. exact Hg.
  Qed.

  (* when fees are additive, the required fee is the minimum fee of the builder holding the added inputs *)
  Lemma required_fee_final added : forall m fee,
    fee_additive min_fee ffi -> required_fee min_fee ffi m added = Ok fee ->
    min_fee (insert_all (map norm_utxo added) m) = Ok fee.
  Proof.
    induction added as [|u r IH]; intros m fee Ha H; unfold required_fee in H; cbn [marginal_fees map insert_all fold_left] in *.
    - destruct (min_fee m) as [f0| | |]; cbn [bind] in H; try discriminate H. inversion H; subst. f_equal. lia.
    - destruct (min_fee m) as [f0| | |] eqn:E0; cbn [bind] in H; try discriminate H.
      destruct (ffi m u) as [f| | |] eqn:Ef; cbn [bind] in H; try discriminate H.
      destruct (marginal_fees ffi (imap_insert (norm_utxo u) m) r) as [fs| | |] eqn:Er; cbn [bind] in H; try discriminate H.
      inversion H; subst. apply (IH (imap_insert (norm_utxo u) m)); auto. unfold required_fee. rewrite (Ha _ _ _ Ef _ E0). cbn [bind].
      rewrite Er. cbn [bind]. f_equal. lia.
  Qed.

  (* Largest-first at the level of add_inputs_from, when more lovelace is needed than the builder already holds (so
     that the "at least one input" pre-step does not fire).  Positions refer to the effective offered list (offered
     UTxOs not yet in the builder, each outpoint once). *)

  (* without the pre-step, add_inputs_from is the strategy run from the initial state, then the asset guard *)
  Lemma no_prestep strat cs offered sc st0 :
    initial_state min_fee sc = (st0, Done tt) -> coin (st_in st0) < coin (st_out st0) ->
    add_inputs_from min_fee ffi current strat cs offered sc =
    let '(st2, x2) := run_strategy ffi current strat cs (effective_offered current offered sc) sc st0 in
    obind st2 x2 (fun _ => if negb (asset_guard st2) then (st2, Insufficient) else (st2, Done tt)).
  Proof.
    intros E0 Hlt. apply N.leb_gt in Hlt. unfold add_inputs_from, prestep. rewrite E0. cbn [obind]. rewrite Hlt. reflexivity.
  Qed.

  Lemma lf_top_unfold cs offered sc st0 st' r :
    initial_state min_fee sc = (st0, Done tt) -> coin (st_in st0) < coin (st_out st0) ->
    add_inputs_from min_fee ffi current LargestFirst cs offered sc = (st', r) ->
    (st' = st0 /\ r = Failed) \/
    exists r', lf_by ffi ByCoin (effective_offered current offered sc)
                     (seq 0 (length (effective_offered current offered sc))) st0 = (st', r') /\
               r = ob r' (fun _ => if asset_guard st' then Done tt else Insufficient).
  Proof.
    intros E0 Hlt H. rewrite (no_prestep _ _ _ _ _ E0 Hlt) in H. unfold run_strategy in H.
    destruct (outputs_have_assets sc).
    - left. inversion H; auto.
    - right. unfold drop_locals in H.
      destruct (lf_by ffi ByCoin _ _ st0) as [st2 r2]. exists r2.
      destruct r2; cbn [ob obind] in H. 2-5: inversion H; auto.
      destruct (asset_guard st2) eqn:Eg; inversion H; subst; rewrite Eg; auto.
  Qed.

  (* a run in which no input is added to a state covering the target: no proper prefix of it covers the target *)
  Lemma uncovered_prefix offered sc st0 sel l st' k :
    scenario_wf offered sc -> pre_distinct sc -> initial_state min_fee sc = (st0, Done tt) ->
    let eff := effective_offered current offered sc in
    let before := initial_map sc in
    run ffi eff (uncovered sel) st0 l st' -> (k < length l)%nat ->
    let prefix := added_utxos eff (firstn k l) in
    exists fk, required_fee min_fee ffi before prefix = Ok fk /\ ~ covers_q sel sc (before ++ prefix) fk.
  Proof.
    intros Hwf Hd E0 eff before R Hk prefix.
    destruct (run_prefix _ _ _ _ _ _ _ R Hk) as [stk [Rk Pk]].
    destruct (reach_account _ _ _ _ _ _ Hwf Hd E0 Rk) as [_ [_ [Qi [fk [Hfk Qo]]]]].
    exists fk. split; [exact Hfk|]. unfold covers_q. rewrite <- Qi, <- Qo.
    apply uncovered_lt in Pk. lia.
  Qed.

  (* what an insufficiency report of a largest-first pass means, whatever was added before it: every offered UTxO that
     holds the quantity has been added, and all offered UTxOs together hold less of it than the target with the fee
     of the inputs added *)
  Lemma insufficient_means offered sc st0 sel aidx1 st1 st' :
    scenario_wf offered sc -> pre_distinct sc -> initial_state min_fee sc = (st0, Done tt) ->
    let eff := effective_offered current offered sc in
    let before := initial_map sc in
    takes ffi eff st0 (seq 0 (length eff)) st1 aidx1 -> lf_by ffi sel eff aidx1 st1 = (st', Insufficient) ->
    Permutation (st_trace st' ++ filter (fun i => negb (has_key sel eff i)) aidx1) (seq 0 (length eff)) /\
    exists fee, required_fee min_fee ffi before (added_utxos eff (st_trace st')) = Ok fee /\
                supply sel sc (before ++ eff) < demand sel sc fee.
  Proof.
    intros Hwf Hd E0 eff before T1 Hlf. subst eff before.
    destruct (largest_first_complete _ _ _ (fun _ _ E => E) _ _ _ _ Hlf) as [R Hu].
    destruct (takes_trans _ _ _ _ _ _ _ _ T1 (run_takes _ _ _ _ _ _ _ _ R (lf_relevant_split _ sel aidx1))) as [l [R' P]].
    destruct (reach_account _ _ _ _ _ _ Hwf Hd E0 R') as [Ht [_ [Qi [fee [Hf Qo]]]]].
    rewrite Ht. split; [exact P|]. exists fee. split; [exact Hf|]. rewrite <- Qo.
    apply uncovered_lt in Hu.
    replace (supply sel sc (initial_map sc ++ effective_offered current offered sc)) with (Q sel (st_in st')); [exact Hu|].
    rewrite Qi. unfold supply. rewrite !map_app, !sumQ_app, (sumQ_all_candidates sel _ _ _ P); [reflexivity|].
    intros i Hi. apply filter_In in Hi. apply Bool.negb_true_iff. apply Hi.
  Qed.

End Sound.

(* fee_for_input as the code defines it: additive by construction, for every fee request *)

Lemma derived_additive min_fee : fee_additive min_fee (derived_ffi min_fee).
Proof.
  intros m u f Hf f0 H0. unfold derived_ffi in Hf. rewrite H0 in Hf. cbn [bind] in Hf.
  destruct (u_ok u); [|discriminate Hf].
  destruct (min_fee (imap_insert (norm_utxo u) m)) as [b| | |]; cbn [bind] in Hf; try discriminate Hf.
  destruct (f0 <=? b) eqn:E; [|discriminate Hf]. inversion Hf; subst. apply N.leb_le in E. f_equal. lia.
Qed.

Lemma fee_model_derived raw req m u :
  fee_for_input_of raw req two32 m u = derived_ffi (min_fee_of raw req) m u.
Proof.
  unfold fee_for_input_of, derived_ffi, min_fee_of.
  destruct (raw (final_fee req two32) m) as [a| | |]; cbn [bind]; try reflexivity.
  destruct (u_ok u); [|reflexivity].
  destruct (raw (final_fee req two32) (imap_insert (norm_utxo u) m)) as [b| | |]; cbn [bind]; reflexivity.
Qed.

(* The executable premises and the judge (CoinSelSpec.judge): what it accepts satisfies the clauses of the
   specification for the figures the implementation reports *)

Lemma nodup_b_iff l : nodup_b l = true <-> NoDup l.
Proof.
  induction l as [|x l IH]; cbn [nodup_b]; [split; [constructor|reflexivity]|].
  rewrite Bool.andb_true_iff, Bool.negb_true_iff, IH, <- Bool.not_true_iff_false, existsb_eqb_in.
  split; [intros [H1 H2]; constructor; assumption|intros H; inversion H; auto].
Qed.

Lemma scenario_wfb_sound offered sc : scenario_wfb offered sc = true -> scenario_wf offered sc.
Proof.
  unfold scenario_wfb, scenario_wf, value_wf. rewrite !Bool.andb_true_iff, !forallb_forall, !Forall_forall. tauto.
Qed.

Lemma premises_sound offered sc : premises_b offered sc = true -> scenario_wf offered sc /\ pre_distinct sc.
Proof.
  unfold premises_b. intros H. apply Bool.andb_true_iff in H. destruct H as [H1 H2].
  split; [apply scenario_wfb_sound; exact H2|apply nodup_b_iff; exact H1].
Qed.

Lemma sumQ_asset_nonzero p n (l : list value) :
  sumQ (ByAsset p n) l <> 0 -> exists v, In v l /\ qty v p n <> 0.
Proof.
  unfold sumQ. induction l as [|v l IH]; cbn [fold_right]; [tauto|]. intros H.
  destruct (N.eq_dec (Q (ByAsset p n) v) 0) as [E|E].
  - rewrite E in H. destruct IH as [w [Hw Hq]]; [lia|]. exists w. split; [right|]; auto.
  - exists v. split; [left; reflexivity|exact E].
Qed.

Lemma covers_qb_iff s sc inputs fee : covers_qb s sc inputs fee = true <-> covers_q s sc inputs fee.
Proof. apply N.leb_le. Qed.

(* it suffices to test the selectors of the outputs and of the burn: no other asset is demanded *)
Lemma covers_assets_b sc inputs :
  forallb (fun s => covers_qb s sc inputs 0) (demand_selectors sc) = true -> covers_assets sc inputs.
Proof.
  intros E p n. destruct (N.eq_dec (demand (ByAsset p n) sc 0) 0) as [Ez|Enz]; [unfold covers_q; rewrite Ez; lia|].
  rewrite forallb_forall in E. apply covers_qb_iff, E.
  unfold demand in Enz. cbn [coin_only Q] in Enz. unfold demand_selectors. apply in_or_app.
  destruct (N.eq_dec (sumQ (ByAsset p n) (map o_val (sc_outputs sc))) 0) as [E0|E0].
  - right. apply selectors_complete. lia.
  - left. apply sumQ_asset_nonzero in E0. destruct E0 as [v [Hv Hq]].
    apply in_map_iff in Hv. destruct Hv as [o [<- Ho]].
    apply in_flat_map. exists o. split; auto. apply selectors_complete. exact Hq.
Qed.

Theorem judge_sound strat offered sc final_ids explicit fee prefix :
  judge strat offered sc final_ids explicit fee prefix = Holds ->
  let pre := imap_of_list (sc_pre sc) in
  let eff := filter_offered (ids pre) offered in
  let inputs := judge_inputs offered pre final_ids in
  scenario_wf offered sc /\ pre_distinct sc /\
  NoDup final_ids /\ (forall x, In x final_ids -> In x (ids pre) \/ In x (ids offered)) /\
  incl (ids pre) final_ids /\
  (exists total, sum_values value_zero (map u_val inputs) = Ok total /\ value_eqb_sem total explicit = true) /\
  covers_coin sc inputs fee /\ covers_assets sc inputs /\
  (lf_clause_applies strat sc = true ->
     lf_largest_b eff (ids pre) final_ids = true /\
     forall w, lf_last_added eff (ids pre) final_ids = Some w ->
       exists g, prefix = Some (u_id w, g) /\
                 ~ covers_coin sc (filter (fun u => negb (u_id u =? u_id w)) inputs) g).
Proof.
  unfold judge. intros H.
  destruct (premises_b offered sc) eqn:Ep; cbn [negb] in H; [|discriminate H].
  destruct (premises_sound _ _ Ep) as [W D].
  set (pre := imap_of_list (sc_pre sc)) in *.
  set (eff := filter_offered (ids pre) offered) in *.
  destruct (nodup_b final_ids && forallb (fun x => mem_b x (ids pre) || mem_b x (ids offered)) final_ids) eqn:E1;
    cbn [negb] in H; [|discriminate H].
  destruct (forallb (fun x => mem_b x final_ids) (ids pre)) eqn:E2; cbn [negb] in H; [|discriminate H].
  set (inputs := judge_inputs offered pre final_ids) in *.
  destruct (sum_values value_zero (map u_val inputs)) as [total| | |] eqn:Es; try discriminate H.
  destruct (value_eqb_sem total explicit) eqn:E3; cbn [negb] in H; [|discriminate H].
  destruct (covers_qb ByCoin sc inputs fee) eqn:E4; cbn [negb] in H; [|discriminate H].
  destruct (forallb (fun s => covers_qb s sc inputs 0) (demand_selectors sc)) eqn:E5; cbn [negb] in H; [|discriminate H].
  apply Bool.andb_true_iff in E1. destruct E1 as [E1a E1b].
  cbn zeta. conj; auto.
  - apply nodup_b_iff. exact E1a.
  - intros x Hx. rewrite forallb_forall in E1b. specialize (E1b x Hx). apply Bool.orb_true_iff in E1b.
    destruct E1b as [Hm|Hm]; apply existsb_eqb_in in Hm; auto.
  - intros x Hx. rewrite forallb_forall in E2. apply existsb_eqb_in. apply E2. exact Hx.
  - exists total. split; auto.
  - apply covers_qb_iff, E4.
  - apply covers_assets_b, E5.
  - intros Hl. rewrite Hl in H.
    destruct (lf_largest_b eff (ids pre) final_ids) eqn:E6; cbn [negb] in H; [|discriminate H].
    split; [reflexivity|]. intros w Hw. rewrite Hw in H.
    destruct prefix as [[x g]|]; [|discriminate H].
    destruct ((u_id w =? x) && negb (covers_qb ByCoin sc (filter (fun u => negb (u_id u =? x)) inputs) g)) eqn:E7; [|discriminate H].
    apply Bool.andb_true_iff in E7. destruct E7 as [E7a E7b]. apply N.eqb_eq in E7a. subst x.
    exists g. split; [reflexivity|]. intros Hc. apply covers_qb_iff in Hc. rewrite Hc in E7b. discriminate E7b.
Qed.
