(* C08 — what add_inputs_from (CoinSel.v) does to the selection state.
   Every strategy changes the state through add_input only.  [run P st l st'] says that st' is st after add_input has
   succeeded on the UTxOs at positions l, one after the other; [run_spec] computes once what that does to the input map
   and to the two totals.  Each phase of each strategy is then shown to be a run over positions it takes out of the
   selectable ones: [Permutation (l ++ left) selectable].  The rest is about largest-first: a pass as a run in which
   no input is added to a state covering the target, the order of the inputs it adds, what its insufficiency report
   means, and LargestFirstMultiAsset as a whole.  Details in notes/design/C08.md. *)
From CSL Require Import Base.Prelude Num.Value Num.ValueProofs Num.ValueNorm Num.ValueNormProofs CoinSel.CoinSel CoinSel.CoinSelSpec CoinSel.CoinSelLemmas.
From Coq Require Import Permutation Sorting.Sorted.
Local Open Scope N_scope.

(* case analysis on the outcome a monadic step of the model continues with; the failing outcomes are discharged *)
Ltac ob H :=
  match type of H with
  | obind _ ?r _ = _ => let E := fresh "E" in destruct r eqn:E; cbn [obind] in H; try discriminate H
  | ob ?r _ = _ => let E := fresh "E" in destruct r eqn:E; cbn [ob] in H; try discriminate H
  end.

Ltac conj := repeat match goal with |- _ /\ _ => split end.

Definition desc_sorted (k : nat -> N) (l : list nat) : Prop := StronglySorted (fun a b => k b <= k a) l.

Definition wf_st (st : sel_state) : Prop := value_wf (st_in st) /\ value_wf (st_out st).

Section Proofs.
  Variable ffi : imap -> utxo -> result N.
  Variable offered : list utxo.
  Hypothesis Woff : Forall (fun u => value_wf (u_val u)) offered.

  Notation added_of := (added_utxos offered).

  Lemma added_of_cons i u l : nth_error offered i = Some u -> added_of (i :: l) = u :: added_of l.
  Proof. intros H. unfold added_utxos. cbn [flat_map]. rewrite H. reflexivity. Qed.

  Lemma offered_wf i u : nth_error offered i = Some u -> value_wf (u_val u).
  Proof. intros H. apply nth_error_In in H. rewrite Forall_forall in Woff. apply (Woff _ H). Qed.

  Lemma add_input_done i u st st' :
    add_input ffi true i u st = (st', Done tt) ->
    exists fee it ot, ffi (st_inputs st) u = Ok fee /\ value_checked_add (st_in st) (u_val u) = Ok it /\
      value_checked_add (st_out st) (value_new fee) = Ok ot /\
      st' = mkSt (imap_insert (norm_utxo u) (st_inputs st)) it ot (st_trace st ++ [i]).
  Proof.
    unfold add_input. intros H.
    destruct (ffi (st_inputs st) u) as [fee| | |] eqn:Ef; cbn [of_result obind] in H; try discriminate H.
    destruct (u_ok u); [|discriminate H].
    destruct (value_checked_add (st_in st) (u_val u)) as [it| | |] eqn:Ei; cbn [of_result obind] in H; try discriminate H.
    cbn [st_inputs st_in st_out st_trace] in H.
    destruct (value_checked_add (st_out st) (value_new fee)) as [ot| | |] eqn:Eo; cbn [of_result obind] in H; try discriminate H.
    inversion H. exists fee, it, ot. conj; auto.
  Qed.

  (* whatever the outcome: never an insufficiency report, and the trace grows by the index or, on failure, not at all *)
  Lemma add_input_any i u st st' r :
    add_input ffi true i u st = (st', r) ->
    r <> Insufficient /\ exists t, st_trace st' = st_trace st ++ t /\ (t = [i] \/ t = [] /\ r <> Done tt).
  Proof.
    unfold add_input. intros H.
    destruct (ffi (st_inputs st) u) as [fee| | |]; cbn [of_result obind] in H.
    1: destruct (u_ok u).
    1: destruct (value_checked_add (st_in st) (u_val u)) as [it| | |]; cbn [of_result obind st_inputs st_out st_trace] in H.
    1: destruct (value_checked_add (st_out st) (value_new fee)) as [ot| | |]; cbn [of_result obind] in H.
    all: injection H as <- <-; cbn [st_trace]; split; [discriminate|].
    1-7: exists (i :: nil); auto.
    all: exists nil; split; [symmetry; apply app_nil_r|right; split; [reflexivity|discriminate]].
  Qed.

  (* Runs of successful add_input calls; P holds of every state an input is added to *)

  Inductive run (P : sel_state -> Prop) : sel_state -> list nat -> sel_state -> Prop :=
  | run_nil st : run P st [] st
  | run_cons st i u st1 l st' :
      P st -> nth_error offered i = Some u -> add_input ffi true i u st = (st1, Done tt) -> run P st1 l st' ->
      run P st (i :: l) st'.

  Definition adds := run (fun _ => True).

  Lemma run_adds P st l st' : run P st l st' -> adds st l st'.
  Proof. induction 1; econstructor; eauto. Qed.

  Lemma run_app P st l1 st1 l2 st2 : run P st l1 st1 -> run P st1 l2 st2 -> run P st (l1 ++ l2) st2.
  Proof. induction 1; cbn [app]; [auto|]. intros R. econstructor; eauto. Qed.

  Lemma run_prefix P st l st' k :
    run P st l st' -> (k < length l)%nat -> exists stk, run P st (firstn k l) stk /\ P stk.
  Proof.
    intros R. revert k. induction R as [|st i u st1 l st' HP Hu Ha R IH]; intros k Hk; cbn [length] in Hk; [lia|].
    destruct k as [|k]; cbn [firstn].
    - exists st. split; [constructor|exact HP].
    - destruct (IH k) as [stk [Rk Pk]]; [lia|]. exists stk. split; [econstructor; eauto|exact Pk].
  Qed.

  (* the accounting: input map, input_total and output_total after a run *)
  Lemma run_spec P st l st' :
    run P st l st' -> wf_st st ->
    wf_st st' /\ st_trace st' = st_trace st ++ l /\
    st_inputs st' = insert_all (map norm_utxo (added_of l)) (st_inputs st) /\
    (forall s, Q s (st_in st') = Q s (st_in st) + sumQ s (map u_val (added_of l))) /\
    exists fees, marginal_fees ffi (st_inputs st) (added_of l) = Ok fees /\
                 forall s, Q s (st_out st') = Q s (st_out st) + coin_only s fees.
  Proof.
    induction 1 as [st|st i u st1 l st' _ Hu Ha _ IH]; intros W.
    - conj; auto.
      + symmetry. apply app_nil_r.
      + intros s. unfold sumQ. cbn. lia.
      + exists 0. split; [reflexivity|]. intros []; cbn [coin_only]; lia.
    - destruct W as [Wi Wo]. destruct (add_input_done _ _ _ _ Ha) as [fee [it [ot [Ef [Ei [Eo ->]]]]]].
      destruct (vadd_Q _ _ _ Wi (offered_wf _ _ Hu) Ei) as [Qi Wi1].
      destruct (vadd_new _ _ _ Wo Eo) as [Qo Wo1].
      destruct (IH (conj Wi1 Wo1)) as [W' [Ht [Hm [Hq [fees [Hf Hout]]]]]]. cbn [st_inputs st_in st_out st_trace] in *.
      rewrite (added_of_cons _ _ _ Hu). cbn [map insert_all fold_left marginal_fees]. conj; auto.
      + rewrite Ht, <- app_assoc. reflexivity.
      + intros s. rewrite Hq, Qi. unfold sumQ. cbn [fold_right]. lia.
      + exists (fee + fees). rewrite Ef. cbn [bind]. rewrite Hf. split; [reflexivity|].
        intros s. rewrite Hout, Qo. destruct s; cbn [coin_only]; lia.
  Qed.

  (* a phase of a strategy takes positions out of the selectable ones [a] and adds the UTxOs there; [a'] are left *)
  Definition takes (st : sel_state) (a : list nat) (st' : sel_state) (a' : list nat) : Prop :=
    exists l, adds st l st' /\ Permutation (l ++ a') a.

  Lemma run_takes P st l st' a a' : run P st l st' -> Permutation (l ++ a') a -> takes st a st' a'.
  Proof. intros R Pm. exists l. split; [exact (run_adds _ _ _ _ R)|exact Pm]. Qed.

  Lemma takes_refl st a : takes st a st a.
  Proof. exists []. split; [constructor|reflexivity]. Qed.

  Lemma takes_trans st a st1 a1 st2 a2 : takes st a st1 a1 -> takes st1 a1 st2 a2 -> takes st a st2 a2.
  Proof.
    intros [l1 [R1 P1]] [l2 [R2 P2]]. exists (l1 ++ l2). split; [eapply run_app; eauto|].
    rewrite <- app_assoc, P2. exact P1.
  Qed.

  Lemma takes_nodup st a st' a' : takes st a st' a' -> NoDup a -> NoDup a'.
  Proof. intros [l [_ P]] Hn. rewrite <- P in Hn. apply NoDup_app_iff in Hn. tauto. Qed.

  (* input_total only grows, the asset targets stay *)
  Lemma takes_mono st a st' a' :
    takes st a st' a' -> wf_st st ->
    wf_st st' /\ (forall s, Q s (st_in st) <= Q s (st_in st')) /\
    (forall p n, Q (ByAsset p n) (st_out st') = Q (ByAsset p n) (st_out st)).
  Proof.
    intros [l [R _]] W. destruct (run_spec _ _ _ _ R W) as [W' [_ [_ [Hq [fees [_ Ho]]]]]]. conj; auto.
    - intros s. rewrite Hq. lia.
    - intros p n. rewrite Ho. cbn [coin_only]. lia.
  Qed.

  Variable avail : list utxo.
  Hypothesis Havail : forall i u, nth_error avail i = Some u -> nth_error offered i = Some u.

  Lemma covered_Q sel st c : covered sel st = Done c ->
    c = (Q sel (st_out st) <=? Q sel (st_in st)).
  Proof.
    unfold covered. destruct (by_val sel (st_out st)) as [need|] eqn:E; [|discriminate].
    intros H; inversion H; subst. rewrite by_or_zero_Q. rewrite (by_val_Q _ _ _ E). reflexivity.
  Qed.

  Definition uncovered (sel : selector) (st : sel_state) : Prop := covered sel st = Done false.

  Lemma covered_le sel st : covered sel st = Done true -> Q sel (st_out st) <= Q sel (st_in st).
  Proof. intros H. apply covered_Q in H. apply N.leb_le. symmetry. exact H. Qed.

  Lemma uncovered_lt sel st : uncovered sel st -> Q sel (st_in st) < Q sel (st_out st).
  Proof. intros H. apply covered_Q in H. apply N.leb_gt. symmetry. exact H. Qed.

  (* cip2_largest_first_by: a success of the loop is a run over a prefix of the candidates, each input added to a
     state that did not cover the target; the loop ends with the candidates or as soon as the target is covered *)

  Lemma lf_loop_done sel todo : forall aidx st st' aidx',
    lf_loop ffi sel avail todo aidx st = (st', Done aidx') ->
    exists l rest, todo = l ++ rest /\ run (uncovered sel) st l st' /\ Permutation (l ++ aidx') aidx /\
                   (rest = [] \/ covered sel st' = Done true).
  Proof.
    induction todo as [|i todo IH]; intros aidx st st' aidx' H; cbn [lf_loop] in H.
    - inversion H; subst. exists [], []. conj; auto. constructor.
    - ob H. destruct a.
      + inversion H; subst. exists [], (i :: todo). conj; auto. constructor.
      + destruct (nth_error avail i) as [u|] eqn:Eu; [|discriminate H].
        destruct (add_input ffi true i u st) as [st1 r1] eqn:Ea. ob H. destruct a.
        destruct (position i aidx) as [p|] eqn:Ep; [|discriminate H].
        destruct (swap_remove p aidx) as [[x aidx1]|] eqn:Es; [|discriminate H].
        destruct (swap_remove_perm _ _ _ _ Es) as [Hperm Hnth].
        rewrite (position_nth _ _ _ Ep) in Hnth. inversion Hnth; subst x.
        destruct (IH _ _ _ _ H) as [l [rest [-> [R [P Hstop]]]]].
        exists (i :: l), rest. conj; auto.
        * econstructor; eauto.
        * rewrite Hperm. cbn [app]. constructor. exact P.
  Qed.

  (* whatever the outcome, the loop has added a prefix of the candidates, and it does not report insufficiency *)
  Lemma lf_loop_any sel todo : forall aidx st st' r,
    lf_loop ffi sel avail todo aidx st = (st', r) ->
    r <> Insufficient /\ exists taken rest, todo = taken ++ rest /\ st_trace st' = st_trace st ++ taken.
  Proof.
    induction todo as [|i todo IH]; intros aidx st st' r H; cbn [lf_loop] in H.
    - inversion H; subst. split; [discriminate|]. exists [], []. split; [reflexivity|]. symmetry. apply app_nil_r.
    - (* every way of stopping, in st or in the state after add_input: with an outcome x, having added [taken] *)
      assert (Stop : forall st1 x taken rest, (st1, x) = (st', r) -> x <> Insufficient ->
                st_trace st1 = st_trace st ++ taken -> i :: todo = taken ++ rest ->
                r <> Insufficient /\ exists taken rest, i :: todo = taken ++ rest /\ st_trace st' = st_trace st ++ taken).
      { intros st1 x taken rest E Hx Ht Hs. inversion E; subst. eauto. }
      assert (Ht0 : st_trace st = st_trace st ++ []) by (symmetry; apply app_nil_r).
      unfold covered in H. destruct (by_val sel (st_out st)); cbn [obind] in H; [destruct (_ <=? _)|].
      1,3: apply (Stop _ _ [] (i :: todo) H); auto; discriminate.
      destruct (nth_error avail i) as [u|]; [|apply (Stop _ _ [] (i :: todo) H); auto; discriminate].
      destruct (add_input ffi true i u st) as [st1 r1] eqn:Ea.
      destruct (add_input_any _ _ _ _ _ Ea) as [Hr1 [t [Ht Hk]]].
      destruct r1 as [[]| | | |]; cbn [obind] in H; try contradiction.
      2-4: destruct Hk as [->|[-> _]]; [apply (Stop _ _ [i] todo H)|apply (Stop _ _ [] (i :: todo) H)]; auto; discriminate.
      destruct Hk as [->|[_ Hnd]]; [|contradiction Hnd; reflexivity].
      destruct (position i aidx) as [p|]; [|apply (Stop _ _ [i] todo H); auto; discriminate].
      destruct (swap_remove p aidx) as [[x aidx1]|]; [|apply (Stop _ _ [i] todo H); auto; discriminate].
      destruct (IH _ _ _ _ H) as [Hr [taken [rest [-> Htr]]]]. split; [exact Hr|].
      exists (i :: taken), rest. split; [reflexivity|]. rewrite Htr, Ht, <- app_assoc. reflexivity.
  Qed.

  Lemma lf_relevant_in sel aidx j :
    In j (rev (lf_relevant sel avail aidx)) <-> In j aidx /\ has_key sel avail j = true.
  Proof. unfold lf_relevant. rewrite <- in_rev, (stable_sort_perm _ _), filter_In. reflexivity. Qed.

  (* the candidates of a pass, and the selectable positions that are none *)
  Lemma lf_relevant_split sel aidx :
    Permutation (rev (lf_relevant sel avail aidx) ++ filter (fun i => negb (has_key sel avail i)) aidx) aidx.
  Proof.
    unfold lf_relevant. rewrite <- Permutation_rev, stable_sort_perm. apply filter_split.
  Qed.

  (* a pass ends in the state its loop ends in; only the outcome depends on the last comparison *)
  Lemma lf_by_loop sel aidx st st' r :
    lf_by ffi sel avail aidx st = (st', r) ->
    exists r1, lf_loop ffi sel avail (rev (lf_relevant sel avail aidx)) aidx st = (st', r1) /\
      r = ob r1 (fun aidx' => ob (covered sel st') (fun c => if c then Done aidx' else Insufficient)).
  Proof.
    unfold lf_by. destruct (lf_loop ffi sel avail (rev (lf_relevant sel avail aidx)) aidx st) as [st1 r1].
    intros H. exists r1. destruct r1; cbn [obind ob] in *.
    2-5: inversion H; subst; auto.
    destruct (covered sel st1) as [[]| | | |] eqn:Ec; inversion H; subst; rewrite Ec; auto.
  Qed.

  Lemma lf_by_done sel aidx st st' aidx' :
    lf_by ffi sel avail aidx st = (st', Done aidx') ->
    exists l, run (uncovered sel) st l st' /\ Permutation (l ++ aidx') aidx /\ covered sel st' = Done true.
  Proof.
    intros H. destruct (lf_by_loop _ _ _ _ _ H) as [r1 [El Hr]].
    destruct r1 as [aidx1| | | |]; try discriminate Hr. cbn [ob] in Hr.
    destruct (covered sel st') as [[]| | | |]; try discriminate Hr. inversion Hr; subst aidx1.
    destruct (lf_loop_done _ _ _ _ _ _ El) as [l [rest [_ [R [P _]]]]]. exists l. auto.
  Qed.

  Lemma lf_by_takes sel aidx st st' aidx' :
    lf_by ffi sel avail aidx st = (st', Done aidx') -> takes st aidx st' aidx' /\ covered sel st' = Done true.
  Proof.
    intros H. destruct (lf_by_done _ _ _ _ _ H) as [l [R [P Hc]]]. split; [exact (run_takes _ _ _ _ _ _ R P)|exact Hc].
  Qed.

  (* a pass reports insufficiency only when every candidate has been added and the target is still not reached *)
  Theorem largest_first_complete sel aidx st st' :
    lf_by ffi sel avail aidx st = (st', Insufficient) ->
    run (uncovered sel) st (rev (lf_relevant sel avail aidx)) st' /\ uncovered sel st'.
  Proof.
    intros H. destruct (lf_by_loop _ _ _ _ _ H) as [r1 [El Hr]].
    destruct (lf_loop_any _ _ _ _ _ _ El) as [Hr1 _].
    destruct r1 as [aidx1| | | |]; try discriminate Hr; [|contradiction]. cbn [ob] in Hr.
    destruct (covered sel st') as [[]| | | |] eqn:Ec; try discriminate Hr.
    2: { unfold covered in Ec. destruct (by_val sel (st_out st')); discriminate Ec. }
    destruct (lf_loop_done _ _ _ _ _ _ El) as [l [rest [Hsplit [R [_ [->|Hc]]]]]]; [|congruence].
    rewrite app_nil_r in Hsplit. subst l. split; [exact R|exact Ec].
  Qed.

  Lemma lf_multi_done sels : forall aidx st st' aidx',
    lf_multi ffi sels avail aidx st = (st', Done aidx') ->
    takes st aidx st' aidx' /\
    (wf_st st -> forall p n, In (ByAsset p n) sels -> Q (ByAsset p n) (st_out st') <= Q (ByAsset p n) (st_in st')).
  Proof.
    induction sels as [|s sels IH]; intros aidx st st' aidx' H; cbn [lf_multi] in H.
    - inversion H; subst. split; [apply takes_refl|intros _ p n []].
    - destruct (lf_by ffi s avail aidx st) as [st1 r1] eqn:E1. ob H.
      destruct (lf_by_takes _ _ _ _ _ E1) as [T1 Hc1]. destruct (IH _ _ _ _ H) as [T2 Hc2].
      split; [eapply takes_trans; eauto|]. intros W p n Hin.
      destruct (takes_mono _ _ _ _ T1 W) as [W1 _]. destruct Hin as [->|Hin]; [|apply Hc2; assumption].
      (* covered by this pass; the later ones only add inputs and do not change the asset targets *)
      destruct (takes_mono _ _ _ _ T2 W1) as [_ [Hm Ho]]. apply covered_le in Hc1.
      rewrite Ho. specialize (Hm (ByAsset p n)). lia.
  Qed.

  Lemma lf_multi_insufficient sels : forall aidx st st',
    lf_multi ffi sels avail aidx st = (st', Insufficient) ->
    exists s aidx1 st1, In s sels /\ takes st aidx st1 aidx1 /\ lf_by ffi s avail aidx1 st1 = (st', Insufficient).
  Proof.
    induction sels as [|s sels IH]; intros aidx st st' H; cbn [lf_multi] in H; [discriminate H|].
    destruct (lf_by ffi s avail aidx st) as [st1 r1] eqn:E1.
    destruct r1 as [aidx1| | | |]; cbn [obind] in H; try discriminate H.
    - destruct (lf_by_takes _ _ _ _ _ E1) as [T1 _].
      destruct (IH _ _ _ H) as [s' [aidx2 [st2 [Hin [T2 E2]]]]].
      exists s', aidx2, st2. conj; [right; exact Hin|eapply takes_trans; eauto|exact E2].
    - inversion H; subst st1. exists s, aidx, st. conj; [left; reflexivity|apply takes_refl|exact E1].
  Qed.

  (* the inputs largest-first adds form a prefix of the candidates ordered by decreasing quantity *)
  Theorem largest_first_order sel aidx st st' r :
    lf_by ffi sel avail aidx st = (st', r) ->
    exists taken, st_trace st' = st_trace st ++ taken /\
      desc_sorted (key_of sel avail) taken /\
      (forall i, In i taken -> In i aidx /\ has_key sel avail i = true) /\
      (forall i j, In i taken -> In j aidx -> has_key sel avail j = true -> ~ In j taken ->
                   key_of sel avail j <= key_of sel avail i).
  Proof.
    intros H. destruct (lf_by_loop _ _ _ _ _ H) as [r1 [El _]].
    destruct (lf_loop_any _ _ _ _ _ _ El) as [_ [taken [rest [Hsplit Htr]]]].
    exists taken. split; [exact Htr|].
    pose proof (StronglySorted_rev _ _ (stable_sort_sorted (key_of sel avail) (filter (has_key sel avail) aidx))) as Hs.
    fold (lf_relevant sel avail aidx) in Hs. rewrite Hsplit in Hs.
    apply StronglySorted_app_iff in Hs. destruct Hs as [S1 [_ S2]].
    assert (Hmem : forall j, In j (taken ++ rest) <-> In j aidx /\ has_key sel avail j = true).
    { intros j. rewrite <- Hsplit. apply lf_relevant_in. }
    conj; auto.
    - intros i Hi. apply Hmem. apply in_or_app; auto.
    - intros i j Hi Hj Hk Hnj. apply S2; auto.
      assert (Hin : In j (taken ++ rest)) by (apply Hmem; auto).
      apply in_app_or in Hin. tauto.
  Qed.

  (* cip2_random_improve_by.  U: the positions selectable at the start of the pass; S: those associated with an
     output so far.  Associated and selectable positions partition U — what the inverted swap of phase 2 broke *)

  Definition flat (a : assoc) : list nat := concat (map snd a).

  Lemma flat_app a1 a2 : flat (a1 ++ a2) = flat a1 ++ flat a2.
  Proof. unfold flat. rewrite map_app, concat_app. reflexivity. Qed.
  Lemma flat_cons k l a : flat ((k, l) :: a) = l ++ flat a.
  Proof. reflexivity. Qed.

  Lemma flat_push k i a : Permutation (flat (assoc_push k i a)) (i :: flat a).
  Proof.
    induction a as [|[k' l] a IH]; cbn [assoc_push]; [reflexivity|].
    destruct (k' =? k); rewrite !flat_cons.
    - rewrite <- app_assoc. apply Permutation_sym, Permutation_middle.
    - rewrite IH. apply Permutation_sym, Permutation_middle.
  Qed.

  Lemma keys_push k i a : incl (map fst (assoc_push k i a)) (k :: map fst a).
  Proof.
    induction a as [|[k' l] a IH]; cbn [assoc_push map fst]; [apply incl_refl|].
    destruct (k' =? k); cbn [map fst]; [apply incl_tl, incl_refl|].
    intros x [<-|Hx]; [right; left; reflexivity|]. destruct (IH x Hx); [left|right; right]; assumption.
  Qed.

  Lemma keys_push_nodup k i a : NoDup (map fst a) -> NoDup (map fst (assoc_push k i a)).
  Proof.
    induction a as [|[k' l] a IH]; cbn [assoc_push map fst]; intros H; [repeat constructor; intros []|].
    destruct (k' =? k) eqn:E; cbn [map fst]; [exact H|].
    inversion H; subst. constructor; auto. intro Hin. apply keys_push in Hin. destruct Hin as [<-|Hin]; [|tauto].
    rewrite N.eqb_refl in E. discriminate.
  Qed.

  Lemma assoc_get_none k a : assoc_get k a = None -> ~ In k (map fst a).
  Proof.
    induction a as [|[k' l] a IH]; cbn [assoc_get map fst In]; [tauto|].
    destruct (k' =? k) eqn:E; [discriminate|]. apply N.eqb_neq in E. tauto.
  Qed.

  Lemma assoc_get_split k a l : assoc_get k a = Some l ->
    exists a1 a2, a = a1 ++ (k, l) :: a2 /\ assoc_get k a1 = None.
  Proof.
    induction a as [|[k' l'] a IH]; cbn [assoc_get]; [discriminate|].
    destruct (k' =? k) eqn:E.
    - intros H; inversion H; subst. apply N.eqb_eq in E. subst. exists [], a. split; reflexivity.
    - intros H. destruct (IH H) as [a1 [a2 [-> Hn]]]. exists ((k', l') :: a1), a2. split; [reflexivity|].
      cbn [assoc_get]. rewrite E. exact Hn.
  Qed.

  Lemma assoc_set_split k l l' a1 a2 : assoc_get k a1 = None ->
    assoc_set k l' (a1 ++ (k, l) :: a2) = a1 ++ (k, l') :: a2.
  Proof.
    induction a1 as [|[k' x] a1 IH]; cbn [assoc_get assoc_set app]; intros H.
    - rewrite N.eqb_refl. reflexivity.
    - destruct (k' =? k); [discriminate|]. rewrite (IH H). reflexivity.
  Qed.

  Lemma assoc_remove_split k l a1 a2 : assoc_get k a1 = None ->
    assoc_remove k (a1 ++ (k, l) :: a2) = a1 ++ a2.
  Proof.
    induction a1 as [|[k' x] a1 IH]; cbn [assoc_get assoc_remove app]; intros H.
    - rewrite N.eqb_refl. reflexivity.
    - destruct (k' =? k); [discriminate|]. rewrite (IH H). reflexivity.
  Qed.

  Record J (U relevant aset S : list nat) : Prop := {
    j_rel_nd : NoDup relevant;
    j_rel_in : incl relevant aset;
    j_part : Permutation (S ++ aset) U
  }.

  Lemma J_perm U relevant aset S S' : Permutation S S' -> J U relevant aset S -> J U relevant aset S'.
  Proof. intros P [A B C]. constructor; auto. rewrite <- P. exact C. Qed.

  (* what the partition of a duplicate-free U says of its two parts *)
  Lemma J_nodup U relevant aset S : NoDup U -> J U relevant aset S -> NoDup aset /\ forall i, In i S -> ~ In i aset.
  Proof. intros HU [_ _ C]. rewrite <- C in HU. apply NoDup_app_iff in HU. tauto. Qed.

  (* phase 1 associates a candidate: it leaves the selectable positions *)
  Lemma J_take U relevant aset S i relevant1 :
    NoDup U -> J U relevant aset S -> Permutation relevant (i :: relevant1) ->
    J U relevant1 (set_remove i aset) (i :: S).
  Proof.
    intros HU Hj Hperm. destruct (J_nodup _ _ _ _ HU Hj) as [Na _]. destruct Hj as [A B C].
    rewrite Hperm in A. inversion A as [|? ? Hni Hnd1]; subst.
    assert (Hi : In i aset) by (apply B; rewrite Hperm; left; reflexivity).
    constructor.
    - exact Hnd1.
    - intros x Hx. apply set_remove_in. split; [apply B; rewrite Hperm; right; exact Hx|]. intros ->. tauto.
    - rewrite <- C. apply set_remove_move; assumption.
  Qed.

  (* phase 2 (repaired bookkeeping) puts candidate j in the place of the associated i: i becomes selectable again, j no
     longer is *)
  Lemma J_swap U relevant aset F i j r :
    NoDup U -> J U relevant aset (i :: F) -> nth_error relevant r = Some j ->
    J U (replace_nth r i relevant) (set_insert i (set_remove j aset)) (j :: F).
  Proof.
    intros HU Hj Ej. destruct (J_nodup _ _ _ _ HU Hj) as [Na Hd]. destruct Hj as [A B C].
    assert (Hj_aset : In j aset) by (apply B; eapply nth_error_In; eauto).
    assert (Hi_aset : ~ In i aset) by (apply Hd; left; reflexivity).
    assert (Hi_rem : ~ In i (set_remove j aset)) by (rewrite set_remove_in; tauto).
    pose proof (replace_nth_perm r i j relevant Ej) as Hperm.
    assert (Hnd : NoDup (j :: replace_nth r i relevant)).
    { rewrite Hperm. constructor; auto. }
    inversion Hnd as [|? ? Hnj Hnd1]; subst.
    constructor.
    - exact Hnd1.
    - intros x Hx. apply set_insert_in.
      assert (Hx2 : In x (i :: relevant)) by (rewrite <- Hperm; right; exact Hx).
      destruct Hx2 as [<-|Hx2]; [left; reflexivity|]. right. apply set_remove_in. split; [apply B; exact Hx2|].
      intros ->. tauto.
    - rewrite <- C, (set_insert_perm _ _ Hi_rem). cbn [app].
      apply Permutation_trans with (i :: (j :: F) ++ set_remove j aset).
      + cbn [app]. rewrite <- Permutation_middle. apply perm_swap.
      + constructor. apply set_remove_move; assumption.
  Qed.

  (* the locals of phases 1 and 2: J, and no key twice in the association map, each the key of an output in K *)
  Definition locals_ok (U : list nat) (K : list N) (loc : p1_locals) : Prop :=
    let '(relevant, aset, a, _) := loc in
    J U relevant aset (flat a) /\ NoDup (map fst a) /\ incl (map fst a) K.

  Lemma p1_pick_ok sel U K okey needed : NoDup U -> In okey K -> forall fuel added relevant aset a cs added' loc',
    locals_ok U K (relevant, aset, a, cs) ->
    p1_pick fuel sel avail okey needed added relevant aset a cs = Done (added', loc') -> locals_ok U K loc'.
  Proof.
    intros HU HK. induction fuel as [|fuel IH]; intros added relevant aset a cs added' loc' Hj H;
      cbn [p1_pick] in H; destruct (needed <=? added).
    1,3: inversion H; subst; exact Hj.
    1: discriminate H.
    destruct relevant as [|r0 rr]; [discriminate H|]. cbv iota beta in H.
    remember (r0 :: rr) as relevant eqn:Er in *. clear Er r0 rr.
    destruct (next_choice (length relevant) cs) as [r cs1].
    destruct (swap_remove r relevant) as [[i relevant1]|] eqn:Es; [|discriminate H].
    destruct (nth_error avail i) as [u|]; [|discriminate H].
    destruct (by_val sel (u_val u)) as [q|]; [|discriminate H].
    destruct (added + q <? two64); [|discriminate H].
    apply IH in H; [exact H|]. clear H IH.
    destruct (swap_remove_perm _ _ _ _ Es) as [Hperm _]. destruct Hj as [Hj [Hk Hkeys]].
    unfold locals_ok. conj; [|apply keys_push_nodup; exact Hk|eapply incl_tran; [apply keys_push|apply incl_cons; assumption]].
    apply (J_perm _ _ _ (i :: flat a)); [symmetry; apply flat_push|]. exact (J_take _ _ _ _ _ _ HU Hj Hperm).
  Qed.

  Lemma p1_outputs_ok sel U K : NoDup U -> forall outs coins relevant aset a cs loc',
    incl (map o_key outs) K -> locals_ok U K (relevant, aset, a, cs) ->
    p1_outputs sel avail outs coins relevant aset a cs = Done loc' -> locals_ok U K loc'.
  Proof.
    intros HU. induction outs as [|o outs IH]; intros coins relevant aset a cs loc' HK Hj H; cbn [p1_outputs] in H.
    - inversion H; subst. exact Hj.
    - destruct (by_val sel (o_val o)) as [needed|]; [|discriminate H].
      ob H. destruct a0 as [added [[[rel1 aset1] a1] cs1]]. cbn [map] in HK. apply incl_cons_inv in HK.
      apply (p1_pick_ok _ _ _ _ _ HU (proj1 HK) _ _ _ _ _ _ _ _ Hj) in E.
      apply (IH _ _ _ _ _ _ (proj2 HK) E H).
  Qed.

  Lemma improve_slot_ok sel U o i relevant aset cs F i' rel' aset' cs' :
    NoDup U -> J U relevant aset (i :: F) ->
    improve_slot current sel avail o i relevant aset cs = Done (i', (rel', aset', cs')) ->
    J U rel' aset' (i' :: F).
  Proof.
    intros HU Hj H. unfold improve_slot in H.
    destruct (next_choice (length relevant) cs) as [r cs1].
    destruct (nth_error relevant r) as [j|] eqn:Ej; [|discriminate H].
    destruct (nth_error avail i) as [ui|]; [|discriminate H].
    destruct (nth_error avail j) as [uj|]; [|discriminate H].
    cbn [v_exact_improve v_swap_fixed current orb] in H.
    match type of H with (if ?c then _ else _) = _ => destruct c end; inversion H; subst.
    - apply J_swap; assumption.
    - exact Hj.
  Qed.

  Lemma improve_entry_ok sel U o : NoDup U -> forall slots relevant aset cs F slots' rel' aset' cs',
    J U relevant aset (slots ++ F) ->
    improve_entry current sel avail o slots relevant aset cs = Done (slots', (rel', aset', cs')) ->
    J U rel' aset' (slots' ++ F).
  Proof.
    intros HU. induction slots as [|i slots IH]; intros relevant aset cs F slots' rel' aset' cs' Hj H; cbn [improve_entry] in H.
    - inversion H; subst. exact Hj.
    - ob H. destruct a as [i1 [[rel1 aset1] cs1]]. ob H. destruct a as [sl loc]. inversion H; subst; clear H.
      cbn [app] in Hj. pose proof (improve_slot_ok _ _ _ _ _ _ _ _ _ _ _ _ HU Hj E) as J1.
      apply (J_perm _ _ _ _ _ (Permutation_middle slots F i1)) in J1.
      apply (IH _ _ _ _ _ _ _ _ J1) in E0.
      apply (J_perm _ _ _ _ _ (Permutation_sym (Permutation_middle sl F i1)) E0).
  Qed.

  Lemma p2_outputs_ok sel U K : NoDup U -> forall outs relevant aset a cs loc',
    locals_ok U K (relevant, aset, a, cs) ->
    p2_outputs current sel avail outs relevant aset a cs = Done loc' -> locals_ok U K loc'.
  Proof.
    intros HU. induction outs as [|o outs IH]; intros relevant aset a cs loc' Hj H; cbn [p2_outputs] in H.
    - inversion H; subst. exact Hj.
    - destruct (assoc_get (o_key o) a) as [slots|] eqn:Eg; [|apply (IH _ _ _ _ _ Hj H)].
      ob H. destruct a0 as [slots' [[rel1 aset1] cs1]].
      destruct (assoc_get_split _ _ _ Eg) as [a1 [a2 [-> Hn]]].
      rewrite (assoc_set_split _ _ slots' _ _ Hn) in H.
      apply IH in H; [exact H|]. destruct Hj as [Hj Hkeys]. split; [|rewrite map_app in *; exact Hkeys].
      rewrite flat_app, flat_cons in *.
      apply (J_perm _ _ _ _ _ (Permutation_app_swap_app (flat a1) slots (flat a2))) in Hj.
      apply (J_perm _ _ _ _ _ (Permutation_app_swap_app slots' (flat a1) (flat a2))).
      exact (improve_entry_ok _ _ _ HU _ _ _ _ _ _ _ _ _ Hj E).
  Qed.

  (* the final insertion loop *)
  Lemma add_all_run : forall idxs st st', add_all ffi avail idxs st = (st', Done tt) -> adds st idxs st'.
  Proof.
    induction idxs as [|i idxs IH]; intros st st' H; cbn [add_all] in H.
    - inversion H; subst. constructor.
    - destruct (nth_error avail i) as [u|] eqn:Eu; [|discriminate H].
      destruct (add_input ffi true i u st) as [st1 r1] eqn:Ea. ob H. destruct a.
      apply (run_cons _ _ _ _ _ _ _ I (Havail _ _ Eu) Ea). apply IH. exact H.
  Qed.

  (* every associated entry whose key is that of an output is added, once *)
  Lemma ri_final_run : forall outs a st st',
    NoDup (map fst a) -> incl (map fst a) (map o_key outs) ->
    ri_final ffi current avail outs a st = (st', Done tt) ->
    exists l, adds st l st' /\ Permutation l (flat a).
  Proof.
    induction outs as [|o outs IH]; intros a st st' Hk Hi H; cbn [ri_final] in H.
    - inversion H; subst. destruct a as [|e a]; [|destruct (Hi (fst e)); left; reflexivity].
      exists []. split; [constructor|reflexivity].
    - destruct (assoc_get (o_key o) a) as [idxs|] eqn:Eg.
      + destruct (add_all ffi avail idxs st) as [st1 r1] eqn:Ea. ob H. destruct a0.
        cbn [v_assoc_once current] in H.
        destruct (assoc_get_split _ _ _ Eg) as [a1 [a2 [-> Hn]]].
        rewrite (assoc_remove_split _ _ _ _ Hn) in H.
        rewrite map_app in Hk, Hi. cbn [map fst] in Hk, Hi. apply NoDup_remove in Hk. destruct Hk as [Hk Hno].
        rewrite <- map_app in Hk, Hno.
        apply IH in H; [|exact Hk|].
        * destruct H as [l [R P]]. exists (idxs ++ l). split; [eapply run_app; [apply add_all_run; exact Ea|exact R]|].
          rewrite P, !flat_app, flat_cons, !app_assoc. apply Permutation_app_tail, Permutation_app_comm.
        * intros k Hin. assert (Hin2 : In k (o_key o :: map o_key outs)).
          { apply Hi. rewrite map_app in Hin. apply in_app_or in Hin. apply in_or_app. cbn [In]. tauto. }
          destruct Hin2 as [<-|Hin2]; [contradiction|exact Hin2].
      + apply IH in H; auto. intros k Hin. destruct (Hi k Hin) as [<-|Hin2]; [|exact Hin2].
        destruct (assoc_get_none _ _ Eg Hin).
  Qed.

  Lemma ri_by_run sel pure aset outputs cs st st' aset' cs' :
    NoDup aset -> ri_by ffi current sel pure avail outputs aset cs st = (st', Done (aset', cs')) ->
    takes st aset st' aset'.
  Proof.
    intros Hn H. unfold ri_by in H. set (outs := ri_outs sel outputs) in *.
    ob H. destruct a as [[[rel1 aset1] a1] cs1].
    apply (p1_outputs_ok _ _ (map o_key outs) Hn) in E.
    - match type of H with obind _ ?r _ = _ => destruct r as [[[[rel2 aset2] a2] cs2]| | | |] eqn:E2 end;
        cbn [obind] in H; try discriminate H.
      assert (J2 : locals_ok aset (map o_key outs) (rel2, aset2, a2, cs2)).
      { destruct (negb (is_nil rel1) && pure); [eapply p2_outputs_ok; eauto|]. inversion E2; subst; exact E. }
      destruct J2 as [[_ _ P2] [K2 Hkeys]].
      destruct (ri_final ffi current avail outs a2 st) as [st2 r2] eqn:Ef.
      ob H. destruct a. inversion H; subst st2 aset2 cs2; clear H.
      destruct (ri_final_run _ _ _ _ K2 Hkeys Ef) as [l [R P]].
      exists l. split; [exact R|]. rewrite P. exact P2.
    - rewrite map_rev. intros k Hk. apply in_rev. exact Hk.
    - unfold locals_ok. conj; [|constructor|intros k []]. constructor; [apply NoDup_filter; exact Hn|apply incl_filter|reflexivity].
  Qed.

  Lemma ri_multi_run sels : forall aset outputs cs st st' aset' cs',
    NoDup aset -> ri_multi ffi current sels avail outputs aset cs st = (st', Done (aset', cs')) ->
    takes st aset st' aset'.
  Proof.
    induction sels as [|s sels IH]; intros aset outputs cs st st' aset' cs' Hn H; cbn [ri_multi] in H.
    - inversion H; subst. apply takes_refl.
    - destruct (ri_by ffi current s false avail outputs aset cs st) as [st1 r1] eqn:E1. ob H. destruct a as [aset1 cs1].
      pose proof (ri_by_run _ _ _ _ _ _ _ _ _ Hn E1) as T1.
      eapply takes_trans; [exact T1|]. eapply IH; [|exact H]. eapply takes_nodup; eauto.
  Qed.

  Lemma phase3_run : forall fuel aset cs st st',
    NoDup aset -> phase3 ffi fuel avail aset cs st = (st', Done tt) ->
    exists rest, takes st aset st' rest /\ coin (st_out st') <= coin (st_in st').
  Proof.
    induction fuel as [|fuel IH]; intros aset cs st st' Hn H; cbn [phase3] in H;
      destruct (coin (st_out st) <=? coin (st_in st)) eqn:E.
    1,3: inversion H; subst; apply N.leb_le in E; exists aset; split; [apply takes_refl|exact E].
    1: discriminate H.
    destruct aset as [|a0 ar]; [discriminate H|]. cbv iota beta in H.
    remember (a0 :: ar) as aset eqn:Ea in *. clear Ea a0 ar.
    destruct (next_choice (length aset) cs) as [r cs1].
    destruct (nth_error aset r) as [i|] eqn:Ei; [|discriminate H].
    destruct (nth_error avail i) as [u|] eqn:Eu; [|discriminate H].
    destruct (add_input ffi true i u st) as [st1 r1] eqn:Eadd. ob H. destruct a.
    apply nth_error_In in Ei.
    destruct (IH _ _ _ _ (NoDup_filter _ Hn) H) as [rest [T Hc]]. exists rest. split; [|exact Hc].
    eapply takes_trans; [|exact T]. exists [i]. split; [|symmetry; apply set_remove_perm; assumption].
    apply (run_cons _ _ _ _ _ _ _ I (Havail _ _ Eu) Eadd). constructor.
  Qed.

  (* the last two steps of both random-improve strategies: the lovelace pass, then phase 3 *)
  Lemma ri_coin_run pure outputs aset cs st st' :
    NoDup aset ->
    (let '(st2, x2) := ri_by ffi current ByCoin pure avail outputs aset cs st in
     obind st2 x2 (fun '(aset2, cs2) => phase3 ffi (S (length aset2)) avail aset2 cs2 st2)) = (st', Done tt) ->
    exists rest, takes st aset st' rest /\ coin (st_out st') <= coin (st_in st').
  Proof.
    intros Hn H. destruct (ri_by ffi current ByCoin pure avail outputs aset cs st) as [st2 x2] eqn:X2.
    ob H. destruct a as [aset2 cs2].
    pose proof (ri_by_run _ _ _ _ _ _ _ _ _ Hn X2) as T1.
    destruct (phase3_run _ _ _ _ _ (takes_nodup _ _ _ _ T1 Hn) H) as [rest [T2 Hc]].
    exists rest. split; [eapply takes_trans; eauto|exact Hc].
  Qed.

  (* the last step of both largest-first strategies: the lovelace pass *)
  Lemma lf_coin_run aidx st st' :
    drop_locals (lf_by ffi ByCoin avail aidx st) = (st', Done tt) ->
    exists rest, takes st aidx st' rest /\ coin (st_out st') <= coin (st_in st').
  Proof.
    intros H. unfold drop_locals in H. destruct (lf_by ffi ByCoin avail aidx st) as [st2 r2] eqn:X.
    destruct r2 as [aidx'| | | |]; cbn [ob] in H; try discriminate H. inversion H; subst st2; clear H.
    destruct (lf_by_takes _ _ _ _ _ X) as [T Hc]. exists aidx'. split; [exact T|apply (covered_le _ _ Hc)].
  Qed.

  (* match strategy { … }: whichever strategy, distinct selectable positions are added and the lovelace is covered *)
  Lemma strategy_run strat cs sc st st' :
    run_strategy ffi current strat cs avail sc st = (st', Done tt) ->
    exists rest, takes st (seq 0 (length avail)) st' rest /\ coin (st_out st') <= coin (st_in st').
  Proof.
    pose proof (seq_NoDup (length avail) 0) as Hn.
    unfold run_strategy. intros H. destruct strat.
    - destruct (outputs_have_assets sc); [discriminate H|]. apply lf_coin_run. exact H.
    - destruct (outputs_have_assets sc); [discriminate H|]. apply (ri_coin_run _ _ _ _ _ _ Hn H).
    - destruct (lf_multi ffi (asset_selectors (st_out st)) avail (seq 0 (length avail)) st) as [st2 x2] eqn:X2.
      ob H. destruct (lf_multi_done _ _ _ _ _ X2) as [T1 _].
      destruct (lf_coin_run _ _ _ H) as [rest [T2 Hc]].
      exists rest. split; [eapply takes_trans; eauto|exact Hc].
    - destruct (ri_multi ffi current (asset_selectors (st_out st)) avail (sc_outputs sc) (seq 0 (length avail)) cs st)
        as [st2 x2] eqn:X2.
      ob H. destruct a as [aset cs2].
      pose proof (ri_multi_run _ _ _ _ _ _ _ _ Hn X2) as T1.
      destruct (ri_coin_run _ _ _ _ _ _ (takes_nodup _ _ _ _ T1 Hn) H) as [rest [T2 Hc]].
      exists rest. split; [eapply takes_trans; eauto|exact Hc].
  Qed.

  (* LargestFirstMultiAsset: its passes cover every asset of the target, so a success passes the asset guard; an
     insufficiency report is that of one of its passes *)
  Lemma lfma_strategy cs sc st st' r :
    wf_st st -> run_strategy ffi current LargestFirstMultiAsset cs avail sc st = (st', r) ->
    (r = Done tt -> asset_guard st' = true) /\
    (r = Insufficient -> exists sel aidx1 st1,
       takes st (seq 0 (length avail)) st1 aidx1 /\ lf_by ffi sel avail aidx1 st1 = (st', Insufficient)).
  Proof.
    intros W H. unfold run_strategy in H.
    destruct (lf_multi ffi (asset_selectors (st_out st)) avail (seq 0 (length avail)) st) as [st2 x2] eqn:X2.
    destruct x2 as [aidx| | | |]; cbn [obind] in H.
    3-5: inversion H; subst; split; discriminate.
    - destruct (lf_multi_done _ _ _ _ _ X2) as [T2 Hc2]. unfold drop_locals in H.
      destruct (lf_by ffi ByCoin avail aidx st2) as [st3 r3] eqn:X3. inversion H; subst st3 r; clear H.
      destruct r3 as [aidx3| | | |]; cbn [ob]; split; try discriminate; intros _.
      + destruct (lf_by_takes _ _ _ _ _ X3) as [T3 _].
        destruct (takes_mono _ _ _ _ T2 W) as [W2 [_ Ho2]].
        destruct (takes_mono _ _ _ _ T3 W2) as [W3 [Hm3 Ho3]].
        apply asset_guard_complete; [apply W3|]. intros p n. rewrite Ho3.
        destruct (N.eq_dec (Q (ByAsset p n) (st_out st2)) 0) as [Ez|Enz]; [rewrite Ez; lia|].
        specialize (Hm3 (ByAsset p n)). rewrite Ho2 in Enz. apply selectors_complete in Enz.
        specialize (Hc2 W p n Enz). lia.
      + exists ByCoin, aidx, st2. split; [exact T2|exact X3].
    - inversion H; subst st2 r. split; [discriminate|]. intros _.
      destruct (lf_multi_insufficient _ _ _ _ X2) as [sel [aidx1 [st1 [_ [T1 Hlf]]]]]. eauto.
  Qed.
End Proofs.
