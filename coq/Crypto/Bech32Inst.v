(* C12 — the bech32 fields of [prims] instantiated with the executable model of the bech32 crate (Addr/Bech32.v, proved in
   Addr/Bech32Proofs.v by C11): for this instance the two bech32 laws of Iface.v are THEOREMS, not premises. *)
From CSL Require Import Base.Prelude Crypto.Iface.
From CSL Require Addr.Bech32 Addr.Bech32Proofs.
Local Open Scope N_scope.

Definition opt {A} (r : result A) : option A := match r with Ok a => Some a | _ => None end.

(* [P] with its four bech32 fields replaced by the concrete codec; every other primitive is kept *)
Definition with_bech32 (P : prims) : prims :=
  {| ed_keypair_pk := ed_keypair_pk P; ed_sign := ed_sign P; ed_ext_pub := ed_ext_pub P; ed_sign_ext := ed_sign_ext P;
     ed_verify := ed_verify P; xprv_public := xprv_public P; xprv_derive := xprv_derive P; xpub_derive := xpub_derive P;
     xprv_normalize3 := xprv_normalize3 P; pbkdf2_bip39 := pbkdf2_bip39 P; kdf := kdf P; aead_enc := aead_enc P; aead_dec := aead_dec P;
     b32_to_base32 := Bech32.to_base32;
     b32_from_base32 := fun d => opt (Bech32.from_base32 d);
     b32_encode := fun h d => opt (Bech32.encode h d);
     b32_decode := fun s => opt (Bech32.decode s);
     blake2b224 := blake2b224 P |}.

(* the scan of check_hrp over a well-formed lower-case HRP ends in a case other than upper *)
Lemma check_go_valid h : forallb hrp_char_ok h = true -> forall hl,
  exists c, Bech32.check_hrp_go h hl false = Ok c /\ c <> Bech32.CUpper.
Proof.
  induction h as [|b t IH]; intros H hl; cbn [Bech32.check_hrp_go].
  - exists (if hl then Bech32.CLower else Bech32.CNone). destruct hl; split; try reflexivity; discriminate.
  - cbn [forallb] in H. apply andb_true_iff in H as [Hb Ht]. unfold hrp_char_ok in Hb.
    replace ((b <? 33) || (126 <? b)) with false by lia.
    replace (Bech32.is_upper b) with false by (unfold Bech32.is_upper; lia).
    destruct (Bech32.is_lower b); cbn [andb]; rewrite ?andb_false_r; apply IH; exact Ht.
Qed.

(* a well-formed lower-case HRP passes the crate's check_hrp and is returned unchanged by decode *)
Lemma hrp_valid_check h : hrp_valid h = true -> exists c, Bech32.check_hrp h = Ok c /\ Bech32.hrp_lower c h = h.
Proof.
  unfold hrp_valid. intros H. apply andb_true_iff in H as [H Hc]. apply andb_true_iff in H as [Hn Hl].
  unfold Bech32.check_hrp.
  replace (List.length h =? 0)%nat with false by (destruct h; [discriminate|reflexivity]).
  replace (83 <? List.length h)%nat with false by lia.
  destruct (check_go_valid h Hc false) as (c & E & Hne).
  exists c. split; [exact E|]. destruct c; [contradiction|reflexivity|reflexivity].
Qed.

Theorem concrete_base32_roundtrip P : law_base32_roundtrip (with_bech32 P).
Proof. intros bs Hb. cbn [with_bech32 b32_from_base32 b32_to_base32]. rewrite (Bech32Proofs.base32_roundtrip bs Hb). reflexivity. Qed.

Theorem concrete_bech32_roundtrip P : law_bech32_roundtrip (with_bech32 P).
Proof.
  intros h bs Hh Hb. cbn [with_bech32 b32_encode b32_decode b32_to_base32].
  destruct (hrp_valid_check h Hh) as (c & Ec & El).
  pose proof (Bech32Proofs.encode_shape h (Bech32.to_base32 bs) c Ec) as E. rewrite E. cbn [opt].
  eexists. split; [reflexivity|].
  destruct (Bech32Proofs.decode_encode h (Bech32.to_base32 bs) _ (Bech32Proofs.to_base32_lt32 bs Hb) E) as (c' & Ec' & D).
  rewrite Ec in Ec'. injection Ec' as <-. rewrite D, El. reflexivity.
Qed.

(* the other laws do not look at the bech32 fields *)
Lemma with_bech32_keeps P :
  (law_shapes P -> law_shapes (with_bech32 P)) /\ (law_sign_normal P -> law_sign_normal (with_bech32 P)) /\
  (law_sign_extended P -> law_sign_extended (with_bech32 P)) /\ (law_xpub_layout P -> law_xpub_layout (with_bech32 P)) /\
  (law_soft_derivation P -> law_soft_derivation (with_bech32 P)) /\ (law_hard_refused P -> law_hard_refused (with_bech32 P)) /\
  (law_normalize3 P -> law_normalize3 (with_bech32 P)) /\ (law_pbkdf2_bip39_shape P -> law_pbkdf2_bip39_shape (with_bech32 P)) /\
  (law_aead_roundtrip P -> law_aead_roundtrip (with_bech32 P)) /\ (law_aead_shapes P -> law_aead_shapes (with_bech32 P)) /\
  (law_aead_authentic P -> law_aead_authentic (with_bech32 P)) /\ (law_aead_plain_by_ct P -> law_aead_plain_by_ct (with_bech32 P)).
Proof. repeat apply conj; exact (fun H => H). Qed.
