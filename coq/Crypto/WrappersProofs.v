(* C12 — theorems about the wrapper layer (Wrappers.v) under explicit laws of the external crates (Iface.v). *)
From CSL Require Import Base.Prelude Base.Hex Cbor.Head Crypto.Iface Crypto.Wrappers.
Local Open Scope N_scope.

Lemma list_eqb_eq a b : list_eqb a b = true <-> a = b.
Proof.
  revert b; induction a as [|x a IH]; destruct b as [|y b]; cbn; try easy.
  rewrite andb_true_iff, N.eqb_eq, IH. split; [intros [-> ->]; reflexivity|intros [= -> ->]; auto].
Qed.

Lemma list_eqb_refl a : list_eqb a a = true.
Proof. apply list_eqb_eq. reflexivity. Qed.

Lemma list_eqb_neq a b : list_eqb a b = false <-> a <> b.
Proof. rewrite <- not_true_iff_false, list_eqb_eq. reflexivity. Qed.

Lemma len_app a b : len (a ++ b) = len a + len b.
Proof. unfold len. rewrite app_length. lia. Qed.

Lemma firstn_app_len (a b : bytes) k : len a = N.of_nat k -> firstn k (a ++ b) = a.
Proof. intros H. apply Nat2N.inj in H as <-. rewrite firstn_app, Nat.sub_diag, firstn_all. apply app_nil_r. Qed.

Lemma skipn_app_len (a b : bytes) k : len a = N.of_nat k -> skipn k (a ++ b) = b.
Proof. intros H. apply Nat2N.inj in H as <-. rewrite skipn_app, Nat.sub_diag, skipn_all. reflexivity. Qed.

Lemma bytes_ok_app a b : bytes_ok a -> bytes_ok b -> bytes_ok (a ++ b).
Proof. intros. apply Forall_app; auto. Qed.

Lemma bytes_ok_cut k l : bytes_ok l -> bytes_ok (firstn k l) /\ bytes_ok (skipn k l).
Proof. intros H. apply Forall_app. rewrite firstn_skipn. exact H. Qed.

Lemma wfb_app n m a b : wfb n a -> wfb m b -> wfb (n + m) (a ++ b).
Proof. intros [A1 A2] [B1 B2]. split; [rewrite len_app; lia|apply bytes_ok_app; auto]. Qed.

Lemma wfb_cut k n b : wfb n b -> N.of_nat k <= n -> wfb (N.of_nat k) (firstn k b) /\ wfb (n - N.of_nat k) (skipn k b).
Proof.
  unfold wfb, len. intros [H1 H2] Hk. rewrite firstn_length, skipn_length.
  destruct (bytes_ok_cut k b H2). split; split; [lia|assumption|lia|assumption].
Qed.

Lemma nth_firstn_lt {A} (l : list A) k i d : (i < k)%nat -> nth i (firstn k l) d = nth i l d.
Proof.
  revert l i; induction k; intros l i H; [lia|].
  destruct l; [destruct i; reflexivity|]. destruct i; cbn; [reflexivity|]. apply IHk. lia.
Qed.

Lemma bytes_ok_nth l i : bytes_ok l -> nth i l 0 < 256.
Proof. intros H. destruct (nth_in_or_default i l 0) as [Hi| ->]; [|lia]. apply (proj1 (Forall_forall _ l) H), Hi. Qed.

(* a BIP32 private key: extended secret (64) ++ chain code (32) *)
Lemma xprv_cut k : wfb 96 k -> wfb 64 (firstn 64 k) /\ wfb 32 (skipn 64 k).
Proof. intros H. apply (wfb_cut 64 96 k H). lia. Qed.

Lemma ext_scalar_ok_first64 k : ext_scalar_ok (firstn 64 k) = ext_scalar_ok k.
Proof. unfold ext_scalar_ok. rewrite nth_firstn_lt by lia. reflexivity. Qed.

(* the structure check of a BIP32 private key implies cryptoxide's precondition on the scalar *)
Lemma xprv_bits_scalar_ok k : bytes_ok k -> xprv_bits_ok k = true -> ext_scalar_ok (firstn 64 k) = true.
Proof.
  rewrite ext_scalar_ok_first64. unfold xprv_bits_ok, ext_scalar_ok. intros Hb H.
  pose proof (bytes_ok_nth k 31 Hb) as Hlt. set (b := nth 31 k 0) in *. clearbody b. lia.
Qed.

(* a call returns: a value or an error, neither a panic nor exhausted fuel *)
Inductive returns {A} : result A -> Prop :=
| returns_ok a : returns (Ok a)
| returns_err : returns Err.
Create HintDb returns.
#[export] Hint Constructors returns : returns.

Lemma returns_bind {A B} (r : result A) (f : A -> result B) : returns r -> (forall a, returns (f a)) -> returns (bind r f).
Proof. intros [a|] H; [apply H|constructor]. Qed.

Lemma returns_if {A} (b : bool) (r r' : result A) : returns r -> returns r' -> returns (if b then r else r').
Proof. destruct b; auto. Qed.

Lemma returns_not_panic {A} (r : result A) : returns r -> r <> Panic.
Proof. intros []; discriminate. Qed.
#[export] Hint Resolve returns_bind returns_if : returns.

Section Proofs.
Variable P : prims.

Definition kt_valid (T : ktype) (bs : bytes) : Prop := kt_from_binary T bs = Ok bs /\ bytes_ok bs.

Lemma kt_from_binary_ok T bs r : kt_from_binary T bs = Ok r <-> r = bs /\ len bs = kt_size T /\ kt_check T bs = true.
Proof.
  unfold kt_from_binary. split.
  - destruct (_ && _) eqn:E; [|discriminate]. intros [= <-]. apply andb_true_iff in E as [E1 E2]. apply N.eqb_eq in E1. auto.
  - intros (-> & L & C). rewrite L, C, N.eqb_refl. reflexivity.
Qed.

Lemma kt_from_binary_intro T bs : len bs = kt_size T -> kt_check T bs = true -> kt_from_binary T bs = Ok bs.
Proof. intros L C. apply kt_from_binary_ok. auto. Qed.

Lemma kt_from_binary_cases T bs : kt_from_binary T bs = Ok bs \/ kt_from_binary T bs = Err.
Proof. unfold kt_from_binary. destruct (_ && _); auto. Qed.

Lemma kt_from_binary_returns T bs : returns (kt_from_binary T bs).
Proof. destruct (kt_from_binary_cases T bs) as [-> | ->]; constructor. Qed.

Lemma kt_hex_roundtrip T bs : kt_valid T bs -> kt_from_hex T (kt_to_hex bs) = Ok bs.
Proof. intros [H Hb]. unfold kt_from_hex, kt_to_hex. rewrite unhex_hex by exact Hb. exact H. Qed.

Lemma kt_from_hex_returns T t : returns (kt_from_hex T t).
Proof. unfold kt_from_hex. destruct (unhex t); [apply kt_from_binary_returns|constructor]. Qed.

(* bech32 of a valid value: the text, what the decoder sees in it, and the way back *)
Lemma kt_bech32_roundtrip T bs :
  law_base32_roundtrip P -> law_bech32_roundtrip P -> hrp_valid (kt_hrp T) = true -> kt_valid T bs ->
  exists s, kt_to_bech32 P T bs = Ok s /\ kt_from_bech32 P T s = Ok bs /\ b32_decode P s = Some (kt_hrp T, b32_to_base32 P bs).
Proof.
  intros L1 L2 Hh [H Hb]. destruct (L2 (kt_hrp T) bs Hh Hb) as (s & E & D).
  exists s. unfold kt_to_bech32, to_bech32_from_bytes, kt_from_bech32, try_from_bech32_to_bytes.
  rewrite E, D, list_eqb_refl, (L1 bs Hb). cbn. auto.
Qed.

(* whatever produced a text: if the decoder finds ANOTHER human-readable part in it, or nothing, it is rejected *)
Lemma kt_from_bech32_other_hrp T s h d : b32_decode P s = Some (h, d) -> h <> kt_hrp T -> kt_from_bech32 P T s = Err.
Proof. intros D N. apply list_eqb_neq in N. unfold kt_from_bech32, try_from_bech32_to_bytes. rewrite D, N. reflexivity. Qed.

Lemma kt_from_bech32_undecodable T s : b32_decode P s = None -> kt_from_bech32 P T s = Err.
Proof. intros D. unfold kt_from_bech32, try_from_bech32_to_bytes. rewrite D. reflexivity. Qed.

(* in particular a text made by the encoder under another human-readable part *)
Lemma encoded_decodes h bs s : law_bech32_roundtrip P -> hrp_valid h = true -> bytes_ok bs ->
  b32_encode P h (b32_to_base32 P bs) = Some s -> b32_decode P s = Some (h, b32_to_base32 P bs).
Proof. intros L2 Hh Hb E. destruct (L2 h bs Hh Hb) as (s' & E' & D). rewrite E in E'. injection E' as <-. exact D. Qed.

Lemma kt_from_bech32_returns T s : returns (kt_from_bech32 P T s).
Proof.
  apply returns_bind; [|apply kt_from_binary_returns]. unfold try_from_bech32_to_bytes.
  destruct (b32_decode P s) as [[h d]|]; [|constructor]. destruct (list_eqb h (kt_hrp T)); [|constructor].
  destruct (b32_from_base32 P d); constructor.
Qed.

Lemma hrps_valid T : In T [T_sk_normal; T_sk_ext; T_pk; T_sig; T_xprv; T_xpub; T_legacy] -> hrp_valid (kt_hrp T) = true.
Proof. intros H. repeat (destruct H as [<-|H]; [reflexivity|]). destruct H. Qed.

(* PrivateKey: the two-way dispatch of from_hex / from_bech32 returns the same kind of key *)
Definition sk_valid (k : privkey) : Prop := kt_valid (sk_type k) (sk_as_bytes k).

Lemma sk_hex_roundtrip k : sk_valid k -> sk_from_hex (hex (sk_as_bytes k)) = Ok k.
Proof.
  intros [H Hb]. unfold sk_from_hex. rewrite unhex_hex by exact Hb.
  destruct k as [b|b]; cbn [sk_as_bytes sk_type] in *.
  - rewrite H. reflexivity.
  - (* 64 bytes: the normal type, tried first, refuses them *)
    apply kt_from_binary_ok in H as H'. destruct H' as (_ & Hl & _).
    unfold kt_from_binary at 1. rewrite Hl, H. reflexivity.
Qed.

Lemma sk_from_hex_returns t : returns (sk_from_hex t).
Proof.
  unfold sk_from_hex. destruct (unhex t) as [d|]; [|constructor].
  destruct (kt_from_binary_cases T_sk_normal d) as [-> | ->]; [constructor|].
  destruct (kt_from_binary_cases T_sk_ext d) as [-> | ->]; constructor.
Qed.

Lemma sk_bech32_roundtrip k :
  law_base32_roundtrip P -> law_bech32_roundtrip P -> sk_valid k ->
  exists s, sk_to_bech32 P k = Ok s /\ sk_from_bech32 P s = Ok k /\
            b32_decode P s = Some (kt_hrp (sk_type k), b32_to_base32 P (sk_as_bytes k)).
Proof.
  intros L1 L2 Hv. assert (Hh : hrp_valid (kt_hrp (sk_type k)) = true) by (destruct k; reflexivity).
  destruct (kt_bech32_roundtrip _ _ L1 L2 Hh Hv) as (s & E & D & C).
  exists s. split; [exact E|]. split; [|exact C]. unfold sk_from_bech32.
  destruct k as [b|b]; cbn [sk_type sk_as_bytes] in D, C.
  - (* the extended type, tried first, sees the HRP of the normal one *)
    rewrite (kt_from_bech32_other_hrp T_sk_ext s _ _ C), D; [reflexivity|discriminate].
  - rewrite D. reflexivity.
Qed.

Lemma sk_from_bech32_other_hrp s h d :
  b32_decode P s = Some (h, d) -> h <> hrp_ed25519_sk -> h <> hrp_ed25519e_sk -> sk_from_bech32 P s = Err.
Proof.
  intros D N1 N2. unfold sk_from_bech32.
  rewrite (kt_from_bech32_other_hrp T_sk_ext s h d D N2), (kt_from_bech32_other_hrp T_sk_normal s h d D N1). reflexivity.
Qed.

Lemma sk_from_bech32_undecodable s : b32_decode P s = None -> sk_from_bech32 P s = Err.
Proof. intros D. unfold sk_from_bech32. rewrite !kt_from_bech32_undecodable by exact D. reflexivity. Qed.

Lemma sk_from_bech32_returns s : returns (sk_from_bech32 P s).
Proof.
  unfold sk_from_bech32. destruct (kt_from_bech32_returns T_sk_ext s); [constructor|].
  destruct (kt_from_bech32_returns T_sk_normal s); constructor.
Qed.

Definition xprv_valid (k : bytes) : Prop := wfb 96 k /\ xprv_bits_ok k = true.

Lemma xprv_valid_kt k : xprv_valid k <-> kt_valid T_xprv k.
Proof. unfold xprv_valid, kt_valid, wfb. rewrite kt_from_binary_ok. cbn [kt_size kt_check T_xprv]. tauto. Qed.

Lemma xprv_from_bytes_cases k : bytes_ok k -> xprv_from_bytes k = Ok k /\ xprv_valid k \/ xprv_from_bytes k = Err.
Proof.
  intros Hb. destruct (kt_from_binary_cases T_xprv k) as [E|E]; [left|right; exact E].
  split; [exact E|]. apply xprv_valid_kt. split; assumption.
Qed.

(* raw public key and chain code of the extended public key are those of the private key *)
Lemma xpub_cut k : law_shapes P -> law_xpub_layout P -> wfb 96 k ->
  xpub_to_raw_key (xprv_to_public P k) = ed_ext_pub P (firstn 64 k) /\ xpub_chaincode (xprv_to_public P k) = skipn 64 k.
Proof.
  intros (_ & _ & Hpub & _) LL Hk. destruct (Hpub (firstn 64 k)) as [Lp _].
  unfold xpub_to_raw_key, xpub_chaincode, xprv_to_public. rewrite (LL k Hk).
  split; [apply firstn_app_len|apply skipn_app_len]; exact Lp.
Qed.

(* secret (64) ++ public key (32) ++ chain code (32): what the form is, and what from_128_xprv reads in it *)
Lemma to_128_layout k : law_shapes P -> law_xpub_layout P -> wfb 96 k ->
  let x := to_128_xprv P k in
  x = firstn 64 k ++ ed_ext_pub P (firstn 64 k) ++ skipn 64 k /\ len x = 128 /\
  firstn 64 x = firstn 64 k /\ skipn 96 x = skipn 64 k.
Proof.
  intros LS LL Hk. pose proof LS as (_ & _ & Hpub & _).
  destruct (Hpub (firstn 64 k)) as [Lp _], (xprv_cut k Hk) as [[Ls _] [Lc _]].
  assert (E : to_128_xprv P k = firstn 64 k ++ ed_ext_pub P (firstn 64 k) ++ skipn 64 k).
  { unfold to_128_xprv. rewrite (proj1 (xpub_cut k LS LL Hk)). reflexivity. }
  cbn zeta. rewrite E. repeat split.
  - rewrite !len_app, Ls, Lp, Lc. reflexivity.
  - apply firstn_app_len. exact Ls.
  - rewrite app_assoc. apply skipn_app_len. rewrite len_app, Ls, Lp. reflexivity.
Qed.

Theorem xprv128_roundtrip fx k : law_shapes P -> law_xpub_layout P -> xprv_valid k ->
  from_128_xprv_gen fx (to_128_xprv P k) = Ok k.
Proof.
  intros LS LL Hv. destruct (to_128_layout k LS LL (proj1 Hv)) as (_ & L & E1 & E2). cbn zeta in *.
  assert (R : firstn 64 (to_128_xprv P k) ++ firstn 32 (skipn 96 (to_128_xprv P k)) = k).
  { destruct (xprv_cut k (proj1 Hv)) as [_ [Lc _]]. unfold len in Lc.
    rewrite E1, E2, (firstn_all2 (n:=32)) by lia. apply firstn_skipn. }
  unfold from_128_xprv_gen. rewrite L, R. destruct fx; apply xprv_valid_kt; exact Hv.
Qed.

(* repaired code: every input that is not exactly 128 bytes long is an error, never a panic *)
Theorem from_128_xprv_length_checked bs : len bs <> 128 -> from_128_xprv_gen true bs = Err.
Proof. intros H. unfold from_128_xprv_gen. apply N.eqb_neq in H. rewrite H. reflexivity. Qed.

Theorem from_128_xprv_returns bs : returns (from_128_xprv bs).
Proof. unfold from_128_xprv, from_128_xprv_gen, fixed_xprv128_length. apply returns_if; [apply kt_from_binary_returns|constructor]. Qed.

Theorem soft_derivation_commutes : law_shapes P -> law_soft_derivation P ->
  forall path k, wfb 96 k -> forallb soft path = true ->
  derive_pub_path P (xprv_to_public P k) path = Ok (xprv_to_public P (derive_prv_path P k path)).
Proof.
  intros (_ & _ & _ & _ & _ & Hd & _) L.
  induction path as [|i r IH]; intros k Hk Hs; cbn [derive_pub_path derive_prv_path]; [reflexivity|].
  cbn in Hs. apply andb_true_iff in Hs as [Hi Hr].
  unfold bip32_derive_pub, xprv_to_public at 1. rewrite (L k i Hk Hi). cbn [bind].
  apply IH; [apply Hd; exact Hk|exact Hr].
Qed.

Theorem hardened_from_public_refused : law_hard_refused P ->
  forall path p, forallb soft path = false -> derive_pub_path P p path = Err.
Proof.
  intros L. induction path as [|i r IH]; intros p H; [discriminate|].
  cbn in H. cbn [derive_pub_path]. unfold bip32_derive_pub. destruct (soft i) eqn:Si.
  - destruct (xpub_derive P p i); cbn [bind]; [apply IH; exact H|reflexivity].
  - rewrite (L p i Si). reflexivity.
Qed.

Lemma derive_pub_path_returns path p : returns (derive_pub_path P p path).
Proof.
  revert p; induction path as [|i r IH]; intros p; cbn [derive_pub_path]; [constructor|].
  apply returns_bind; [|exact IH]. unfold bip32_derive_pub. destruct (xpub_derive P p i); constructor.
Qed.

Lemma derive_prv_path_wfb path k : law_shapes P -> wfb 96 k -> wfb 96 (derive_prv_path P k path).
Proof.
  intros (_ & _ & _ & _ & _ & Hd & _). revert k; induction path as [|i r IH]; intros k Hk; [exact Hk|].
  apply IH, Hd, Hk.
Qed.

(* keys made from BIP39 entropy are structurally valid BIP32 keys, so they survive from_bytes (as_bytes k) *)
Theorem bip39_root_valid entropy password : law_normalize3 P -> law_pbkdf2_bip39_shape P ->
  xprv_valid (from_bip39_entropy P entropy password) /\
  xprv_from_bytes (from_bip39_entropy P entropy password) = Ok (from_bip39_entropy P entropy password).
Proof.
  intros L1 L2. pose proof (L1 _ (L2 password entropy)) as V. split; [exact V|]. apply xprv_valid_kt, V.
Qed.

Definition sk_signable (k : privkey) : Prop :=
  match k with SkNormal b => wfb 32 b | SkExtended b => wfb 64 b /\ ext_scalar_ok b = true end.

Lemma sk_shapes k m : law_shapes P -> wfb 32 (sk_to_public P k) /\ wfb 64 (sk_sign P k m).
Proof. intros (A & B & C & D & _). destruct k; cbn; split; auto. Qed.

Lemma sk_sign_verifies k m : law_sign_normal P -> law_sign_extended P -> sk_signable k ->
  pk_verify P (sk_to_public P k) m (sk_sign P k m) = true.
Proof.
  intros LN LE H. destruct k as [b|b]; cbn [sk_signable sk_to_public sk_sign] in *; unfold pk_verify.
  - apply LN; exact H.
  - apply LE; apply H.
Qed.

Lemma xprv_signable k : xprv_valid k -> sk_signable (xprv_to_raw_key k).
Proof. intros [Hk Hx]. split; [apply xprv_cut, Hk|apply xprv_bits_scalar_ok; [apply Hk|exact Hx]]. Qed.

(* Daedalus bootstrap witness: the two unwraps never fire for a 96-byte key *)
Lemma daedalus_witness h attrs k : law_shapes P -> wfb 96 k ->
  make_daedalus_bootstrap_witness P h attrs k =
  Ok {| bw_vkey := ed_ext_pub P (firstn 64 k); bw_sig := ed_sign_ext P (firstn 64 k) h; bw_cc := skipn 64 k; bw_attrs := attrs |}.
Proof.
  intros (_ & _ & Hpub & Hsig & _) Hk.
  destruct (Hpub (firstn 64 k)) as [Lp _], (Hsig (firstn 64 k) h) as [Lg _], (xprv_cut k Hk) as [_ [Lc _]].
  assert (Lx : len (ed_ext_pub P (firstn 64 k) ++ skipn 64 k) = 64) by (rewrite len_app, Lp, Lc; reflexivity).
  unfold make_daedalus_bootstrap_witness, legacy_public, legacy_sign.
  rewrite (kt_from_binary_intro T_xpub _ Lx eq_refl), (kt_from_binary_intro T_sig _ Lg eq_refl). cbn [unwrap bind].
  unfold xpub_to_raw_key. rewrite (firstn_app_len _ _ 32 Lp). reflexivity.
Qed.

Theorem hash_bech32_roundtrip n prefix bs :
  law_base32_roundtrip P -> law_bech32_roundtrip P -> hrp_valid prefix = true -> wfb n bs ->
  forall fx, exists s, hash_to_bech32 P prefix bs = Ok s /\ hash_from_bech32_gen P fx n s = Ok bs.
Proof.
  intros L1 L2 Hh [Hl Hb] fx. destruct (L2 prefix bs Hh Hb) as (s & E & D). exists s.
  unfold hash_to_bech32, hash_from_bech32_gen, hash_from_bytes. rewrite E, D, (L1 bs Hb), Hl, N.eqb_refl. auto.
Qed.

Lemma hash_from_bytes_returns n bs : returns (hash_from_bytes n bs).
Proof. unfold hash_from_bytes. destruct (_ =? _); constructor. Qed.

Theorem hash_from_bech32_returns n s : returns (hash_from_bech32 P n s).
Proof.
  unfold hash_from_bech32, hash_from_bech32_gen, fixed_hash_bech32_padding. destruct (b32_decode P s) as [[h d]|]; [|constructor].
  destruct (b32_from_base32 P d); [apply hash_from_bytes_returns|constructor].
Qed.

End Proofs.

#[export] Hint Resolve kt_from_binary_returns kt_from_hex_returns kt_from_bech32_returns sk_from_hex_returns sk_from_bech32_returns
  from_128_xprv_returns derive_pub_path_returns hash_from_bytes_returns hash_from_bech32_returns : returns.
