(* C12 — the model satisfies the judge's statement: for EVERY case (all inputs), under the laws of the primitives, the proved part
   [stmt] of the property holds on the model's own observation, which never contains a panic.  Together with the correspondence
   (implementation observation = model observation on the generated cases) this is what makes the judge's verdict meaningful. *)
From CSL Require Import Base.Prelude Base.Hex Cbor.Head Crypto.Iface Crypto.Wrappers Crypto.WrappersProofs
  Crypto.Emip3 Crypto.Emip3Proofs Crypto.Obs Crypto.Bech32Inst.
Local Open Scope N_scope.

(* the twelve laws about the cryptographic primitives; with the two about the bech32 codec, all fourteen *)
Definition crypto_laws (P : prims) : Prop :=
  law_shapes P /\ law_sign_normal P /\ law_sign_extended P /\ law_xpub_layout P /\ law_soft_derivation P /\
  law_hard_refused P /\ law_normalize3 P /\ law_pbkdf2_bip39_shape P /\
  law_aead_roundtrip P /\ law_aead_shapes P /\ law_aead_authentic P /\ law_aead_plain_by_ct P.
Definition all_laws (P : prims) : Prop := crypto_laws P /\ law_base32_roundtrip P /\ law_bech32_roundtrip P.

(* the byte-string fields of a case hold values below 256 *)
Definition case_wf (c : case) : Prop :=
  match c with
  | CEnc _ bs => bytes_ok bs
  | CSign _ k _ _ k2 => bytes_ok k /\ bytes_ok k2
  | CWit _ _ k _ _ => bytes_ok k
  | CDerive r _ => bytes_ok r
  | CPubDerive x _ => bytes_ok x
  | CX128 k => bytes_ok k
  | _ => True
  end.

Lemma res_eqb_refl r : res_eqb r r = true.
Proof. destruct r; cbn; auto using list_eqb_refl. Qed.
Lemma obs_eqb_refl o : obs_eqb o o = true.
Proof. induction o; cbn; [reflexivity|]. rewrite res_eqb_refl, IHo. reflexivity. Qed.

Lemma ktype_hrp_valid tk : hrp_valid (kt_hrp (ktype_of tk)) = true.
Proof. destruct tk as [|[[[p|p|]|[p|p|]|]|[[p|p|]|[p|p|]|]|]]; reflexivity. Qed.

Lemma returns_no_panic (o : obs) : Forall returns o -> has_panic o = false.
Proof. induction 1 as [|r o [b|] _ IH]; [reflexivity|exact IH|exact IH]. Qed.

Lemma returns_rmap {A B} (f : A -> B) r : returns r -> returns (rmap f r).
Proof. intros []; constructor. Qed.
#[export] Hint Resolve returns_rmap : returns.

(* PrivateKey::from_normal_bytes / from_extended_bytes, chosen by the tag of the case *)
Definition sk_of (tk : N) (bs : bytes) : privkey := if tk =? 0 then SkNormal bs else SkExtended bs.

Lemma sk_from_bytes_tk_cases tk bs : bytes_ok bs ->
  sk_from_bytes_tk tk bs = Ok (sk_of tk bs) /\ sk_valid (sk_of tk bs) /\ sk_signable (sk_of tk bs) /\ sk_usable (sk_of tk bs) = true \/
  sk_from_bytes_tk tk bs = Err.
Proof.
  intros Hb. unfold sk_from_bytes_tk, sk_from_normal_bytes, sk_from_extended_bytes, sk_of. destruct (tk =? 0).
  - destruct (kt_from_binary_cases T_sk_normal bs) as [E|E]; rewrite E; [left|right; reflexivity].
    apply kt_from_binary_ok in E as E'. destruct E' as (_ & L & _). repeat split; assumption.
  - destruct (kt_from_binary_cases T_sk_ext bs) as [E|E]; rewrite E; [left|right; reflexivity].
    apply kt_from_binary_ok in E as E'. destruct E' as (_ & L & C). repeat split; assumption.
Qed.

Lemma sk_from_bytes_tk_returns tk bs : returns (sk_from_bytes_tk tk bs).
Proof. unfold sk_from_bytes_tk, sk_from_normal_bytes, sk_from_extended_bytes. auto 6 with returns. Qed.
#[export] Hint Resolve sk_from_bytes_tk_returns : returns.

Section JudgeProofs.
Variable P : prims.
Hypothesis LAWS : all_laws P.

(* the fourteen laws under the names the proofs below use *)
Ltac laws := destruct LAWS as ((LS & LN & LE & LL & LSo & LH & LN3 & LPB & LAR & LAS & LAA & LAP) & LB1 & LB2).

Definition good (c : case) : Prop := has_panic (model_obs P c) = false /\ stmt P c (model_obs P c) = true.

Lemma good_enc_kt tk bs : (tk <=? 1) = false -> bytes_ok bs -> good (CEnc tk bs).
Proof.
  laws. intros Htk Hb. unfold good. cbn [model_obs]. unfold obs_enc. rewrite Htk.
  destruct (tk =? 6) eqn:E6.
  - apply N.eqb_eq in E6. subst tk.
    destruct (kt_from_binary_cases T_legacy bs) as [E|E]; rewrite E; [|split; reflexivity].
    destruct (kt_bech32_roundtrip P T_legacy bs LB1 LB2 eq_refl (conj E Hb)) as (s & A & B & C).
    rewrite A. cbn [bind]. rewrite B. split; [reflexivity|].
    cbn [stmt]. change (6 <=? 1) with false. change (6 =? 6) with true. cbn iota.
    rewrite C, !list_eqb_refl, res_eqb_refl. reflexivity.
  - set (T := ktype_of tk).
    destruct (kt_from_binary_cases T bs) as [E|E]; rewrite E; [|split; reflexivity].
    destruct (kt_bech32_roundtrip P T bs LB1 LB2 (ktype_hrp_valid tk) (conj E Hb)) as (s & A & B & C).
    pose proof (kt_hex_roundtrip T bs (conj E Hb)) as HX. unfold kt_to_hex in HX.
    rewrite A. cbn [bind]. rewrite B, HX. split; [reflexivity|].
    cbn [stmt]. rewrite Htk, E6. fold T. rewrite C, !list_eqb_refl, !res_eqb_refl. reflexivity.
Qed.

Lemma good_enc_sk tk bs : (tk <=? 1) = true -> bytes_ok bs -> good (CEnc tk bs).
Proof.
  laws. intros Htk Hb. unfold good. cbn [model_obs]. unfold obs_enc. rewrite Htk.
  destruct (sk_from_bytes_tk_cases tk bs Hb) as [(E & V & _)|E]; rewrite E; [|split; reflexivity].
  assert (K : sk_repr (sk_of tk bs) = tk :: bs /\ sk_type (sk_of tk bs) = ktype_of tk /\ sk_as_bytes (sk_of tk bs) = bs).
  { assert (tk = 0 \/ tk = 1) as [-> | ->] by lia; repeat split. }
  destruct K as (K1 & K2 & K3).
  destruct (sk_bech32_roundtrip P _ LB1 LB2 V) as (s & A & B & C).
  rewrite (sk_hex_roundtrip _ V), A. cbn [bind]. rewrite B. cbn [rmap]. rewrite K1, K3. split; [reflexivity|].
  cbn [stmt]. rewrite Htk, C, K2, !list_eqb_refl, !res_eqb_refl.
  replace (tk =? 6) with false by lia. reflexivity.
Qed.

Lemma good_enc tk bs : bytes_ok bs -> good (CEnc tk bs).
Proof. intros Hb. destruct (tk <=? 1) eqn:E; [apply good_enc_sk|apply good_enc_kt]; assumption. Qed.

(* each entry of the observation is one wrapper call; the returns database has a lemma for each *)
Lemma obs_dec_returns tk fmt i : Forall returns (obs_dec P tk fmt i).
Proof.
  unfold obs_dec. destruct (tk <=? 1); [|destruct (7 <=? tk); [|destruct ((tk =? 4) && (fmt =? 3))]];
    repeat constructor; try destruct (unhex i); auto with returns.
Qed.

(* a bech32 text (format 2) in which the decoder finds nothing, or a human-readable part the type does not accept, is an error;
   so is a 128-byte form (format 3 of type 4) of another length *)
Lemma good_dec tk fmt i : good (CDec tk fmt i).
Proof.
  unfold good. cbn [model_obs]. split; [apply returns_no_panic, obs_dec_returns|]. unfold obs_dec.
  destruct (tk <=? 1) eqn:T1; [|destruct (7 <=? tk) eqn:T7; [|destruct ((tk =? 4) && (fmt =? 3)) eqn:X]];
    cbn [stmt]; unfold hrp_accepted; rewrite T1, ?T7.
  - (* PrivateKey *)
    destruct (N.eqb_spec fmt 2) as [->|_]; [|replace ((fmt =? 3) && (tk =? 4)) with false by lia; reflexivity].
    destruct (b32_decode P i) as [[h d]|] eqn:D; [|rewrite (sk_from_bech32_undecodable P i D); reflexivity].
    destruct (list_eqb h hrp_ed25519_sk) eqn:H1; [reflexivity|]. destruct (list_eqb h hrp_ed25519e_sk) eqn:H2; [reflexivity|].
    apply list_eqb_neq in H1, H2. rewrite (sk_from_bech32_other_hrp P i h d D H1 H2). reflexivity.
  - (* hash types: any human-readable part is accepted *)
    destruct (N.eqb_spec fmt 2) as [->|_]; [|replace ((fmt =? 3) && (tk =? 4)) with false by lia; reflexivity].
    unfold hash_from_bech32, hash_from_bech32_gen. destruct (b32_decode P i) as [[h d]|]; reflexivity.
  - (* 128-byte form *)
    replace (fmt =? 2) with false by lia. rewrite andb_comm, X.
    destruct (len i =? 128) eqn:L; [reflexivity|]. apply N.eqb_neq in L.
    unfold from_128_xprv, fixed_xprv128_length. rewrite (from_128_xprv_length_checked i L). reflexivity.
  - rewrite andb_comm, X. destruct (N.eqb_spec fmt 2) as [->|_]; [|reflexivity].
    destruct (b32_decode P i) as [[h d]|] eqn:D; [|rewrite (kt_from_bech32_undecodable P _ i D); reflexivity].
    destruct (list_eqb h (kt_hrp (ktype_of tk))) eqn:H; [reflexivity|].
    apply list_eqb_neq in H. rewrite (kt_from_bech32_other_hrp P _ i h d D H). reflexivity.
Qed.

Lemma good_sign tk k m m2 k2 : bytes_ok k -> bytes_ok k2 -> good (CSign tk k m m2 k2).
Proof.
  laws. intros Hb Hb2. unfold good. cbn [model_obs]. unfold obs_sign.
  destruct (sk_from_bytes_tk_cases tk k Hb) as [(E & _ & S & U)|E]; rewrite E; [|split; reflexivity].
  destruct (sk_from_bytes_tk_cases tk k2 Hb2) as [(E2 & _ & _ & U2)|E2]; rewrite E2; [|split; reflexivity].
  rewrite U, U2. split; [reflexivity|].
  cbn [stmt andb]. rewrite (sk_sign_verifies P _ m LN LE S).
  destruct (sk_shapes P (sk_of tk k) m LS) as [[A _] [B _]]. rewrite A, B. reflexivity.
Qed.

Lemma good_wit wk h k dp mg : bytes_ok k -> good (CWit wk h k dp mg).
Proof.
  laws. intros Hb. unfold good. cbn [model_obs]. unfold obs_wit.
  destruct (wk <=? 1) eqn:W1; [|destruct (wk =? 2) eqn:W2].
  - destruct (sk_from_bytes_tk_cases wk k Hb) as [(E & _ & S & U)|E]; rewrite E; [|split; reflexivity].
    rewrite U. split; [reflexivity|]. cbn [stmt make_vkey_witness vw_vkey vw_sig]. rewrite W1, E.
    rewrite (sk_sign_verifies P _ h LN LE S), !list_eqb_refl, obs_eqb_refl. reflexivity.
  - destruct (xprv_from_bytes_cases k Hb) as [[E V]|E]; rewrite E; [|split; reflexivity].
    split; [reflexivity|]. cbn [stmt]. rewrite W1.
    cbn [make_icarus_bootstrap_witness bw_vkey bw_sig bw_cc bw_attrs].
    rewrite (sk_sign_verifies P _ h LN LE (xprv_signable k V)). cbn [sk_to_public sk_sign xprv_to_raw_key].
    rewrite !list_eqb_refl. unfold xprv_chaincode. rewrite obs_eqb_refl. reflexivity.
  - destruct (kt_from_binary_cases T_legacy k) as [E|E]; rewrite E; [|split; reflexivity].
    apply kt_from_binary_ok in E as (_ & L & C). cbn [kt_check T_legacy T_legacy_gen ext_check_gen fixed_ext_scalar_check] in C.
    rewrite <- ext_scalar_ok_first64 in C. rewrite C, (daedalus_witness P h _ k LS (conj L Hb)).
    split; [reflexivity|]. cbn [stmt bw_vkey bw_sig bw_cc bw_attrs]. rewrite W1. unfold pk_verify.
    rewrite (LE _ h (proj1 (xprv_cut k (conj L Hb))) C), !list_eqb_refl, obs_eqb_refl. reflexivity.
Qed.

Lemma good_derive root path : bytes_ok root -> good (CDerive root path).
Proof.
  laws. intros Hb. unfold good. cbn [model_obs]. unfold obs_derive.
  destruct (xprv_from_bytes_cases root Hb) as [[E [Hk _]]|E]; rewrite E; [|split; reflexivity].
  set (kf := derive_prv_path P root path).
  assert (Hf : wfb 96 kf) by (apply derive_prv_path_wfb; assumption).
  split; [unfold xprv_from_bytes; apply returns_no_panic; repeat constructor; auto with returns|].
  cbn [stmt]. unfold all_soft. destruct (xpub_cut P kf LS LL Hf) as [-> ->].
  unfold xprv_to_raw_key, sk_to_public, xprv_chaincode. rewrite !list_eqb_refl, !andb_true_r.
  destruct (forallb soft path) eqn:S.
  - rewrite (soft_derivation_commutes P LS LSo path root Hk S). apply res_eqb_refl.
  - rewrite (hardened_from_public_refused P LH path _ S). reflexivity.
Qed.

Lemma good_pubderive x path : good (CPubDerive x path).
Proof.
  laws. unfold good. cbn [model_obs]. unfold obs_pubderive.
  destruct (kt_from_binary_cases T_xpub x) as [E|E]; rewrite E.
  - split; [apply returns_no_panic; repeat constructor; apply derive_pub_path_returns|]. cbn [stmt]. unfold all_soft. destruct (forallb soft path) eqn:S; [reflexivity|].
    rewrite (hardened_from_public_refused P LH path x S). reflexivity.
  - split; [reflexivity|]. cbn [stmt]. destruct (all_soft path); reflexivity.
Qed.

Lemma good_pkhash pk : good (CPkHash pk).
Proof.
  unfold good. cbn [model_obs]. unfold obs_pkhash.
  destruct (kt_from_binary_cases T_pk pk) as [E|E]; rewrite E; split; reflexivity.
Qed.

Lemma good_bip39 e pw : good (CBip39 e pw).
Proof.
  laws. unfold good. cbn [model_obs]. unfold obs_bip39.
  destruct (bip39_root_valid P e pw LN3 LPB) as [_ E]. rewrite E. split; [reflexivity|]. cbn [stmt]. apply res_eqb_refl.
Qed.

Lemma good_x128 k : bytes_ok k -> good (CX128 k).
Proof.
  laws. intros Hb. unfold good. cbn [model_obs]. unfold obs_x128.
  destruct (xprv_from_bytes_cases k Hb) as [[E V]|E]; rewrite E; [|split; reflexivity].
  unfold from_128_xprv, fixed_xprv128_length. rewrite (xprv128_roundtrip P true k LS LL V).
  split; [reflexivity|]. cbn [stmt]. destruct (to_128_layout P k LS LL (proj1 V)) as (_ & -> & -> & ->).
  rewrite res_eqb_refl, !list_eqb_refl. reflexivity.
Qed.

Lemma good_dec3 tp tc : good (CDec3 tp tc).
Proof. unfold good. cbn [model_obs]. unfold obs_dec3, decrypt_with_password. split; [|reflexivity].
  apply returns_no_panic. repeat constructor. apply decrypt_returns.
Qed.

Lemma good_enc3 tp ts tn td : good (CEnc3 tp ts tn td).
Proof.
  laws. unfold good. cbn [model_obs stmt]. unfold obs_enc3.
  destruct (unhex tp) as [pw|] eqn:Hp, (unhex ts) as [s|] eqn:Hs, (unhex tn) as [n|] eqn:Hn, (unhex td) as [d|] eqn:Hd;
    try (rewrite encrypt_with_password_eq, Hp, ?Hs, ?Hn, ?Hd; split; reflexivity).
  destruct ((len s =? 32) && (len n =? 12) && negb (len pw =? 0)) eqn:V;
    [|rewrite encrypt_with_password_eq, Hp, Hs, Hn, Hd, V; split; reflexivity].
  assert (Hpar : emip3_params tp ts tn td pw s n d) by (repeat split; try assumption; lia).
  destruct (encrypt_shape P tp ts tn td pw s n d LAS Hpar) as (E & _ & _ & _ & Lc).
  destruct (emip3_roundtrip P true tp ts tn td pw s n d LAR LAS Hpar (or_introl eq_refl)) as (c & E' & D).
  rewrite E in E'. injection E' as <-. rewrite E.
  unfold decrypt_with_password, fixed_emip3_empty. rewrite D. split; [reflexivity|].
  rewrite res_eqb_refl, len_hex, Lc. apply N.eqb_refl.
Qed.

Theorem model_satisfies_stmt c : case_wf c -> good c.
Proof.
  destruct c; cbn [case_wf]; intros H.
  - apply good_enc; exact H.
  - apply good_dec.
  - apply good_sign; apply H.
  - apply good_wit; exact H.
  - apply good_derive; exact H.
  - apply good_pkhash.
  - apply good_pubderive.
  - apply good_bip39.
  - apply good_x128; exact H.
  - apply good_enc3.
  - apply good_dec3.
Qed.

(* consequently: whenever the implementation's observation equals the model's, the only way the judge can fail is the TESTED
   part (verification under another message / key, structure check of derived keys) *)
Definition tested_verdict (c : case) : verdict :=
  if stmt_tested P c (model_obs P c) then Holds
  else if known_class P c =? 0 then FailsUnknown else FailsKnown (known_class P c).

Theorem judge_on_model c : case_wf c -> judge P c (model_obs P c) = tested_verdict c.
Proof.
  intros H. destruct (model_satisfies_stmt c H) as [A B]. unfold judge, tested_verdict.
  rewrite A, obs_eqb_refl, B. cbn [negb andb]. reflexivity.
Qed.

(* sequences: the model of a sequence is made of the models of the steps taken alone (purity), and the judge of a sequence
   accepts it when it accepts every step *)
Theorem judge_seq_on_model l : Forall case_wf l ->
  forallb (fun c => stmt_tested P c (model_obs P c)) l = true -> judge_seq P l (model_seq P l) = Holds.
Proof.
  induction 1 as [|c l Hc _ IH]; [reflexivity|].
  cbn [model_seq map judge_seq forallb]. intros T. apply andb_true_iff in T as [T1 T2].
  rewrite (judge_on_model c Hc). unfold tested_verdict. rewrite T1. exact (IH T2).
Qed.

End JudgeProofs.

(* with the concrete bech32 codec only the twelve laws about the cryptographic primitives remain premises: they do not look
   at the bech32 fields *)
Lemma all_laws_concrete P : crypto_laws P -> all_laws (with_bech32 P).
Proof. intros L. exact (conj L (conj (concrete_base32_roundtrip P) (concrete_bech32_roundtrip P))). Qed.
