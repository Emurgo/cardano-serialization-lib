(* C12 — the EMIP-3 container (Emip3.v) under the functional AEAD laws of Iface.v: decryption cuts the container at the
   offsets at which encryption assembled it, hence inverts it.  What decryption accepts and rejects is stated in
   Props/C12.v from these; that a forger cannot produce an accepted container is not (and
   cannot be) proved, see C12_emip3_rejects_modified. *)
From CSL Require Import Base.Prelude Base.Hex Crypto.Iface Crypto.Wrappers Crypto.WrappersProofs Crypto.Emip3.
Local Open Scope N_scope.

Lemma unhexc_lt c n : unhexc c = Some n -> n < 16.
Proof.
  unfold unhexc. destruct ((48 <=? c) && (c <=? 57)) eqn:E1; [intros [= <-]; lia|].
  destruct ((97 <=? c) && (c <=? 102)) eqn:E2; [intros [= <-]; lia|].
  destruct ((65 <=? c) && (c <=? 70)) eqn:E3; [intros [= <-]; lia|discriminate].
Qed.

Lemma unhex_bytes_ok cs bs : unhex cs = Some bs -> bytes_ok bs.
Proof.
  revert cs; induction bs as [|b t IH]; intros cs H; [constructor|].
  destruct cs as [|h [|l r]]; try discriminate. cbn [unhex] in H.
  destruct (unhexc h) as [x|] eqn:Ex; [|discriminate]. destruct (unhexc l) as [y|] eqn:Ey; [|discriminate].
  destruct (unhex r) as [t'|] eqn:Et; [|discriminate]. injection H as <- <-.
  apply unhexc_lt in Ex, Ey. constructor; [lia|exact (IH r Et)].
Qed.

Lemma len_hex b : len (hex b) = 2 * len b.
Proof. unfold len. induction b; cbn [hex List.length]; lia. Qed.

Lemma skipn_skipn {A} a b (l : list A) : skipn a (skipn b l) = skipn (b + a) l.
Proof. revert l; induction b; intros l; [reflexivity|]. destruct l; cbn [skipn Nat.add]; [apply skipn_nil|apply IHb]. Qed.

(* the model cuts at absolute offsets; field after field is what the proofs use *)
Lemma container_offsets (c : bytes) : skipn 44 c = skipn 12 (skipn 32 c) /\ skipn 60 c = skipn 16 (skipn 12 (skipn 32 c)).
Proof. rewrite !skipn_skipn. split; reflexivity. Qed.

(* the container is cut at the offsets at which it was assembled *)
Lemma split_container (c : bytes) :
  c = container (firstn 32 c) (firstn 12 (skipn 32 c)) (firstn 16 (skipn 44 c)) (skipn 60 c).
Proof. unfold container. destruct (container_offsets c) as [-> ->]. rewrite !firstn_skipn. reflexivity. Qed.

Lemma cut_container salt nonce tag ct : len salt = 32 -> len nonce = 12 -> len tag = 16 ->
  let c := container salt nonce tag ct in
  firstn 32 c = salt /\ firstn 12 (skipn 32 c) = nonce /\ firstn 16 (skipn 44 c) = tag /\ skipn 60 c = ct /\ len c = 60 + len ct.
Proof.
  unfold container. intros H1 H2 H3. cbn zeta. destruct (container_offsets (salt ++ nonce ++ tag ++ ct)) as [-> ->].
  rewrite (skipn_app_len salt _ 32 H1), (skipn_app_len nonce _ 12 H2), (skipn_app_len tag _ 16 H3).
  rewrite !firstn_app_len, !len_app, H1, H2, H3 by assumption. repeat split. lia.
Qed.

Section Proofs.
Variable P : prims.

(* parameters accepted by encryption: any hex texts decoding to a 32-byte salt, a 12-byte nonce, a non-empty password *)
Definition emip3_params (tp ts tn td : text) (pw salt nonce data : bytes) : Prop :=
  unhex tp = Some pw /\ unhex ts = Some salt /\ unhex tn = Some nonce /\ unhex td = Some data /\
  len salt = 32 /\ len nonce = 12 /\ len pw <> 0.

(* the two entry points once their hex arguments are decoded *)
Lemma encrypt_with_password_eq tp ts tn td :
  encrypt_with_password P tp ts tn td =
  match unhex tp, unhex ts, unhex tn, unhex td with
  | Some pw, Some salt, Some nonce, Some data =>
      if (len salt =? 32) && (len nonce =? 12) && negb (len pw =? 0)
      then let e := aead_enc P (kdf P pw salt) nonce data in Ok (hex (container salt nonce (snd e) (fst e)))
      else Err
  | _, _, _, _ => Err
  end.
Proof.
  unfold encrypt_with_password, unhex_r, SALT_SIZE, NONCE_SIZE.
  destruct (unhex tp) as [pw|], (unhex ts) as [salt|], (unhex tn) as [nonce|], (unhex td) as [data|]; try reflexivity. cbn [bind].
  destruct (len salt =? 32), (len nonce =? 12), (len pw =? 0); try reflexivity. cbn [negb andb].
  destruct (aead_enc P (kdf P pw salt) nonce data). reflexivity.
Qed.

Lemma decrypt_with_password_eq fx tp tc :
  decrypt_with_password_gen P fx tp tc =
  match unhex tp, unhex tc with
  | Some pw, Some c =>
      if too_short_gen fx (len c) then Err
      else match aead_dec P (kdf P pw (firstn 32 c)) (firstn 12 (skipn 32 c)) (skipn 60 c) (firstn 16 (skipn 44 c)) with
           | Some p => Ok (hex p)
           | None => Err
           end
  | _, _ => Err
  end.
Proof. unfold decrypt_with_password_gen, unhex_r. destruct (unhex tp); [|reflexivity]. destruct (unhex tc); reflexivity. Qed.

Lemma decrypt_container fx tp pw salt nonce tag ct : unhex tp = Some pw ->
  len salt = 32 -> len nonce = 12 -> len tag = 16 -> bytes_ok (container salt nonce tag ct) ->
  decrypt_with_password_gen P fx tp (hex (container salt nonce tag ct)) =
  if too_short_gen fx (60 + len ct) then Err
  else match aead_dec P (kdf P pw salt) nonce ct tag with Some p => Ok (hex p) | None => Err end.
Proof.
  intros Hp Ls Ln Lt Bc. rewrite decrypt_with_password_eq, Hp, (unhex_hex _ Bc).
  destruct (cut_container salt nonce tag ct Ls Ln Lt) as (-> & -> & -> & -> & ->). reflexivity.
Qed.

Lemma decrypt_returns fx tp tc : returns (decrypt_with_password_gen P fx tp tc).
Proof.
  rewrite decrypt_with_password_eq. destruct (unhex tp); [|constructor]. destruct (unhex tc); [|constructor].
  apply returns_if; [constructor|]. destruct (aead_dec _ _ _ _ _); constructor.
Qed.

Lemma encrypt_shape tp ts tn td pw salt nonce data : law_aead_shapes P ->
  emip3_params tp ts tn td pw salt nonce data ->
  let key := kdf P pw salt in
  let ct := fst (aead_enc P key nonce data) in let tag := snd (aead_enc P key nonce data) in
  encrypt_with_password P tp ts tn td = Ok (hex (container salt nonce tag ct)) /\
  bytes_ok (container salt nonce tag ct) /\ len tag = 16 /\ len ct = len data /\
  len (container salt nonce tag ct) = 60 + len data.
Proof.
  intros LS (Hp & Hs & Hn & Hd & Ls & Ln & Lp). cbn zeta.
  destruct (LS (kdf P pw salt) nonce data (unhex_bytes_ok _ _ Hd)) as (Lc & [Lt Bt] & Bc).
  rewrite encrypt_with_password_eq, Hp, Hs, Hn, Hd, Ls, Ln. apply N.eqb_neq in Lp. rewrite Lp.
  repeat split; auto.
  - unfold container. repeat apply bytes_ok_app; eauto using unhex_bytes_ok.
  - rewrite <- Lc. apply cut_container; assumption.
Qed.

(* decryption returns the plaintext that was encrypted, for every valid parameter combination; the code as found needs a
   non-empty plaintext *)
Theorem emip3_roundtrip fx tp ts tn td pw salt nonce data :
  law_aead_roundtrip P -> law_aead_shapes P ->
  emip3_params tp ts tn td pw salt nonce data -> (fx = true \/ data <> []) ->
  exists c, encrypt_with_password P tp ts tn td = Ok c /\ decrypt_with_password_gen P fx tp c = Ok (hex data).
Proof.
  intros LR LS Hpar Hne. destruct (encrypt_shape _ _ _ _ _ _ _ _ LS Hpar) as (E & Bc & Lt & Lc & _).
  destruct Hpar as (Hp & _ & _ & Hd & Ls & Ln & _).
  eexists. split; [exact E|].
  rewrite (decrypt_container fx tp pw _ _ _ _ Hp Ls Ln Lt Bc), Lc, (LR _ _ _ (unhex_bytes_ok _ _ Hd)).
  assert (S : too_short_gen fx (60 + len data) = false); [|rewrite S; reflexivity].
  unfold too_short_gen, METADATA_SIZE. destruct fx; [lia|].
  destruct Hne as [|Hne]; [discriminate|]. destruct data; [contradiction|]. unfold len. cbn [List.length]. lia.
Qed.

End Proofs.
#[export] Hint Resolve decrypt_returns : returns.
