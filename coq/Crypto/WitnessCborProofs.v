(* C12 — the serialized witnesses: byte layout, and the C01 schema decoder reads back the witness value (for a 32-byte key and a
   64-byte signature). *)
From CSL Require Import Base.Prelude Cbor.Head Crypto.Iface Crypto.Wrappers Crypto.WitnessCbor.
From CSL Require Codec.Schema Codec.SchemaProofs Ledger.Schemas.
Local Open Scope N_scope.

Lemma bytes_okb_of b : bytes_ok b -> Schema.bytes_okb b = true.
Proof.
  unfold Schema.bytes_okb, bytes_ok. rewrite Forall_forall. intros H. apply forallb_forall. intros x Hx. specialize (H x Hx). lia.
Qed.

Lemma vkeywitness_layout w : wfb 32 (vw_vkey w) -> wfb 64 (vw_sig w) ->
  vkeywitness_to_bytes w = [130; 88; 32] ++ vw_vkey w ++ [88; 64] ++ vw_sig w.
Proof.
  intros [L1 _] [L2 _]. unfold len in L1, L2. unfold vkeywitness_to_bytes, vkeywitness_val. cbn. rewrite L1, L2.
  cbn. rewrite app_nil_r. reflexivity.
Qed.

Theorem vkeywitness_decodes w rest : wfb 32 (vw_vkey w) -> wfb 64 (vw_sig w) ->
  Schema.dec Schemas.Vkeywitness (vkeywitness_to_bytes w ++ rest) = Ok (vkeywitness_val w, rest).
Proof.
  intros [L1 B1] [L2 B2]. apply SchemaProofs.schema_roundtrip; [vm_compute; reflexivity|].
  unfold len in L1, L2. cbn. rewrite (bytes_okb_of _ B1), (bytes_okb_of _ B2), L1, L2. reflexivity.
Qed.

Lemma bootstrapwitness_layout w : wfb 32 (bw_vkey w) -> wfb 64 (bw_sig w) ->
  bootstrapwitness_to_bytes w =
  [132; 88; 32] ++ bw_vkey w ++ [88; 64] ++ bw_sig w ++ encode_head 2 (len (bw_cc w)) ++ bw_cc w ++ encode_head 2 (len (bw_attrs w)) ++ bw_attrs w.
Proof.
  intros [L1 _] [L2 _]. unfold len in *. unfold bootstrapwitness_to_bytes, bootstrapwitness_val. cbn. rewrite L1, L2.
  cbn. rewrite app_nil_r. rewrite <- !app_assoc. reflexivity.
Qed.

Theorem bootstrapwitness_decodes w rest : wfb 32 (bw_vkey w) -> wfb 64 (bw_sig w) -> bytes_ok (bw_cc w) -> bytes_ok (bw_attrs w) ->
  len (bw_cc w) < two64 -> len (bw_attrs w) < two64 ->
  Schema.dec Schemas.BootstrapWitness (bootstrapwitness_to_bytes w ++ rest) = Ok (bootstrapwitness_val w, rest).
Proof.
  intros [L1 B1] [L2 B2] B3 B4 L3 L4. apply SchemaProofs.schema_roundtrip; [vm_compute; reflexivity|].
  unfold len in *. cbn. rewrite (bytes_okb_of _ B1), (bytes_okb_of _ B2), (bytes_okb_of _ B3), (bytes_okb_of _ B4), L1, L2. cbn.
  unfold two64 in *. lia.
Qed.
