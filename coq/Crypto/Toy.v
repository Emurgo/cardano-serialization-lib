(* C12 — the laws of Iface.v are jointly satisfiable: a (cryptographically worthless) instance of the primitives that obeys
   every one of them.  Used only as the non-vacuity witness for the premises of the C12 theorems. *)
From CSL Require Import Base.Prelude Base.Hex Crypto.Iface Crypto.Wrappers Crypto.WrappersProofs.
Local Open Scope N_scope.

Definition norm (n : nat) (b : bytes) : bytes := firstn n (map (fun x => x mod 256) b ++ repeat 0 n).
Definition bytes_okb (b : bytes) : bool := forallb (fun x => x <? 256) b.
Definition toy_root : bytes := repeat 0 31 ++ [64] ++ repeat 0 64.

Definition toy : prims :=
  {| ed_keypair_pk := norm 32; ed_sign := fun _ _ => norm 64 []; ed_ext_pub := norm 32; ed_sign_ext := fun _ _ => norm 64 [];
     ed_verify := fun _ _ _ => true;
     xprv_public := fun k => norm 32 (firstn 64 k) ++ skipn 64 k;
     xprv_derive := fun k _ => k;
     xpub_derive := fun p i => if soft i then Some p else None;
     xprv_normalize3 := fun _ => toy_root;
     pbkdf2_bip39 := fun _ _ => repeat 0 96;
     kdf := fun _ _ => [];
     aead_enc := fun _ _ p => (p, repeat 0 16);
     aead_dec := fun _ _ c t => if list_eqb t (repeat 0 16) && bytes_okb c then Some c else None;
     b32_to_base32 := fun b => b;
     b32_from_base32 := fun d => Some d;
     b32_encode := fun h d => Some (len h :: h ++ d);
     b32_decode := fun s => match s with [] => None | n :: r => Some (firstn (N.to_nat n) r, skipn (N.to_nat n) r) end;
     blake2b224 := fun _ => repeat 0 28 |}.

Lemma bytes_ok_repeat x n : x < 256 -> bytes_ok (repeat x n).
Proof. intros H. induction n; constructor; assumption. Qed.

Lemma wfb_norm n b : wfb n (norm (N.to_nat n) b).
Proof.
  unfold norm, wfb, len. split.
  - rewrite firstn_length, app_length, repeat_length. lia.
  - apply bytes_ok_cut, bytes_ok_app; [|apply bytes_ok_repeat; lia].
    apply Forall_forall. intros x Hx. apply in_map_iff in Hx as (y & <- & _). apply N.mod_lt. lia.
Qed.

Lemma bytes_okb_iff b : bytes_okb b = true <-> bytes_ok b.
Proof.
  unfold bytes_okb, bytes_ok. rewrite forallb_forall, Forall_forall. split; intros H x Hx; specialize (H x Hx); lia.
Qed.

Lemma toy_shapes : law_shapes toy.
Proof.
  unfold law_shapes; cbn [toy ed_keypair_pk ed_sign ed_ext_pub ed_sign_ext xprv_public xprv_derive xpub_derive].
  repeat apply conj.
  1-4: intros; apply wfb_norm.
  - intros k Hk. apply (wfb_app 32 32); [apply wfb_norm|apply xprv_cut, Hk].
  - intros k i Hk. exact Hk.
  - intros p i q Hp E. destruct (soft i); [injection E as <-; exact Hp|discriminate].
Qed.

Lemma toy_sign_normal : law_sign_normal toy. Proof. intros k m _. reflexivity. Qed.
Lemma toy_sign_extended : law_sign_extended toy. Proof. intros k m _ _. reflexivity. Qed.
Lemma toy_xpub_layout : law_xpub_layout toy. Proof. intros k _. reflexivity. Qed.
Lemma toy_soft : law_soft_derivation toy.
Proof. intros k i _ H. cbn [toy xpub_derive xprv_public xprv_derive]. rewrite H. reflexivity. Qed.
Lemma toy_hard : law_hard_refused toy.
Proof. intros p i H. cbn [toy xpub_derive]. rewrite H. reflexivity. Qed.
Lemma toy_root_ok : wfb 96 toy_root /\ xprv_bits_ok toy_root = true.
Proof.
  split; [split; [reflexivity|]|vm_compute; reflexivity].
  unfold toy_root. repeat apply bytes_ok_app; try (apply bytes_ok_repeat; lia). constructor; [lia|constructor].
Qed.
Lemma toy_normalize3 : law_normalize3 toy. Proof. intros b _. exact toy_root_ok. Qed.
Lemma toy_pbkdf2 : law_pbkdf2_bip39_shape toy.
Proof. intros pw e. split; [reflexivity|apply bytes_ok_repeat; lia]. Qed.
Lemma toy_aead_roundtrip : law_aead_roundtrip toy.
Proof.
  intros k n p Hp. cbn [toy aead_enc aead_dec fst snd]. rewrite list_eqb_refl. cbn [andb].
  rewrite (proj2 (bytes_okb_iff p) Hp). reflexivity.
Qed.
Lemma toy_aead_shapes : law_aead_shapes toy.
Proof.
  intros k n p Hp. cbn [toy aead_enc fst snd]. repeat split; [|exact Hp]. apply bytes_ok_repeat. lia.
Qed.
Lemma toy_aead_authentic : law_aead_authentic toy.
Proof.
  intros k n c t p. cbn [toy aead_enc aead_dec]. destruct (list_eqb t (repeat 0 16) && bytes_okb c) eqn:E; [|discriminate].
  intros [= <-]. apply andb_true_iff in E as [E1 E2]. apply list_eqb_eq in E1. apply bytes_okb_iff in E2. subst t. auto.
Qed.
Lemma toy_plain_by_ct : law_aead_plain_by_ct toy.
Proof.
  intros k n c t t' p p'. cbn [toy aead_dec].
  destruct (list_eqb t (repeat 0 16) && bytes_okb c); [|discriminate].
  destruct (list_eqb t' (repeat 0 16) && bytes_okb c); [|discriminate]. congruence.
Qed.
Lemma toy_base32 : law_base32_roundtrip toy. Proof. intros bs _. reflexivity. Qed.
Lemma toy_bech32 : law_bech32_roundtrip toy.
Proof.
  intros h bs _ _. cbn [toy b32_encode b32_decode b32_to_base32]. eexists. split; [reflexivity|].
  cbn iota. rewrite firstn_app_len, skipn_app_len by (symmetry; apply N2Nat.id). reflexivity.
Qed.
