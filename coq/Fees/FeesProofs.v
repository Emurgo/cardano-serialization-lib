(* Proofs for C15: the model of fees.rs/rational.rs computes the ledger's definitions. *)
From CSL Require Import Base.Prelude Fees.Rational Fees.Fees Fees.TierSpec.
From Coq Require Import QArith Qround Qfield.
Local Open Scope Z_scope.

Lemma as_u64_exact v : 0 <= v -> as_u64 v = exact_or_error v.
Proof. intros Hv. unfold as_u64, exact_or_error. destruct (Z.leb_spec 0 v); [reflexivity | lia]. Qed.

(* [val r q]: the Rust rational [r] has a non-negative numerator, a positive denominator and the value [q].  On such
   rationals the operations are the plain ones: no sign to move, and the zero shortcuts of add change nothing. *)
Definition val (r : rat) (q : Q) : Prop := 0 <= rnum r /\ 0 < rden r /\ inject_Z (rnum r) / inject_Z (rden r) == q.

Lemma inj_nz d : 0 < d -> ~ inject_Z d == 0.
Proof. intros Hd H. unfold Qeq in H. cbn in H. lia. Qed.

Lemma qmake_div n d : 0 < d -> Qmake n (Z.to_pos d) == inject_Z n / inject_Z d.
Proof. intros Hd. rewrite (Qmake_Qdiv n (Z.to_pos d)), Z2Pos.id by exact Hd. reflexivity. Qed.

Lemma rnew_good n d : 0 < d -> rnew n d = mkRat n d.
Proof.
  intros Hd. unfold rnew, reduce_minuses. cbn [rnum rden].
  destruct (Z.ltb_spec d 0); [lia|]. rewrite andb_false_r. reflexivity.
Qed.

Lemma rnew_neg n d : n < 0 -> d < 0 -> rnew n d = mkRat (- n) (- d).
Proof.
  intros Hn Hd. unfold rnew, reduce_minuses. cbn [rnum rden].
  destruct (Z.ltb_spec n 0), (Z.ltb_spec d 0); try lia. cbn [andb]. f_equal; lia.
Qed.

Lemma val_mk n d : 0 <= n -> 0 < d -> val (mkRat n d) (inject_Z n / inject_Z d).
Proof. intros Hn Hd. repeat split; assumption. Qed.

Lemma val_ext r q q' : val r q -> q == q' -> val r q'.
Proof. intros (Hn & Hd & Hq) E. repeat split; try assumption. rewrite Hq. exact E. Qed.

Lemma val_rmul_int r q x : val r q -> 0 <= x -> val (rmul_int r x) (q * inject_Z x).
Proof.
  intros (Hn & Hd & Hq) Hx. unfold rmul_int. rewrite rnew_good by nia.
  eapply val_ext; [apply val_mk; nia|]. rewrite <- Hq, inject_Z_mult. field. apply inj_nz, Hd.
Qed.

Lemma val_rmul_ratio a b qa qb : val a qa -> val b qb -> val (rmul_ratio a b) (qa * qb).
Proof.
  intros (Hn & Hd & Hq) (Hn' & Hd' & Hq'). unfold rmul_ratio. rewrite rnew_good by nia.
  eapply val_ext; [apply val_mk; nia|]. rewrite <- Hq, <- Hq', !inject_Z_mult. field. split; apply inj_nz; assumption.
Qed.

Lemma val_radd a b qa qb : val a qa -> val b qb -> val (radd a b) (qa + qb).
Proof.
  intros Ha Hb. pose proof Ha as (Hn & Hd & Hq). pose proof Hb as (Hn' & Hd' & Hq'). unfold radd.
  destruct (Z.eqb_spec (rnum a) 0) as [E|]; [|destruct (Z.eqb_spec (rnum b) 0) as [E|]].
  - apply (val_ext _ _ _ Hb). rewrite <- Hq, E. unfold Qdiv. ring.
  - apply (val_ext _ _ _ Ha). rewrite <- Hq', E. unfold Qdiv. ring.
  - rewrite rnew_good by nia. eapply val_ext; [apply val_mk; nia|].
    rewrite <- Hq, <- Hq', !inject_Z_plus, !inject_Z_mult. field. split; apply inj_nz; assumption.
Qed.

Lemma floor_val r q : val r q -> to_bignum_floor r = exact_or_error (Qfloor q).
Proof.
  intros (Hn & Hd & Hq). unfold to_bignum_floor. destruct (Z.eqb_spec (rden r) 0); [lia|].
  rewrite <- (Qfloor_comp _ _ Hq), <- (Qfloor_comp _ _ (qmake_div _ _ Hd)). cbn [Qfloor]. rewrite Z2Pos.id by exact Hd.
  apply as_u64_exact, Z.div_pos; assumption.
Qed.

Lemma ceil_val r q : val r q -> to_bignum_ceil r = exact_or_error (Qceiling q).
Proof.
  intros (Hn & Hd & Hq). unfold to_bignum_ceil. destruct (Z.eqb_spec (rden r) 0); [lia|].
  rewrite <- (Qceiling_comp _ _ Hq), <- (Qceiling_comp _ _ (qmake_div _ _ Hd)).
  unfold Qceiling, zdiv_ceil. cbn [Qopp Qfloor Qnum Qden]. rewrite Z2Pos.id by exact Hd.
  apply as_u64_exact. assert (- rnum r / rden r <= 0) by (apply Z.div_le_upper_bound; lia). lia.
Qed.

(* total_ex_units is the exact sum or an error *)
Fixpoint sum_fst (l : list (Z * Z)) : Z := match l with [] => 0 | (m, _) :: t => m + sum_fst t end.
Fixpoint sum_snd (l : list (Z * Z)) : Z := match l with [] => 0 | (_, s) :: t => s + sum_snd t end.
Definition all_nonneg (l : list (Z * Z)) : Prop := Forall (fun p => 0 <= fst p /\ 0 <= snd p) l.

Lemma sum_nonneg l : all_nonneg l -> 0 <= sum_fst l /\ 0 <= sum_snd l.
Proof. induction 1 as [|[m s] t [Hm Hs] _ IH]; cbn in *; lia. Qed.

Theorem total_ex_units_exact l : all_nonneg l -> forall tm ts, 0 <= tm -> 0 <= ts ->
  total_ex_units l tm ts =
  if (tm + sum_fst l <? two64Z) && (ts + sum_snd l <? two64Z) then Ok (tm + sum_fst l, ts + sum_snd l)
  else match l with [] => Ok (tm, ts) | _ => Err end.
Proof.
  induction 1 as [|[m s] t [Hm Hs] Hall IH]; intros tm ts Htm Hts; cbn [total_ex_units sum_fst sum_snd].
  - rewrite !Z.add_0_r. destruct ((tm <? two64Z) && (ts <? two64Z)); reflexivity.
  - cbn [fst snd] in *. pose proof (sum_nonneg t Hall) as [Hf Hn]. unfold zchecked_add, bind.
    (* a partial sum out of range puts the whole sum out of range *)
    destruct (Z.ltb_spec (tm + m) two64Z); [|destruct (Z.ltb_spec (tm + (m + sum_fst t)) two64Z); [lia | reflexivity]].
    destruct (Z.ltb_spec (ts + s) two64Z);
      [|destruct (Z.ltb_spec (ts + (s + sum_snd t)) two64Z); [lia | rewrite andb_false_r; reflexivity]].
    rewrite IH, !Z.add_assoc by lia.
    destruct t; [|reflexivity]. cbn [sum_fst sum_snd]. rewrite !Z.add_0_r.
    destruct (Z.ltb_spec (tm + m) two64Z), (Z.ltb_spec (ts + s) two64Z); try lia. reflexivity.
Qed.

(* 1.2^k, as the quotient the Rust code keeps *)
Definition geo (k : Z) : Q := inject_Z (12 ^ k) / inject_Z (10 ^ k).

Lemma geo_succ k : 0 <= k -> geo (Z.succ k) == (6 # 5) * geo k.
Proof.
  intros Hk. unfold geo. rewrite !Z.pow_succ_r, !inject_Z_mult by exact Hk. field.
  apply inj_nz, Z.pow_pos_nonneg; lia.
Qed.

(* the ledger recursion over k full tiers and a partial tier p: the full tiers sum to a geometric progression *)
Lemma spec_go_closed k : forall fuel acc price p, 0 <= p < 25600 -> (k < fuel)%nat ->
  spec_go fuel acc price (25600 * Z.of_nat k + p) ==
  acc + price * (inject_Z 128000 * (geo (Z.of_nat k) - 1) + inject_Z p * geo (Z.of_nat k)).
Proof.
  induction k as [|k IH]; intros [|fuel] acc price p Hp Hf; try lia; cbn [spec_go].
  - change (geo (Z.of_nat 0)) with (inject_Z 1 / inject_Z 1)%Q. destruct (Z.ltb_spec (25600 * Z.of_nat 0 + p) 25600); [|lia].
    replace (25600 * Z.of_nat 0 + p) with p by lia. field.
  - destruct (Z.ltb_spec (25600 * Z.of_nat (S k) + p) 25600); [lia|].
    replace (25600 * Z.of_nat (S k) + p - 25600) with (25600 * Z.of_nat k + p) by lia.
    rewrite IH, Nat2Z.inj_succ, geo_succ by lia. ring.
Qed.

Lemma spec_fee_closed size price : 0 <= size ->
  let k := size / 25600 in let p := size mod 25600 in
  spec_ref_script_fee size price = Qfloor (price * (inject_Z 128000 * (geo k - 1) + inject_Z p * geo k)).
Proof.
  intros Hs k p. assert (Hk : 0 <= k) by (apply Z.div_pos; lia).
  unfold spec_ref_script_fee. apply Qfloor_comp. fold k.
  replace size with (25600 * Z.of_nat (Z.to_nat k) + p) at 1 by (subst k p; rewrite Z2Nat.id by exact Hk; lia).
  rewrite spec_go_closed, Z2Nat.id by (subst k p; lia). ring.
Qed.

Lemma rpow_good k : 0 <= k -> rpow (mkRat 12 10) k = mkRat (12 ^ k) (10 ^ k).
Proof.
  intros Hk. assert (0 < 10 ^ k) by (apply Z.pow_pos_nonneg; lia).
  unfold rpow. cbn [rnum rden]. rewrite rnew_good by assumption. apply (rnew_good _ _). assumption.
Qed.

(* the geometric-progression factor (1 - 1.2^k) / (1 - 1.2) as the Rust code computes it: two negative fractions, whose
   quotient new() makes positive *)
Lemma val_progression k : 0 < k ->
  val (rdiv_ratio (rsub rone (rpow (mkRat 12 10) k)) (rsub rone (mkRat 12 10))) (inject_Z 5 * (geo k - 1)).
Proof.
  intros Hk. assert (Hlt : 10 ^ k < 12 ^ k) by (apply Z.pow_lt_mono_l; lia).
  assert (H10 : 0 < 10 ^ k) by (apply Z.pow_pos_nonneg; lia).
  rewrite rpow_good by lia. change (rsub rone (mkRat 12 10)) with (mkRat (-2) 10).
  unfold rsub, rone. cbn [rnum rden]. destruct (Z.eqb_spec (12 ^ k) 0); [lia|]. change (1 =? 0) with false. cbv iota.
  rewrite !Z.mul_1_l, !Z.mul_1_r, rnew_good by exact H10.
  unfold rdiv_ratio. cbn [rnum rden]. rewrite rnew_neg by lia.
  eapply val_ext; [apply val_mk; lia|]. unfold geo, Z.sub.
  rewrite !inject_Z_opp, !inject_Z_mult, inject_Z_plus, inject_Z_opp. field. apply inj_nz, H10.
Qed.

(* the accumulator after the full tiers: tier price * 5 * (1.2^k - 1), or zero when there is none *)
Lemma val_full_tiers base q k : val base q -> 0 <= k ->
  val (if 0 <? k then radd rzero (rmul_ratio (rmul_int base 25600)
                       (rdiv_ratio (rsub rone (rpow (mkRat 12 10) k)) (rsub rone (mkRat 12 10)))) else rzero)
      (q * (inject_Z 128000 * (geo k - 1))).
Proof.
  intros Hb Hk. destruct (Z.ltb_spec 0 k).
  - eapply val_ext.
    + apply val_radd; [apply (val_mk 0 1); lia|]. apply val_rmul_ratio; [apply val_rmul_int; [exact Hb | lia]|].
      apply val_progression. assumption.
    + field.
  - replace k with 0 by lia. eapply val_ext; [apply (val_mk 0 1); lia|].
    change (geo 0) with (inject_Z 1 / inject_Z 1)%Q. field.
Qed.

(* the tiered fee at the ledger's parameters, for a base price given as any rational the Rust code can hold *)
Theorem tier_fee_exact base price size :
  val base price -> 0 <= size -> size / 25600 < 4294967296 ->
  tier_ref_script_fee (mkRat 12 10) 25600 base size = exact_or_error (spec_ref_script_fee size price).
Proof.
  intros Hbase Hs Hk. rewrite spec_fee_closed by exact Hs. cbv zeta. unfold tier_ref_script_fee.
  change (ris_negative_or_zero (mkRat 12 10) || (25600 =? 0)) with false. cbv iota.
  rewrite (Z.mod_small (size / 25600)) by (split; [apply Z.div_pos|]; lia).
  set (k := size / 25600). set (p := size mod 25600).
  assert (Hk0 : 0 <= k) by (apply Z.div_pos; lia).
  assert (Hp : 0 <= p < 25600) by (apply Z.mod_pos_bound; lia). clearbody k p.
  apply floor_val. pose proof (val_full_tiers _ _ k Hbase Hk0) as V1.
  (* the partial tier: p bytes at base price * 1.2^k *)
  destruct (Z.ltb_spec 0 p).
  - eapply val_ext.
    + apply val_radd; [exact V1|]. apply val_rmul_int; [|lia].
      apply val_rmul_ratio; [exact Hbase|]. rewrite (rpow_good k Hk0). apply val_mk; lia.
    + unfold geo. ring.
  - eapply val_ext; [exact V1|]. replace p with 0 by lia. ring.
Qed.

(* non-vacuity: the premises are satisfiable on a non-trivial point, and the value is the
   ledger's published example (min fee for 80000 bytes at 15 lovelace/byte is 1_480_704 = 15*25600*(1+1.2+1.44) + 15*3200*1.728). *)
Example ref_script_fee_nontrivial :
  min_ref_script_fee 80000 15 1 = Ok 1480704 /\ spec_ref_script_fee 80000 (15 # 1) = 1480704.
Proof. split; vm_compute; reflexivity. Qed.
