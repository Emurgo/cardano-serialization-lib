(* Every ledger schema is well-formed (so the generic round-trip theorem applies to it),
   the depth-unrolled recursive ones for EVERY depth. *)
From CSL Require Import Base.Prelude Codec.Schema Codec.SchemaProofs Ledger.Schemas.
Local Open Scope N_scope.

Lemma disc_fresh_tag_run n : forall lo d s rest,
  d < lo \/ lo + N.of_nat n <= d -> disc_fresh d (tag_run lo n s rest) = disc_fresh d rest.
Proof.
  induction n as [|n IH]; intros lo d s rest Hd; cbn [tag_run disc_fresh]; [reflexivity|].
  rewrite IH by lia. rewrite (proj2 (N.eqb_neq d lo)) by lia. reflexivity.
Qed.

Lemma wfs_cl_tag_run n : forall lo s rest,
  wfs s = true -> lo + N.of_nat n <= two64 ->
  (forall t, lo <= t < lo + N.of_nat n -> disc_fresh t rest = true) ->
  wfs_cl true rest = true -> wfs_cl true (tag_run lo n s rest) = true.
Proof.
  induction n as [|n IH]; intros lo s rest Hs Hb Hf Hr; cbn [tag_run wfs_cl]; [exact Hr|].
  rewrite Hs, disc_fresh_tag_run, Hf, IH by (try assumption; try lia; intros t Ht; apply Hf; lia).
  apply N.ltb_lt. lia.
Qed.

(* the constructor tags of Plutus data: 121..127 and 1280..1400 carry the same fields *)
Lemma wfs_cl_constr_tags s rest :
  wfs s = true -> wfs_cl true rest = true ->
  (forall t, 121 <= t < 128 \/ 1280 <= t < 1401 -> disc_fresh t rest = true) ->
  wfs_cl true (tag_run 121 7 s (tag_run 1280 121 s rest)) = true.
Proof.
  intros Hs Hr Hf.
  apply wfs_cl_tag_run; [exact Hs|apply N.leb_le; reflexivity| |].
  - intros t Ht. rewrite disc_fresh_tag_run by lia. apply Hf. lia.
  - apply wfs_cl_tag_run; [exact Hs|apply N.leb_le; reflexivity| |exact Hr].
    intros t Ht. apply Hf. lia.
Qed.

Lemma wf_NativeScript d : wfs (NativeScript d) = true.
Proof. induction d as [|d IH]; [reflexivity|]. cbn [NativeScript var al sl wfs wfs_vl wfs_sl]. rewrite IH. reflexivity. Qed.

Lemma wf_Metadatum d : wfs (Metadatum d) = true.
Proof. induction d as [|d IH]; [reflexivity|]. cbn [Metadatum choice cl wfs wfs_cl]. rewrite IH. reflexivity. Qed.

Lemma ms7_PlutusData d : may_start7 (PlutusData d) = false.  Proof. destruct d; reflexivity. Qed.

Lemma wf_PlutusData d : wfs (PlutusData d) = true.
Proof.
  induction d as [|d IH]; [reflexivity|].
  assert (Hf : wfs (SArrAny (PlutusData d)) = true) by (cbn [wfs]; rewrite IH, ms7_PlutusData; reflexivity).
  cbn [PlutusData choice cl wfs wfs_cl first_major]. rewrite IH, ms7_PlutusData.
  rewrite wfs_cl_constr_tags; [reflexivity|exact Hf| |].
  - cbn [cl wfs_cl arr sl wfs wfs_sl]. rewrite IH, ms7_PlutusData. reflexivity.
  - intros t Ht. cbn [cl disc_fresh]. rewrite !(proj2 (N.eqb_neq _ _)) by lia. reflexivity.
Qed.

Lemma wf_ConstrPlutusData d : wfs (ConstrPlutusData d) = true.
Proof.
  assert (Hf : wfs (SArrAny (PlutusData d)) = true) by (cbn [wfs]; rewrite wf_PlutusData, ms7_PlutusData; reflexivity).
  unfold ConstrPlutusData. cbn [wfs].
  apply wfs_cl_constr_tags; [exact Hf| |].
  - cbn [cl wfs_cl arr sl wfs wfs_sl]. rewrite wf_PlutusData, ms7_PlutusData. reflexivity.
  - intros t Ht. cbn [cl disc_fresh]. rewrite !(proj2 (N.eqb_neq _ _)) by lia. reflexivity.
Qed.

(* The schemas built over the recursive families (native scripts, metadata, Plutus data), one lemma each.
   [wf_of T]: unfold T one level, push [wfs] through its spine down to the named schemas it is made of, and rewrite
   with the lemmas of those that depend on the depth; what remains is closed and evaluates. *)
Global Hint Rewrite wf_NativeScript wf_Metadatum wf_PlutusData ms7_PlutusData wf_ConstrPlutusData : ledger_wf.
Ltac wf_of T :=
  unfold T; cbn [forallb wfs wfs_sl wfs_kl wfs_vl wfs_cl sl kl al cl arr mapS var choice];
  autorewrite with ledger_wf; reflexivity.

Lemma wf_NativeScripts d : wfs (NativeScripts d) = true.  Proof. wf_of NativeScripts. Qed.
Lemma wf_WsNativeScripts d : wfs (WsNativeScripts d) = true.  Proof. wf_of WsNativeScripts. Qed.
Lemma wf_ScriptAll d : wfs (ScriptAll d) = true.  Proof. wf_of ScriptAll. Qed.
Lemma wf_ScriptAny d : wfs (ScriptAny d) = true.  Proof. wf_of ScriptAny. Qed.
Lemma wf_ScriptNOfK d : wfs (ScriptNOfK d) = true.  Proof. wf_of ScriptNOfK. Qed.
Lemma wf_PlutusList d : wfs (PlutusList d) = true.  Proof. wf_of PlutusList. Qed.
Lemma wf_WsPlutusList d : wfs (WsPlutusList d) = true.  Proof. wf_of WsPlutusList. Qed.
Lemma wf_PlutusMap d : wfs (PlutusMap d) = true.  Proof. wf_of PlutusMap. Qed.
Lemma wf_Redeemer d : wfs (Redeemer d) = true.  Proof. wf_of Redeemer. Qed.
Lemma wf_RedeemersMap d : wfs (RedeemersMap d) = true.  Proof. wf_of RedeemersMap. Qed.
Lemma wf_RedeemersArr d : wfs (RedeemersArr d) = true.  Proof. wf_of RedeemersArr. Qed.
Lemma wf_MetadataList d : wfs (MetadataList d) = true.  Proof. wf_of MetadataList. Qed.
Lemma wf_MetadataMap d : wfs (MetadataMap d) = true.  Proof. wf_of MetadataMap. Qed.
Lemma wf_GeneralTransactionMetadata d : wfs (GeneralTransactionMetadata d) = true.
Proof. wf_of GeneralTransactionMetadata. Qed.
Lemma wf_DataOption d : wfs (DataOption d) = true.  Proof. wf_of DataOption. Qed.
Lemma wf_ScriptRef d : wfs (ScriptRef d) = true.  Proof. wf_of ScriptRef. Qed.
Global Hint Rewrite wf_NativeScripts wf_WsNativeScripts wf_ScriptAll wf_ScriptAny wf_ScriptNOfK wf_PlutusList
  wf_WsPlutusList wf_PlutusMap wf_Redeemer wf_RedeemersMap wf_RedeemersArr wf_MetadataList wf_MetadataMap
  wf_GeneralTransactionMetadata wf_DataOption wf_ScriptRef : ledger_wf.

Lemma wf_Redeemers d : wfs (Redeemers d) = true.  Proof. wf_of Redeemers. Qed.
Lemma wf_AuxiliaryData d : wfs (AuxiliaryData d) = true.  Proof. wf_of AuxiliaryData. Qed.
Lemma ms7_AuxiliaryData d : may_start7 (AuxiliaryData d) = false.  Proof. reflexivity. Qed.
Lemma wf_TransactionOutputMap d : wfs (TransactionOutputMap d) = true.  Proof. wf_of TransactionOutputMap. Qed.
Global Hint Rewrite wf_Redeemers wf_AuxiliaryData ms7_AuxiliaryData wf_TransactionOutputMap : ledger_wf.

Lemma wf_TransactionOutput d : wfs (TransactionOutput d) = true.  Proof. wf_of TransactionOutput. Qed.
Lemma wf_TransactionWitnessSet d : wfs (TransactionWitnessSet d) = true.  Proof. wf_of TransactionWitnessSet. Qed.
Global Hint Rewrite wf_TransactionOutput wf_TransactionWitnessSet : ledger_wf.

Lemma wf_TransactionOutputs d : wfs (TransactionOutputs d) = true.  Proof. wf_of TransactionOutputs. Qed.
Lemma wf_TransactionUnspentOutput d : wfs (TransactionUnspentOutput d) = true.
Proof. wf_of TransactionUnspentOutput. Qed.
Lemma wf_TransactionWitnessSets d : wfs (TransactionWitnessSets d) = true.  Proof. wf_of TransactionWitnessSets. Qed.
Global Hint Rewrite wf_TransactionOutputs wf_TransactionUnspentOutput wf_TransactionWitnessSets : ledger_wf.

Lemma wf_TransactionBody d : wfs (TransactionBody d) = true.  Proof. wf_of TransactionBody. Qed.
Global Hint Rewrite wf_TransactionBody : ledger_wf.

Lemma wf_TransactionBodies d : wfs (TransactionBodies d) = true.  Proof. wf_of TransactionBodies. Qed.
Lemma wf_Transaction d : wfs (Transaction d) = true.  Proof. wf_of Transaction. Qed.
Lemma wf_Block d : wfs (Block d) = true.  Proof. wf_of Block. Qed.
Lemma wf_BlockPraos d : wfs (BlockPraos d) = true.  Proof. wf_of BlockPraos. Qed.
Global Hint Rewrite wf_TransactionBodies wf_Transaction wf_Block wf_BlockPraos : ledger_wf.

Lemma wf_VersionedBlock d : wfs (VersionedBlock d) = true.  Proof. wf_of VersionedBlock. Qed.
Lemma wf_FixedTransaction d : wfs (FixedTransaction d) = true.  Proof. exact (wf_Transaction d). Qed.
Global Hint Rewrite wf_VersionedBlock wf_FixedTransaction : ledger_wf.

Theorem ledger_schemas_wf d : Forall (fun s => wfs s = true) (ledger_schemas d).
Proof. apply Forall_forall, forallb_forall. wf_of ledger_schemas. Qed.

Theorem ledger_schemas_more_wf d : Forall (fun s => wfs s = true) (ledger_schemas_more d).
Proof. apply Forall_forall, forallb_forall. wf_of ledger_schemas_more. Qed.

Lemma ledger_schemas_all_wf d s : In s (ledger_schemas d ++ ledger_schemas_more d) -> wfs s = true.
Proof.
  revert s. apply Forall_forall, Forall_app. split; [apply ledger_schemas_wf|apply ledger_schemas_more_wf].
Qed.
