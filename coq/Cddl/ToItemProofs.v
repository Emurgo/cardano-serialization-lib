(* The bridge: the schema encoder's bytes are the shortest-head printing of [to_item]. *)
From CSL Require Import Base.Prelude Cbor.Head Cbor.HeadProofs Cbor.Item Cbor.ItemProofs Codec.Schema Codec.SchemaProofs Cddl.ToItem.
Local Open Scope N_scope.

(* the two shapes of a valid value at a Plutus-list site and at a record with an optional last item *)
Lemma wfv_arrany s v : wfv (SArrAny s) v = true -> exists l, forallb (wfv s) l = true /\
  ((v = VAlt 0 (VList l) /\ (N.of_nat (length l) <? two64) = true) \/ v = VAlt 1 (VList l)).
Proof.
  destruct v as [| | | | | | | | | |i v]; try discriminate.
  destruct i as [|[|i]]; destruct v; try discriminate; cbn [wfv]; intros H.
  - apply andb_prop in H as [Hl Hn]. exists l. split; [exact Hl|left; split; [reflexivity|exact Hn]].
  - exists l. split; [exact H|right; reflexivity].
Qed.

Lemma wfv_arropt fs o v : wfv (SArrOpt fs o) v = true -> exists l, wfv_sl fs l = true /\
  (v = VAlt 0 (VList l) \/ exists x, v = VAlt 1 (VList (x :: l)) /\ wfv o x = true).
Proof.
  destruct v as [| | | | | | | | | |i v]; try discriminate.
  destruct i as [|[|i]]; destruct v as [| | | | | |l| | | |]; try discriminate; cbn [wfv]; intros H.
  - exists l. split; [exact H|left; reflexivity].
  - destruct l as [|x l]; [discriminate|]. apply andb_prop in H as [Hl Hx].
    exists l. split; [exact Hl|right; exists x; split; [reflexivity|exact Hx]].
Qed.

Lemma forallb_to_item (P : item -> bool) s l :
  (forall v, wfv s v = true -> P (to_item s v) = true) -> forallb (wfv s) l = true -> forallb P (map (to_item s) l) = true.
Proof.
  intros H. induction l as [|x t IH]; [reflexivity|]. cbn [forallb map]. intros Hl. apply andb_true_iff in Hl as [Hx Ht].
  rewrite (H x Hx), (IH Ht). reflexivity.
Qed.

Lemma flat_map_to_item s l :
  (forall v, wfv s v = true -> encode_item (to_item s v) = enc s v) -> forallb (wfv s) l = true ->
  flat_map encode_item (map (to_item s) l) = concat (map (enc s) l).
Proof.
  intros H. induction l as [|x t IH]; [reflexivity|]. cbn [forallb map flat_map concat]. intros Hl.
  apply andb_true_iff in Hl as [Hx Ht]. rewrite (H x Hx), (IH Ht). reflexivity.
Qed.

Lemma len_map {A B} (f : A -> B) l : len (map f l) = N.of_nat (length l).
Proof. unfold len. rewrite map_length. reflexivity. Qed.

Lemma len_cons {A} (x : A) l : len (x :: l) = 1 + len l.
Proof. unfold len. cbn [length]. lia. Qed.

Lemma len_app {A} (a b : list A) : len (a ++ b) = len a + len b.
Proof. unfold len. rewrite app_length. lia. Qed.

Definition TE (s : schema) : Prop := forall v, wfv s v = true -> encode_item (to_item s v) = enc s v.
Definition TEs (fs : slist) : Prop := forall l, wfv_sl fs l = true ->
  flat_map encode_item (to_items_sl fs l) = enc_sl fs l /\ len (to_items_sl fs l) = slen fs.
Definition TEk (fs : klist) : Prop := forall l, wfv_kl fs l = true ->
  flat_map (fun kv : item * item => match kv with (k, v) => encode_item k ++ encode_item v end) (to_pairs_kl fs l) = enc_kl fs l /\
  len (to_pairs_kl fs l) = count_kl fs l.
Definition TEv (alts : vlist) : Prop := forall i l, wfv_vl alts i l = true ->
  encode_item (to_item_vl alts i l) = enc_vl alts i l.
Definition TEc (alts : clist) : Prop := forall tagged i v, wfv_cl alts i v = true ->
  encode_item (to_item_cl tagged alts i v) = enc_cl tagged alts i v.

Lemma to_item_enc_all : (forall s, TE s) /\ (forall fs, TEs fs) /\ (forall fs, TEk fs) /\ (forall a, TEv a) /\ (forall a, TEc a).
Proof.
  apply schema_mutind; unfold TE, TEs, TEk, TEv, TEc.
  25, 27: intros; discriminate.
  21, 23: intros l Hv; destruct l; [split; reflexivity|discriminate].
  (* SVar, SChoice, STagChoice: the alternatives' statement is the goal *)
  8, 15-16: intros alts IH v Hv; destruct v; try discriminate; apply IH; exact Hv.
  (* SArr, SMap: head with the number of items written, then the items *)
  6-7: intros fs IH v Hv; destruct v; try discriminate; cbn [to_item enc encode_item wfv] in *;
    destruct (IH l Hv) as [E L]; rewrite E, L; reflexivity.
  1-4: intros; destruct v; try discriminate; reflexivity.
  - (* SBool *) intros v Hv. destruct v; try discriminate. destruct b; reflexivity.
  - (* SArrOf *) intros lo s IH v Hv. destruct v; try discriminate. cbn [to_item enc encode_item wfv] in *.
    split_ands. rewrite len_map. f_equal. apply flat_map_to_item; assumption.
  - (* SSetOf *) intros s IH v Hv. destruct v; try discriminate. cbn [to_item enc encode_item wfv] in *.
    split_ands. rewrite len_map. f_equal. f_equal. apply flat_map_to_item; assumption.
  - (* SMapOf *) intros lo ord k IHk v' IHv v Hv. destruct v; try discriminate. cbn [to_item enc encode_item wfv] in *.
    split_ands. rewrite len_map. f_equal.
    match goal with H : forallb _ l = true |- _ => rename H into Hall end.
    clear -Hall IHk IHv. induction l as [|[x y] t IH]; [reflexivity|].
    cbn [forallb map flat_map concat fst snd] in *. split_ands.
    rewrite IHk, IHv by assumption. rewrite IH by assumption. reflexivity.
  - (* SNullable *) intros s IH v Hv.
    destruct v; cbn [to_item enc wfv] in *; try (apply IH; exact Hv). reflexivity.
  - (* STag *) intros t s IH v Hv. cbn [to_item enc encode_item wfv] in *. rewrite IH by exact Hv. reflexivity.
  - (* SInBytes *) intros s IH v Hv. reflexivity.
  - (* SArrAny *) intros s IH v Hv. destruct (wfv_arrany s v Hv) as (l & Hl & [[-> _]| ->]); cbn [to_item enc encode_item].
    + rewrite len_map. f_equal. apply flat_map_to_item; assumption.
    + f_equal. f_equal. apply flat_map_to_item; assumption.
  - (* SBBytes *) intros v Hv. destruct v; try discriminate. cbn [to_item enc].
    destruct (N.of_nat (length b) <=? 64); [reflexivity|]. cbn [encode_item]. f_equal. f_equal.
    unfold encode_chunks. generalize (chunk64 (length b) b). intros cs.
    induction cs as [|c t IHc]; [reflexivity|]. cbn [flat_map map concat]. rewrite IHc. unfold enc_chunk, len.
    rewrite <- app_assoc. reflexivity.
  - (* SNamed *) intros id s IH v Hv. apply IH. exact Hv.
  - (* SArrOpt *) intros fs IHfs o IHo v Hv. destruct (wfv_arropt fs o v Hv) as (l & Hl & [->|(x & -> & Hx)]);
      destruct (IHfs l Hl) as [E L]; cbn [to_item enc encode_item].
    + rewrite E, L. reflexivity.
    + rewrite len_app, L, flat_map_app, E. cbn [flat_map]. rewrite app_nil_r, (IHo x Hx), (N.add_comm (slen fs)). reflexivity.
  - (* SCons *) intros s IHs r IHr l Hv. destruct l as [|v t]; [discriminate|].
    cbn [wfv_sl to_items_sl enc_sl flat_map slen] in *. split_ands.
    destruct (IHr t ltac:(assumption)) as [E L]. rewrite IHs by assumption. rewrite E. split; [reflexivity|].
    rewrite len_cons, L. reflexivity.
  - (* KCons *) intros k p s IHs r IHr l Hv. destruct l as [|o t]; [discriminate|].
    cbn [wfv_kl to_pairs_kl enc_kl count_kl] in *. split_ands.
    match goal with H : match o with Some _ => _ | None => _ end = true |- _ => rename H into Ho end.
    destruct (IHr t ltac:(assumption)) as [E L].
    rewrite flat_map_app, len_app, E, L. rewrite (present_wf p s o Ho).
    destruct o as [v|].
    + split_ands. cbn [flat_map]. rewrite app_nil_r. rewrite IHs by assumption. split; reflexivity.
    + split; reflexivity.
  - (* ACons *) intros idx fs IHfs r IHr i l Hv. cbn [wfv_vl to_item_vl enc_vl] in *. destruct i as [|i'].
    + destruct (IHfs l Hv) as [E L]. cbn [encode_item flat_map]. rewrite len_cons, L, E. reflexivity.
    + apply IHr. exact Hv.
  - (* CCons *) intros d s IHs r IHr tagged i v Hv. cbn [wfv_cl to_item_cl enc_cl] in *. destruct i as [|i'].
    + destruct tagged; cbn [encode_item app]; rewrite IHs by exact Hv; reflexivity.
    + apply IHr. exact Hv.
Qed.

Theorem to_item_enc s v : wfv s v = true -> encode_item (to_item s v) = enc s v.
Proof. exact (proj1 to_item_enc_all s v). Qed.

Lemma to_items_len fs l : wfv_sl fs l = true -> len (to_items_sl fs l) = slen fs.
Proof. intros Hv. exact (proj2 (proj1 (proj2 to_item_enc_all) fs l Hv)). Qed.
Lemma to_pairs_len fs l : wfv_kl fs l = true -> len (to_pairs_kl fs l) = count_kl fs l.
Proof. intros Hv. exact (proj2 (proj1 (proj2 (proj2 to_item_enc_all)) fs l Hv)). Qed.

Lemma bytes_ok_okb (b : bytes) : bytes_ok b -> Item.bytes_okb b = true.
Proof.
  unfold Item.bytes_okb. induction 1 as [|x t Hx _ IH]; [reflexivity|]. cbn [forallb]. rewrite IH.
  apply andb_true_iff. split; [apply N.ltb_lt; exact Hx|reflexivity].
Qed.

Lemma chunk_ok_of (b : bytes) : Schema.bytes_okb b = true -> N.of_nat (length b) < two64 -> chunk_ok b = true.
Proof.
  intros H1 H2. unfold chunk_ok. apply andb_true_iff. split; [exact H1|]. apply N.ltb_lt. exact H2.
Qed.

Lemma okb_firstn_skipn n (b : bytes) :
  Schema.bytes_okb b = true -> Schema.bytes_okb (firstn n b) = true /\ Schema.bytes_okb (skipn n b) = true.
Proof. unfold Schema.bytes_okb. rewrite <- (firstn_skipn n b) at 1. rewrite forallb_app. apply andb_prop. Qed.

Lemma chunk64_chunk_ok fuel : forall b, Schema.bytes_okb b = true -> forallb chunk_ok (chunk64 fuel b) = true.
Proof.
  induction fuel as [|f IH]; intros b Hb; [reflexivity|]. cbn [chunk64].
  destruct b as [|x t] eqn:E; [reflexivity|]. rewrite <- E in *. cbn [forallb].
  destruct (okb_firstn_skipn 64 b Hb) as [Hf Hk]. rewrite (IH _ Hk), andb_true_r.
  apply chunk_ok_of; [exact Hf|]. rewrite firstn_length. unfold two64. lia.
Qed.

Definition IO (s : schema) : Prop := wfs s = true -> forall v, wfv s v = true -> item_ok (to_item s v) = true.
Definition IOs (fs : slist) : Prop := wfs_sl fs = true -> forall l, wfv_sl fs l = true -> forallb item_ok (to_items_sl fs l) = true.
Definition IOk (fs : klist) : Prop := wfs_kl fs = true -> keys_nodup fs = true -> forall l, wfv_kl fs l = true ->
  forallb (fun kv : item * item => match kv with (k, v) => item_ok k && item_ok v end) (to_pairs_kl fs l) = true.
Definition IOv (alts : vlist) : Prop := wfs_vl alts = true -> forall i l, wfv_vl alts i l = true -> item_ok (to_item_vl alts i l) = true.
Definition IOc (alts : clist) : Prop := forall tagged, wfs_cl tagged alts = true -> forall i v, wfv_cl alts i v = true ->
  item_ok (to_item_cl tagged alts i v) = true.

Lemma forallb_map {A B} (f : B -> bool) (g : A -> B) l : forallb f (map g l) = forallb (fun x => f (g x)) l.
Proof. induction l as [|x t IH]; [reflexivity|]. cbn [map forallb]. rewrite IH. reflexivity. Qed.

Lemma to_item_ok_all : (forall s, IO s) /\ (forall fs, IOs fs) /\ (forall fs, IOk fs) /\ (forall a, IOv a) /\ (forall a, IOc a).
Proof.
  apply schema_mutind; unfold IO, IOs, IOk, IOv, IOc.
  25, 27: intros; discriminate.
  21, 23: intros; destruct l; [reflexivity|discriminate].
  (* SVar, SChoice, STagChoice *)
  8, 15-16: intros alts IH Hs v Hv; destruct v; try discriminate; apply IH; assumption.
  (* SBytes, SText *)
  3-4: intros; destruct v; try discriminate; cbn [to_item item_ok wfs wfv] in *; split_ands; apply chunk_ok_of; [assumption|lia].
  - intros lim Hs v Hv. destruct v; try discriminate. cbn [to_item item_ok wfs wfv] in *. lia.
  - intros _ v Hv. destruct v; try discriminate. exact Hv.
  - intros _ v Hv. destruct v; try discriminate. destruct b; reflexivity.
  - (* SArr *) intros fs IH Hs v Hv. destruct v; try discriminate. cbn [to_item item_ok wfs wfv] in *. split_ands.
    rewrite IH, to_items_len by assumption. rw_hyps. reflexivity.
  - (* SMap *) intros fs IH Hs v Hv. destruct v; try discriminate. cbn [to_item item_ok wfs wfv] in *. split_ands.
    rewrite IH, to_pairs_len by assumption. pose proof (count_kl_le fs l). rewrite andb_true_r. lia.
  - (* SArrOf *) intros lo s IH Hs v Hv. destruct v; try discriminate. cbn [to_item item_ok wfs wfv] in *. split_ands.
    rewrite len_map. rw_hyps. apply forallb_to_item; [apply IH|]; assumption.
  - (* SSetOf *) intros s IH Hs v Hv. destruct v; try discriminate. cbn [to_item item_ok wfs wfv] in *. split_ands.
    rewrite len_map. rw_hyps. change (258 <? two64) with true. cbn [andb].
    apply forallb_to_item; [apply IH|]; assumption.
  - (* SMapOf *) intros lo ord k IHk v' IHv Hs v Hv. destruct v; try discriminate. cbn [to_item item_ok wfs wfv] in *.
    split_ands. rewrite len_map. rw_hyps. rewrite forallb_map. cbn [andb].
    match goal with H : forallb _ l = true |- _ => rename H into Hall end.
    apply forallb_forall. intros [x y] Hx. pose proof (forallb_In _ _ _ Hall Hx) as Hxy. cbn [fst snd] in *. split_ands.
    rewrite IHk, IHv by assumption. reflexivity.
  - (* SNullable *) intros s IH Hs v Hv. cbn [wfs] in Hs. split_ands.
    destruct v; cbn [to_item wfv] in *; try (apply IH; assumption). reflexivity.
  - (* STag *) intros t s IH Hs v Hv. cbn [to_item item_ok wfs wfv] in *. split_ands. rw_hyps. apply IH; assumption.
  - (* SInBytes *) intros s IH Hs v Hv. cbn [to_item item_ok wfs wfv] in *. split_ands.
    apply chunk_ok_of; [|lia]. apply bytes_ok_okb. rewrite <- to_item_enc by assumption.
    apply encode_item_bytes_ok. apply IH; assumption.
  - (* SArrAny *) intros s IH Hs v Hv. cbn [wfs] in Hs. split_ands.
    destruct (wfv_arrany s v Hv) as (l & Hl & [[-> Hn]| ->]); cbn [to_item item_ok].
    + rewrite len_map, Hn. apply forallb_to_item; [apply IH|]; assumption.
    + apply forallb_to_item; [apply IH|]; assumption.
  - (* SBBytes *) intros _ v Hv. destruct v; try discriminate. cbn [to_item wfv] in *.
    destruct (N.of_nat (length b) <=? 64) eqn:E; cbn [item_ok].
    + apply chunk_ok_of; [exact Hv|unfold two64; lia].
    + apply chunk64_chunk_ok. exact Hv.
  - (* SNamed *) intros id s IH Hs v Hv. apply IH; assumption.
  - (* SArrOpt *) intros fs IHfs o IHo Hs v Hv. cbn [wfs] in Hs. split_ands.
    destruct (wfv_arropt fs o v Hv) as (l & Hl & [->|(x & -> & Hx)]); cbn [to_item item_ok].
    + rewrite IHfs, to_items_len by assumption. apply andb_true_iff. split; [lia|reflexivity].
    + rewrite forallb_app, IHfs, len_app, to_items_len by assumption. cbn [forallb]. rewrite IHo by assumption.
      apply andb_true_iff. split; [unfold len; cbn [length]; lia|reflexivity].
  - (* SCons *) intros s IHs r IHr Hw l Hv. cbn [wfs_sl] in Hw. split_ands. destruct l as [|v t]; [discriminate|].
    cbn [wfv_sl to_items_sl forallb] in *. split_ands. rewrite IHs, IHr by assumption. reflexivity.
  - (* KCons *) intros k p s IHs r IHr Hw Hk l Hv. cbn [wfs_kl keys_nodup] in *. split_ands.
    destruct l as [|o t]; [discriminate|]. cbn [wfv_kl to_pairs_kl] in *. split_ands.
    match goal with H : match o with Some _ => _ | None => _ end = true |- _ => rename H into Ho end.
    rewrite forallb_app. rewrite IHr by assumption. rewrite andb_true_r. rewrite (present_wf p s o Ho).
    destruct o as [v|]; [|reflexivity]. split_ands. cbn [forallb item_ok]. rewrite IHs by assumption. rw_hyps. reflexivity.
  - (* ACons *) intros idx fs IHfs r IHr Hw i l Hv. cbn [wfs_vl] in Hw. split_ands. cbn [wfv_vl to_item_vl] in *.
    destruct i as [|i']; [|apply IHr; assumption]. cbn [item_ok forallb]. rewrite IHfs by assumption.
    rewrite len_cons, to_items_len by assumption. rw_hyps. reflexivity.
  - (* CCons *) intros d s IHs r IHr tagged Hw i v Hv. cbn [wfs_cl] in Hw. split_ands. cbn [wfv_cl to_item_cl] in *.
    destruct i as [|i']; [|apply (IHr tagged); assumption].
    destruct tagged; [cbn [item_ok]; rw_hyps|]; apply IHs; assumption.
Qed.

Theorem to_item_ok s v : wfs s = true -> wfv s v = true -> item_ok (to_item s v) = true.
Proof. intros Hs Hv. exact (proj1 to_item_ok_all s Hs v Hv). Qed.

(* the independent parser reads the model encoder's bytes back as exactly that tree *)
Theorem parse_enc s v : wfs s = true -> wfv s v = true -> parse_exact (enc s v) = Ok (to_item s v).
Proof. intros Hs Hv. rewrite <- to_item_enc by exact Hv. apply parse_exact_encode. apply to_item_ok; assumption. Qed.
