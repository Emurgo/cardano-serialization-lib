(* C03, builder clause on add_change itself.  On C05's executable model of add_change_if_needed (Builder/Change.v, every
   branch, sizes and fees as an ARBITRARY oracle): if the outputs already in the builder and the total input carry no
   zero-quantity asset and no empty policy bundle, then after add_change - successful or failed (the Rust code mutates
   before it fails) - no output of the builder carries one.  So every output add_change appends, and the last output it
   tops up, is free of them.  An instance of Builder/ChangeProofs.v [add_change_keeps]: add_output refuses an amount with
   such an entry; the top-up adds a value reached from the total input by exact subtractions. *)
From CSL Require Import Base.Prelude Base.U64 Num.Value Num.ValueNorm Cddl.NoZeroAssets Cddl.NormPos Deposits.Deposits Builder.Totals
  Builder.Change Builder.ChangePure Builder.ChangeProofs.
Local Open Scope N_scope.

Definition outputs_pos (s : state) : bool := forallb (fun x => value_pos (o_amount x)) (s_outputs s).
(* the total the change is computed from: explicit inputs + withdrawals + refunds + minted assets *)
Definition total_input_pos (s : state) : bool :=
  match get_total_input s with Ok t => value_pos t | _ => true end.

(* bundles may be empty here (an intermediate of the packing loop), quantities may not be zero *)
Definition ma_epos (m : multiasset) : bool := forallb (fun pa : bytes * assets => assets_pos (snd pa)) m.

Definition value_epos (v : value) : bool := match multiasset_of v with Some m => ma_epos m | None => true end.
Lemma value_pos_epos v : value_pos v = true -> value_epos v = true.
Proof. unfold value_pos, value_epos. destruct (multiasset_of v); [apply ma_pos_quantities|reflexivity]. Qed.

Section Inv.
  Context {O : Type}.
  Variable orc : @oracle O.

  (* everything add_change never writes: all fields except the outputs and the fee *)
  Definition rest (s : state) :=
    (s_cfg s, s_inputs s, s_fee_request s, s_certs s, s_withdrawals s, s_mint s, s_proposals s, s_donation s, s_treasury s).
  Variable R0 : (config * list (N * value) * fee_request * option (list cert) * option (list (N * N)) * option mint_map *
                 option (list N) * option N * option N)%type.
  Definition inv (s : state) : Prop := outputs_pos s = true /\ rest s = R0.
  (* [hoare inv (fun _ => True) m (fun a _ => Q a)], written out (ChangeProofs.hoare_result) *)
  Definition keeps {A} (m : @M O A) (Q : A -> Prop) : Prop :=
    forall s o, inv s -> inv (out_st (m s o)) /\ (forall a, out_res (m s o) = Ok a -> Q a).

  Lemma keeps_true {A} (m : @M O A) (Q : A -> Prop) : keeps m Q -> keeps m (fun _ => True).
  Proof. intros H s o Hs. split; [exact (proj1 (H s o Hs)) | intros; exact I]. Qed.

  Lemma inv_add x : value_pos (o_amount x) = true -> forall s, inv s -> inv (set_s_outputs (s_outputs s ++ [x]) s).
  Proof.
    unfold inv, outputs_pos, rest. cbn. intros Hx s [H Hr]. split; [|exact Hr]. rewrite forallb_app, H. cbn [forallb]. rewrite Hx. reflexivity.
  Qed.

  (* add_output first refuses a value with empty entries (Builder/Change.v output_acceptable, since the /repo fix "the
     builder drops zero quantities and asset-less policies of the amounts it is given"): whatever it appends has none *)
  Lemma k_add_output P x : hoare inv P (add_output orc x) (fun _ _ => True).
  Proof.
    apply hoare_add_output. intros s o Hs _ Acc. split; [|exact I]. apply inv_add; [|exact Hs].
    rewrite value_pos_iff_no_empty_entries. unfold output_acceptable in Acc.
    destruct (value_has_empty_entries (o_amount x)); [discriminate Acc | reflexivity].
  Qed.

  (* the one write that is not an add_output: the last output grows by what is left *)
  Lemma k_top_up_last P cl : value_pos cl = true -> hoare inv P (top_up_last orc cl) (fun _ _ => True).
  Proof.
    intros Hcl. apply hoare_top_up_last. intros s before last amount [Hs Hrest] _ Eo E. split; [|intros; exact I].
    unfold outputs_pos in Hs. rewrite Eo, forallb_app in Hs. cbn [forallb] in Hs. apply andb_true_iff in Hs as [Hb Hl].
    rewrite andb_true_r in Hl. unfold inv, outputs_pos, rest. cbn. split; [|exact Hrest]. rewrite forallb_app, Hb. cbn [forallb o_amount].
    rewrite (value_checked_add_pos _ _ _ Hl Hcl E). reflexivity.
  Qed.

  Lemma value_new_pos c : value_pos (value_new c) = true.  Proof. reflexivity. Qed.
  Lemma value_pos_set_ma_new c : value_pos (value_set_multiasset ma_new (value_new c)) = true.
  Proof. reflexivity. Qed.

  (* add_output, set_final_fee and the top-up keep the invariant (ChangeProofs.add_change_keeps); what is left of the
     change stays free of empty entries because it only ever shrinks by exact subtractions *)
  Theorem add_change_keeps_inv fuel addr extra s o :
    inv s -> total_input_pos s = true -> inv (out_st (add_change orc fuel addr extra s o)).
  Proof.
    intros Hs Hti.
    assert (K : hoare inv (eq s) (add_change orc fuel addr extra) (fun _ _ => True)); [|exact (proj1 (K s o Hs eq_refl))].
    apply add_change_keeps with (C := fun v => value_pos v = true).
    - intros x. apply k_add_output.
    - intros v s' Hs' _. split; [exact Hs' | exact I].
    - intros cl. apply k_top_up_last.
    - intros a b c. apply value_checked_sub_pos.
    - reflexivity.
    - exact I.
    - intros it Eit. unfold total_input_pos in Hti. rewrite Eit in Hti. exact Hti.
  Qed.
End Inv.

(* the two readings of the invariant: no degenerate entry in any output, and nothing but outputs and fee is written *)
Theorem add_change_keeps_outputs_pos {O} (orc : @oracle O) fuel addr extra s o :
  outputs_pos s = true -> total_input_pos s = true ->
  outputs_pos (out_st (add_change orc fuel addr extra s o)) = true.
Proof. intros Hs Hti. exact (proj1 (add_change_keeps_inv orc (rest s) fuel addr extra s o (conj Hs eq_refl) Hti)). Qed.

Theorem add_change_frame {O} (orc : @oracle O) fuel addr extra s o :
  outputs_pos s = true -> total_input_pos s = true ->
  rest (out_st (add_change orc fuel addr extra s o)) = rest s.
Proof. intros Hs Hti. exact (proj2 (add_change_keeps_inv orc (rest s) fuel addr extra s o (conj Hs eq_refl) Hti)). Qed.
