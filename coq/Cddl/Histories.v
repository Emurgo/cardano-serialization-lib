(* C03, builder clause over HISTORIES.  On C05's builder model (Builder/Scenario.v: the API operations, Builder/Change.v:
   add_change / add_inputs_from_and_change / build_tx, sizes and fees answered by the recorded-answer oracle - nothing
   below depends on the answers), every state reachable from a new builder keeps
       J s  :=  no output carries a zero quantity or an empty policy bundle
             /\ no stored input amount carries one           (push_input normalises, /repo bb8d7fa)
             /\ every mint line is at most int_max            (Int's range; checked by MintBuilder)
   provided change is only computed while no mint line has the stored sum 0 (the condition MintBuilder::build itself
   checks before a transaction is released: [mint_nonzero]).  Hence every output of every transaction build_tx releases
   along such a history is free of zero quantities and empty bundles. *)
From CSL Require Import Base.Prelude Base.U64 Num.Value Num.ValueNorm Cddl.NoZeroAssets Cddl.NormPos Deposits.Deposits
  Builder.Totals Builder.Change Builder.ChangeProofs Builder.Scenario Cddl.ChangeNoZero Base.Facts.
Local Open Scope N_scope.

Definition inputs_pos (s : state) : bool := forallb (fun e : N * value => value_pos (snd e)) (s_inputs s).
Definition lines_all (P : Z -> bool) (m : mint_map) : bool :=
  forallb (fun e : bytes * mint_assets => forallb (fun nq : bytes * Z => P (snd nq)) (snd e)) m.
Definition mint_bounded (s : state) : bool :=
  match s_mint s with Some m => lines_all (fun z => (z <=? int_max)%Z) m | None => true end.
(* exactly the test of MintBuilder::build (Totals.mint_build): no line whose accumulated quantity is 0 *)
Definition mint_nonzero (s : state) : bool :=
  match s_mint s with Some m => lines_all (fun z => negb (z =? 0)%Z) m | None => true end.

Definition J (s : state) : Prop := outputs_pos s = true /\ inputs_pos s = true /\ mint_bounded s = true.

Lemma assets_insert_pos n q a : 1 <= q -> assets_pos a = true -> assets_pos (assets_insert n q a) = true.
Proof. intros Hq Ha. unfold assets_pos, assets_insert. apply am_insert_forall; [intros k'; cbn [snd]; lia|exact Ha]. Qed.

(* the minted side of the total input: a line within Int's range and not 0 contributes a quantity >= 1 *)
Lemma mint_side_pos m : lines_all (fun z => (z <=? int_max)%Z) m = true -> lines_all (fun z => negb (z =? 0)%Z) m = true ->
  ma_pos (mint_side true m) = true.
Proof.
  intros Hb Hz. apply (fold_left_inv (fun res => ma_pos res = true)); [|reflexivity]. intros res [p lines] Hin Hres. cbn [fst snd].
  assert (Hp : assets_pos (mint_side_assets true lines) = true).
  { apply (fold_left_inv (fun acc => assets_pos acc = true)); [|reflexivity]. intros acc [n z] Hnz Hacc. cbn [fst snd].
    destruct (Bool.eqb (int_is_positive z) true) eqn:E; [|exact Hacc]. apply assets_insert_pos; [|exact Hacc].
    pose proof (forallb_in _ _ _ (forallb_in _ _ _ Hb Hin) Hnz) as B.
    pose proof (forallb_in _ _ _ (forallb_in _ _ _ Hz Hin) Hnz) as Z. cbn [snd] in B, Z.
    apply Bool.eqb_prop in E. unfold int_is_positive in E. unfold int_as_positive, int_max, two64Z in *.
    rewrite Z.mod_small by lia. lia. }
  destruct (mint_side_assets true lines); [exact Hres|]. apply ma_insert_pos; [exact Hres|exact Hp].
Qed.

Lemma value_sum_pos l : forall acc r, value_pos acc = true -> forallb value_pos l = true -> value_sum acc l = Ok r -> value_pos r = true.
Proof.
  induction l as [|v t IH]; intros acc r Ha Hl H; cbn [value_sum] in H; [injection H as <-; exact Ha|].
  cbn [forallb] in Hl. apply andb_true_iff in Hl as [Hv Ht].
  apply bind_ok in H as (a & E & H). apply (IH a r); [|exact Ht|exact H]. exact (value_checked_add_pos acc v a Ha Hv E).
Qed.

Lemma implicit_input_pos s i : get_implicit_input s = Ok i -> value_pos i = true.
Proof.
  unfold get_implicit_input. intros (a & Ea & H)%bind_ok.
  assert (Ha : value_pos a = true).
  { destruct (s_withdrawals s); [|injection Ea as <-; reflexivity].
    apply bind_ok in Ea as (tw & _ & Ea). eapply value_checked_add_pos; [| |exact Ea]; reflexivity. }
  destruct (s_certs s); [|injection H as <-; exact Ha].
  apply bind_ok in H as (r & _ & H). eapply value_checked_add_pos; [exact Ha| |exact H]. reflexivity.
Qed.

Lemma value_new_from_assets_pos m : ma_pos m = true -> value_pos (value_new_from_assets m) = true.
Proof. intros H. unfold value_new_from_assets, value_new_with_assets. destruct m; [reflexivity|exact H]. Qed.

Theorem total_input_pos_of s : inputs_pos s = true -> mint_bounded s = true -> mint_nonzero s = true -> total_input_pos s = true.
Proof.
  intros Hi Hb Hz. unfold total_input_pos. destruct (get_total_input s) as [t| | |] eqn:Et; try reflexivity.
  unfold get_total_input in Et. apply bind_ok in Et as (e & Ee & (i & Ei & (x & Ex & Et)%bind_ok)%bind_ok).
  assert (He : value_pos e = true).
  { unfold get_explicit_input in Ee. eapply value_sum_pos; [| |exact Ee]; [reflexivity|].
    unfold inputs_pos in Hi. rewrite forallb_forall in Hi. apply forallb_forall. intros v Hv.
    apply in_map_iff in Hv as (p & <- & Hp). apply Hi. exact Hp. }
  assert (Hx : value_pos x = true) by (eapply value_checked_add_pos; [exact He|eapply implicit_input_pos; exact Ei|exact Ex]).
  eapply value_checked_add_pos; [exact Hx| |exact Et].
  unfold get_mint_as_values, mint_bounded, mint_nonzero in *. destruct (s_mint s) as [m|]; [|reflexivity].
  cbn [fst]. apply value_new_from_assets_pos. apply mint_side_pos; assumption.
Qed.

(* the frame: J's input and mint parts only read what add_change never writes *)
Lemma rest_parts s s' : rest s' = rest s ->
  inputs_pos s' = inputs_pos s /\ mint_bounded s' = mint_bounded s /\ mint_nonzero s' = mint_nonzero s.
Proof.
  unfold rest, inputs_pos, mint_bounded, mint_nonzero. intros H. injection H as _ Hi _ _ _ Hm _ _ _. rewrite Hi, Hm. repeat split.
Qed.

Definition JZ (s : state) : Prop := J s /\ mint_nonzero s = true.

Lemma inv_JZ s s' : JZ s -> inv (rest s) s' -> JZ s'.
Proof.
  intros [(Ho & Hi & Hb) Hz] [Ho' Hr]. destruct (rest_parts s s' Hr) as (E1 & E2 & E3).
  unfold JZ, J. rewrite E1, E2, E3. repeat split; assumption.
Qed.

Lemma inputs_insert_pos k v m : value_pos v = true -> forallb (fun e : N * value => value_pos (snd e)) m = true ->
  forallb (fun e : N * value => value_pos (snd e)) (inputs_insert k v m) = true.
Proof.
  intros Hv. induction m as [|[k' v'] t IH]; intros Hm; cbn [inputs_insert forallb snd] in *; [rewrite Hv; reflexivity|].
  apply andb_true_iff in Hm as [H1 H2]. destruct (N.compare k k'); cbn [forallb snd]; rewrite ?Hv, ?H1, ?H2, ?IH by assumption; reflexivity.
Qed.

(* add_output keeps the outputs free of empty entries and writes nothing else *)
Lemma add_output_frame {O} (orc : @oracle O) x s o : outputs_pos s = true -> inv (rest s) (out_st (add_output orc x s o)).
Proof. intros Ho. exact (proj1 (k_add_output orc (rest s) (fun _ => True) x s o (conj Ho eq_refl) I)). Qed.

Section Hist.
  Context {O : Type}.
  Variable orc : @oracle O.

  (* [hoare JZ (fun _ => True) m (fun a _ => Q a)], written out (ChangeProofs.hoare_result) *)
  Definition pres {A} (m : @M O A) (Q : A -> Prop) : Prop :=
    forall s o, JZ s -> JZ (out_st (m s o)) /\ (forall a, out_res (m s o) = Ok a -> Q a).

  Lemma pres_weaken {A} (m : @M O A) (P Q : A -> Prop) : pres m P -> (forall a, P a -> Q a) -> pres m Q.
  Proof. intros H W s o Hs. destruct (H s o Hs) as [Hi R]. split; [exact Hi|]. intros a E. apply W, R, E. Qed.

  Lemma pres_add_output x : pres (add_output orc x) (fun _ => True).
  Proof. intros s o Hs. split; [|intros; exact I]. exact (inv_JZ s _ Hs (add_output_frame orc x s o (proj1 (proj1 Hs)))). Qed.

  Lemma pres_add_change P fuel addr extra : hoare JZ P (add_change orc fuel addr extra) (fun _ _ => True).
  Proof.
    intros s o Hs _. split; [|destruct (out_res _); exact I]. apply (inv_JZ s _ Hs). destruct Hs as [(Ho & Hi & Hb) Hz].
    apply add_change_keeps_inv; [exact (conj Ho eq_refl)|]. apply total_input_pos_of; assumption.
  Qed.

  Lemma pres_add_inputs P l : hoare JZ P (@add_inputs O l) (fun _ _ => True).
  Proof.
    apply hoare_modify. intros s [(Ho & Hi & Hb) Hz] _. split; [|exact I]. repeat split; try assumption.
    apply (fold_left_inv (fun m => forallb (fun e : N * value => value_pos (snd e)) m = true)); [|exact Hi].
    intros m e _. apply inputs_insert_pos. apply value_without_empty_entries_pos.
  Qed.

  Lemma pres_select_and_change fuel utxos addr extra :
    hoare JZ (fun _ => True) (add_inputs_from_and_change orc fuel utxos addr extra) (fun _ _ => True).
  Proof.
    apply select_and_change_keeps with (U := fun _ => True) (Q := fun _ => True); auto.
    - intros l _. apply pres_add_inputs.
    - intros. apply pres_add_change.
  Qed.

  Definition body_pos (b : tx_body) : Prop := forallb (fun x => value_pos (o_amount x)) (b_outputs b) = true.

  Lemma pres_build_tx : pres (build_tx orc) body_pos.
  Proof.
    intros s o Hs. destruct (build_tx_spec orc JZ s s o Hs eq_refl) as [Hj R]. split; [exact Hj|].
    intros b E. rewrite E in R. destruct R as (_ & -> & _). exact (proj1 (proj1 Hs)).
  Qed.
End Hist.

(* J alone (the mint may hold a zero line: only add_change needs more) *)
Lemma inv_J s s' : J s -> inv (rest s) s' -> J s'.
Proof.
  intros (Ho & Hi & Hb) [Ho' Hr]. destruct (rest_parts s s' Hr) as (E1 & E2 & _). unfold J. rewrite E1, E2. repeat split; assumption.
Qed.

Definition change_op_mint_ok (x : op) (s : state) : bool :=
  match x with OpChange _ _ | OpSelectChange _ _ _ => mint_nonzero s | _ => true end.

Lemma pure_op_state s o r : snd (pure_op s o r) = s \/ exists s', r = Ok s' /\ snd (pure_op s o r) = s'.
Proof.
  unfold pure_op. destruct (t_tape o); [|left; reflexivity]. destruct (t_sel o); [left; reflexivity|].
  destruct r as [s'| | |]; [right; exists s'; split; reflexivity|left; reflexivity..].
Qed.

Lemma finish_state {A} (r : out A) okv : snd (finish r okv) = out_st r.
Proof. unfold finish. destruct (_ || _); reflexivity. Qed.

Lemma J_fields s s' : s_outputs s' = s_outputs s -> s_inputs s' = s_inputs s -> s_mint s' = s_mint s -> J s -> J s'.
Proof. unfold J, outputs_pos, inputs_pos, mint_bounded. intros -> -> ->. exact (fun H => H). Qed.

Lemma mint_update_bounded ow p n amt m m' : (amt <=? int_max)%Z = true ->
  lines_all (fun z => (z <=? int_max)%Z) m = true -> mint_update ow p n amt m = Ok m' ->
  lines_all (fun z => (z <=? int_max)%Z) m' = true.
Proof.
  intros Ha Hm. unfold mint_update. destruct (amt =? 0)%Z; [discriminate|]. destruct (amt <? mint_amount_min)%Z; [discriminate|].
  set (a := match am_get bytes_cmp p m with Some a => a | None => [] end).
  assert (Hpa : forallb (fun nq : bytes * Z => (snd nq <=? int_max)%Z) a = true).
  { subst a. destruct (am_get bytes_cmp p m) as [a0|] eqn:E; [|reflexivity].
    destruct (am_get_in _ _ _ _ E) as (k' & Hin). exact (forallb_in _ _ _ Hm Hin). }
  assert (Ins : forall q, (q <=? int_max)%Z = true ->
            lines_all (fun z => (z <=? int_max)%Z) (am_insert bytes_cmp p (am_insert name_cmp n q a) m) = true).
  { intros q Hq. unfold lines_all. apply am_insert_forall; [|exact Hm]. intros k'. cbn [snd].
    apply am_insert_forall; [intros k2; cbn [snd]; exact Hq|exact Hpa]. }
  destruct ow; [intros H; injection H as <-; apply Ins; exact Ha|].
  destruct ((mint_amount_min <=? _) && (_ <=? int_max))%Z eqn:Eb; [|discriminate].
  intros H. injection H as <-. apply Ins. apply andb_true_iff in Eb as [_ Eb]. exact Eb.
Qed.

Theorem run_op_J utxos x s o : J s -> change_op_mint_ok x s = true ->
  J (snd (fst (run_op utxos x s o))) /\
  (forall b, snd (run_op utxos x s o) = Some b -> body_pos b).
Proof.
  intros Hs Hm. destruct x; cbn [run_op fst snd change_op_mint_ok] in *;
    try (split; [|discriminate];
         match goal with |- J (snd (pure_op s o ?r)) =>
           destruct (pure_op_state s o r) as [->|(s' & Er & ->)]; [exact Hs|] end).
  (* the setters that touch neither outputs, inputs nor mint *)
  all: try (injection Er as <-; exact (J_fields s _ eq_refl eq_refl eq_refl Hs)).
  - (* OpInput *) destruct (lookup_utxo utxos id) as [v|]; [|discriminate]. injection Er as <-.
    destruct Hs as (Ho & Hi & Hb). unfold J, outputs_pos, inputs_pos, mint_bounded in *. cbn. repeat split; try assumption.
    apply inputs_insert_pos; [apply value_without_empty_entries_pos|exact Hi].
  - (* OpOutput *) split; [|discriminate]. rewrite finish_state. exact (inv_J s _ Hs (add_output_frame _ x s o (proj1 Hs))).
  - (* OpMint *) destruct ((amt <? int_min) || (int_max <? amt))%Z eqn:Er0; [discriminate|].
    destruct (mint_update overwrite p n amt (opt_mint (s_mint s))) as [m| | |] eqn:Em; cbn [bind] in Er; try discriminate.
    injection Er as <-. destruct Hs as (Ho & Hi & Hb). unfold J, outputs_pos, inputs_pos, mint_bounded in *. cbn.
    repeat split; try assumption. eapply mint_update_bounded; [|
      |exact Em]; [apply orb_false_iff in Er0 as [_ E2]; lia|]. destruct (s_mint s); [exact Hb|reflexivity].
  - (* OpSetTreasury *) unfold set_current_treasury_value in Er. destruct (c =? 0); [discriminate|].
    injection Er as <-. exact (J_fields s _ eq_refl eq_refl eq_refl Hs).
  - (* OpChange *) split; [|discriminate]. rewrite finish_state.
    exact (proj1 (proj1 (pres_add_change tape_oracle (fun _ => True) fuel_default addr extra s o (conj Hs Hm) I))).
  - (* OpSelectChange *) split; [|discriminate]. rewrite finish_state.
    exact (proj1 (proj1 (pres_select_and_change tape_oracle fuel_default (resolve utxos avail) addr extra s o (conj Hs Hm) I))).
  - (* OpBuild *) rewrite finish_state. destruct (build_tx_spec tape_oracle J s s o Hs eq_refl) as [Hj R]. split; [exact Hj|].
    intros b Eb. destruct (out_res (build_tx tape_oracle s o)) as [b'| | |]; try discriminate. injection Eb as <-.
    destruct R as (_ & -> & _). exact (proj1 Hs).
Qed.

(* change is only ever computed while no mint line has the stored sum 0 *)
Fixpoint history_ok (utxos : list (N * value)) (l : list (op * tape_state)) (s : state) : bool :=
  match l with
  | [] => true
  | (x, o) :: r => change_op_mint_ok x s && history_ok utxos r (snd (fst (run_op utxos x s o)))
  end.

Theorem run_ops_J utxos l : forall s, J s -> history_ok utxos l s = true ->
  J (snd (fst (run_ops utxos l s))) /\ (forall b, snd (run_ops utxos l s) = Some b -> body_pos b).
Proof.
  induction l as [|[x o] r IH]; intros s Hs Hh; cbn [run_ops history_ok] in *; [split; [exact Hs|discriminate]|].
  apply andb_true_iff in Hh as [H1 H2]. destruct (run_op_J utxos x s o Hs H1) as [J1 B1].
  destruct (run_op utxos x s o) as [[res s'] tx] eqn:E. cbn [fst snd] in *.
  destruct (IH s' J1 H2) as [J2 B2]. destruct (run_ops utxos r s') as [[rs s''] tx'] eqn:E'. cbn [fst snd] in *.
  split; [exact J2|]. intros b Hb. destruct tx' as [b'|]; [injection Hb as <-; apply B2; reflexivity|].
  destruct res; try discriminate. apply B1. exact Hb.
Qed.

Lemma J_new cfg : J (new_state cfg).
Proof. repeat split. Qed.

(* every transaction released along a history from a NEW builder has outputs free of zero quantities and empty bundles *)
Theorem builder_histories_no_zero_assets cfg utxos l : history_ok utxos l (new_state cfg) = true ->
  forall b, snd (run_ops utxos l (new_state cfg)) = Some b -> body_pos b.
Proof. intros H. exact (proj2 (run_ops_J utxos l (new_state cfg) (J_new cfg) H)). Qed.
