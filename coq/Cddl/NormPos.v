(* C03 x Num/ValueNorm.v: "no empty entries" (Value::has_empty_entries of the Rust code) is C03's value_pos, and the value
   the builder stores for an input (Value::without_empty_entries) satisfies it.  Hence every amount that enters the
   builder through push_input or add_output is value_pos: the premise [total_input_pos] of C03_add_change_no_zero_assets
   holds for builders filled through the API (mint lines aside, which MintAssets::insert keeps non-zero on build). *)
From CSL Require Import Base.Prelude Num.Value Num.ValueNorm Num.ValueNormProofs Cddl.NoZeroAssets.
Local Open Scope N_scope.

Lemma assets_pos_no_zero a : assets_pos a = negb (assets_has_zero a).
Proof.
  unfold assets_pos, assets_has_zero. induction a as [|[n q] a IH]; [reflexivity|]. cbn [forallb existsb snd].
  rewrite IH, negb_orb. f_equal. destruct (N.eqb_spec q 0), (N.leb_spec 1 q); try reflexivity; lia.
Qed.

Theorem value_pos_iff_no_empty_entries v : value_pos v = negb (value_has_empty_entries v).
Proof.
  unfold value_pos, value_has_empty_entries. destruct (multiasset_of v) as [m|]; [|reflexivity].
  unfold ma_pos, ma_has_empty_entries. induction m as [|[p a] m IH]; [reflexivity|]. cbn [forallb existsb snd].
  rewrite IH, negb_orb. f_equal. unfold bundle_ok. destruct a as [|x l]; [reflexivity|]. cbn [negb andb].
  apply assets_pos_no_zero.
Qed.

Theorem value_without_empty_entries_pos v : value_pos (value_without_empty_entries v) = true.
Proof. rewrite value_pos_iff_no_empty_entries, value_without_empty_entries_clean. reflexivity. Qed.
