(* ONE generic soundness proof: a typed value that satisfies the Conway constraints (Conforms.conforms) has a CBOR
   tree that matches the rule (Validator.cddl_ok), for every schema, rule and value. *)
From CSL Require Import Base.Prelude Cbor.Head Cbor.HeadProofs Cbor.Item Cbor.ItemProofs Codec.Schema Codec.SchemaProofs
  Cddl.Rules Cddl.Validator Cddl.ValidatorProofs Cddl.ToItem Cddl.ToItemProofs Cddl.CanonProofs Cddl.Conforms
  Cddl.Refines.
Local Open Scope N_scope.

Lemma vnth_wf alts : forall i l, wfs_vl alts = true -> wfv_vl alts i l = true ->
  exists idx fs, vnth alts i = Some (idx, fs) /\ wfs_sl fs = true /\ wfv_sl fs l = true /\ idx < two64.
Proof.
  induction alts as [|j gs r IH]; intros i l Hw Hv; [discriminate|].
  cbn [vnth wfs_vl wfv_vl] in *. split_ands. destruct i as [|i']; [|apply IH; assumption].
  exists j, gs. repeat split; try assumption. lia.
Qed.

Lemma cnth_wf tagged alts : forall i v, wfs_cl tagged alts = true -> wfv_cl alts i v = true ->
  exists d s, cnth alts i = Some (d, s) /\ wfs s = true /\ wfv s v = true.
Proof.
  induction alts as [|c s0 r IH]; intros i v Hw Hv; [discriminate|].
  cbn [cnth wfs_cl wfv_cl] in *. split_ands. destruct i as [|i']; [|apply IH; assumption].
  exists c, s0. repeat split; assumption.
Qed.

Lemma to_item_vl_nth alts : forall i idx fs l, vnth alts i = Some (idx, fs) ->
  to_item_vl alts i l = IArray true (IUint idx :: to_items_sl fs l).
Proof.
  induction alts as [|j gs r IH]; intros i idx fs l Hn; [discriminate|]. cbn [vnth to_item_vl] in *.
  destruct i as [|i']; [injection Hn as <- <-; reflexivity|apply IH; exact Hn].
Qed.

Lemma to_item_cl_nth tagged alts : forall i d s v, cnth alts i = Some (d, s) ->
  to_item_cl tagged alts i v = if tagged then ITag d (to_item s v) else to_item s v.
Proof.
  induction alts as [|c s0 r IH]; intros i d s v Hn; [discriminate|]. cbn [cnth to_item_cl] in *.
  destruct i as [|i']; [injection Hn as <- <-; reflexivity|apply IH; exact Hn].
Qed.

(* on a schema constructor that is not transparent, one step looks at the rule *)
Lemma conf_body_nt e rec s r v : transparent s = false ->
  conf_body e rec s r v =
  match r with
  | RRef id => match lookup e id with Some r' => rec s r' v | None => false end
  | RChoice ralts => existsb (fun a => rec s a v) ralts
  | _ => conf_struct rec s r v
  end.
Proof. destruct s; try discriminate; reflexivity. Qed.

Lemma bytes_ltb_irrefl a : bytes_ltb a a = false.
Proof. induction a as [|x t IH]; [reflexivity|]. cbn [bytes_ltb]. rewrite IH. lia. Qed.

Lemma bytes_ltb_trans a : forall b c, bytes_ltb a b = true -> bytes_ltb b c = true -> bytes_ltb a c = true.
Proof.
  induction a as [|x a IH]; intros [|y b] [|z c] H1 H2; try discriminate; [reflexivity|].
  cbn [bytes_ltb] in *. specialize (IH b c).
  destruct (bytes_ltb a b), (bytes_ltb b c); try rewrite IH by reflexivity; lia.
Qed.

Lemma sortedb_cons x l : sortedb (x :: l) = true -> sortedb l = true /\ forall y, In y l -> bytes_ltb x y = true.
Proof.
  revert x. induction l as [|z t IH]; intros x H; [split; [reflexivity|intros y []]|].
  cbn [sortedb] in H. apply andb_true_iff in H as [H1 H2]. split; [exact H2|].
  intros y [<-|Hy]; [exact H1|]. eapply bytes_ltb_trans; [exact H1|]. apply (IH z H2), Hy.
Qed.

(* a strictly ascending list has no repetition *)
Lemma sortedb_nodupb l : sortedb l = true -> nodupb l = true.
Proof.
  intros H. apply nodupb_NoDup. induction l as [|x t IH]; [constructor|].
  destruct (sortedb_cons x t H) as [Ht Hlt]. constructor; [|apply IH; exact Ht].
  intros Hin. pose proof (Hlt x Hin) as L. rewrite bytes_ltb_irrefl in L. discriminate.
Qed.

Lemma map_keys_nodupb ord (k : schema) (l : list (val * val)) :
  (match ord with
   | KInsertion => nodupb (map (fun kv => enc k (fst kv)) l)
   | KBytewise => sortedb (map (fun kv => enc k (fst kv)) l)
   | KRewardAddr => sortedb (map (fun kv => reward_sort_key (enc k (fst kv))) l)
   | KMulti => true
   end) = true ->
  (match ord with KMulti => nodupb (map (fun kv => enc k (fst kv)) l) | _ => true end) = true ->
  nodupb (map (fun kv => enc k (fst kv)) l) = true.
Proof.
  destruct ord; intros H H2; [exact H|apply sortedb_nodupb; exact H| |exact H2].
  apply nodupb_NoDup, (NoDup_map_inv reward_sort_key). rewrite map_map. apply nodupb_NoDup, sortedb_nodupb. exact H.
Qed.

Lemma is_nil_map {A B} (f : A -> B) l : is_nil (map f l) = is_nil l.
Proof. destruct l; reflexivity. Qed.

Lemma chunk64_le64 fuel b : forallb (fun c : bytes => len c <=? 64) (chunk64 fuel b) = true.
Proof.
  apply forallb_forall. intros c Hc. pose proof (chunk64_bounds _ _ _ Hc). unfold len. lia.
Qed.

Lemma has_key_in (kvs : list (item * item)) k : In (IUint k) (map fst kvs) -> has_key kvs k = true.
Proof.
  intros H. unfold has_key. apply existsb_exists. apply in_map_iff in H as ((k0 & v0) & E & Hin). cbn [fst] in E.
  exists (k0, v0). split; [exact Hin|]. cbn [fst]. subst k0. cbn [item_eqb]. apply N.eqb_refl.
Qed.

(* map-struct: keys written *)
Lemma pairs_keys fs : forall l, wfv_kl fs l = true -> map fst (to_pairs_kl fs l) = map IUint (written_keys fs l).
Proof.
  induction fs as [|k p s t IH]; intros l Hv; destruct l as [|o ot]; try discriminate; [reflexivity|].
  cbn [wfv_kl to_pairs_kl written_keys] in *. split_ands. rewrite !map_app. rewrite IH by assumption. f_equal.
  destruct o as [v|]; [|unfold present; reflexivity]. destruct (present p (Some v)); reflexivity.
Qed.

Lemma existsb_uint k ks : existsb (item_eqb (IUint k)) (map IUint ks) = existsb (N.eqb k) ks.
Proof. induction ks as [|j t IH]; [reflexivity|]. cbn [map existsb]. rewrite IH. reflexivity. Qed.

Lemma written_fresh fs : forall k l, key_fresh k fs = true -> existsb (N.eqb k) (written_keys fs l) = false.
Proof.
  induction fs as [|j p s t IH]; intros k l Hf; [destruct l; reflexivity|].
  destruct l as [|o ot]; [reflexivity|]. cbn [key_fresh written_keys] in *. apply andb_true_iff in Hf as [H1 H2].
  rewrite existsb_app, (IH k ot H2), orb_false_r. destruct (present p o); [|reflexivity].
  cbn [existsb]. apply negb_true_iff in H1. rewrite H1. reflexivity.
Qed.

Lemma written_nodup fs : forall l, keys_nodup fs = true -> items_nodup (map IUint (written_keys fs l)) = true.
Proof.
  induction fs as [|k p s t IH]; intros l Hk; [destruct l; reflexivity|].
  destruct l as [|o ot]; [reflexivity|]. cbn [keys_nodup written_keys] in *. split_ands.
  destruct (present p o); cbn [app map items_nodup]; [|apply IH; assumption].
  rewrite existsb_uint, written_fresh by assumption. rewrite IH by assumption. reflexivity.
Qed.

Lemma required_sound rfs (kvs : list (item * item)) ks :
  map fst kvs = map IUint ks -> required_written rfs ks = true -> required_present rfs kvs = true.
Proof.
  intros E H. unfold required_written, required_present in *. eapply forallb_mono; [|exact H].
  intros [[k req] r] Hx. apply orb_true_iff in Hx as [Hx|Hx]; [rewrite Hx; reflexivity|].
  apply orb_true_iff. right. apply has_key_in. rewrite E. apply in_map.
  apply existsb_exists in Hx as (j & Hj & Ej). assert (k = j) by lia. subst j. exact Hj.
Qed.

(* destruct the variables a hypothesis matches on, dropping the impossible branches *)
Ltac case_hyp H :=
  repeat match type of H with
         | context [match ?x with _ => _ end] => is_var x; destruct x; try discriminate H
         end.

(* a tag site matches a tag rule, a Plutus set rule (inner schema SArrAny) or the rational rule; conf_struct looks
   at the inner schema first, three fields deep for the rational row, and the proof follows that nesting *)
Lemma conf_struct_STag C t s0 r v : conf_struct C (STag t s0) r v =
  match r with
  | RTag u r' => (t =? u) && C s0 r' v
  | RSetAny _ _ | RRatio _ => conf_struct C (STag t s0) r v
  | _ => false
  end.
Proof.
  destruct s0 as [| | | | |fs| | | | | | | | | | | | | |]; try (destruct r; reflexivity).
  destruct fs as [|s1 fs]; [destruct r; reflexivity|]. destruct s1; try (destruct r; reflexivity).
  destruct fs as [|s1 fs]; [destruct r; reflexivity|]. destruct s1; try (destruct r; reflexivity).
  destruct fs; destruct r; reflexivity.
Qed.

Lemma conf_struct_SNullable C s r v :
  conf_struct C (SNullable s) r v = match v with VNull => is_null r | _ => C s r v end.
Proof. destruct r, v; reflexivity. Qed.

(* One step of the induction on the fuel: C and K stand for conforms and cddl_ok at the previous fuel. *)
Section Step.
  Variable e : env.
  Variable C : schema -> rule -> val -> bool.
  Variable K : rule -> item -> bool.
  Hypothesis IH : forall s r v, C s r v = true -> wfs s = true -> wfv s v = true -> K r (to_item s v) = true.
  Hypothesis Hm : rec_le K (cddl_body e K).

  Lemma conf_sl_sound : forall fs rs l,
    conf_sl C fs rs l = true -> wfs_sl fs = true -> wfv_sl fs l = true -> forall2b K rs (to_items_sl fs l) = true.
  Proof.
    induction fs as [|s t IHt]; intros rs l Hc Hs Hv.
    - destruct rs; destruct l; try discriminate. reflexivity.
    - destruct rs as [|r rt]; destruct l as [|v vt]; try discriminate.
      cbn [conf_sl wfs_sl wfv_sl to_items_sl forall2b] in *. split_ands.
      rewrite (IH s r v) by assumption. rewrite IHt by assumption. reflexivity.
  Qed.

  Lemma conf_sl_tail_sound : forall fs rs l o x,
    conf_sl_tail C fs rs l o x = true -> wfs_sl fs = true -> wfv_sl fs l = true -> wfs o = true -> wfv o x = true ->
    forall2b K rs (to_items_sl fs l ++ [to_item o x]) = true.
  Proof.
    induction fs as [|s t IHt]; intros rs l o x Hc Hs Hv Ho Hx.
    - destruct rs as [|ro [|? ?]]; destruct l; try discriminate. cbn [conf_sl_tail to_items_sl app forall2b] in *.
      rewrite (IH o ro x) by assumption. reflexivity.
    - destruct rs as [|r rt]; destruct l as [|v vt]; try discriminate.
      cbn [conf_sl_tail wfs_sl wfv_sl to_items_sl app forall2b] in *. split_ands.
      rewrite (IH s r v) by assumption. rewrite IHt by assumption. reflexivity.
  Qed.

  Lemma forallb_conf_sound : forall s r l,
    forallb (C s r) l = true -> wfs s = true -> forallb (wfv s) l = true -> forallb (K r) (map (to_item s) l) = true.
  Proof.
    intros s r l Hc Hs Hv. rewrite forallb_map. apply forallb_forall. intros x Hx.
    apply IH; [eapply forallb_In; eassumption|assumption|eapply forallb_In; eassumption].
  Qed.

  Lemma conf_kl_sound : forall fs rfs l,
    conf_kl C fs rfs l = true -> wfs_kl fs = true -> wfv_kl fs l = true -> map_fields_ok K rfs (to_pairs_kl fs l) = true.
  Proof.
    unfold map_fields_ok. induction fs as [|k p s t IHt]; intros rfs l Hc Hs Hv.
    - destruct l; [reflexivity|discriminate].
    - destruct l as [|o ot]; [discriminate|]. cbn [conf_kl wfs_kl wfv_kl to_pairs_kl] in *. split_ands.
      rewrite forallb_app. rewrite IHt by assumption. rewrite andb_true_r.
      destruct o as [v|]; [|reflexivity]. destruct (present p (Some v)); [|reflexivity].
      cbn [forallb fst snd]. rewrite andb_true_r. split_ands.
      destruct (field_lookup rfs k) as [r|]; [|discriminate]. apply IH; assumption.
  Qed.

  Definition step_goal (s : schema) : Prop :=
    forall r v, conf_struct C s r v = true -> wfs s = true -> wfv s v = true -> cddl_body e K r (to_item s v) = true.

  Lemma cs_bbytes : step_goal SBBytes.
  Proof.
    intros r v Hc _ Hv. unfold conf_struct in Hc. case_hyp Hc. cbn [to_item].
    destruct (N.of_nat (length b) <=? 64) eqn:E; cbn [cddl_body]; [exact E|apply chunk64_le64].
  Qed.

  Lemma cs_arr fs : step_goal (SArr fs).
  Proof.
    intros r v Hc Hs Hv. unfold conf_struct in Hc. case_hyp Hc. cbn [to_item cddl_body wfs wfv] in *. split_ands.
    eapply conf_sl_sound; eassumption.
  Qed.

  Lemma cs_map fs : step_goal (SMap fs).
  Proof.
    intros r v Hc Hs Hv. unfold conf_struct in Hc. case_hyp Hc. cbn [to_item cddl_body wfs wfv] in *. split_ands.
    rewrite (conf_kl_sound fs fs0 l) by assumption.
    rewrite (pairs_keys fs l) by assumption. rewrite written_nodup by assumption.
    rewrite (required_sound fs0 _ (written_keys fs l)); [reflexivity|apply pairs_keys; assumption|assumption].
  Qed.

  Lemma cs_var alts : step_goal (SVar alts).
  Proof.
    intros r v Hc Hs Hv. unfold conf_struct in Hc. case_hyp Hc. cbn [wfs wfv to_item] in *.
    destruct (vnth_wf alts _ _ Hs Hv) as (idx & gs & En & Hgs & Hgv & Hidx). rewrite En in Hc.
    rewrite (to_item_vl_nth alts _ idx gs _ En). cbn [cddl_body forall2b]. split_ands. apply andb_true_iff. split.
    - apply (IH (SUint (idx + 1)) _ (VNat idx)); [assumption|cbn [wfs]; lia|cbn [wfv]; lia].
    - eapply conf_sl_sound; eassumption.
  Qed.

  Lemma cs_arrof lo s : step_goal (SArrOf lo s).
  Proof.
    intros r v Hc Hs Hv. unfold conf_struct in Hc. case_hyp Hc. cbn [to_item cddl_body wfs wfv] in *. split_ands.
    rewrite len_map. unfold len in *. rw_hyps. cbn [andb]. eapply forallb_conf_sound; eassumption.
  Qed.

  Lemma cs_setof s : step_goal (SSetOf s).
  Proof.
    intros r v Hc Hs Hv. unfold conf_struct in Hc. case_hyp Hc. cbn [to_item cddl_body wfs wfv] in *. split_ands.
    change (258 =? 258) with true. rewrite len_map. unfold len in *. rw_hyps. cbn [andb].
    rewrite (forallb_conf_sound s r l) by assumption. apply nodup_to_item; assumption.
  Qed.

  Lemma cs_mapof lo ord k v' : step_goal (SMapOf lo ord k v').
  Proof.
    intros r v Hc Hs Hv. destruct r; try discriminate Hc. destruct v; try discriminate Hc.
    cbn [conf_struct to_item cddl_body wfs wfv] in *. split_ands.
    match goal with H : forallb (fun kv => wfv k (fst kv) && _) l = true |- _ => rename H into Hall end.
    match goal with H : forallb (fun kv => C k _ (fst kv) && _) l = true |- _ => rename H into Hcl end.
    rewrite len_map. unfold len in *. rw_hyps. cbn [andb]. rewrite forallb_map, map_map. cbn [fst snd].
    apply andb_true_iff. split.
    - apply forallb_forall. intros [x y] Hx.
      pose proof (forallb_In _ _ _ Hall Hx) as W. pose proof (forallb_In _ _ _ Hcl Hx) as Q. cbn [fst snd] in *. split_ands.
      rewrite (IH k r1 x), (IH v' r2 y) by assumption. reflexivity.
    - (* keys are pairwise distinct: by the order invariant of wfv, or (KMulti) by the check conforms makes itself *)
      apply (nodup_items (fun kv : val * val => to_item k (fst kv)) (fun kv => enc k (fst kv)));
        [|eapply map_keys_nodupb; eassumption].
      intros [x y] Hx. apply to_item_enc. pose proof (forallb_In _ _ _ Hall Hx) as W. cbn [fst snd] in W. split_ands. assumption.
  Qed.

  Lemma cs_nullable s : step_goal (SNullable s).
  Proof.
    intros r v Hc Hs Hv. cbn [wfs] in Hs. split_ands. rewrite conf_struct_SNullable in Hc.
    destruct v; cbn [to_item wfv] in *; try (apply Hm; apply IH; assumption).
    (* VNull *) destruct r; try discriminate Hc. reflexivity.
  Qed.

  Lemma cs_inbytes s : step_goal (SInBytes s).
  Proof.
    intros r v Hc Hs Hv. unfold conf_struct in Hc. case_hyp Hc. cbn [to_item cddl_body wfs wfv] in *. split_ands.
    rewrite parse_enc by assumption.
    destruct (enc_canonical s v ltac:(assumption) ltac:(assumption)) as (A & _). rewrite A. cbn [andb].
    apply IH; assumption.
  Qed.

  Lemma cs_tagchoice alts : step_goal (STagChoice alts).
  Proof.
    intros r v Hc Hs Hv. unfold conf_struct in Hc. case_hyp Hc. cbn [wfs wfv to_item] in *.
    destruct (cnth_wf true alts _ _ Hs Hv) as (d & s' & En & Hs' & Hv'). rewrite En in Hc.
    rewrite (to_item_cl_nth true alts _ d s' _ En). cbn [cddl_body]. split_ands.
    apply andb_true_iff. split; [lia|apply IH; assumption].
  Qed.

  (* a Plutus list: definite (VAlt 0) or indefinite (VAlt 1), the same items either way *)
  Lemma cs_arrany s : step_goal (SArrAny s).
  Proof.
    intros r v Hc Hs Hv. cbn [wfs] in Hs. destruct r; try discriminate Hc.
    destruct (wfv_arrany s v Hv) as (l & Hl & [[-> _]| ->]); cbn [conf_struct to_item cddl_body] in *; split_ands.
    all: rewrite ?is_nil_map, len_map; unfold len in *; rw_hyps; cbn [orb andb].
    all: eapply forallb_conf_sound; eassumption.
  Qed.

  Lemma cs_tag t s0 : step_goal (STag t s0).
  Proof.
    intros r v Hc Hs Hv. cbn [wfs] in Hs. apply andb_true_iff in Hs as [Ht Hs0]. cbn [wfv] in Hv.
    rewrite conf_struct_STag in Hc. destruct r; try discriminate Hc.
    - (* RTag *) apply andb_true_iff in Hc as [E1 E2]. cbn [to_item cddl_body].
      replace (t0 =? t) with true by lia. cbn [andb]. exact (IH s0 r v E2 Hs0 Hv).
    - (* RSetAny: a Plutus list under tag 258 *)
      destruct s0; try discriminate Hc; try (unfold conf_struct in Hc; case_hyp Hc; fail).
      cbn [wfs] in Hs0.
      destruct (wfv_arrany s0 v Hv) as (l & Hl & [[-> _]| ->]); cbn [conf_struct to_item cddl_body] in *; split_ands.
      all: rewrite ?is_nil_map, len_map; unfold len in *; rw_hyps; replace (t =? 258) with true by lia; cbn [orb andb].
      all: rewrite (forallb_conf_sound s0 r l) by assumption; apply nodup_to_item; assumption.
    - (* RRatio *) unfold conf_struct in Hc. case_hyp Hc. cbn [to_item to_items_sl cddl_body]. exact Hc.
  Qed.

  Lemma cs_arropt fs o : step_goal (SArrOpt fs o).
  Proof.
    intros r v Hc Hs Hv. cbn [wfs] in Hs. split_ands.
    destruct (wfv_arropt fs o v Hv) as (l & Hl & [->|(x & -> & Hx)]); unfold conf_struct in Hc; case_hyp Hc; cbn [to_item cddl_body].
    - eapply conf_sl_sound; eassumption.
    - eapply conf_sl_tail_sound; eassumption.
  Qed.

  Lemma conf_struct_sound s : step_goal s.
  Proof.
    destruct s.
    (* integers and definite strings: the two row bodies are the same term *)
    1-4: intros r v Hc _ _; unfold conf_struct in Hc; case_hyp Hc; exact Hc.
    - (* SBool *) intros r v Hc _ _. unfold conf_struct in Hc. case_hyp Hc; destruct b; reflexivity.
    - apply cs_arr. - apply cs_map. - apply cs_var. - apply cs_arrof. - apply cs_setof. - apply cs_mapof.
    - apply cs_nullable. - apply cs_tag. - apply cs_inbytes.
    - (* SChoice: transparent, never structural *) intros r v Hc _ _. unfold conf_struct in Hc. case_hyp Hc; discriminate Hc.
    - apply cs_tagchoice. - apply cs_arrany. - apply cs_bbytes.
    - (* SNamed *) intros r v Hc _ _. unfold conf_struct in Hc. case_hyp Hc; discriminate Hc.
    - apply cs_arropt.
  Qed.

  Lemma conf_body_sound s r v :
    conf_body e C s r v = true -> wfs s = true -> wfv s v = true -> cddl_body e K r (to_item s v) = true.
  Proof.
    intros Hc Hs Hv. destruct (transparent s) eqn:Ht.
    - destruct s; try discriminate Ht; cbn [conf_body wfs wfv to_item] in *.
      + (* SChoice *) destruct v as [| | | | | | | | | |i v']; try discriminate.
        destruct (cnth_wf false alts i v' Hs Hv) as (d & s' & En & Hs' & Hv'). rewrite En in Hc.
        rewrite (to_item_cl_nth false alts i d s' v' En). apply Hm. apply IH; assumption.
      + (* SNamed *) apply Hm. apply IH; assumption.
    - rewrite conf_body_nt in Hc by exact Ht. destruct r; try (apply conf_struct_sound; assumption).
      + (* RChoice *) cbn [cddl_body]. eapply existsb_mono; [|exact Hc]. intros a Ha. apply IH; assumption.
      + (* RRef *) cbn [cddl_body]. destruct (lookup e id) as [r'|]; [|discriminate]. apply IH; assumption.
  Qed.
End Step.

Theorem conforms_sound e : forall fuel s r v,
  conforms e fuel s r v = true -> wfs s = true -> wfv s v = true -> cddl_ok e fuel r (to_item s v) = true.
Proof.
  induction fuel as [|f IH]; intros s r v Hc Hs Hv; [discriminate|].
  exact (conf_body_sound e (conforms e f) (cddl_ok e f) IH (cddl_ok_S e f) s r v Hc Hs Hv).
Qed.
