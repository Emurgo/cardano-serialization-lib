(* C03, canonical form and set sites of the model encoder's output: ONE induction over the schema. *)
From CSL Require Import Base.Prelude Cbor.Head Cbor.HeadProofs Cbor.Item Cbor.ItemProofs Codec.Schema Codec.SchemaProofs
  Cddl.Rules Cddl.Validator Cddl.ToItem Cddl.ToItemProofs.
Local Open Scope N_scope.

(* the structural equality test on items decides equality (not provided by Cbor/ItemProofs.v) *)
Lemma list_eqb_sound {A} (eqb : A -> A -> bool) (l1 : list A) :
  Forall (fun x => forall y, eqb x y = true -> x = y) l1 ->
  forall l2, list_eqb eqb l1 l2 = true -> l1 = l2.
Proof.
  induction 1 as [|x t Hx _ IH]; intros l2 H; destruct l2 as [|y t2]; try discriminate; [reflexivity|].
  rewrite list_eqb_cons in H. apply andb_true_iff in H as [H1 H2]. f_equal; [apply Hx; exact H1|apply IH; exact H2].
Qed.

Lemma bytes_list_eqb_sound (a b : list bytes) : list_eqb bytes_eqb a b = true -> a = b.
Proof.
  apply list_eqb_sound. apply Forall_forall. intros x _ y H. apply bytes_eqb_eq. exact H.
Qed.

Lemma fwidth_eqb_sound a b : fwidth_eqb a b = true -> a = b.
Proof. destruct a, b; try discriminate; reflexivity. Qed.

Theorem item_eqb_sound : forall a b, item_eqb a b = true -> a = b.
Proof.
  induction a as [n|n|b0|cs|b0|cs|d xs IH|d kvs IH|t x IH|n|w v] using item_ind2; intros b H;
    destruct b; cbn [item_eqb] in H; try discriminate.
  - f_equal. lia.
  - f_equal. lia.
  - f_equal. apply bytes_eqb_eq. exact H.
  - f_equal. apply bytes_list_eqb_sound. exact H.
  - f_equal. apply bytes_eqb_eq. exact H.
  - f_equal. apply bytes_list_eqb_sound. exact H.
  - apply andb_true_iff in H as [Hd Hl]. apply Bool.eqb_prop in Hd. subst. f_equal.
    revert Hl. apply list_eqb_sound. exact IH.
  - apply andb_true_iff in H as [Hd Hl]. apply Bool.eqb_prop in Hd. subst. f_equal.
    revert Hl. apply list_eqb_sound. eapply Forall_impl; [|exact IH].
    intros [k v] [Hk Hv] [k2 v2] E. cbn [fst snd] in *. apply andb_true_iff in E as [E1 E2].
    f_equal; [apply Hk|apply Hv]; assumption.
  - apply andb_true_iff in H as [Ht Hx]. f_equal; [lia|apply IH; exact Hx].
  - f_equal. lia.
  - apply andb_true_iff in H as [Hw Hv]. f_equal; [apply fwidth_eqb_sound; exact Hw|lia].
Qed.

Definition lax (it : item) : bool := canon_item3 true false true it.       (* maps definite; arrays/strings may be indefinite *)
Definition strict (it : item) : bool := canon_item3 false false false it.   (* everything definite *)

Lemma chunk64_nil fuel : chunk64 fuel [] = [].
Proof. destruct fuel; reflexivity. Qed.

Lemma chunk64_shape fuel : forall b, (length b <= fuel)%nat -> b <> [] -> chunks64_ok (chunk64 fuel b) = true.
Proof.
  induction fuel as [|f IH]; intros b Hl Hne; [destruct b; [congruence|cbn in Hl; lia]|].
  cbn [chunk64]. destruct b as [|x t] eqn:E; [congruence|]. rewrite <- E in *.
  assert (Hlen : (1 <= length b)%nat) by (subst b; cbn [length]; lia).
  destruct (Nat.leb_spec (length b) 64) as [Hs|Hs].
  - rewrite (skipn_all2 b) by exact Hs. rewrite chunk64_nil. rewrite firstn_all2 by exact Hs.
    cbn [chunks64_ok]. unfold len. apply andb_true_iff. split; lia.
  - assert (Hr : skipn 64 b <> []).
    { intros C. pose proof (skipn_length 64 b) as L. rewrite C in L. cbn [length] in L. lia. }
    specialize (IH (skipn 64 b) ltac:(rewrite skipn_length; lia) Hr).
    destruct (chunk64 f (skipn 64 b)) as [|c' t'] eqn:Ec; [cbn in IH; discriminate|].
    change (chunks64_ok (firstn 64 b :: c' :: t')) with ((len (firstn 64 b) =? 64) && chunks64_ok (c' :: t')).
    rewrite IH. unfold len. rewrite firstn_length. apply andb_true_iff. split; [lia|reflexivity].
Qed.

Lemma nodupb_NoDup l : nodupb l = true <-> NoDup l.
Proof.
  induction l as [|x t IH]; [split; [constructor|reflexivity]|]. cbn [nodupb].
  rewrite andb_true_iff, negb_true_iff, IH, NoDup_cons_iff. apply and_iff_compat_r.
  rewrite <- not_true_iff_false, existsb_exists. split.
  - intros H Hin. apply H. exists x. split; [exact Hin|]. destruct (list_eq_dec N.eq_dec x x); congruence.
  - intros H (y & Hy & E). destruct (list_eq_dec N.eq_dec x y) as [->|]; [contradiction|discriminate].
Qed.

Lemma items_nodup_NoDup l : NoDup l -> items_nodup l = true.
Proof.
  induction 1 as [|x t Hx _ IH]; [reflexivity|]. cbn [items_nodup]. rewrite IH, andb_true_r.
  apply negb_true_iff, not_true_iff_false. intros E. apply existsb_exists in E as (y & Hy & Ey).
  apply item_eqb_sound in Ey. subst y. contradiction.
Qed.

(* distinct encodings come from distinct trees *)
Lemma nodup_items {A} (f : A -> item) (e : A -> bytes) (l : list A) :
  (forall y, In y l -> encode_item (f y) = e y) ->
  nodupb (map e l) = true -> items_nodup (map f l) = true.
Proof.
  intros He H. apply items_nodup_NoDup, (NoDup_map_inv encode_item). rewrite map_map, (map_ext_in _ e) by exact He.
  apply nodupb_NoDup. exact H.
Qed.

Lemma nodup_to_item s l : forallb (wfv s) l = true -> nodupb (map (enc s) l) = true -> items_nodup (map (to_item s) l) = true.
Proof. intros Hv. apply nodup_items. intros y Hy. apply to_item_enc. eapply forallb_In; eassumption. Qed.

Definition pair_b (f : item -> bool) (kv : item * item) : bool := f (fst kv) && f (snd kv).

(* [F P] is a test put together from a test P on items.  [canon3 nis F]: it holds for the three tests the encoder's trees
   pass; the all-definite one is only claimed where the schema has no indefinite site ([nis]). *)
Definition canon3 (nis : bool) (F : (item -> bool) -> bool) : Prop :=
  F lax = true /\ F chunks_strict = true /\ (nis = true -> F strict = true).

Lemma canon3_and n1 n2 F G : canon3 n1 F -> canon3 n2 G -> canon3 (n1 && n2) (fun P => F P && G P).
Proof.
  intros (A1 & A2 & A3) (B1 & B2 & B3). unfold canon3. rewrite A1, A2, B1, B2. split; [reflexivity|]. split; [reflexivity|].
  intros Hn. apply andb_prop in Hn as [H1 H2]. rewrite (A3 H1), (B3 H2). reflexivity.
Qed.

Lemma canon3_weaken n n' F : (n' = true -> n = true) -> canon3 n F -> canon3 n' F.
Proof. intros Hn (A1 & A2 & A3). split; [exact A1|]. split; [exact A2|]. intros H. apply A3, Hn, H. Qed.

Lemma canon3_ext n F G : (forall P, F P = G P) -> canon3 n G -> canon3 n F.
Proof. intros E. unfold canon3. rewrite !E. exact (fun H => H). Qed.

Lemma canon3_forallb {A} n (F : (item -> bool) -> A -> bool) l :
  (forall x, In x l -> canon3 n (fun P => F P x)) -> canon3 n (fun P => forallb (F P) l).
Proof.
  intros H. split; [|split; [|intros Hn]]; apply forallb_forall; intros x Hx; apply (H x Hx). exact Hn.
Qed.

(* a map node tests its pairs by [match], the chunk test by projections *)
Lemma canon3_map n kvs : canon3 n (fun P => forallb (pair_b P) kvs) -> canon3 n (fun P => P (IMap true kvs)).
Proof.
  assert (E : forall a m c, forallb (fun kv : item * item => match kv with (k, v) => canon_item3 a m c k && canon_item3 a m c v end) kvs =
                            forallb (pair_b (canon_item3 a m c)) kvs).
  { intros a m c. induction kvs as [|[k v] t IH]; [reflexivity|]. cbn [forallb]. rewrite IH. reflexivity. }
  unfold canon3, lax, strict. cbn [canon_item3 chunks_strict orb andb]. rewrite !E. exact (fun H => H).
Qed.

Lemma canon3_snoc n1 n2 xs x :
  canon3 n1 (fun P => forallb P xs) -> canon3 n2 (fun P => P x) -> canon3 (n1 && n2) (fun P => forallb P (xs ++ [x])).
Proof.
  intros H1 H2. eapply canon3_ext; [|exact (canon3_and _ _ _ _ H1 H2)].
  intros P. rewrite forallb_app. cbn [forallb]. rewrite andb_true_r. reflexivity.
Qed.

Definition good (s : schema) (v : val) : Prop :=
  canon3 (no_indef_sites s) (fun P => P (to_item s v)) /\ sets_emitted s v = true.

Definition CI (s : schema) : Prop := forall v, wfv s v = true -> good s v.
Definition CIs (fs : slist) : Prop := forall l, wfv_sl fs l = true ->
  canon3 (nis_sl fs) (fun P => forallb P (to_items_sl fs l)) /\ se_sl fs l = true.
Definition CIk (fs : klist) : Prop := forall l, wfv_kl fs l = true ->
  canon3 (nis_kl fs) (fun P => forallb (pair_b P) (to_pairs_kl fs l)) /\ se_kl fs l = true.
Definition CIv (alts : vlist) : Prop := forall i l, wfv_vl alts i l = true ->
  canon3 (nis_vl alts) (fun P => P (to_item_vl alts i l)) /\ se_vl alts i l = true.
Definition CIc (alts : clist) : Prop := forall tagged i v, wfv_cl alts i v = true ->
  canon3 (nis_cl alts) (fun P => P (to_item_cl tagged alts i v)) /\ se_cl alts i v = true.

Lemma good_list s l : CI s -> forallb (wfv s) l = true ->
  canon3 (no_indef_sites s) (fun P => forallb P (map (to_item s) l)) /\ forallb (sets_emitted s) l = true.
Proof.
  intros H Hl. split.
  - eapply canon3_ext; [intros P; apply forallb_map|]. apply canon3_forallb. intros v Hv. apply H. eapply forallb_In; eassumption.
  - apply forallb_forall. intros v Hv. apply H. eapply forallb_In; eassumption.
Qed.

(* In most cases the tests on the node reduce, by computation, to the tests on its parts, so the induction hypothesis is the goal. *)
Lemma canon_all : (forall s, CI s) /\ (forall fs, CIs fs) /\ (forall fs, CIk fs) /\ (forall a, CIv a) /\ (forall a, CIc a).
Proof.
  apply schema_mutind; unfold CI, CIs, CIk, CIv, CIc, good.
  25, 27: intros; discriminate.
  21, 23: intros; destruct l; [repeat split|discriminate].
  (* SArr, SVar, SChoice, STagChoice *)
  6, 8, 15-16: intros x IH v Hv; destruct v; try discriminate; apply IH; exact Hv.
  1-5: intros; destruct v; try discriminate; repeat split.
  - (* SMap *) intros fs IH v Hv. destruct v; try discriminate. destruct (IH l Hv) as [Hc Hse].
    split; [apply canon3_map; exact Hc|exact Hse].
  - (* SArrOf *) intros lo s IH v Hv. destruct v; try discriminate. cbn [wfv] in Hv. split_ands. apply good_list; assumption.
  - (* SSetOf *) intros s IH v Hv. destruct v; try discriminate. cbn [wfv] in Hv. split_ands.
    destruct (good_list s l IH ltac:(assumption)) as [Hc Hse]. split; [exact Hc|].
    cbn [sets_emitted to_item]. rewrite Hse, andb_true_r. apply nodup_to_item; assumption.
  - (* SMapOf *) intros lo ord k IHk v' IHv v Hv. destruct v; try discriminate. cbn [wfv] in Hv. split_ands.
    match goal with H : forallb _ l = true |- _ => rename H into Hall end.
    assert (G : forall kv, In kv l -> good k (fst kv) /\ good v' (snd kv)).
    { intros kv Hkv. pose proof (forallb_In _ _ _ Hall Hkv) as Hxy. cbv beta in Hxy. split_ands.
      split; [apply IHk|apply IHv]; assumption. }
    split.
    + apply canon3_map. eapply canon3_ext; [intros P; apply forallb_map|]. apply canon3_forallb. intros kv Hkv.
      exact (canon3_and _ _ _ _ (proj1 (proj1 (G kv Hkv))) (proj1 (proj2 (G kv Hkv)))).
    + cbn [sets_emitted]. apply forallb_forall. intros kv Hkv. destruct (G kv Hkv) as [[_ Sk] [_ Sv]]. rewrite Sk, Sv. reflexivity.
  - (* SNullable *) intros s IH v Hv. destruct v; try (apply IH; exact Hv). repeat split.
  - (* STag *) intros t s IH v Hv. apply IH. exact Hv.
  - (* SInBytes: a byte string at this level *) intros s IH v Hv. cbn [wfv] in Hv. split_ands.
    split; [repeat split|apply IH; assumption].
  - (* SArrAny: an indefinite site, so nothing is claimed of the all-definite test *)
    intros s IH v Hv. destruct (wfv_arrany s v Hv) as (l & Hl & Hv'). destruct (good_list s l IH Hl) as [(A1 & A2 & _) Hse].
    destruct Hv' as [[-> _]| ->]; (split; [|exact Hse]); (split; [exact A1|]); (split; [exact A2|discriminate]).
  - (* SBBytes *) intros v Hv. destruct v; try discriminate. cbn [to_item sets_emitted no_indef_sites].
    destruct (N.of_nat (length b) <=? 64) eqn:E; [repeat split; discriminate|].
    split; [|reflexivity]. split; [reflexivity|]. split; [|discriminate]. cbn [chunks_strict].
    rewrite chunk64_concat by lia. unfold len. apply andb_true_iff. split; [|lia].
    apply chunk64_shape; [lia|]. intros ->. cbn in E. discriminate.
  - (* SNamed *) intros id s IH v Hv. apply IH. exact Hv.
  - (* SArrOpt *) intros fs IHfs o IHo v Hv.
    destruct (wfv_arropt fs o v Hv) as (l & Hl & [->|(x & -> & Hx)]); destruct (IHfs l Hl) as [Hc Hse].
    + split; [|exact Hse]. exact (canon3_weaken _ _ _ (fun H => proj1 (andb_prop _ _ H)) Hc).
    + destruct (IHo x Hx) as [Hco Hso].
      split; [exact (canon3_snoc _ _ _ _ Hc Hco)|]. cbn [sets_emitted]. rewrite Hse, Hso. reflexivity.
  - (* SCons *) intros s IHs r IHr l Hv. destruct l as [|v t]; [discriminate|]. cbn [wfv_sl] in Hv. split_ands.
    destruct (IHs v ltac:(assumption)) as [Hc Hse]. destruct (IHr t ltac:(assumption)) as [Hcr Hser].
    split; [exact (canon3_and _ _ _ _ Hc Hcr)|]. cbn [se_sl]. rewrite Hse, Hser. reflexivity.
  - (* KCons: a written field is one pair with an integer key, an omitted one nothing *)
    intros k p s IHs r IHr l Hv. destruct l as [|o t]; [discriminate|]. cbn [wfv_kl] in Hv. split_ands.
    match goal with H : match o with Some _ => _ | None => _ end = true |- _ => rename H into Ho end.
    destruct (IHr t ltac:(assumption)) as [Hcr Hser].
    cbn [to_pairs_kl se_kl nis_kl]. rewrite (present_wf p s o Ho), Hser, andb_true_r. destruct o as [v|].
    + split_ands. destruct (IHs v ltac:(assumption)) as [Hc Hse]. split; [exact (canon3_and _ _ _ _ Hc Hcr)|exact Hse].
    + split; [|reflexivity]. exact (canon3_weaken _ _ _ (fun H => proj2 (andb_prop _ _ H)) Hcr).
  - (* ACons *) intros idx fs IHfs r IHr i l Hv. cbn [wfv_vl] in Hv. destruct i as [|i'].
    + destruct (IHfs l Hv) as [Hc Hse]. split; [|exact Hse].
      exact (canon3_weaken _ _ _ (fun H => proj1 (andb_prop _ _ H)) Hc).
    + destruct (IHr i' l Hv) as [Hc Hse]. split; [|exact Hse].
      exact (canon3_weaken _ _ _ (fun H => proj2 (andb_prop _ _ H)) Hc).
  - (* CCons *) intros d s IHs r IHr tagged i v Hv. cbn [wfv_cl] in Hv. destruct i as [|i'].
    + destruct (IHs v Hv) as [Hc Hse]. split; [|exact Hse].
      destruct tagged; exact (canon3_weaken _ _ _ (fun H => proj1 (andb_prop _ _ H)) Hc).
    + destruct (IHr tagged i' v Hv) as [Hc Hse]. split; [|exact Hse].
      exact (canon3_weaken _ _ _ (fun H => proj2 (andb_prop _ _ H)) Hc).
Qed.

Theorem enc_canonical s v : wfs s = true -> wfv s v = true ->
  canon_bytes true true (enc s v) = true /\ heads_shortest (enc s v) = true /\
  chunks_strict (to_item s v) = true /\
  (no_indef_sites s = true -> canon_bytes false false (enc s v) = true).
Proof.
  intros Hs Hv. destruct (proj1 canon_all s v Hv) as [(G1 & G2 & G4) _].
  pose proof (to_item_ok s v Hs Hv) as Hok. rewrite <- (to_item_enc s v Hv).
  repeat split.
  - rewrite canon_bytes_encode by exact Hok. exact G1.
  - apply heads_shortest_encode. exact Hok.
  - exact G2.
  - intros Hn. rewrite canon_bytes_encode by exact Hok. apply G4. exact Hn.
Qed.

Corollary enc_canonical_in (L : list schema) : Forall (fun s => wfs s = true) L -> forall s, In s L -> forall v, wfv s v = true ->
  canon_bytes true true (enc s v) = true /\ heads_shortest (enc s v) = true /\ chunks_strict (to_item s v) = true.
Proof.
  intros HL s Hin v Hv. destruct (enc_canonical s v (proj1 (Forall_forall _ _) HL s Hin) Hv) as (A & B & C & _).
  repeat split; assumption.
Qed.
