(* C03, builder clause: the Value / MultiAsset operations the builder uses for change and coin selection
   (checked_add, checked_sub, clamped_sub, MultiAsset::sub; model: Num/Value.v)
   never produce a zero-quantity asset or an empty policy bundle from operands that have none.
   No sortedness is needed: the invariant is about the values stored, whatever the key order. *)
From CSL Require Import Base.Prelude Base.Facts Num.Value.
Local Open Scope N_scope.

Definition assets_pos (a : assets) : bool := forallb (fun nq : bytes * N => 1 <=? snd nq) a.
Definition bundle_ok (a : assets) : bool := negb (match a with [] => true | _ => false end) && assets_pos a.
Definition ma_pos (m : multiasset) : bool := forallb (fun pa : bytes * assets => bundle_ok (snd pa)) m.
(* what an output's amount must satisfy: no zero quantity, no empty policy bundle *)
Definition value_pos (v : value) : bool :=
  match multiasset_of v with Some m => ma_pos m | None => true end.

(* association lists, for any comparison function *)
Lemma am_get_in {V} cmp k (m : list (bytes * V)) v : am_get cmp k m = Some v -> exists k', In (k', v) m.
Proof.
  induction m as [|[k' v'] t IH]; [discriminate|]. cbn [am_get]. destruct (cmp k k').
  - intros H. injection H as <-. exists k'. left. reflexivity.
  - intros H. destruct (IH H) as (k2 & Hin). exists k2. right. exact Hin.
  - intros H. destruct (IH H) as (k2 & Hin). exists k2. right. exact Hin.
Qed.

Lemma am_insert_forall {V} cmp (P : bytes * V -> bool) k v (m : list (bytes * V)) :
  (forall k', P (k', v) = true) -> forallb P m = true -> forallb P (am_insert cmp k v m) = true.
Proof.
  intros Hv. induction m as [|[k' v'] t IH]; intros Hm; cbn [am_insert forallb] in *; [rewrite Hv; reflexivity|].
  apply andb_true_iff in Hm as [H1 H2]. destruct (cmp k k'); cbn [forallb].
  - rewrite Hv, H2. reflexivity.
  - rewrite Hv, H1, H2. reflexivity.
  - rewrite H1, IH by exact H2. reflexivity.
Qed.

Lemma am_remove_forall {V} cmp (P : bytes * V -> bool) k (m : list (bytes * V)) :
  forallb P m = true -> forallb P (am_remove cmp k m) = true.
Proof.
  induction m as [|[k' v'] t IH]; intros Hm; cbn [am_remove forallb] in *; [reflexivity|].
  apply andb_true_iff in Hm as [H1 H2]. destruct (cmp k k'); cbn [forallb]; try exact H2; rewrite H1, IH by exact H2; reflexivity.
Qed.

Lemma forallb_in {A} (P : A -> bool) l x : forallb P l = true -> In x l -> P x = true.
Proof. intros H Hx. rewrite forallb_forall in H. apply H. exact Hx. Qed.

Lemma am_insert_nonempty {V} cmp k v (m : list (bytes * V)) : am_insert cmp k v m <> [].
Proof. destruct m as [|[k' v'] t]; cbn [am_insert]; [discriminate|]. destruct (cmp k k'); discriminate. Qed.

Lemma ma_get_pos p m a : ma_pos m = true -> ma_get p m = Some a -> bundle_ok a = true.
Proof.
  intros Hm Hg. unfold ma_get in Hg. destruct (am_get_in _ _ _ _ Hg) as (k' & Hin).
  exact (forallb_in _ _ _ Hm Hin).
Qed.

Lemma ma_insert_pos p a m : ma_pos m = true -> bundle_ok a = true -> ma_pos (ma_insert p a m) = true.
Proof. intros Hm Ha. unfold ma_pos, ma_insert. apply am_insert_forall; [intros k'; exact Ha|exact Hm]. Qed.

Lemma assets_insert_ok n q a : 1 <= q -> assets_pos a = true -> bundle_ok (assets_insert n q a) = true.
Proof.
  intros Hq Ha. unfold bundle_ok, assets_insert. apply andb_true_iff. split.
  - pose proof (am_insert_nonempty name_cmp n q a). destruct (am_insert name_cmp n q a); [congruence|reflexivity].
  - unfold assets_pos. apply am_insert_forall; [intros k'; cbn [snd]; lia|exact Ha].
Qed.

Lemma bundle_pos a : bundle_ok a = true -> assets_pos a = true.
Proof. unfold bundle_ok. intros H. apply andb_true_iff in H as [_ H]. exact H. Qed.

(* writing a positive quantity into a bundle of a bundle map without zero quantities *)
Lemma ma_set_pos p n q a m : ma_pos m = true -> 1 <= q -> assets_pos a = true -> ma_pos (ma_insert p (assets_insert n q a) m) = true.
Proof. intros Hm Hq Ha. apply ma_insert_pos; [exact Hm|apply assets_insert_ok; assumption]. Qed.

Lemma ma_sub_entry_pos lhs e : ma_pos lhs = true -> ma_pos (ma_sub_entry lhs e) = true.
Proof.
  intros Hm. destruct e as [[p n] amt]. unfold ma_sub_entry.
  destruct (ma_get p lhs) as [a|] eqn:Eg; [|exact Hm].
  pose proof (ma_get_pos p lhs a Hm Eg) as Ha.
  destruct (assets_get n a) as [cur|] eqn:En; [|exact Hm].
  destruct (amt <? cur) eqn:El.
  - apply ma_set_pos; [exact Hm|lia|apply bundle_pos; exact Ha].
  - destruct (am_remove name_cmp n a) as [|x t] eqn:Er.
    + unfold ma_pos. apply am_remove_forall. exact Hm.
    + apply ma_insert_pos; [exact Hm|]. unfold bundle_ok. cbn [negb andb]. rewrite <- Er.
      unfold assets_pos. apply am_remove_forall. apply bundle_pos. exact Ha.
Qed.

Theorem ma_sub_pos lhs rhs : ma_pos lhs = true -> ma_pos (ma_sub lhs rhs) = true.
Proof. apply (fold_left_inv (fun m => ma_pos m = true)). intros m e _. apply ma_sub_entry_pos. Qed.

Lemma ma_add_entry_pos acc e acc' : ma_pos acc = true -> 1 <= snd e -> ma_add_entry acc e = Ok acc' -> ma_pos acc' = true.
Proof.
  intros Hm Hq. destruct e as [[p n] amt]. cbn [snd] in Hq. unfold ma_add_entry.
  destruct (ma_get p acc) as [a|] eqn:Eg.
  - pose proof (ma_get_pos p acc a Hm Eg) as Ha.
    destruct (assets_get n a) as [cur|] eqn:En.
    + unfold u64_add. destruct (cur + amt <? two64); cbn [bind]; [|discriminate]. intros H. injection H as <-.
      apply ma_set_pos; [exact Hm|lia|apply bundle_pos; exact Ha].
    + intros H. injection H as <-. apply ma_set_pos; [exact Hm|lia|apply bundle_pos; exact Ha].
  - intros H. injection H as <-. apply (ma_set_pos p n amt assets_new); [exact Hm|lia|reflexivity].
Qed.

Lemma ma_add_entries_pos es : forall acc acc', ma_pos acc = true -> Forall (fun e : bytes * bytes * N => 1 <= snd e) es ->
  ma_add_entries acc es = Ok acc' -> ma_pos acc' = true.
Proof.
  induction es as [|e t IH]; intros acc acc' Hm He H; cbn [ma_add_entries] in H.
  - injection H as <-. exact Hm.
  - inversion He as [|? ? He1 He2]; subst.
    apply bind_ok in H as (acc1 & E1 & H).
    eapply IH; [|exact He2|exact H]. eapply ma_add_entry_pos; eassumption.
Qed.

(* only the quantities matter to checked_add: it rebuilds the sum entry by entry, so an operand may even hold an empty bundle *)
Lemma ma_pos_quantities m : ma_pos m = true -> forallb (fun pa : bytes * assets => assets_pos (snd pa)) m = true.
Proof. intros H. apply forallb_forall. intros pa Hpa. apply bundle_pos. exact (forallb_in _ _ _ H Hpa). Qed.

Lemma ma_entries_pos m : forallb (fun pa : bytes * assets => assets_pos (snd pa)) m = true ->
  Forall (fun e : bytes * bytes * N => 1 <= snd e) (ma_entries m).
Proof.
  intros Hm. unfold ma_entries. apply Forall_forall. intros [[p n] q] Hin. cbn [snd].
  apply in_flat_map in Hin as ((p' & a) & Hpa & Hx). cbn [fst snd] in Hx.
  apply in_map_iff in Hx as ((n' & q') & E & Hnq). cbn [fst snd] in E. injection E as _ _ <-.
  pose proof (forallb_in _ _ _ (forallb_in _ _ _ Hm Hpa) Hnq) as Hq. cbn [snd] in Hq. lia.
Qed.

Theorem ma_checked_add_pos l r m :
  forallb (fun pa : bytes * assets => assets_pos (snd pa)) l = true ->
  forallb (fun pa : bytes * assets => assets_pos (snd pa)) r = true -> ma_checked_add l r = Ok m -> ma_pos m = true.
Proof.
  intros Hl Hr H. unfold ma_checked_add in H. apply (ma_add_entries_pos (ma_entries l ++ ma_entries r) ma_new m); [reflexivity| |exact H].
  apply Forall_app. split; apply ma_entries_pos; assumption.
Qed.

Lemma value_sub_assets_pos a b : value_pos a = true ->
  match value_sub_assets a b with Some m => ma_pos m | None => true end = true.
Proof.
  unfold value_pos, value_sub_assets. destruct (multiasset_of a) as [l|]; destruct (multiasset_of b) as [r|]; intros Ha; try reflexivity.
  - pose proof (ma_sub_pos l r Ha) as Hp. destruct (ma_sub l r) as [|x t]; [reflexivity|exact Hp].
  - exact Ha.
Qed.

Theorem value_checked_add_pos a b c :
  value_pos a = true -> value_pos b = true -> value_checked_add a b = Ok c -> value_pos c = true.
Proof.
  unfold value_pos, value_checked_add. intros Ha Hb H.
  apply bind_ok in H as (s & _ & H). apply bind_ok in H as (mo & Em & H). injection H as <-. cbn [multiasset_of].
  destruct (multiasset_of a) as [l|]; destruct (multiasset_of b) as [r|].
  - apply bind_ok in Em as (m & E & Em). injection Em as <-.
    exact (ma_checked_add_pos l r m (ma_pos_quantities l Ha) (ma_pos_quantities r Hb) E).
  - injection Em as <-. exact Ha.
  - injection Em as <-. exact Hb.
  - injection Em as <-. reflexivity.
Qed.

Theorem value_checked_sub_pos a b c : value_pos a = true -> value_checked_sub a b = Ok c -> value_pos c = true.
Proof.
  intros Ha H. unfold value_checked_sub in H.
  apply bind_ok in H as (s & _ & H).
  match type of H with (if ?c then _ else _) = _ => destruct c end; [|discriminate].
  injection H as <-. unfold value_pos. cbn [multiasset_of]. apply value_sub_assets_pos. exact Ha.
Qed.

Theorem value_clamped_sub_pos a b : value_pos a = true -> value_pos (value_clamped_sub a b) = true.
Proof. intros Ha. unfold value_clamped_sub, value_pos. cbn [multiasset_of]. apply value_sub_assets_pos. exact Ha. Qed.

(* premises are satisfiable, and the invariant is not trivially true: an operand WITH a zero quantity keeps it *)
Example pos_example :
  let p := repeat 1 28 in
  let a := mkValue 10 (Some [(p, [([65], 5); ([66], 7)])]) in
  let b := mkValue 3 (Some [(p, [([65], 5)])]) in
  value_pos a = true /\ value_pos b = true /\
  value_checked_sub a b = Ok (mkValue 7 (Some [(p, [([66], 7)])])) /\
  value_pos (mkValue 1 (Some [(p, [([65], 0)])])) = false /\
  value_pos (mkValue 1 (Some [(p, [])])) = false.
Proof. vm_compute. repeat split. Qed.
