(* Soundness of the value-independent comparison: refines s r = true makes EVERY schema-valid value of s satisfy the
   Conway constraints for r (for enough fuel).  Induction on the fuel of refines, one case per construct. *)
From CSL Require Import Base.Prelude Cbor.Head Cbor.Item Codec.Schema Codec.SchemaProofs Cddl.Rules Cddl.Validator
  Cddl.ValidatorProofs Cddl.Conforms Cddl.ConformsProofs Cddl.Refines.
Local Open Scope N_scope.

(* [ev P]: P holds for every large enough fuel.  Finitely many such facts have a common fuel (the largest), so the
   notion is closed under the boolean connectives without any appeal to monotonicity in the fuel. *)
Definition ev (P : nat -> bool) : Prop := exists g, forall g', (g <= g')%nat -> P g' = true.

Lemma ev_const b : b = true -> ev (fun _ => b).
Proof. intros ->. exists O. reflexivity. Qed.

Lemma ev_and P Q : ev P -> ev Q -> ev (fun g => P g && Q g).
Proof. intros [g1 H1] [g2 H2]. exists (Nat.max g1 g2). intros g' L. rewrite H1, H2 by lia. reflexivity. Qed.

Lemma ev_forallb {A} (P : nat -> A -> bool) l : (forall x, In x l -> ev (fun g => P g x)) -> ev (fun g => forallb (P g) l).
Proof.
  induction l as [|x t IH]; intros H; cbn [forallb]; [apply ev_const; reflexivity|].
  apply ev_and; [apply H; left; reflexivity|apply IH; intros y Hy; apply H; right; exact Hy].
Qed.

Lemma ev_existsb {A} (P : nat -> A -> bool) l x : In x l -> ev (fun g => P g x) -> ev (fun g => existsb (P g) l).
Proof. intros Hin [g H]. exists g. intros g' L. apply existsb_exists. exists x. split; [exact Hin|apply H, L]. Qed.

Lemma ev_ext P Q : (forall g, P g = Q g) -> ev Q -> ev P.
Proof. intros E [g H]. exists g. intros g' L. rewrite E. apply H, L. Qed.

(* the alternatives a list-wide test has passed *)
Lemma all_cl_nth P alts : forall i d s, all_cl P alts = true -> cnth alts i = Some (d, s) -> P d s = true.
Proof.
  induction alts as [|d0 s0 r IH]; intros i d s H En; [discriminate|]. cbn [all_cl cnth] in *. apply andb_true_iff in H as [H1 H2].
  destruct i as [|i']; [injection En as <- <-; exact H1|exact (IH i' d s H2 En)].
Qed.
Lemma all_vl_nth P alts : forall i idx fs, all_vl P alts = true -> vnth alts i = Some (idx, fs) -> P idx fs = true.
Proof.
  induction alts as [|i0 f0 r IH]; intros i idx fs H En; [discriminate|]. cbn [all_vl vnth] in *. apply andb_true_iff in H as [H1 H2].
  destruct i as [|i']; [injection En as <- <-; exact H1|exact (IH i' idx fs H2 En)].
Qed.

Lemma refines_body_nt e rec s r : transparent s = false ->
  refines_body e rec s r =
  match r with
  | RRef id => match lookup e id with Some r' => rec s r' | None => false end
  | RChoice ralts =>
      match s with
      | SVar alts => all_vl (fun idx fs => existsb (ref_alt rec idx fs) ralts) alts
      | SNullable s' => negb (transparent s') && existsb is_null ralts && rec s' r
      | STagChoice alts =>
          all_cl (fun d s' => existsb (fun a => match a with RTag u r' => (d =? u) && rec s' r' | _ => false end) ralts) alts
      | _ => existsb (fun a => rec s a) ralts
      end
  | _ => ref_struct rec s r
  end.
Proof. destruct s; try discriminate; reflexivity. Qed.

(* every required key of the rule is a required field of the schema, hence written *)
Lemma req_written fs : forall k l, req_key k fs = true -> wfv_kl fs l = true -> existsb (N.eqb k) (written_keys fs l) = true.
Proof.
  induction fs as [|j p s t IH]; intros k l Hk Hv; [discriminate|]. destruct l as [|o ot]; [discriminate|].
  cbn [req_key wfv_kl written_keys] in *. apply andb_true_iff in Hv as [Ho Ht]. rewrite existsb_app.
  apply orb_true_iff in Hk as [Hk|Hk]; [|rewrite (IH k ot Hk Ht); apply orb_true_r].
  apply andb_true_iff in Hk as [Ejk Hp]. destruct p; try discriminate. destruct o as [v|]; [|discriminate].
  cbn [present app existsb]. apply N.eqb_eq in Ejk. subst. rewrite N.eqb_refl. reflexivity.
Qed.

Lemma required_ok rfs fs l : required_are_req rfs fs = true -> wfv_kl fs l = true -> required_written rfs (written_keys fs l) = true.
Proof.
  unfold required_are_req, required_written. intros H Hv. eapply forallb_mono; [|exact H].
  intros [[k req] r] Hx. apply orb_true_iff in Hx as [Hx|Hx]; [rewrite Hx; reflexivity|].
  rewrite (req_written fs k l Hx Hv). apply orb_true_r.
Qed.

Section Sound.
  Variable e : env.

  (* "conforms for enough fuel" *)
  Definition cv (s : schema) (r : rule) (v : val) : Prop := ev (fun g => conforms e g s r v).

  Lemma cv_step s r v : ev (fun g => conf_body e (conforms e g) s r v) -> cv s r v.
  Proof. intros [g H]. exists (S g). intros [|g'] L; [lia|]. apply H. lia. Qed.

  Lemma cv_ref s id r' v : transparent s = false -> lookup e id = Some r' -> cv s r' v -> cv s (RRef id) v.
  Proof.
    intros Ht El H. apply cv_step. eapply ev_ext; [intros g; apply conf_body_nt; exact Ht|]. cbv beta iota. rewrite El. exact H.
  Qed.

  Lemma cv_rchoice s ralts a v : transparent s = false -> In a ralts -> cv s a v -> cv s (RChoice ralts) v.
  Proof.
    intros Ht Hin H. apply cv_step. eapply ev_ext; [intros g; apply conf_body_nt; exact Ht|].
    apply (ev_existsb (fun g a => conforms e g s a v) ralts a Hin H).
  Qed.

  Definition plain (r : rule) : bool := match r with RRef _ | RChoice _ => false | _ => true end.
  Lemma cv_struct s r v : transparent s = false -> plain r = true -> ev (fun g => conf_struct (conforms e g) s r v) -> cv s r v.
  Proof.
    intros Ht Hp H. apply cv_step. eapply ev_ext; [intros g; apply conf_body_nt; exact Ht|].
    destruct r; try discriminate Hp; exact H.
  Qed.

  (* a non-null value of a nullable site conforms as soon as it conforms for the inner schema *)
  Lemma nn_lift s' v : transparent s' = false -> v <> VNull -> forall g a,
    conforms e g s' a v = true -> conforms e (S g) (SNullable s') a v = true.
  Proof.
    intros Ht Hv. induction g as [|g IHg]; intros a H; [discriminate|].
    change (conf_body e (conforms e (S g)) (SNullable s') a v = true). rewrite conf_body_nt by reflexivity.
    destruct a; try (rewrite conf_struct_SNullable; destruct v; try congruence; exact H);
      cbn [conforms] in H; rewrite conf_body_nt in H by exact Ht.
    - (* RChoice *) eapply existsb_mono; [|exact H]. exact IHg.
    - (* RRef *) destruct (lookup e id); [apply IHg; exact H|discriminate].
  Qed.

  (* what refines says of the parts of a schema, for a fuel f of refines at which it is already sound *)
  Definition sound_at (f : nat) : Prop :=
    forall s r, refines e f s r = true -> wfs s = true -> forall v, wfv s v = true -> cv s r v.

  Section Parts.
    Variable f : nat.
    Hypothesis IH : sound_at f.

    Lemma cv_sl fs : forall rs l, ref_sl (refines e f) fs rs = true -> wfs_sl fs = true -> wfv_sl fs l = true ->
      ev (fun g => conf_sl (conforms e g) fs rs l).
    Proof.
      induction fs as [|s t IHt]; intros [|r rt] [|v vt] Hr Hs Hv; try discriminate; cbn [conf_sl]; [apply ev_const; reflexivity|].
      cbn [ref_sl wfs_sl wfv_sl] in *. split_ands. apply ev_and; [apply IH|apply IHt]; assumption.
    Qed.

    Lemma cv_kl rfs fs : forall l, ref_kl (refines e f) fs rfs = true -> wfs_kl fs = true -> wfv_kl fs l = true ->
      ev (fun g => conf_kl (conforms e g) fs rfs l).
    Proof.
      induction fs as [|k p s t IHt]; intros [|o ot] Hr Hs Hv; try discriminate; cbn [conf_kl]; [apply ev_const; reflexivity|].
      cbn [ref_kl wfs_kl wfv_kl] in *. split_ands. apply ev_and; [|apply IHt; assumption].
      destruct o as [v|]; [|apply ev_const; reflexivity]. destruct (present p (Some v)); [|apply ev_const; reflexivity].
      destruct (field_lookup rfs k) as [r|]; [|discriminate]. split_ands. apply IH; assumption.
    Qed.

    Lemma cv_list lo s r l : refines e f s r = true -> wfs s = true -> forallb (wfv s) l = true -> (lo <=? len l) = true ->
      ev (fun g => (lo <=? len l) && forallb (conforms e g s r) l).
    Proof.
      intros Hr Hs Hv Hlo. apply ev_and; [apply ev_const; exact Hlo|].
      apply ev_forallb. intros x Hx. apply IH; [assumption..|]. eapply forallb_In; eassumption.
    Qed.

    (* the rows of ref_struct *)
    Lemma struct_sound s r v : ref_struct (refines e f) s r = true -> wfs s = true -> wfv s v = true ->
      ev (fun g => conf_struct (conforms e g) s r v).
    Proof.
      intros Hr Hs Hv. destruct s; try discriminate Hr; destruct r; try discriminate Hr; cbn [ref_struct wfs wfv] in Hr, Hs, Hv.
      (* integers, strings, booleans: the schema's range lies within the rule's *)
      1-7, 15: destruct v; try discriminate Hv; cbn [conf_struct]; apply ev_const; unfold in_range, in_rangeZ, len in *.
      1-2, 5-8: lia.
      1-2: (* SNint *) unfold max64, two64 in *; lia.
      - (* SArr *) destruct v; try discriminate Hv. cbn [conf_struct]. split_ands. apply cv_sl; assumption.
      - (* SMap *) destruct v; try discriminate Hv. cbn [conf_struct]. split_ands.
        apply ev_and; [apply cv_kl; assumption|apply ev_const; apply required_ok; assumption].
      - (* SArrOf *) destruct v; try discriminate Hv. cbn [conf_struct]. split_ands. apply cv_list; try assumption. unfold len. lia.
      - (* SSetOf *) destruct v; try discriminate Hv. cbn [conf_struct]. split_ands. apply cv_list; try assumption. unfold len. lia.
      - (* SMapOf *) destruct v; try discriminate Hv. cbn [conf_struct]. split_ands.
        match goal with H : forallb _ l = true |- _ => rename H into Hall end.
        apply ev_and; [apply ev_and; [apply ev_const; unfold len; lia|]|apply ev_const; destruct ord; try discriminate; reflexivity].
        apply ev_forallb. intros kv Hkv. pose proof (forallb_In _ _ _ Hall Hkv) as W. cbv beta in W. split_ands.
        apply ev_and; apply IH; assumption.
      - (* STag *) eapply ev_ext; [intros g; apply conf_struct_STag|]. cbv iota. split_ands.
        apply ev_and; [apply ev_const|apply IH]; assumption.
      - (* SInBytes *) cbn [conf_struct]. split_ands. apply IH; assumption.
    Qed.
    (* a choice rule: the value conforms to one of its alternatives; for a variant, a nullable site and a tagged choice
       the alternative depends on the value *)
    Lemma choice_any s ralts v : transparent s = false -> existsb (fun a => refines e f s a) ralts = true ->
      wfs s = true -> wfv s v = true -> cv s (RChoice ralts) v.
    Proof.
      intros Ht Hx Hs Hv. apply existsb_exists in Hx as (a & Hin & Ha). apply (cv_rchoice s ralts a v Ht Hin). apply IH; assumption.
    Qed.

    Lemma choice_var alts ralts v : all_vl (fun idx fs => existsb (ref_alt (refines e f) idx fs) ralts) alts = true ->
      wfs (SVar alts) = true -> wfv (SVar alts) v = true -> cv (SVar alts) (RChoice ralts) v.
    Proof.
      intros Hr Hs Hv. destruct v as [| | | | | | | |i l| |]; try discriminate. cbn [wfs wfv] in *.
      destruct (vnth_wf alts i l Hs Hv) as (idx & fs & En & Hfs & Hvl & _).
      pose proof (all_vl_nth _ alts i idx fs Hr En) as Hx. cbv beta in Hx.
      apply existsb_exists in Hx as (a & Hin & Ha). apply (cv_rchoice (SVar alts) ralts a _ eq_refl Hin).
      unfold ref_alt in Ha. destruct a; try discriminate. destruct fs0 as [|r0 rs]; try discriminate. destruct r0; try discriminate.
      apply andb_true_iff in Ha as [Hidx Hsl].
      apply cv_struct; [reflexivity..|]. cbn [conf_struct]. rewrite En.
      apply ev_and; [|apply cv_sl; assumption].
      apply (cv_struct (SUint (idx + 1)) (RUint lo hi)); [reflexivity..|]. cbn [conf_struct]. apply ev_const. exact Hidx.
    Qed.

    Lemma choice_nullable s ralts v :
      negb (transparent s) && existsb is_null ralts && refines e f s (RChoice ralts) = true ->
      wfs (SNullable s) = true -> wfv (SNullable s) v = true -> cv (SNullable s) (RChoice ralts) v.
    Proof.
      intros Hr Hs Hv. cbn [wfs] in Hs. apply andb_true_iff in Hs as [Hs' _].
      apply andb_true_iff in Hr as [Hr1 Hr2]. apply andb_true_iff in Hr1 as [Hnt Hnull]. apply negb_true_iff in Hnt.
      destruct (match v with VNull => true | _ => false end) eqn:Ev.
      - (* VNull *) destruct v; try discriminate Ev.
        apply existsb_exists in Hnull as (a & Hin & Ha). destruct a; try discriminate.
        apply (cv_rchoice (SNullable s) ralts RNull VNull eq_refl Hin).
        apply cv_struct; [reflexivity..|]. cbn [conf_struct]. apply ev_const. reflexivity.
      - assert (Hnn : v <> VNull) by (intros ->; discriminate Ev).
        assert (Hv' : wfv s v = true) by (destruct v; try exact Hv; discriminate Ev).
        destruct (IH s (RChoice ralts) Hr2 Hs' v Hv') as [g G]. exists (S g). intros [|g'] L; [lia|].
        apply (nn_lift s v Hnt Hnn). apply G. lia.
    Qed.

    Lemma choice_tagchoice alts ralts v :
      all_cl (fun d s' => existsb (fun a => match a with RTag u r' => (d =? u) && refines e f s' r' | _ => false end) ralts) alts = true ->
      wfs (STagChoice alts) = true -> wfv (STagChoice alts) v = true -> cv (STagChoice alts) (RChoice ralts) v.
    Proof.
      intros Hr Hs Hv. destruct v as [| | | | | | | | | |i v']; try discriminate. cbn [wfs wfv] in *.
      destruct (cnth_wf true alts i v' Hs Hv) as (d & s' & En & Hs' & Hv').
      pose proof (all_cl_nth _ alts i d s' Hr En) as Hx. cbv beta in Hx.
      apply existsb_exists in Hx as (a & Hin & Ha). destruct a; try discriminate. apply andb_true_iff in Ha as [Ed Hra].
      apply (cv_rchoice (STagChoice alts) ralts (RTag t a) _ eq_refl Hin).
      apply cv_struct; [reflexivity..|]. cbn [conf_struct]. rewrite En.
      apply ev_and; [apply ev_const; exact Ed|apply IH; assumption].
    Qed.
  End Parts.

  Lemma step_sound f : sound_at f -> sound_at (S f).
  Proof.
    intros IH s r Hr Hs v Hv. change (refines_body e (refines e f) s r = true) in Hr.
    destruct (transparent s) eqn:Ht.
    - destruct s; try discriminate Ht; cbn [refines_body wfs wfv] in *.
      + (* SChoice *) destruct v as [| | | | | | | | | |i v']; try discriminate.
        destruct (cnth_wf false alts i v' Hs Hv) as (d & s' & En & Hs' & Hv').
        apply cv_step. cbn [conf_body]. rewrite En. apply IH; [exact (all_cl_nth _ alts i d s' Hr En)|assumption..].
      + (* SNamed *) apply cv_step. apply IH; assumption.
    - rewrite refines_body_nt in Hr by exact Ht. destruct (plain r) eqn:Hp.
      + apply (cv_struct s r v Ht Hp). apply (struct_sound f IH); [|exact Hs|exact Hv]. destruct r; try discriminate Hp; exact Hr.
      + destruct r; try discriminate Hp.
        * (* RChoice *) destruct s; try discriminate Ht; try (apply (choice_any f IH); assumption).
          -- apply (choice_var f IH); assumption.
          -- apply (choice_nullable f IH); assumption.
          -- apply (choice_tagchoice f IH); assumption.
        * (* RRef *) destruct (lookup e id) as [r'|] eqn:El; [|discriminate]. apply (cv_ref s id r' v Ht El). apply IH; assumption.
  Qed.

  Theorem refines_sound : forall f, sound_at f.
  Proof. induction f as [|f IH]; [intros s r H; discriminate|apply step_sound; exact IH]. Qed.
End Sound.
