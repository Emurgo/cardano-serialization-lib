(* The validator's body is monotone in its recursive argument, so one more unit of fuel never rejects what was accepted. *)
From CSL Require Import Base.Prelude Cbor.Head Cbor.Item Codec.Schema Codec.SchemaProofs Cddl.Rules Cddl.Validator.
Local Open Scope N_scope.

Definition rec_le (f g : rule -> item -> bool) : Prop := forall r it, f r it = true -> g r it = true.

Lemma forallb_mono {A} (f g : A -> bool) l : (forall x, f x = true -> g x = true) -> forallb f l = true -> forallb g l = true.
Proof.
  intros H. induction l as [|x t IH]; [reflexivity|]. cbn [forallb]. intros E. apply andb_true_iff in E as [E1 E2].
  rewrite (H x E1), (IH E2). reflexivity.
Qed.
Lemma existsb_mono {A} (f g : A -> bool) l : (forall x, f x = true -> g x = true) -> existsb f l = true -> existsb g l = true.
Proof.
  intros H. induction l as [|x t IH]; [discriminate|]. cbn [existsb]. intros E. apply orb_true_iff in E as [E|E].
  - rewrite (H x E). reflexivity.
  - rewrite (IH E). apply orb_true_r.
Qed.
Lemma forall2b_mono {A B} (f g : A -> B -> bool) l1 : forall l2,
  (forall x y, f x y = true -> g x y = true) -> forall2b f l1 l2 = true -> forall2b g l1 l2 = true.
Proof.
  induction l1 as [|x t IH]; intros l2 H; destruct l2 as [|y t2]; cbn [forall2b]; try discriminate; [reflexivity|].
  intros E. apply andb_true_iff in E as [E1 E2]. rewrite (H x y E1), (IH t2 H E2). reflexivity.
Qed.

Lemma cddl_body_mono e f g : rec_le f g -> rec_le (cddl_body e f) (cddl_body e g).
Proof.
  intros Hfg r it.
  assert (Hl : forall r' xs, forallb (f r') xs = true -> forallb (g r') xs = true)
    by (intros r' xs; apply forallb_mono; intros x; apply Hfg).
  (* rules without a sub-rule: the two bodies are the same term *)
  destruct r; cbn [cddl_body]; try (destruct it; try discriminate; try (intros E; exact E); fail).
  - (* RArr *) destruct it as [| | | | | |[] xs| | | |]; try discriminate. apply forall2b_mono. exact Hfg.
  - (* RArrOf *) destruct it as [| | | | | |[] xs| | | |]; try discriminate. intros E. split_ands. rw_hyps. apply Hl. assumption.
  - (* RArrAny *) destruct it as [| | | | | |d xs| | | |]; try discriminate. intros E. split_ands. rw_hyps. apply Hl. assumption.
  - (* RMap *) destruct it as [| | | | | | |[] kvs| | |]; try discriminate. intros E. split_ands. rw_hyps. rewrite !andb_true_r.
    unfold map_fields_ok in *. eapply forallb_mono; [|eassumption].
    intros [k v]. cbn [fst snd]. destruct k; try discriminate. destruct (field_lookup fs n); [apply Hfg|discriminate].
  - (* RMapOf *) destruct it as [| | | | | | |[] kvs| | |]; try discriminate. intros E. split_ands. rw_hyps. rewrite andb_true_r. cbn [andb].
    eapply forallb_mono; [|eassumption]. intros [k' v'] E'. cbn [fst snd] in *. split_ands. rewrite !Hfg by assumption. reflexivity.
  - (* RTag *) destruct it as [| | | | | | | |u x| |]; try discriminate. intros E. split_ands. rw_hyps. apply Hfg. assumption.
  - (* RSet *) destruct it as [| | | | | | | |u [| | | | | |[] xs| | | |]| |]; try discriminate.
    intros E. split_ands. rw_hyps. rewrite Hl by assumption. reflexivity.
  - (* RSetAny *) destruct it as [| | | | | | | |u [| | | | | |d xs| | | |]| |]; try discriminate.
    intros E. split_ands. rw_hyps. rewrite Hl by assumption. reflexivity.
  - (* RChoice *) apply existsb_mono. intros a. apply Hfg.
  - (* RCborIn *) destruct it; try discriminate. destruct (parse_exact b); try discriminate.
    intros E. split_ands. rw_hyps. apply Hfg. assumption.
  - (* RRef *) destruct (lookup e id); [apply Hfg|discriminate].
Qed.

Lemma cddl_ok_S e f : rec_le (cddl_ok e f) (cddl_ok e (S f)).
Proof.
  induction f as [|f IH]; [intros r it H; discriminate|].
  change (cddl_ok e (S (S f))) with (cddl_body e (cddl_ok e (S f))).
  change (cddl_ok e (S f)) with (cddl_body e (cddl_ok e f)) at 1.
  apply cddl_body_mono. exact IH.
Qed.
