(* Theorems about the Plutus datum <-> JSON model (PlutusJson.v): every datum round-trips through detailed-schema JSON,
   and the detailed and the basic converters are defined exactly on their schema's language. *)
From CSL Require Import Base.Prelude Base.Facts Base.Hex Json.Decimal Json.Json Json.JsonProofs Json.MetadataJson Json.MetadataJsonProofs Json.PlutusJson.
Local Open Scope N_scope.

Section PdInd.
  Variable P : pd -> Prop.
  Hypothesis HC : forall a fs, Forall P fs -> P (PConstr a fs).
  Hypothesis HM : forall l, Forall (fun kv => P (fst kv) /\ Forall P (snd kv)) l -> P (PMap l).
  Hypothesis HL : forall l, Forall P l -> P (PList l).
  Hypothesis HI : forall z, P (PInt z).
  Hypothesis HB : forall b, P (PBytes b).
  Fixpoint pd_ind' (p : pd) : P p :=
    match p with
    | PConstr a fs => HC a fs (Forall_all P pd_ind' fs)
    | PMap l => HM l (Forall_all (fun kv => P (fst kv) /\ Forall P (snd kv))
                        (fun kv => conj (pd_ind' (fst kv)) (Forall_all P pd_ind' (snd kv))) l)
    | PList l => HL l (Forall_all P pd_ind' l)
    | PInt z => HI z
    | PBytes b => HB b
    end.
End PdInd.

Lemma plist_eqb_eq {A} (f : A -> A -> bool) l :
  Forall (fun x => forall y, f x y = true <-> x = y) l -> forall l2, list_eqb f l l2 = true <-> l = l2.
Proof. apply list_eqb_eq. now intros [|] [|]. Qed.

Lemma pd_eqb_eq a : forall b, pd_eqb a b = true <-> a = b.
Proof.
  induction a as [n fs IH|l IH|l IH|z|bs] using pd_ind'; intros []; cbn [pd_eqb]; try (split; discriminate).
  - rewrite andb_true_iff, Z.eqb_eq, (plist_eqb_eq _ _ IH). split; [intros [-> ->]; reflexivity|intros [= -> ->]; split; reflexivity].
  - rewrite plist_eqb_eq; [split; [now intros ->|now intros [= ->]]|].
    eapply Forall_impl; [|exact IH]. intros [k vs] [Hk Hvs] [k2 vs2].
    exact (pair_eqb_eq pd_eqb (list_eqb pd_eqb) k vs Hk (plist_eqb_eq _ _ Hvs) (k2, vs2)).
  - rewrite (plist_eqb_eq _ _ IH). split; [now intros ->|now intros [= ->]].
  - rewrite Z.eqb_eq. split; [now intros ->|now intros [= ->]].
  - rewrite bytes_eqb_eq. split; [now intros ->|now intros [= ->]].
Qed.
Lemma pd_eqb_refl a : pd_eqb a a = true.
Proof. now apply pd_eqb_eq. Qed.

Lemma pm_find_skip k acc m : ~ In k (List.map fst acc) -> pm_find k (acc ++ m) = pm_find k m.
Proof.
  induction acc as [|[k' vs] r IH]; [reflexivity|]. cbn [List.map fst In app pm_find]. intros H.
  destruct (pd_eqb k' k) eqn:E; [apply pd_eqb_eq in E; tauto|]. apply IH. tauto.
Qed.
Lemma add_value_fresh k v m : ~ In k (List.map fst m) -> add_value k v m = m ++ [(k, [v])].
Proof. intros H. unfold add_value. rewrite <- (app_nil_r m) at 1. now rewrite pm_find_skip. Qed.
Lemma add_value_last k v acc ws :
  ~ In k (List.map fst acc) -> add_value k v (acc ++ [(k, ws)]) = acc ++ [(k, ws ++ [v])].
Proof.
  intros H. unfold add_value. rewrite pm_find_skip by exact H. cbn [pm_find]. rewrite pd_eqb_refl, filter_app.
  rewrite (filter_fresh pd_eqb) by (exact H || (intros x; apply pd_eqb_eq)).
  cbn [filter fst]. rewrite pd_eqb_refl. cbn [negb]. now rewrite app_nil_r.
Qed.

Definition flatten (l : list (pd * list pd)) : list (pd * pd) :=
  concat (List.map (fun kv => List.map (pair (fst kv)) (snd kv)) l).

Lemma fold_values k vs : forall acc ws, ~ In k (List.map fst acc) ->
  fold_left (fun a kv => add_value (fst kv) (snd kv) a) (List.map (pair k) vs) (acc ++ [(k, ws)]) = acc ++ [(k, ws ++ vs)].
Proof.
  induction vs as [|v r IH]; intros acc ws H; cbn [List.map fold_left]; [now rewrite app_nil_r|].
  cbn [fst snd]. rewrite add_value_last by assumption. rewrite IH by assumption. now rewrite <- app_assoc.
Qed.

Theorem pmap_of_list_flatten l :
  NoDup (List.map fst l) -> Forall (fun kv => snd kv <> []) l -> pmap_of_list (flatten l) = l.
Proof.
  intros Hnd Hne. unfold pmap_of_list, flatten. rewrite fold_left_concat_map.
  (* key by key: the pairs of one key append that key's entry *)
  apply (fold_left_append _ (fun l => NoDup (List.map fst l) /\ Forall (fun kv => snd kv <> []) l)) with (acc := []); [|now split].
  intros acc [k vs] r [Hn Hv]. apply Forall_elt in Hv. cbn [fst snd] in *. destruct vs as [|v vs]; [contradiction|].
  pose proof (NoDup_keys_fresh _ _ _ _ Hn) as Hf. cbn [List.map fold_left fst snd].
  rewrite add_value_fresh by exact Hf. exact (fold_values k vs acc [v] Hf).
Qed.

Lemma pkeys_nodupb_NoDup ks : pkeys_nodupb ks = true <-> NoDup ks.
Proof. apply (nodupb_NoDup pd_eqb); [exact pd_eqb_eq|now intros []]. Qed.
Lemma ppairs_all_forallb fk fv l : ppairs_all fk fv l = forallb (fun kv => fk (fst kv) && fv (snd kv)) l.
Proof. induction l as [|[k v] r IH]; cbn [ppairs_all forallb fst snd]; [reflexivity|]. now rewrite IH. Qed.

Definition pentry_enc1 (k v : pd) : result json :=
  let* jk := p2j PDetailed k in let* jv := p2j PDetailed v in Ok (JObj [(k_k, jk); (k_v, jv)]).
Definition pentry_enc (kv : pd * list pd) : result (list json) :=
  match kv with (k, vs) => mapM (pentry_enc1 k) vs end.

Lemma p2j_constr sc a fs : p2j sc (PConstr a fs) =
  let* xs := mapM (p2j sc) fs in Ok (JObj [(k_constructor, JInt a); (k_fields, JArr xs)]).
Proof. reflexivity. Qed.
Lemma p2j_list sc l : p2j sc (PList l) = let* xs := mapM (p2j sc) l in Ok (p_wrap sc k_list (JArr xs)).
Proof. reflexivity. Qed.
Lemma p2j_det_map l : p2j PDetailed (PMap l) =
  let* ess := mapM pentry_enc l in Ok (JObj [(k_map, JArr (concat ess))]).
Proof. reflexivity. Qed.
Lemma j2p_det_constr c a f : j2p c PDetailed (JObj [(k_constructor, a); (k_fields, f)]) =
  match as_u64 a with
  | Some alt => match f with JArr fs => let* xs := mapM (j2p c PDetailed) fs in Ok (PConstr alt xs) | _ => Err end
  | None => Err
  end.
Proof. reflexivity. Qed.
Lemma j2p_det_single c k v : j2p c PDetailed (JObj [(k, v)]) =
  if bytes_eqb k k_int then match v with JInt _ | JNegZero | JFloat _ => p_encode_number v | _ => Err end
  else if bytes_eqb k k_bytes then match v with JStr s => p_encode_string s PDetailed false | _ => Err end
  else if bytes_eqb k k_list then
    match v with JArr l => let* xs := mapM (j2p c PDetailed) l in Ok (PList xs) | _ => Err end
  else if bytes_eqb k k_map then
    match v with JArr es => let* kvs := mapM (entry_dec c (j2p c PDetailed)) es in Ok (PMap (pmap_of_list kvs)) | _ => Err end
  else Err.
Proof. reflexivity. Qed.
Lemma j2p_det_map c es : j2p c PDetailed (JObj [(k_map, JArr es)]) =
  let* kvs := mapM (entry_dec c (j2p c PDetailed)) es in Ok (PMap (pmap_of_list kvs)).
Proof. reflexivity. Qed.
Lemma j2p_det_list c l : j2p c PDetailed (JObj [(k_list, JArr l)]) =
  let* xs := mapM (j2p c PDetailed) l in Ok (PList xs).
Proof. reflexivity. Qed.
Lemma j2p_det_bytes c s : j2p c PDetailed (JObj [(k_bytes, JStr s)]) = p_encode_string s PDetailed false.
Proof. reflexivity. Qed.

Lemma hex_no_0x b : starts_with k_0x (hex b) = false.
Proof.
  destruct b as [|x r]; [reflexivity|]. cbn [hex]. unfold k_0x. cbn [starts_with].
  assert (H : hexc (x mod 16) <= 102) by (pose proof (N.mod_lt x 16); unfold hexc; destruct (x mod 16 <? 10) eqn:E; lia).
  destruct (120 =? hexc (x mod 16)) eqn:E; [lia|]. now rewrite andb_false_r.
Qed.

Theorem pd_json_pd_detailed c p :
  pd_wf p = true -> pd_values_nonempty p = true ->
  exists j, p2j PDetailed p = Ok j /\ j2p c PDetailed j = Ok p.
Proof.
  induction p as [a fs IH|l IH|l IH|z|b] using pd_ind'; intros Hwf Hne; cbn [pd_wf pd_values_nonempty] in Hwf, Hne;
    try rewrite Forall_forall in IH.
  - apply andb_prop in Hwf as [Ha Hwf]. rewrite forallb_forall in Hwf, Hne.
    destruct (mapM_inverse_total (p2j PDetailed) (j2p c PDetailed) fs) as (xs & E1 & E2); [apply Forall_forall; auto|].
    eexists. rewrite p2j_constr, E1. split; [reflexivity|]. rewrite j2p_det_constr. cbn [as_u64]. now rewrite Ha, E2.
  - apply andb_prop in Hwf as [Hnd Hwf]. apply pkeys_nodupb_NoDup in Hnd.
    rewrite ppairs_all_forallb, forallb_forall in Hwf, Hne.
    destruct (mapM_concat_inverse pentry_enc (entry_dec c (j2p c PDetailed)) (fun kv => List.map (pair (fst kv)) (snd kv)) l)
      as (ess & E1 & E2).
    { apply Forall_forall. intros [k vs] Hkv. destruct (IH _ Hkv) as [Pk Pvs]. rewrite Forall_forall in Pvs.
      destruct (andb_prop _ _ (Hwf _ Hkv)) as [Wk Wvs]. destruct (andb_prop _ _ (Hne _ Hkv)) as [Nk Nvs]. cbn [fst snd] in *.
      assert (Nvs' : forallb pd_values_nonempty vs = true) by (destruct vs; [discriminate|exact Nvs]).
      rewrite forallb_forall in Wvs, Nvs'. destruct (Pk Wk Nk) as (jk & K1 & K2).
      apply mapM_inverse_map, Forall_forall. intros v Hv. destruct (Pvs v Hv (Wvs v Hv) (Nvs' v Hv)) as (jv & V1 & V2).
      exists (JObj [(k_k, jk); (k_v, jv)]). unfold pentry_enc1. now rewrite K1, V1, entry_dec_exact, K2, V2. }
    eexists. rewrite p2j_det_map, E1. split; [reflexivity|].
    rewrite j2p_det_map, E2. cbn [bind]. fold (flatten l). rewrite pmap_of_list_flatten; [reflexivity|exact Hnd|].
    apply Forall_forall. intros [k vs] Hkv. apply Hne, andb_prop in Hkv as [_ H]. now destruct vs.
  - rewrite forallb_forall in Hwf, Hne.
    destruct (mapM_inverse_total (p2j PDetailed) (j2p c PDetailed) l) as (xs & E1 & E2); [apply Forall_forall; auto|].
    eexists. rewrite p2j_list, E1. split; [reflexivity|]. cbn [p_wrap]. now rewrite j2p_det_list, E2.
  - eexists. split; reflexivity.
  - eexists. split; [reflexivity|]. rewrite j2p_det_bytes. unfold p_encode_string.
    now rewrite hex_no_0x, (unhex_hex _ (bytes_okb_ok _ Hwf)).
Qed.

(* the known class is exactly what is excluded: a key with no values disappears *)
Example pd_empty_values_refuted :
  exists p j, pd_wf p = true /\ p2j PDetailed p = Ok j /\ j2p cur_cfg PDetailed j <> Ok p.
Proof. exists (PMap [(PInt 1, [])]). eexists. split; [reflexivity|]. split; [reflexivity|]. vm_compute. discriminate. Qed.

Lemma p_encode_number_dom j :
  res_dom (p_encode_number j) (match j with JInt _ | JNegZero => true | JFloat lit => is_some (parse_bigint lit) | _ => false end).
Proof.
  destruct j; try reflexivity; try apply res_dom_ok. cbn [p_encode_number]. destruct (parse_bigint lit); [apply res_dom_ok|reflexivity].
Qed.

Section PDomain.
  Variable c : cfg.
  Hypothesis Hlen : c_entry_lenient c = false.

  Theorem j2p_detailed_domain j : json_wf j = true -> res_dom (j2p c PDetailed j) (pdom_detailed j).
  Proof.
    induction j as [j IH] using json_size_ind. intros Hwf.
    destruct j as [| | | | | | |[|[k v] [|[k2 v2] [|]]]]; try reflexivity;
      cbn [json_wf keys_ascending obj_all] in Hwf; rewrite !andb_true_iff in Hwf.
    - destruct Hwf as [_ [[_ Wv] _]]. rewrite j2p_det_single. cbn [pdom_detailed].
      destruct (bytes_eqb k k_int); [destruct v; try reflexivity; apply p_encode_number_dom|].
      destruct (bytes_eqb k k_bytes).
      { destruct v; try reflexivity. unfold p_encode_string. destruct (starts_with k_0x s); [reflexivity|].
        cbn [negb andb]. destruct (unhex s); cbn; eauto. }
      destruct (bytes_eqb k k_list).
      { destruct v as [| | | | | |l|]; try reflexivity. apply (res_dom_items _ _ _ IH _ l Wv). intros x. apply jsize_item. }
      destruct (bytes_eqb k k_map); [|reflexivity].
      destruct v as [| | | | | |es|]; try reflexivity. apply (res_dom_entries _ _ _ IH c _ es Hlen Wv). intros x. apply jsize_item.
    - destruct Hwf as [[Hlt _] [[_ W1] [[_ W2] _]]]. cbn [j2p pdom_detailed]. cbv zeta. unfold has_key.
      pose proof (obj2_get k_constructor k_fields k v k2 v2 eq_refl Hlt) as G.
      destruct (obj_get k_constructor _) as [a|]; [|now rewrite G].
      destruct (obj_get k_fields _) as [fj|] eqn:Ef; [|rewrite G; now destruct (as_u64 a)].
      destruct G as (-> & -> & -> & ->). rewrite !bytes_eqb_refl. cbn [andb].
      destruct (as_u64 v) as [alt|]; [|reflexivity]. rewrite on_key_get, Ef.
      destruct v2 as [| | | | | |fs|]; try reflexivity. apply (res_dom_items _ _ _ IH _ fs W2). intros x Hx.
      pose proof (jsize_arr_in x fs Hx). destruct (jsize_entry k_constructor v k_fields (JArr fs)). lia.
  Qed.
End PDomain.

Lemma p_decode_key_dom k : res_dom (p_decode_key k) (pbasic_key_ok k).
Proof. destruct k; try reflexivity; [|cbn [p_decode_key]; destruct (utf8_valid b)]; apply res_dom_ok. Qed.

Theorem p2j_basic_domain p : res_dom (p2j PBasic p) (pbasic_dom p).
Proof.
  induction p as [a fs IH|l IH|l IH|z|b] using pd_ind'; cbn [pbasic_dom]; try apply res_dom_ok.
  - rewrite p2j_constr. now apply res_dom_bind, res_dom_mapM.
  - cbn [p2j]. apply res_dom_bind. rewrite ppairs_all_forallb. apply res_dom_mapM.
    eapply Forall_impl; [|exact IH]. intros [k vs] [_ Hvs]. cbn [fst snd] in *.
    apply res_dom_seq; [apply p_decode_key_dom|]. intros ks.
    destruct vs as [|v [|]]; try reflexivity. inversion Hvs; subst. now apply res_dom_bind.
  - rewrite p2j_list. now apply res_dom_bind, res_dom_mapM.
Qed.

Lemma p_encode_string_basic_dom s is_key : res_dom (p_encode_string s PBasic is_key) (pbasic_str_ok s).
Proof.
  unfold p_encode_string, pbasic_str_ok. destruct (starts_with k_0x s).
  - destruct (unhex (skipn 2 s)); cbn; eauto.
  - destruct is_key; [destruct (parse_bigint s)|]; cbn; eauto.
Qed.

Theorem j2p_basic_domain c j : res_dom (j2p c PBasic j) (pbasic_json_dom j).
Proof.
  induction j as [|b|z| |lit|s|l IH|l IH] using json_ind'; cbn [j2p pbasic_json_dom]; try reflexivity;
    try apply p_encode_number_dom.
  - apply p_encode_string_basic_dom.
  - now apply res_dom_bind, res_dom_mapM.
  - apply res_dom_bind. rewrite obj_all_forallb. apply res_dom_mapM.
    eapply Forall_impl; [|exact IH]. intros [rk rv] Hv. apply res_dom_pair; [apply p_encode_string_basic_dom|exact Hv].
Qed.
