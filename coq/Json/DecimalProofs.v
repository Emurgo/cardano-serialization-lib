(* Printing then parsing a decimal integer gives the integer back (Rust's to_string / parse pair). *)
From CSL Require Import Base.Prelude Json.Decimal.
From Coq Require Import Decimal DecimalZ DecimalPos.
Local Open Scope N_scope.

Lemma digits_uint_digits u : digits_uint (uint_digits u) = Some u.
Proof. induction u; cbn [uint_digits digits_uint]; try reflexivity; now rewrite IHu. Qed.

Definition is_digit (c : N) : bool := (48 <=? c) && (c <=? 57).

(* the parsers look at the first character by matching it against '-' and '+': on each of the ten digits the match
   computes, which is how every fact about a text that starts with a digit is proved *)
Lemma digit_ind (P : N -> Prop) :
  P 48 -> P 49 -> P 50 -> P 51 -> P 52 -> P 53 -> P 54 -> P 55 -> P 56 -> P 57 -> forall c, is_digit c = true -> P c.
Proof.
  intros. assert (E : c = 48 \/ c = 49 \/ c = 50 \/ c = 51 \/ c = 52 \/ c = 53 \/ c = 54 \/ c = 55 \/ c = 56 \/ c = 57)
    by (unfold is_digit in *; lia).
  repeat destruct E as [->|E]; try subst c; assumption.
Qed.

Lemma uint_digits_all_digits u : forallb is_digit (uint_digits u) = true.
Proof. induction u; cbn [uint_digits forallb]; try reflexivity; rewrite IHu; reflexivity. Qed.

(* the decimal text of an integer, without its sign, starts with a digit *)
Lemma to_int_digits z :
  exists c r, is_digit c = true /\ uint_digits (match Z.to_int z with Decimal.Pos u | Decimal.Neg u => u end) = c :: r.
Proof.
  assert (H : forall u, u <> Nil -> exists c r, is_digit c = true /\ uint_digits u = c :: r)
    by (intros [] H; try contradiction; cbn [uint_digits]; do 2 eexists; (split; [|reflexivity]); reflexivity).
  destruct z; cbn [Z.to_int]; apply H; try apply Unsigned.to_uint_nonnil. discriminate.
Qed.

Lemma parse_signed_digit : forall c, is_digit c = true -> forall r,
  parse_signed (c :: r) = option_map (fun u => Z.of_int (Decimal.Pos u)) (digits_uint (c :: r)).
Proof. refine (digit_ind _ _ _ _ _ _ _ _ _ _ _); reflexivity. Qed.
Lemma parse_unsigned_digit : forall c, is_digit c = true -> forall r, parse_unsigned (c :: r) = parse_signed (c :: r).
Proof. refine (digit_ind _ _ _ _ _ _ _ _ _ _ _); reflexivity. Qed.

Theorem parse_signed_print z : parse_signed (print_Z z) = Some z.
Proof.
  destruct (to_int_digits z) as (c & r & Hc & Hs). rewrite <- (DecimalZ.of_to z) at 2. unfold print_Z.
  destruct (Z.to_int z) as [u|u].
  - now rewrite Hs, (parse_signed_digit c Hc), <- Hs, digits_uint_digits.
  - cbn [parse_signed]. rewrite Hs at 1. now rewrite digits_uint_digits.
Qed.

Theorem parse_i128_print z : in_range i128_min i128_max z = true -> parse_i128 (print_Z z) = Some z.
Proof. intros H. unfold parse_i128. now rewrite parse_signed_print, H. Qed.

Theorem parse_unsigned_print z : (0 <= z)%Z -> parse_unsigned (print_Z z) = Some z.
Proof.
  intros Hz. rewrite <- (parse_signed_print z). destruct (to_int_digits z) as (c & r & Hc & Hs). unfold print_Z in *.
  destruct z; try lia; cbn [Z.to_int] in *; rewrite Hs; now apply parse_unsigned_digit.
Qed.
