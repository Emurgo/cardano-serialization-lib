(* Lemmas about Json.v: the byte-string order and sorted objects, the induction principle and the size measure of [json],
   equality tests on lists, folds that append, [mapM] in the result monad, the boolean checks as [forallb]. *)
From CSL Require Import Base.Prelude Base.Facts Json.Json.
Local Open Scope N_scope.

Lemma bytes_cmp_refl a : bytes_cmp a a = Eq.
Proof. induction a as [|x a IH]; cbn; [reflexivity|]. now rewrite N.compare_refl. Qed.

Lemma bytes_cmp_eq a : forall b, bytes_cmp a b = Eq -> a = b.
Proof.
  induction a as [|x a IH]; intros [|y b]; cbn; try discriminate; [reflexivity|].
  destruct (N.compare x y) eqn:E; try discriminate.
  apply N.compare_eq in E. intros H. f_equal; auto.
Qed.

Lemma bytes_eqb_eq a b : bytes_eqb a b = true <-> a = b.
Proof.
  unfold bytes_eqb. split.
  - destruct (bytes_cmp a b) eqn:E; try discriminate. intros _. now apply bytes_cmp_eq.
  - intros ->. now rewrite bytes_cmp_refl.
Qed.
Lemma bytes_eqb_refl a : bytes_eqb a a = true.
Proof. now apply bytes_eqb_eq. Qed.
Lemma bytes_eqb_neq a b : bytes_eqb a b = false <-> a <> b.
Proof.
  split.
  - intros H E. apply bytes_eqb_eq in E. congruence.
  - intros H. destruct (bytes_eqb a b) eqn:E; [apply bytes_eqb_eq in E; contradiction|reflexivity].
Qed.

Lemma bytes_cmp_antisym a : forall b, bytes_cmp b a = CompOpp (bytes_cmp a b).
Proof.
  induction a as [|x a IH]; intros [|y b]; cbn; try reflexivity.
  rewrite (N.compare_antisym x y). destruct (N.compare x y); cbn; auto.
Qed.

Lemma bytes_cmp_lt_trans a : forall b c, bytes_cmp a b = Lt -> bytes_cmp b c = Lt -> bytes_cmp a c = Lt.
Proof.
  induction a as [|x a IH]; intros [|y b] [|z c]; cbn; try discriminate; try reflexivity.
  destruct (N.compare x y) eqn:E1; try discriminate.
  - apply N.compare_eq in E1. subst y. destruct (N.compare x z); try discriminate; eauto.
  - intros _. destruct (N.compare y z) eqn:E2; try discriminate.
    + apply N.compare_eq in E2. subst z. now rewrite E1.
    + intros _. rewrite N.compare_lt_iff in *. assert (H : x < z) by lia.
      apply N.compare_lt_iff in H. now rewrite H.
Qed.

Lemma bytes_ltb_trans a b c : bytes_ltb a b = true -> bytes_ltb b c = true -> bytes_ltb a c = true.
Proof.
  unfold bytes_ltb. destruct (bytes_cmp a b) eqn:E1; try discriminate.
  destruct (bytes_cmp b c) eqn:E2; try discriminate. intros _ _.
  now rewrite (bytes_cmp_lt_trans _ _ _ E1 E2).
Qed.
Lemma bytes_ltb_irrefl a : bytes_ltb a a = false.
Proof. unfold bytes_ltb. now rewrite bytes_cmp_refl. Qed.
Lemma bytes_cmp_gt_lt a b : bytes_cmp a b = Gt -> bytes_ltb b a = true.
Proof. intros H. unfold bytes_ltb. rewrite (bytes_cmp_antisym a b), H. reflexivity. Qed.
Lemma bytes_cmp_lt_ltb a b : bytes_cmp a b = Lt -> bytes_ltb a b = true.
Proof. intros H. unfold bytes_ltb. now rewrite H. Qed.

Lemma keys_ascending_cons {A} k (v : A) r :
  keys_ascending ((k, v) :: r) = true <->
  keys_ascending r = true /\ Forall (fun kv => bytes_ltb k (fst kv) = true) r.
Proof.
  split.
  - revert k v. induction r as [|[k' v'] r IH]; intros k v H; [split; [reflexivity|constructor]|].
    cbn [keys_ascending] in H. apply andb_prop in H as [H1 H2]. split; [exact H2|].
    constructor; [exact H1|]. destruct (IH k' v' H2) as [_ F].
    eapply Forall_impl; [|exact F]. intros kv Hk. eapply bytes_ltb_trans; eauto.
  - intros [H1 H2]. destruct r as [|[k' v'] r]; [reflexivity|]. cbn [keys_ascending].
    apply Forall_inv in H2. cbn [fst] in H2. now rewrite H2.
Qed.

Lemma keys_ascending_keys {A B} (l1 : list (bytes * A)) : forall (l2 : list (bytes * B)),
  List.map fst l1 = List.map fst l2 -> keys_ascending l1 = keys_ascending l2.
Proof.
  induction l1 as [|[k v] r IH]; intros [|[k2 v2] r2] H; try discriminate; [reflexivity|].
  injection H as <- H. specialize (IH r2 H).
  destruct r as [|[k' v'] r']; destruct r2 as [|[k2' v2'] r2']; try discriminate; [reflexivity|].
  cbn [keys_ascending] in *. injection H as <- _. now rewrite IH.
Qed.

Lemma keys_ascending_map_snd {A B} (f : A -> B) (l : list (bytes * A)) :
  keys_ascending (List.map (fun kv => (fst kv, f (snd kv))) l) = keys_ascending l.
Proof. apply keys_ascending_keys. now rewrite map_map. Qed.

Lemma keys_ascending_NoDup {A} (l : list (bytes * A)) : keys_ascending l = true -> NoDup (List.map fst l).
Proof.
  induction l as [|[k v] r IH]; intros H; [constructor|].
  apply keys_ascending_cons in H as [H1 H2]. cbn [List.map fst]. constructor; [|auto].
  intros Hin. apply in_map_iff in Hin as [[k' v'] [E Hin]]. cbn [fst] in E. subst k'.
  rewrite Forall_forall in H2. specialize (H2 _ Hin). cbn [fst] in H2. now rewrite bytes_ltb_irrefl in H2.
Qed.

(* the premise that an induction principle for a type nested in lists hands to the list cases *)
Definition Forall_all {A} (P : A -> Prop) (f : forall x, P x) : forall l, Forall P l :=
  fix go l := match l with [] => Forall_nil _ | x :: r => Forall_cons x (f x) (go r) end.

Section JsonInd.
  Variable P : json -> Prop.
  Hypothesis HNull : P JNull.
  Hypothesis HBool : forall b, P (JBool b).
  Hypothesis HInt : forall z, P (JInt z).
  Hypothesis HNegZero : P JNegZero.
  Hypothesis HFloat : forall l, P (JFloat l).
  Hypothesis HStr : forall s, P (JStr s).
  Hypothesis HArr : forall l, Forall P l -> P (JArr l).
  Hypothesis HObj : forall l, Forall (fun kv => P (snd kv)) l -> P (JObj l).
  Fixpoint json_ind' (j : json) : P j :=
    match j with
    | JNull => HNull | JBool b => HBool b | JInt z => HInt z | JNegZero => HNegZero
    | JFloat l => HFloat l | JStr s => HStr s
    | JArr l => HArr l (Forall_all P json_ind' l)
    | JObj l => HObj l (Forall_all (fun kv => P (snd kv)) (fun kv => json_ind' (snd kv)) l)
    end.
End JsonInd.

(* the equality tests of the tree types compare lists element by element, each with a local [fix] of this shape *)
Lemma list_eqb_eq {A} (f : A -> A -> bool) (g : list A -> list A -> bool) :
  (forall x y, g x y = match x, y with [], [] => true | a :: x', b :: y' => f a b && g x' y' | _, _ => false end) ->
  forall l, Forall (fun a => forall b, f a b = true <-> a = b) l -> forall l2, g l l2 = true <-> l = l2.
Proof.
  intros Hg l H. induction H as [|x r Hx _ IH]; intros [|y l2]; rewrite Hg; try (split; discriminate); [split; reflexivity|].
  rewrite andb_true_iff, Hx, IH. split; [intros [-> ->]; reflexivity|intros [= -> ->]; split; reflexivity].
Qed.
Lemma pair_eqb_eq {A B} (f : A -> A -> bool) (g : B -> B -> bool) a b :
  (forall a', f a a' = true <-> a = a') -> (forall b', g b b' = true <-> b = b') ->
  forall q, f a (fst q) && g b (snd q) = true <-> (a, b) = q.
Proof. intros Hf Hg [a' b']. cbn [fst snd]. rewrite andb_true_iff, Hf, Hg. split; [now intros [-> ->]|now intros [= -> ->]]. Qed.

Lemma json_eqb_eq a : forall b, json_eqb a b = true <-> a = b.
Proof.
  induction a as [|x|x| |x|x|l IH|l IH] using json_ind'; intros []; cbn [json_eqb]; try (split; discriminate); try (split; reflexivity).
  - rewrite Bool.eqb_true_iff. split; [now intros ->|now intros [= ->]].
  - rewrite Z.eqb_eq. split; [now intros ->|now intros [= ->]].
  - rewrite bytes_eqb_eq. split; [now intros ->|now intros [= ->]].
  - rewrite bytes_eqb_eq. split; [now intros ->|now intros [= ->]].
  - etransitivity; [apply (list_eqb_eq json_eqb); [now intros [|] [|]|exact IH]|]. split; [now intros ->|now intros [= ->]].
  - etransitivity; [apply (list_eqb_eq (fun p q => bytes_eqb (fst p) (fst q) && json_eqb (snd p) (snd q)))|].
    + now intros [|[]] [|[]].
    + eapply Forall_impl; [|exact IH]. intros [k x] Hx. apply pair_eqb_eq; [apply bytes_eqb_eq|exact Hx].
    + split; [now intros ->|now intros [= ->]].
Qed.

(* a fold whose step appends the element, as long as an invariant of the final list holds *)
Lemma fold_left_append {A} (step : list A -> A -> list A) (inv : list A -> Prop) :
  (forall acc x r, inv (acc ++ x :: r) -> step acc x = acc ++ [x]) ->
  forall l acc, inv (acc ++ l) -> fold_left step l acc = acc ++ l.
Proof.
  intros H. induction l as [|x r IH]; intros acc Hi; cbn [fold_left]; [now rewrite app_nil_r|].
  rewrite (H acc x r Hi), IH; rewrite <- app_assoc; [reflexivity|exact Hi].
Qed.
Lemma fold_left_concat_map {A B C} (f : A -> B -> A) (g : C -> list B) l : forall a,
  fold_left f (concat (List.map g l)) a = fold_left (fun a x => fold_left f (g x) a) l a.
Proof. induction l as [|x r IH]; intros a; [reflexivity|]. cbn [List.map concat fold_left]. now rewrite fold_left_app, IH. Qed.
Lemma NoDup_keys_fresh {A B} (acc : list (A * B)) k v r :
  NoDup (List.map fst (acc ++ (k, v) :: r)) -> ~ In k (List.map fst acc).
Proof. rewrite map_app. intros H Hin. apply NoDup_remove_2 in H. apply H, in_or_app. now left. Qed.

(* the byte test of the models ([bytes_okb], [bytes_val_okb]) *)
Lemma bytes_okb_ok b : forallb (fun x => x <? 256) b = true -> bytes_ok b.
Proof. unfold bytes_ok. rewrite forallb_forall, Forall_forall. intros H x Hx. specialize (H x Hx). lia. Qed.

(* removing the entries under a key that is not there *)
Lemma filter_fresh {K V} (eqb : K -> K -> bool) k (m : list (K * V)) :
  (forall x, eqb x k = true -> x = k) -> ~ In k (List.map fst m) -> filter (fun kv => negb (eqb (fst kv) k)) m = m.
Proof.
  intros Heq. induction m as [|[k' v] r IH]; [reflexivity|]. cbn [List.map fst In filter]. intros H.
  destruct (eqb k' k) eqn:E; [apply Heq in E; tauto|]. cbn [negb]. f_equal. apply IH. tauto.
Qed.

Lemma mapM_ok_Forall2 {A B} (f : A -> result B) l : forall ys,
  mapM f l = Ok ys -> Forall2 (fun x y => f x = Ok y) l ys.
Proof.
  induction l as [|x r IH]; cbn [mapM]; intros ys H; [inversion H; constructor|].
  destruct (f x) eqn:E; try discriminate. cbn [bind] in H.
  destruct (mapM f r) eqn:E2; try discriminate. cbn [bind] in H. inversion H; subst. constructor; auto.
Qed.

Lemma Forall2_mapM {A B} (f : A -> result B) l ys :
  Forall2 (fun x y => f x = Ok y) l ys -> mapM f l = Ok ys.
Proof. induction 1 as [|x y l ys H _ IH]; cbn [mapM]; [reflexivity|]. now rewrite H, IH. Qed.

Lemma mapM_ext_in {A B} (f g : A -> result B) l :
  Forall (fun x => f x = g x) l -> mapM f l = mapM g l.
Proof. induction 1 as [|x r H _ IH]; cbn [mapM]; [reflexivity|]. now rewrite H, IH. Qed.

Lemma on_key_get {B} key (f : json -> result B) d l :
  on_key key f d l = match obj_get key l with Some v => f v | None => d end.
Proof. induction l as [|[k v] r IH]; cbn [on_key obj_get]; [reflexivity|]. destruct (bytes_eqb k key); auto. Qed.

(* an object is sorted: with two entries it holds two keys k1 < k2 only as its first and its second key *)
Lemma obj2_get k1 k2 a x b y : bytes_ltb k1 k2 = true -> bytes_ltb a b = true ->
  match obj_get k1 [(a, x); (b, y)], obj_get k2 [(a, x); (b, y)] with
  | Some x', Some y' => a = k1 /\ b = k2 /\ x' = x /\ y' = y
  | _, _ => bytes_eqb a k1 && bytes_eqb b k2 = false
  end.
Proof.
  intros H12 Hab. cbn [obj_get].
  assert (N12 : bytes_eqb k1 k2 = false) by (unfold bytes_ltb, bytes_eqb in *; now destruct (bytes_cmp k1 k2)).
  destruct (bytes_eqb a k1) eqn:Ea; destruct (bytes_eqb b k2) eqn:Eb.
  - apply bytes_eqb_eq in Ea, Eb. subst a b. now rewrite N12.
  - apply bytes_eqb_eq in Ea. subst a. now rewrite N12.
  - destruct (bytes_eqb b k1) eqn:Eb1; [|reflexivity]. apply bytes_eqb_eq in Eb, Eb1. subst. now rewrite bytes_ltb_irrefl in H12.
  - destruct (bytes_eqb b k1) eqn:Eb1; [|reflexivity]. destruct (bytes_eqb a k2) eqn:Ea2; [|reflexivity].
    apply bytes_eqb_eq in Eb1, Ea2. subst a b. pose proof (bytes_ltb_trans _ _ _ H12 Hab) as C. now rewrite bytes_ltb_irrefl in C.
Qed.

Lemma mapM_map {A B C} (f : B -> result C) (g : A -> B) (h : A -> C) l :
  Forall (fun x => f (g x) = Ok (h x)) l -> mapM f (List.map g l) = Ok (List.map h l).
Proof. induction 1 as [|x r H _ IH]; [reflexivity|]. cbn [List.map mapM]. now rewrite H, IH. Qed.

(* a partial inverse, element by element, is a partial inverse of the whole list *)
Lemma mapM_inverse {A B} (f : A -> result B) (g : B -> result A) l ys :
  Forall (fun x => forall y, f x = Ok y -> g y = Ok x) l -> mapM f l = Ok ys -> mapM g ys = Ok l.
Proof.
  intros H E. apply Forall2_mapM. apply mapM_ok_Forall2 in E.
  induction E as [|x y l ys Hxy _ IH]; [constructor|]. inversion H; subst. constructor; auto.
Qed.
Lemma mapM_inverse_map {A B C} (f : A -> result B) (g : B -> result C) (h : A -> C) l :
  Forall (fun x => exists y, f x = Ok y /\ g y = Ok (h x)) l -> exists ys, mapM f l = Ok ys /\ mapM g ys = Ok (List.map h l).
Proof.
  induction 1 as [|x r (y & E1 & E2) _ (ys & E3 & E4)]; [now exists []|].
  exists (y :: ys). cbn [mapM List.map]. now rewrite E1, E3, E2, E4.
Qed.
Lemma mapM_inverse_total {A B} (f : A -> result B) (g : B -> result A) l :
  Forall (fun x => exists y, f x = Ok y /\ g y = Ok x) l -> exists ys, mapM f l = Ok ys /\ mapM g ys = Ok l.
Proof. intros H. destruct (mapM_inverse_map f g id l H) as (ys & E1 & E2). exists ys. now rewrite map_id in E2. Qed.

Lemma mapM_app {A B} (f : A -> result B) l1 l2 ys1 ys2 :
  mapM f l1 = Ok ys1 -> mapM f l2 = Ok ys2 -> mapM f (l1 ++ l2) = Ok (ys1 ++ ys2).
Proof.
  revert ys1. induction l1 as [|x r IH]; intros ys1 H1 H2; cbn [mapM app] in *; [inversion H1; exact H2|].
  apply bind_ok in H1 as (y & -> & H1). apply bind_ok in H1 as (ys & E & [= <-]). now rewrite (IH ys E H2).
Qed.
Lemma mapM_concat_inverse {A B C} (f : A -> result (list B)) (g : B -> result C) (h : A -> list C) l :
  Forall (fun x => exists ys, f x = Ok ys /\ mapM g ys = Ok (h x)) l ->
  exists yss, mapM f l = Ok yss /\ mapM g (concat yss) = Ok (concat (List.map h l)).
Proof.
  induction 1 as [|x r (ys & E1 & E2) _ (yss & E3 & E4)]; [now exists []|].
  exists (ys :: yss). cbn [mapM List.map concat]. rewrite E1, E3. split; [reflexivity|]. now apply mapM_app.
Qed.

Lemma mapM_map_eq {A B C} (g : A -> result B) (ka : A -> C) (kb : B -> C) xs ys :
  (forall x y, g x = Ok y -> ka x = kb y) -> mapM g xs = Ok ys -> List.map ka xs = List.map kb ys.
Proof.
  intros Hg E. apply mapM_ok_Forall2 in E. induction E as [|x y xs ys Hxy _ IH]; [reflexivity|].
  cbn [List.map]. now rewrite (Hg _ _ Hxy), IH.
Qed.
(* when the key of a result is a function [h] of the key of its argument, distinct result keys come from distinct keys *)
Lemma mapM_NoDup_keys {A B KA KB} (g : A -> result B) (ka : A -> KA) (kb : B -> KB) (h : KA -> result KB) xs ys :
  (forall x y, g x = Ok y -> h (ka x) = Ok (kb y)) ->
  mapM g xs = Ok ys -> NoDup (List.map kb ys) -> NoDup (List.map ka xs).
Proof.
  intros Hg E. apply mapM_ok_Forall2 in E. induction E as [|x y xs ys Hxy E IH]; cbn [List.map]; intros Hnd; [constructor|].
  inversion Hnd as [|? ? Hn Hnd']; subst. constructor; [|auto].
  intros Hin. apply Hn. clear -Hin E Hg Hxy. induction E as [|x' y' xs ys Hxy' _ IH]; cbn [List.map In] in *; [contradiction|].
  destruct Hin as [Heq|Hin]; [left|right; auto]. apply Hg in Hxy, Hxy'. rewrite Heq in Hxy'. congruence.
Qed.

Lemma obj_all_forallb fk fv l : obj_all fk fv l = forallb (fun kv => fk (fst kv) && fv (snd kv)) l.
Proof. induction l as [|[k v] r IH]; cbn [obj_all forallb fst snd]; [reflexivity|]. now rewrite IH. Qed.

Definition entry_okb (kk kv : bytes) (f : json -> bool) (e : json) : bool :=
  match e with
  | JObj [(a, kj); (b, vj)] => bytes_eqb a kk && bytes_eqb b kv && f kj && f vj
  | _ => false
  end.
Lemma entries_all_forallb kk kv f es : entries_all kk kv f es = forallb (entry_okb kk kv f) es.
Proof.
  induction es as [|e r IH]; [reflexivity|]. cbn [entries_all forallb]. unfold entry_okb at 1.
  destruct e as [| | | | | | |l]; try reflexivity. destruct l as [|[a kj] [|[b vj] [|]]]; try reflexivity. now rewrite IH.
Qed.
Lemma entry_okb_true kk kv f e :
  entry_okb kk kv f e = true -> exists kj vj, e = JObj [(kk, kj); (kv, vj)] /\ f kj = true /\ f vj = true.
Proof.
  destruct e as [| | | | | | |l]; try discriminate. destruct l as [|[a kj] [|[b vj] [|]]]; try discriminate.
  cbn [entry_okb]. rewrite !andb_true_iff, !bytes_eqb_eq. intros [[[-> ->] H1] H2]. now exists kj, vj.
Qed.

Lemma nodupb_NoDup {A} (eqb : A -> A -> bool) (nodupb : list A -> bool) :
  (forall x y, eqb x y = true <-> x = y) ->
  (forall l, nodupb l = match l with [] => true | x :: r => negb (existsb (eqb x) r) && nodupb r end) ->
  forall l, nodupb l = true <-> NoDup l.
Proof.
  intros Heq Hf. induction l as [|x r IH]; rewrite Hf; [split; [constructor|reflexivity]|].
  rewrite andb_true_iff, negb_true_iff, IH, <- not_true_iff_false, existsb_exists. split.
  - intros [H1 H2]. constructor; [|exact H2]. intros Hin. apply H1. exists x. split; [exact Hin|now apply Heq].
  - intros H. inversion H; subst. split; [|assumption]. intros [y [Hin Hy]]. apply Heq in Hy. now subst.
Qed.

(* a size measure: the detailed schemas recurse into values three constructors down (the two parts of an entry
   object in the array under "map"), where the structural principle gives no hypothesis *)
Fixpoint jsize (j : json) : nat :=
  match j with
  | JArr l => S ((fix go (l : list json) : nat := match l with [] => 0%nat | x :: r => (jsize x + go r)%nat end) l)
  | JObj l => S ((fix go (l : list (bytes * json)) : nat := match l with [] => 0%nat | (_, v) :: r => (jsize v + go r)%nat end) l)
  | _ => 1%nat
  end.
Lemma jsize_arr_in x l : In x l -> (jsize x < jsize (JArr l))%nat.
Proof.
  cbn [jsize]. induction l as [|y r IH]; [intros []|]. intros [->|H]; [lia|]. specialize (IH H). lia.
Qed.
Lemma jsize_obj_in k v l : In (k, v) l -> (jsize v < jsize (JObj l))%nat.
Proof.
  cbn [jsize]. induction l as [|[k' y] r IH]; [intros []|]. intros [[= -> ->]|H]; [lia|]. specialize (IH H). lia.
Qed.
Lemma json_size_ind (P : json -> Prop) :
  (forall j, (forall x, (jsize x < jsize j)%nat -> P x) -> P j) -> forall j, P j.
Proof.
  intros H j. assert (G : forall n x, (jsize x < n)%nat -> P x).
  { induction n as [|n IH]; intros x Hx; [lia|]. apply H. intros y Hy. apply IH. lia. }
  exact (G (S (jsize j)) j (le_n _)).
Qed.
(* an item of an array stored under a key, and the two parts of an entry object *)
Lemma jsize_item x k l : In x l -> (jsize x < jsize (JObj [(k, JArr l)]))%nat.
Proof. intros H. pose proof (jsize_arr_in x l H). pose proof (jsize_obj_in k (JArr l) [(k, JArr l)] (or_introl eq_refl)). lia. Qed.
Lemma jsize_entry a x b y : (jsize x < jsize (JObj [(a, x); (b, y)]) /\ jsize y < jsize (JObj [(a, x); (b, y)]))%nat.
Proof. cbn [jsize]. lia. Qed.
