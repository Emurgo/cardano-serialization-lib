From CSL Require Import Base.Prelude Json.Json Json.JsonProofs Json.MetadataJson Json.Chunks.
Local Open Scope N_scope.

Lemma chunks_fuel_concat f : forall bs, (List.length bs <= f)%nat -> concat (chunks_fuel f bs) = bs.
Proof.
  induction f as [|f IH]; intros bs H.
  - destruct bs; [reflexivity|cbn in H; lia].
  - destruct bs as [|b r]; [reflexivity|]. cbn [chunks_fuel concat].
    rewrite IH; [apply firstn_skipn|]. rewrite skipn_length. cbn [List.length] in *. lia.
Qed.

Lemma chunks_fuel_small f : forall bs, Forall (fun ch => (List.length ch <= 64)%nat) (chunks_fuel f bs).
Proof.
  induction f as [|f IH]; intros bs; [constructor|]. destruct bs as [|b r]; [constructor|].
  cbn [chunks_fuel]. constructor; [apply firstn_le_length|apply IH].
Qed.

Lemma chunks_fuel_nonempty f : forall bs, Forall (fun ch => ch <> []) (chunks_fuel f bs).
Proof.
  induction f as [|f IH]; intros bs; [constructor|]. destruct bs as [|b r]; [constructor|].
  cbn [chunks_fuel]. constructor; [discriminate|apply IH].
Qed.

Lemma mapM_chunk_md l : Forall (fun ch => (List.length ch <= 64)%nat) l -> mapM chunk_md l = Ok (List.map MBytes l).
Proof.
  intros H. rewrite <- (map_id l) at 1. apply mapM_map. eapply Forall_impl; [|exact H]. intros ch Hch.
  cbv beta in *. unfold chunk_md, new_bytes, MD_MAX_LEN, blen. destruct (64 <? N.of_nat (List.length ch)) eqn:E; [lia|reflexivity].
Qed.

Theorem encode_arbitrary_bytes_ok bs : encode_arbitrary_bytes bs = Ok (MList (List.map MBytes (chunks bs))).
Proof. unfold encode_arbitrary_bytes. rewrite mapM_chunk_md by apply chunks_fuel_small. reflexivity. Qed.

Lemma decode_cons_bytes b r :
  decode_arbitrary_bytes (MList (MBytes b :: r)) = let* t := decode_arbitrary_bytes (MList r) in Ok (b ++ t).
Proof. reflexivity. Qed.

Lemma decode_bytes_list l : decode_arbitrary_bytes (MList (List.map MBytes l)) = Ok (concat l).
Proof. induction l as [|b r IH]; [reflexivity|]. cbn [List.map concat]. now rewrite decode_cons_bytes, IH. Qed.
