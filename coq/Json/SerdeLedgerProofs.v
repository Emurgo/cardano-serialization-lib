(* The annotations of SerdeLedger.v are well-formed (distinct field and variant names), to every depth of the
   recursive types; values of several annotated types inside the premises of the generic serde theorems. *)
From CSL Require Import Base.Prelude Base.Hex Codec.Schema Ledger.Schemas Json.Decimal Json.Json Json.Assoc
  Json.SerdeSchema Json.SerdeSchemaProofs Json.SerdeLedger.
Local Open Scope N_scope.

Lemma a_NativeScript_wfj d : wfj (a_NativeScript d) = true.
Proof.
  induction d as [|d IH]; [reflexivity|].
  cbn [a_NativeScript wfj all_wfj_opt all_wfj]. rewrite IH. reflexivity.
Qed.

(* Only the native-script annotation depends on the depth as far as [wfj] can see (the embedded datum and metadatum
   converters are [JCustom], which [wfj] does not enter): the annotations that contain it are well-formed because it
   is, and everything else in them is closed and evaluated. *)
Section Depth.
  Variables (emb : json -> json) (unemb : json -> option json) (d : nat).

  Lemma a_ScriptRef_wfj : wfj (a_ScriptRef d) = true.
  Proof. cbn [a_ScriptRef wfj all_wfj_opt]. rewrite a_NativeScript_wfj. reflexivity. Qed.
  Lemma a_TransactionOutput_wfj : wfj (a_TransactionOutput emb unemb d) = true.
  Proof. cbn [a_TransactionOutput wfj all_wfj]. rewrite a_ScriptRef_wfj. reflexivity. Qed.
  Lemma a_TransactionBody_wfj : wfj (a_TransactionBody emb unemb d) = true.
  Proof. cbn [a_TransactionBody a_TransactionOutputs wfj all_wfj]. rewrite a_TransactionOutput_wfj. vm_compute. reflexivity. Qed.
  Lemma a_TransactionWitnessSet_wfj : wfj (a_TransactionWitnessSet emb unemb d) = true.
  Proof. cbn [a_TransactionWitnessSet a_NativeScripts wfj all_wfj]. rewrite a_NativeScript_wfj. reflexivity. Qed.
  Lemma a_AuxiliaryData_wfj : wfj (a_AuxiliaryData emb unemb d) = true.
  Proof. cbn [a_AuxiliaryData a_NativeScripts wfj all_wfj]. rewrite a_NativeScript_wfj. reflexivity. Qed.
  Lemma a_Transaction_wfj : wfj (a_Transaction emb unemb d) = true.
  Proof.
    cbn [a_Transaction wfj all_wfj]. rewrite a_TransactionBody_wfj, a_TransactionWitnessSet_wfj, a_AuxiliaryData_wfj.
    reflexivity.
  Qed.
  Lemma a_Block_wfj : wfj (a_Block emb unemb d) = true.
  Proof.
    cbn [a_Block wfj all_wfj]. rewrite a_TransactionBody_wfj, a_TransactionWitnessSet_wfj, a_AuxiliaryData_wfj.
    reflexivity.
  Qed.
End Depth.

Theorem serde_table_wfj emb unemb d e : In e (serde_table emb unemb d) -> wfj (snd e) = true.
Proof.
  revert e. apply forallb_forall.
  cbn [serde_table forallb snd a_NativeScripts a_TransactionOutputs wfj].
  rewrite a_NativeScript_wfj, a_ScriptRef_wfj, !a_TransactionOutput_wfj, a_TransactionBody_wfj,
    a_TransactionWitnessSet_wfj, a_AuxiliaryData_wfj, a_Transaction_wfj, a_Block_wfj.
  vm_compute. reflexivity.
Qed.

(* non-vacuity: values of several annotated types inside the premises (placeholder external strings) *)
Definition ex_value : val :=
  VAlt 1 (VList [VNat 5; VMap [(VBytes (List.repeat 1 28%nat), VMap [(VBytes [], VNat 7); (VBytes [1; 2], VNat 18446744073709551615)]);
                               (VBytes (List.repeat 2 28%nat), VMap [(VBytes [255], VNat 1)])]]).
Example ex_value_ok : wfv Value ex_value = true /\ jwf ph_str ph_of_str a_Value ex_value = true /\ canonical ph_str a_Value ex_value = true.
Proof. repeat split; vm_compute; reflexivity. Qed.
Definition ex_cert : val :=
  VVar 16 [VVar 1 [VBytes (List.repeat 9 28%nat)]; VNat 2000000; VList [VText [104; 116; 116; 112]; VBytes (List.repeat 3 32%nat)]].
Example ex_cert_ok : wfv Certificate ex_cert = true /\ jwf ph_str ph_of_str a_Certificate ex_cert = true /\ canonical ph_str a_Certificate ex_cert = true.
Proof. repeat split; vm_compute; reflexivity. Qed.
Definition ex_withdrawals : val :=
  VMap [(VBytes (225 :: List.repeat 1 28%nat), VNat 1); (VBytes (225 :: List.repeat 2 28%nat), VNat 2)].
Example ex_withdrawals_ok : wfv Withdrawals ex_withdrawals = true /\ jwf ph_str ph_of_str a_Withdrawals ex_withdrawals = true /\
                            canonical ph_str a_Withdrawals ex_withdrawals = true.
Proof. repeat split; vm_compute; reflexivity. Qed.
(* ... and a value outside the premise: the same withdrawals inserted in the other order come back re-ordered *)
Definition ex_withdrawals_rev : val :=
  VMap [(VBytes (225 :: List.repeat 2 28%nat), VNat 2); (VBytes (225 :: List.repeat 1 28%nat), VNat 1)].
Example ex_withdrawals_rev_reordered :
  canonical ph_str a_Withdrawals ex_withdrawals_rev = false /\
  of_json_s ph_of_str a_Withdrawals (json_s ph_str a_Withdrawals ex_withdrawals_rev) = Ok ex_withdrawals.
Proof. split; vm_compute; reflexivity. Qed.
