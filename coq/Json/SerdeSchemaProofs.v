(* Generic theorems about the serde layer (SerdeSchema.v), by induction on the annotation:
     serde_read_write : of_json_s a (json_s a v) = Ok (norm_s a v)        for every value in the domain of a
     serde_canonical  : norm_s a v = v                                     when maps were filled in ascending key order
   hence of_json_s a (json_s a v) = Ok v and the same CBOR bytes, for ANY external string functions. *)
From CSL Require Import Base.Prelude Base.Hex Codec.Schema Json.Decimal Json.DecimalProofs Json.Json Json.JsonProofs
  Json.Assoc Json.SerdeSchema.
From Coq Require Import Permutation.
Local Open Scope N_scope.

Section JsInd.
  Variable P : jshape -> Prop.
  Hypothesis HLeaf : forall l, P (JLeaf l).
  Hypothesis HRec : forall fs, Forall (fun f => P (snd f)) fs -> P (JRec fs).
  Hypothesis HOptRec : forall fs, Forall (fun f => P (snd f)) fs -> P (JOptRec fs).
  Definition opt_P (p : option jshape) : Prop := match p with Some a => P a | None => True end.
  Hypothesis HEnum : forall vs, Forall (fun v => opt_P (snd v)) vs -> P (JEnum vs).
  Hypothesis HSingle : forall a, P a -> P (JSingle a).
  Hypothesis HSeq : forall a, P a -> P (JSeq a).
  Hypothesis HTuple : forall fs, Forall P fs -> P (JTuple fs).
  Hypothesis HMapObj : forall k okey a, P a -> P (JMapObj k okey a).
  Hypothesis HNullable : forall a, P a -> P (JNullable a).
  Hypothesis HIso : forall f g a, P a -> P (JIso f g a).
  Hypothesis HCustom : forall w r, P (JCustom w r).
  Fixpoint jshape_ind' (a : jshape) : P a :=
    let fields := Forall_all (fun f => P (snd f)) (fun f => jshape_ind' (snd f)) in
    match a with
    | JLeaf l => HLeaf l
    | JRec fs => HRec fs (fields fs)
    | JOptRec fs => HOptRec fs (fields fs)
    | JEnum vs => HEnum vs (Forall_all (fun v => opt_P (snd v))
                              (fun v => match snd v as q return opt_P q with Some a' => jshape_ind' a' | None => I end) vs)
    | JSingle a' => HSingle a' (jshape_ind' a')
    | JSeq a' => HSeq a' (jshape_ind' a')
    | JTuple fs => HTuple fs (Forall_all P jshape_ind' fs)
    | JMapObj k okey a' => HMapObj k okey a' (jshape_ind' a')
    | JNullable a' => HNullable a' (jshape_ind' a')
    | JIso f g a' => HIso f g a' (jshape_ind' a')
    | JCustom w r => HCustom w r
    end.
End JsInd.

Section ValInd.
  Variable P : val -> Prop.
  Hypothesis HNat : forall n, P (VNat n).
  Hypothesis HNeg : forall n, P (VNeg n).
  Hypothesis HBytes : forall b, P (VBytes b).
  Hypothesis HText : forall b, P (VText b).
  Hypothesis HBool : forall b, P (VBool b).
  Hypothesis HNull : P VNull.
  Hypothesis HList : forall l, Forall P l -> P (VList l).
  Definition opt_PV (o : option val) : Prop := match o with Some v => P v | None => True end.
  Hypothesis HStruct : forall l, Forall opt_PV l -> P (VStruct l).
  Hypothesis HVar : forall i l, Forall P l -> P (VVar i l).
  Hypothesis HMap : forall l, Forall (fun kv => P (fst kv) /\ P (snd kv)) l -> P (VMap l).
  Hypothesis HAlt : forall i v, P v -> P (VAlt i v).
  Fixpoint val_ind' (v : val) : P v :=
    match v with
    | VNat n => HNat n | VNeg n => HNeg n | VBytes b => HBytes b | VText b => HText b | VBool b => HBool b
    | VNull => HNull
    | VList l => HList l (Forall_all P val_ind' l)
    | VStruct l => HStruct l (Forall_all opt_PV (fun o => match o as q return opt_PV q with Some x => val_ind' x | None => I end) l)
    | VVar i l => HVar i l (Forall_all P val_ind' l)
    | VMap l => HMap l (Forall_all (fun kv => P (fst kv) /\ P (snd kv)) (fun kv => conj (val_ind' (fst kv)) (val_ind' (snd kv))) l)
    | VAlt i x => HAlt i x (val_ind' x)
    end.
End ValInd.

Lemma leqb_eq {A} (f : A -> A -> bool) l :
  Forall (fun x => forall y, f x y = true <-> x = y) l -> forall l2, leqb f l l2 = true <-> l = l2.
Proof. apply list_eqb_eq. now intros [|] [|]. Qed.
Lemma val_eqb_eq a : forall b, val_eqb a b = true <-> a = b.
Proof.
  induction a as [n|n|x|x|x| |l IH|l IH|i l IH|l IH|i x IH] using val_ind'; intros []; cbn [val_eqb]; try (split; discriminate).
  - rewrite N.eqb_eq. split; [now intros ->|now intros [= ->]].
  - rewrite N.eqb_eq. split; [now intros ->|now intros [= ->]].
  - rewrite bytes_eqb_eq. split; [now intros ->|now intros [= ->]].
  - rewrite bytes_eqb_eq. split; [now intros ->|now intros [= ->]].
  - rewrite Bool.eqb_true_iff. split; [now intros ->|now intros [= ->]].
  - split; reflexivity.
  - rewrite (leqb_eq _ _ IH). split; [now intros ->|now intros [= ->]].
  - rewrite leqb_eq; [split; [now intros ->|now intros [= ->]]|]. eapply Forall_impl; [|exact IH].
    intros [u|] Hu [w|]; try (split; discriminate); [|split; reflexivity]. rewrite (Hu w). split; [now intros ->|now intros [= ->]].
  - rewrite andb_true_iff, Nat.eqb_eq, (leqb_eq _ _ IH). split; [now intros [-> ->]|now intros [= -> ->]].
  - rewrite leqb_eq; [split; [now intros ->|now intros [= ->]]|]. eapply Forall_impl; [|exact IH].
    intros [k v] [Hk Hv] [k2 v2]. exact (pair_eqb_eq val_eqb val_eqb k v Hk Hv (k2, v2)).
  - rewrite andb_true_iff, Nat.eqb_eq, IH. split; [now intros [-> ->]|now intros [= -> ->]].
Qed.

Lemma bytes_nodupb_NoDup l : bytes_nodupb l = true -> NoDup l.
Proof. apply (nodupb_NoDup bytes_eqb); [exact bytes_eqb_eq|now intros []]. Qed.

Lemma bind_Ok_eq {A B} (r : result A) (k : A -> result B) x : r = Ok x -> bind r k = k x.
Proof. now intros ->. Qed.

Lemma pick_nth {B} (d : B) f vs : forall i,
  pick_variant d f vs i = match nth_error vs i with Some (n, p) => f n p | None => d end.
Proof.
  induction vs as [|[n p] r IH]; intros [|i]; cbn [pick_variant nth_error]; try reflexivity. apply IH.
Qed.
Lemma find_nth s f vs : forall i k p,
  NoDup (List.map fst vs) -> nth_error vs i = Some (s, p) -> find_variant s f vs k = f (k + i)%nat p.
Proof.
  induction vs as [|[n q] r IH]; intros [|i] k p Hnd Hn; cbn [nth_error] in Hn; try discriminate.
  - inversion Hn; subst. cbn [find_variant]. rewrite bytes_eqb_refl. now rewrite Nat.add_0_r.
  - cbn [find_variant]. cbn [List.map fst] in Hnd. inversion Hnd; subst.
    destruct (bytes_eqb n s) eqn:E.
    + apply bytes_eqb_eq in E. subst. exfalso. apply H1. apply nth_error_In in Hn.
      apply in_map_iff. exists (s, p). split; [reflexivity|exact Hn].
    + rewrite (IH i (S k) p H2 Hn). f_equal. lia.
Qed.

Lemma lookup_written (pairs : list (bytes * json)) :
  NoDup (List.map fst pairs) -> forall n j, In (n, j) pairs -> obj_get n (obj_of_list pairs) = Some j.
Proof. intros Hnd n j Hin. rewrite obj_get_aget, obj_of_list_aof_list. now apply aget_of_list. Qed.

Lemma map_snd_keyed {A} (f : A -> bytes) (l : list A) : List.map snd (List.map (fun x => (f x, x)) l) = l.
Proof. induction l as [|x r IH]; [reflexivity|]. cbn [List.map snd]. now rewrite IH. Qed.

(* Records: [zip_fields] / [zip_ofields] and [all_fields] / [all_ofields] are one function each, [zipg] and [allg], at the slot
   types val and option val: what is proved of these holds of those by conversion. *)
Section Slots.
  Context {V : Type}.
  Definition zipg {B} (f : jshape -> V -> B) : list (bytes * jshape) -> list V -> list (bytes * B) :=
    fix go (fs : list (bytes * jshape)) (vs : list V) : list (bytes * B) :=
      match fs, vs with
      | (n, a') :: fr, x :: xr => (n, f a' x) :: go fr xr
      | _, _ => []
      end.
  Definition allg (strict : bool) (f : jshape -> V -> bool) : list (bytes * jshape) -> list V -> bool :=
    fix go (fs : list (bytes * jshape)) (vs : list V) : bool :=
      match fs, vs with
      | [], [] => true
      | (_, a') :: fr, x :: xr => f a' x && go fr xr
      | _, _ => negb strict
      end.

  Lemma zipg_fst {B} (f : jshape -> V -> B) ok fs : forall vs,
    allg true ok fs vs = true -> List.map fst (zipg f fs vs) = List.map fst fs.
  Proof.
    induction fs as [|[n a'] fr IH]; intros [|x xr] H; cbn [allg negb] in H; try discriminate; [reflexivity|].
    apply andb_prop in H as [_ H]. cbn [zipg List.map fst]. f_equal. now apply IH.
  Qed.

  (* reading the fields of a record from the object written for it, when each slot reads back what it wrote *)
  Lemma read_fields_zip {B} (rd : jshape -> option json -> result B) (wr : jshape -> V -> json) (nm : jshape -> V -> B)
      (ok : jshape -> V -> bool) (L : list (bytes * json)) fs : forall vs,
    Forall (fun f => forall x, ok (snd f) x = true -> rd (snd f) (Some (wr (snd f) x)) = Ok (nm (snd f) x)) fs ->
    allg true ok fs vs = true ->
    (forall n j, In (n, j) (zipg wr fs vs) -> obj_get n L = Some j) ->
    read_fields rd L fs = Ok (List.map snd (zipg nm fs vs)).
  Proof.
    induction fs as [|[n a'] fr IH]; intros [|x xr] HP Hwf HL; cbn [allg negb] in Hwf; try discriminate; [reflexivity|].
    apply andb_prop in Hwf as [Hx Hr]. inversion HP as [|? ? Pa Pr]; subst. cbn [snd] in *.
    cbn [read_fields zipg List.map snd]. rewrite (HL n (wr a' x)) by (cbn [zipg]; now left).
    rewrite (Pa x Hx). cbn [bind]. rewrite (IH xr Pr Hr); [reflexivity|]. intros n' j' Hin. apply HL. cbn [zipg]. now right.
  Qed.
  Lemma read_written {B} (rd : jshape -> option json -> result B) wr nm ok fs vs :
    NoDup (List.map fst fs) ->
    Forall (fun f => forall x, ok (snd f) x = true -> rd (snd f) (Some (wr (snd f) x)) = Ok (nm (snd f) x)) fs ->
    allg true ok fs vs = true ->
    read_fields rd (obj_of_list (zipg wr fs vs)) fs = Ok (List.map snd (zipg nm fs vs)).
  Proof.
    intros Hnd HP Hwf. apply (read_fields_zip rd wr nm ok); [exact HP|exact Hwf|].
    apply lookup_written. now rewrite (zipg_fst _ ok) by exact Hwf.
  Qed.

  Lemma zipg_id (nm : jshape -> V -> V) (ok can : jshape -> V -> bool) fs : forall vs,
    Forall (fun f => forall x, ok (snd f) x = true -> can (snd f) x = true -> nm (snd f) x = x) fs ->
    allg true ok fs vs = true -> allg false can fs vs = true -> List.map snd (zipg nm fs vs) = vs.
  Proof.
    induction fs as [|[n a'] fr IH]; intros [|x xr] HP Hwf Hc; cbn [allg negb] in Hwf, Hc; try discriminate; [reflexivity|].
    apply andb_prop in Hwf as [Hx Hr]. apply andb_prop in Hc as [Cx Cr]. inversion HP as [|? ? Pa Pr]; subst. cbn [snd] in *.
    cbn [zipg List.map snd]. rewrite (Pa x Hx Cx). f_equal. now apply IH.
  Qed.
End Slots.

(* a property that holds of well-formed annotations holds of the parts of a well-formed annotation *)
Lemma all_wfj_Forall (Q : jshape -> Prop) fs :
  all_wfj wfj fs = true -> Forall (fun f => wfj (snd f) = true -> Q (snd f)) fs -> Forall (fun f => Q (snd f)) fs.
Proof.
  intros H F. induction F as [|[n a'] r Ha _ IH]; [constructor|]. cbn [all_wfj] in H. apply andb_prop in H as [H1 H2].
  constructor; [exact (Ha H1)|exact (IH H2)].
Qed.
Lemma all_wfj_opt_Forall (Q : jshape -> Prop) vs :
  all_wfj_opt wfj vs = true -> Forall (fun v => opt_P (fun a => wfj a = true -> Q a) (snd v)) vs -> Forall (fun v => opt_P Q (snd v)) vs.
Proof.
  intros H F. induction F as [|[n [a'|]] r Ha _ IH]; [constructor| |]; cbn [all_wfj_opt] in H; apply andb_prop in H as [H1 H2];
    (constructor; [|exact (IH H2)]); [exact (Ha H1)|exact I].
Qed.

Section Ext.
  Variable ext_str : N -> bytes -> bytes.
  Variable ext_of_str : N -> bytes -> option bytes.
  Notation json_s := (json_s ext_str).
  Notation of_json_s := (of_json_s ext_of_str).
  Notation norm_s := (norm_s ext_str).
  Notation jwf := (jwf ext_str ext_of_str).
  Notation leaf_wf := (leaf_wf ext_str ext_of_str).
  Notation leaf_str := (leaf_str ext_str).
  Notation leaf_of_str := (leaf_of_str ext_of_str).
  Notation leaf_json := (leaf_json ext_str).
  Notation leaf_of_json := (leaf_of_json ext_of_str).
  Notation canonical := (canonical ext_str).
  Notation key_str := (key_str ext_str).

  Lemma leaf_of_str_str l v s : leaf_wf l v = true -> leaf_str l v = Some s -> leaf_of_str l s = Ok v.
  Proof.
    destruct l; destruct v; cbn [SerdeSchema.leaf_wf SerdeSchema.leaf_str]; try discriminate; intros Hw Hs.
    - inversion Hs; subst s. cbn [SerdeSchema.leaf_of_str]. rewrite parse_unsigned_print by lia.
      unfold u64_max, two64 in *. destruct (Z.leb_spec (Z.of_N n) 18446744073709551615); [|lia]. now rewrite N2Z.id.
    - destruct i as [|[|i]]; try discriminate; destruct v; try discriminate; inversion Hs; subst s; cbn [SerdeSchema.leaf_of_str].
      + rewrite parse_i128_print by (unfold in_range, i128_min, i128_max, two64 in *; lia).
        assert (R : in_range (- two64Z) u64_max (Z.of_N n) = true) by (unfold in_range, two64Z, u64_max, two64 in *; lia).
        rewrite R. destruct (Z.leb_spec 0 (Z.of_N n)); [|lia]. now rewrite N2Z.id.
      + rewrite parse_i128_print by (unfold in_range, i128_min, i128_max, two64 in *; lia).
        assert (R : in_range (- two64Z) u64_max (- Z.of_N n - 1) = true) by (unfold in_range, two64Z, u64_max, two64 in *; lia).
        rewrite R. destruct (Z.leb_spec 0 (- Z.of_N n - 1)); [lia|].
        replace (- (- Z.of_N n - 1) - 1)%Z with (Z.of_N n) by lia. now rewrite N2Z.id.
    - inversion Hs; subst s. cbn [SerdeSchema.leaf_of_str]. apply andb_prop in Hw as [Hw H3]. apply andb_prop in Hw as [H1 H2].
      rewrite (unhex_hex _ (bytes_okb_ok _ H1)). now rewrite H2, H3.
    - inversion Hs; subst s. cbn [SerdeSchema.leaf_of_str]. now rewrite Hw.
    - inversion Hs; subst s. cbn [SerdeSchema.leaf_of_str]. destruct (ext_of_str id (ext_str id b)) as [b'|]; [|discriminate].
      apply bytes_eqb_eq in Hw. now subst.
    - rewrite Hs in Hw. cbn [SerdeSchema.leaf_of_str]. destruct (name_index s names 0) as [j|]; [|discriminate].
      apply N.eqb_eq in Hw. now subst.
  Qed.

  Lemma mapM_bytes b : bytes_val_okb b = true ->
    mapM byte_of_json (List.map (fun x => JInt (Z.of_N x)) b) = Ok b.
  Proof.
    intros H. rewrite <- (map_id b) at 2. apply mapM_map, Forall_forall. intros x Hx.
    unfold bytes_val_okb in H. rewrite forallb_forall in H. specialize (H x Hx). cbn [byte_of_json]. unfold in_range.
    destruct (Z.leb_spec 0 (Z.of_N x)); [|lia]. destruct (Z.leb_spec (Z.of_N x) 255); [|lia]. cbn [andb]. now rewrite N2Z.id.
  Qed.

  Lemma leaf_roundtrip l v : leaf_wf l v = true -> leaf_of_json l (leaf_json l v) = Ok v.
  Proof.
    intros Hw.
    assert (S : forall s, leaf_str l v = Some s -> leaf_of_str l s = Ok v) by (intros s; now apply leaf_of_str_str).
    destruct l; destruct v; cbn [SerdeSchema.leaf_wf] in Hw; try discriminate;
      cbn [SerdeSchema.leaf_json SerdeSchema.leaf_of_json SerdeSchema.leaf_str] in *.
    - now apply S.
    - destruct (Z.leb_spec 0 (Z.of_N n)); [|lia]. destruct (Z.ltb_spec (Z.of_N n) (Z.of_N lim)); [|lia]. cbn [andb]. now rewrite N2Z.id.
    - destruct i as [|[|i]]; try discriminate; destruct v; try discriminate; now apply S.
    - now apply S.
    - apply andb_prop in Hw as [Hw H3]. apply andb_prop in Hw as [H1 H2]. rewrite (mapM_bytes _ H1). cbn [bind]. now rewrite H2, H3.
    - now apply S.
    - reflexivity.
    - now apply S.
    - destruct (nth_error names (N.to_nat n)) as [s|] eqn:En; [|discriminate]. now apply S.
  Qed.

  Definition RW (a : jshape) : Prop := forall v, jwf a v = true -> of_json_s a (json_s a v) = Ok (norm_s a v).

  Definition read_field (a' : jshape) (o : option json) : result val :=
    match o with Some jx => of_json_s a' jx | None => if is_nullable a' then Ok VNull else Err end.
  Definition read_ofield (a' : jshape) (o : option json) : result (option val) :=
    match o with Some JNull | None => Ok None | Some jx => let* x := of_json_s a' jx in Ok (Some x) end.
  Definition write_ofield (a' : jshape) (o : option val) : json := match o with Some x => json_s a' x | None => JNull end.
  Definition norm_ofield (a' : jshape) (o : option val) : option val := match o with Some x => Some (norm_s a' x) | None => None end.
  Definition wf_ofield (a' : jshape) (o : option val) : bool :=
    match o with Some x => jwf a' x && negb (is_jnull (json_s a' x)) | None => true end.
  Definition can_ofield (a' : jshape) (o : option val) : bool := match o with Some x => canonical a' x | None => true end.

  (* a value that is not written as null is read, under [JNullable] and in an optional slot, as the annotation reads it *)
  Lemma not_null_read {B} a' x (k : result val -> result B) (dflt : result B) :
    RW a' -> jwf a' x = true -> is_jnull (json_s a' x) = false ->
    match json_s a' x with JNull => dflt | _ => k (of_json_s a' (json_s a' x)) end = k (Ok (norm_s a' x)).
  Proof. intros Pa H1 H2. rewrite <- (Pa x H1). now destruct (json_s a' x). Qed.

  Lemma read_ofield_written a' o : RW a' -> wf_ofield a' o = true -> read_ofield a' (Some (write_ofield a' o)) = Ok (norm_ofield a' o).
  Proof.
    intros Pa H. destruct o as [x|]; [|reflexivity]. cbn [write_ofield norm_ofield wf_ofield] in *.
    apply andb_prop in H as [H1 H2]. apply negb_true_iff in H2.
    exact (not_null_read a' x (fun r => let* y := r in Ok (Some y)) (Ok None) Pa H1 H2).
  Qed.

  Lemma read_tuple_rec fs : forall vs,
    Forall RW fs -> all_shapes true jwf fs vs = true ->
    read_tuple of_json_s fs (zip_shapes json_s fs vs) = Ok (zip_shapes norm_s fs vs).
  Proof.
    induction fs as [|a' fr IH]; intros [|x xr] HP Hwf; cbn [all_shapes negb] in Hwf; try discriminate; [reflexivity|].
    apply andb_prop in Hwf as [Hx Hr]. inversion HP as [|? ? Pa Pr]; subst.
    cbn [zip_shapes read_tuple]. rewrite (Pa x Hx). cbn [bind]. now rewrite (IH xr Pr Hr).
  Qed.

  Lemma read_enum_written vs i l :
    NoDup (List.map fst vs) -> Forall (fun v => opt_P RW (snd v)) vs -> jwf (JEnum vs) (VVar i l) = true ->
    of_json_s (JEnum vs) (json_s (JEnum vs) (VVar i l)) = Ok (norm_s (JEnum vs) (VVar i l)).
  Proof.
    intros Hn F Hv. cbn [SerdeSchema.json_s SerdeSchema.of_json_s SerdeSchema.norm_s SerdeSchema.jwf] in *.
    rewrite !pick_nth. rewrite pick_nth in Hv. destruct (nth_error vs i) as [[n p]|] eqn:En; [|discriminate].
    rewrite Forall_forall in F. specialize (F _ (nth_error_In _ _ En)).
    destruct p as [a'|]; cbn [SerdeSchema.of_json_s snd opt_P] in *.
    - apply andb_prop in Hv as [H1 H2]. rewrite (find_nth n _ vs i 0%nat (Some a') Hn En), (F _ H1). cbn [bind].
      now destruct (norm_s a' (VList l)).
    - destruct l; [|discriminate]. now rewrite (find_nth n _ vs i 0%nat None Hn En).
  Qed.

  (* a map is written as an object: the entries are sorted by their key strings, and each is read back *)
  Lemma read_map_written k okey a' l : RW a' -> jwf (JMapObj k okey a') (VMap l) = true ->
    of_json_s (JMapObj k okey a') (json_s (JMapObj k okey a') (VMap l)) = Ok (norm_s (JMapObj k okey a') (VMap l)).
  Proof.
    intros Pa Hv. cbn [SerdeSchema.json_s SerdeSchema.of_json_s SerdeSchema.norm_s SerdeSchema.jwf] in *.
    rewrite forallb_forall in Hv.
    set (K := List.map (fun kv : val * val => (key_str k (fst kv), kv)) l).
    assert (EJ : obj_of_list (List.map (fun kv => (match leaf_str k (fst kv) with Some s => s | None => [] end, json_s a' (snd kv))) l)
                 = List.map (fun e => (fst e, json_s a' (snd (snd e)))) (aof_list K)).
    { rewrite obj_of_list_aof_list. rewrite <- (aof_list_map (fun kv : val * val => json_s a' (snd kv))). unfold K.
      rewrite map_map. reflexivity. }
    rewrite EJ. clear EJ.
    rewrite (mapM_map _ _ (fun e => (fst (snd e), norm_s a' (snd (snd e))))); [reflexivity|].
    apply Forall_forall. intros e He. apply aof_list_in in He. unfold K in He. apply in_map_iff in He as [[kk vv] [<- Hin]].
    cbn [fst snd]. specialize (Hv _ Hin). cbn [fst snd] in Hv.
    apply andb_prop in Hv as [Hv H3]. apply andb_prop in Hv as [H1 H2].
    unfold SerdeSchema.key_str. destruct (leaf_str k kk) as [s|] eqn:Es; [|discriminate].
    now rewrite (leaf_of_str_str k kk s H1 Es), (Pa vv H3).
  Qed.

  Theorem serde_read_write a : wfj a = true -> RW a.
  Proof.
    induction a as [l|fs IH|fs IH|vs IH|a' IH|a' IH|fs IH|k okey a' IH|a' IH|f g a' IH|w r] using jshape_ind';
      intros Hw v Hv; cbn [SerdeSchema.wfj] in Hw; cbn [SerdeSchema.json_s SerdeSchema.of_json_s SerdeSchema.norm_s].
    - now apply leaf_roundtrip.
    - (* record *)
      apply andb_prop in Hw as [Hn Hws]. destruct v; try discriminate. cbn [SerdeSchema.jwf] in Hv.
      erewrite bind_Ok_eq; [reflexivity|]. apply (read_written read_field json_s norm_s jwf); [now apply bytes_nodupb_NoDup| |exact Hv].
      exact (all_wfj_Forall RW fs Hws IH).
    - (* record with optional fields *)
      apply andb_prop in Hw as [Hn Hws]. destruct v; try discriminate. cbn [SerdeSchema.jwf] in Hv.
      erewrite bind_Ok_eq; [reflexivity|]. apply (read_written read_ofield write_ofield norm_ofield wf_ofield); [now apply bytes_nodupb_NoDup| |exact Hv].
      eapply Forall_impl; [|exact (all_wfj_Forall RW fs Hws IH)]. intros f Pa o. now apply read_ofield_written.
    - (* enum *)
      apply andb_prop in Hw as [Hn Hws]. destruct v; try discriminate.
      exact (read_enum_written vs i l (bytes_nodupb_NoDup _ Hn) (all_wfj_opt_Forall RW vs Hws IH) Hv).
    - (* single *) destruct v as [| | | | | |[|x [|]]| | | |]; try discriminate. cbn [SerdeSchema.jwf] in Hv. now rewrite (IH Hw x Hv).
    - (* sequence *) destruct v; try discriminate. cbn [SerdeSchema.jwf] in Hv. rewrite forallb_forall in Hv.
      rewrite (mapM_map _ _ (norm_s a')); [reflexivity|]. apply Forall_forall. intros x Hx. exact (IH Hw x (Hv x Hx)).
    - (* tuple *) destruct v; try discriminate. cbn [SerdeSchema.jwf] in Hv. rewrite read_tuple_rec; [reflexivity| |exact Hv].
      rewrite forallb_forall in Hw. rewrite Forall_forall in *. auto.
    - (* map *) destruct v; try discriminate. exact (read_map_written k okey a' l (IH Hw) Hv).
    - (* nullable *)
      destruct v; cbn [SerdeSchema.jwf] in Hv; try reflexivity; apply andb_prop in Hv as [H1 H2]; apply negb_true_iff in H2;
        exact (not_null_read a' _ (fun r => r) (Ok VNull) (IH Hw) H1 H2).
    - (* iso *) cbn [SerdeSchema.jwf] in Hv. now rewrite (IH Hw _ Hv).
    - (* hand-written pair *) cbn [SerdeSchema.jwf] in Hv. now destruct (r (w v)).
  Qed.

  Definition CN (a : jshape) : Prop := forall v, jwf a v = true -> canonical a v = true -> norm_s a v = v.

  Lemma norm_shapes_id fs : forall vs,
    Forall CN fs -> all_shapes true jwf fs vs = true -> all_shapes false canonical fs vs = true ->
    zip_shapes norm_s fs vs = vs.
  Proof.
    induction fs as [|a' fr IH]; intros [|x xr] HP Hwf Hc; cbn [all_shapes negb] in Hwf, Hc; try discriminate; [reflexivity|].
    apply andb_prop in Hwf as [Hx Hr]. apply andb_prop in Hc as [Cx Cr]. inversion HP as [|? ? Pa Pr]; subst.
    cbn [zip_shapes]. rewrite (Pa x Hx Cx). f_equal. now apply IH.
  Qed.

  (* a map filled in ascending key order comes back in that order: the sorted form of a rearrangement of a sorted
     list is that list *)
  Lemma norm_map_id k okey a' l : CN a' ->
    jwf (JMapObj k okey a') (VMap l) = true -> canonical (JMapObj k okey a') (VMap l) = true ->
    norm_s (JMapObj k okey a') (VMap l) = VMap l.
  Proof.
    intros Pa Hv Hc. cbn [SerdeSchema.norm_s SerdeSchema.jwf SerdeSchema.canonical] in *.
    f_equal. apply andb_prop in Hc as [Hc C3]. apply andb_prop in Hc as [C1 C2]. rewrite forallb_forall in Hv, C3.
    set (K := List.map (fun kv : val * val => (key_str k (fst kv), kv)) l).
    assert (PK : Permutation (aof_list K) K).
    { apply aof_list_perm. unfold K. rewrite map_map. cbn [fst]. now apply bytes_nodupb_NoDup. }
    (* the entries come back with unchanged values *)
    assert (EN : List.map (fun e : bytes * (val * val) => (fst (snd e), norm_s a' (snd (snd e)))) (aof_list K) = List.map snd (aof_list K)).
    { apply map_ext_in. intros e He. apply aof_list_in in He. unfold K in He. apply in_map_iff in He as [[kk vv] [<- Hin]].
      cbn [fst snd]. specialize (Hv _ Hin). specialize (C3 _ Hin). cbn [fst snd] in Hv, C3.
      apply andb_prop in Hv as [_ H3]. now rewrite (Pa vv H3 C3). }
    rewrite EN. unfold osort.
    rewrite (aof_list_of_perm (List.map (fun kv : val * val => (okey (fst kv), kv)) l)); [apply map_snd_keyed|exact C1|].
    apply Permutation_map. rewrite PK. unfold K. now rewrite map_snd_keyed.
  Qed.

  Theorem serde_canonical a : CN a.
  Proof.
    induction a as [l|fs IH|fs IH|vs IH|a' IH|a' IH|fs IH|k okey a' IH|a' IH|f g a' IH|w r] using jshape_ind'; intros v Hv Hc;
      [reflexivity|..].
    (* records, enums, singles, sequences, tuples and maps: a value in the domain has the one shape the annotation describes *)
    1-7: destruct v; try discriminate.
    all: cbn [SerdeSchema.norm_s SerdeSchema.jwf SerdeSchema.canonical] in *.
    - f_equal. exact (zipg_id norm_s jwf canonical fs l IH Hv Hc).
    - f_equal. apply (zipg_id norm_ofield wf_ofield can_ofield fs l); [|exact Hv|exact Hc].
      eapply Forall_impl; [|exact IH]. intros f Pa [x|] Hx Cx; [|reflexivity]. cbn [norm_ofield wf_ofield can_ofield] in *.
      apply andb_prop in Hx as [Hx _]. now rewrite (Pa x Hx Cx).
    - rewrite pick_nth in Hv, Hc. rewrite pick_nth. destruct (nth_error vs i) as [[n p]|] eqn:En; [|discriminate].
      rewrite Forall_forall in IH. specialize (IH _ (nth_error_In _ _ En)). destruct p as [a'|]; cbn [snd opt_P] in IH.
      + apply andb_prop in Hv as [H1 H2]. now rewrite (IH _ H1 Hc).
      + destruct l; [reflexivity|discriminate].
    - destruct l as [|x [|]]; try discriminate. now rewrite (IH x Hv Hc).
    - f_equal. rewrite forallb_forall in Hv, Hc. rewrite <- (map_id l) at 2. apply map_ext_in. intros x Hx. apply IH; auto.
    - f_equal. now apply norm_shapes_id.
    - exact (norm_map_id k okey a' l IH Hv Hc).
    - destruct v; try reflexivity; apply andb_prop in Hv as [H1 _]; now apply IH.
    - apply andb_prop in Hc as [C1 C2]. rewrite (IH _ Hv C1). now apply val_eqb_eq.
    - destruct (r (w v)); try discriminate. now apply val_eqb_eq.
  Qed.

  (* the typed-value clause for an annotated type *)
  Theorem serde_roundtrip a v :
    wfj a = true -> jwf a v = true -> canonical a v = true -> of_json_s a (json_s a v) = Ok v.
  Proof. intros Hw Hv Hc. rewrite (serde_read_write a Hw v Hv). now rewrite (serde_canonical a v Hv Hc). Qed.

  Corollary serde_roundtrip_bytes (s : schema) a v :
    wfj a = true -> jwf a v = true -> canonical a v = true ->
    exists v', of_json_s a (json_s a v) = Ok v' /\ v' = v /\ enc s v' = enc s v.
  Proof. intros Hw Hv Hc. exists v. split; [now apply serde_roundtrip|split; reflexivity]. Qed.
End Ext.
