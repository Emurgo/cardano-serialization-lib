(* Theorems about the metadata <-> JSON model (MetadataJson.v): metadata -> JSON -> metadata is the identity where the
   first conversion succeeds (Detailed; NoConversions on sorted maps), JSON -> metadata -> JSON on each schema's normal
   form, and [j2m] is defined exactly on its schema's language ([res_dom]: a value where a boolean test holds, Err
   elsewhere). *)
From CSL Require Import Base.Prelude Base.Facts Base.Hex Json.Decimal Json.DecimalProofs Json.Json Json.JsonProofs Json.Assoc
  Json.MetadataJson.
Local Open Scope N_scope.

Section MdInd.
  Variable P : md -> Prop.
  Hypothesis HMap : forall l, Forall (fun kv => P (fst kv) /\ P (snd kv)) l -> P (MMap l).
  Hypothesis HList : forall l, Forall P l -> P (MList l).
  Hypothesis HInt : forall z, P (MInt z).
  Hypothesis HBytes : forall b, P (MBytes b).
  Hypothesis HText : forall s, P (MText s).
  Fixpoint md_ind' (m : md) : P m :=
    match m with
    | MMap l => HMap l (Forall_all (fun kv => P (fst kv) /\ P (snd kv)) (fun kv => conj (md_ind' (fst kv)) (md_ind' (snd kv))) l)
    | MList l => HList l (Forall_all P md_ind' l)
    | MInt z => HInt z | MBytes b => HBytes b | MText s => HText s
    end.
End MdInd.

Lemma md_eqb_eq a : forall b, md_eqb a b = true <-> a = b.
Proof.
  induction a as [l IH|l IH|x|x|x] using md_ind'; intros []; cbn [md_eqb]; try (split; discriminate).
  - etransitivity; [apply (list_eqb_eq (fun p q => md_eqb (fst p) (fst q) && md_eqb (snd p) (snd q)))|].
    + now intros [|[]] [|[]].
    + eapply Forall_impl; [|exact IH]. intros [k x] [Hk Hx]. now apply pair_eqb_eq.
    + split; [now intros ->|now intros [= ->]].
  - etransitivity; [apply (list_eqb_eq md_eqb); [now intros [|] [|]|exact IH]|]. split; [now intros ->|now intros [= ->]].
  - rewrite Z.eqb_eq. split; [now intros ->|now intros [= ->]].
  - rewrite bytes_eqb_eq. split; [now intros ->|now intros [= ->]].
  - rewrite bytes_eqb_eq. split; [now intros ->|now intros [= ->]].
Qed.

Lemma keys_nodupb_NoDup ks : keys_nodupb ks = true <-> NoDup ks.
Proof. apply (nodupb_NoDup md_eqb); [exact md_eqb_eq|now intros []]. Qed.
Lemma json_nodupb_NoDup l : json_nodupb l = true <-> NoDup l.
Proof. apply (nodupb_NoDup json_eqb); [exact json_eqb_eq|now intros []]. Qed.

Lemma lhm_insert_fresh k v acc : ~ In k (List.map fst acc) -> lhm_insert k v acc = acc ++ [(k, v)].
Proof. intros H. unfold lhm_insert. rewrite (filter_fresh md_eqb); [reflexivity| |exact H]. intros x. apply md_eqb_eq. Qed.
Theorem lhm_of_list_nodup l : NoDup (List.map fst l) -> lhm_of_list l = l.
Proof.
  apply (fold_left_append _ (fun l => NoDup (List.map fst l))) with (acc := []).
  intros acc [k v] r H. apply lhm_insert_fresh. exact (NoDup_keys_fresh _ _ _ _ H).
Qed.

Lemma list_ind2 {A} (P : list A -> Prop) :
  P [] -> (forall x, P [x]) -> (forall x y r, P r -> P (x :: y :: r)) -> forall l, P l.
Proof.
  intros H0 H1 H2. fix go 1. intros [|x [|y r]]; [exact H0|apply H1|apply H2, go].
Qed.

Definition lower_hexc (c : N) : bool := ((48 <=? c) && (c <=? 57)) || ((97 <=? c) && (c <=? 102)).
Lemma lower_hexc_unhexc c : lower_hexc c = true -> exists n, unhexc c = Some n /\ hexc n = c /\ n < 16.
Proof.
  unfold lower_hexc, unhexc, hexc. intros H. destruct ((48 <=? c) && (c <=? 57)) eqn:E1.
  - exists (c - 48). destruct (c - 48 <? 10) eqn:E; repeat split; lia.
  - destruct ((97 <=? c) && (c <=? 102)) eqn:E2; [|discriminate]. exists (c - 87). destruct (c - 87 <? 10) eqn:E; repeat split; lia.
Qed.

Lemma lower_hexb_unhex s : lower_hexb s = true -> exists b, unhex s = Some b /\ hex b = s /\ blen s = 2 * blen b.
Proof.
  unfold lower_hexb. fold lower_hexc. rewrite andb_true_iff. intros [Hl He]. revert Hl He.
  induction s as [|h|h l r IH] using list_ind2; intros Hl He; [now exists []|discriminate|].
  cbn [forallb] in Hl. apply andb_prop in Hl as [Hh Hl]. apply andb_prop in Hl as [Hl Hr].
  destruct (lower_hexc_unhexc _ Hh) as (a & Ea & Ha & La). destruct (lower_hexc_unhexc _ Hl) as (bb & Eb & Hb & Lb).
  destruct (IH Hr) as (t & Et & Ht & Lt).
  { unfold blen in *. cbn [List.length] in He. rewrite !Nat2N.inj_succ, N.even_succ_succ in He. exact He. }
  exists (a * 16 + bb :: t). cbn [unhex hex]. rewrite Ea, Eb, Et, Ht. split; [reflexivity|]. split.
  - replace ((a * 16 + bb) / 16) with a by (apply N.div_unique with bb; lia).
    replace ((a * 16 + bb) mod 16) with bb by (apply N.mod_unique with a; lia).
    now rewrite Ha, Hb.
  - unfold blen in *. cbn [List.length]. rewrite !Nat2N.inj_succ. lia.
Qed.

Lemma starts_with_app p s : starts_with p s = true -> s = p ++ skipn (List.length p) s.
Proof.
  revert s. induction p as [|x p IH]; intros s H; [reflexivity|].
  destruct s as [|y s]; [discriminate|]. cbn [starts_with] in H. apply andb_prop in H as [H1 H2].
  apply N.eqb_eq in H1. subst. cbn [app List.length skipn]. f_equal. now apply IH.
Qed.

Lemma pairs_all_forallb fk fv l : pairs_all fk fv l = forallb (fun kv => fk (fst kv) && fv (snd kv)) l.
Proof. induction l as [|[k v] r IH]; cbn [pairs_all forallb fst snd]; [reflexivity|]. now rewrite IH. Qed.

(* a map entry {"k": .., "v": ..} of either detailed schema, read with the converter [f] *)
Definition entry_dec {A} (c : cfg) (f : json -> result A) (e : json) : result (A * A) :=
  match e with
  | JObj l2 =>
      if entry_shape_ok c l2 then
        let* mk := on_key k_k f Err l2 in
        let* mv := on_key k_v f Err l2 in
        Ok (mk, mv)
      else Err
  | _ => Err
  end.
Definition pair_enc (c : cfg) (sc : schema) (kv : bytes * json) : result (md * md) :=
  match kv with (rk, v) => let* mk := encode_key c sc rk in let* mv := j2m c sc v in Ok (mk, mv) end.
Definition entry_enc (kv : md * md) : result json :=
  match kv with (k, v) => let* jk := m2j Detailed k in let* jv := m2j Detailed v in Ok (JObj [(k_k, jk); (k_v, jv)]) end.
Definition pair_dec (sc : schema) (kv : md * md) : result (bytes * json) :=
  match kv with (k, v) => let* ks := decode_key sc k in let* jv := m2j sc v in Ok (ks, jv) end.

(* the conversions, equation by equation: all by computation on the closed key words *)
Lemma j2m_plain c sc j : sc <> Detailed ->
  j2m c sc j = match j with
               | JNull | JBool _ => Err
               | JInt _ | JNegZero | JFloat _ => encode_number c j
               | JStr s => encode_string s sc
               | JArr l => let* xs := mapM (j2m c sc) l in Ok (MList xs)
               | JObj l => let* kvs := mapM (pair_enc c sc) l in Ok (MMap (lhm_of_list kvs))
               end.
Proof. destruct sc; [now destruct j|now destruct j|contradiction]. Qed.
Lemma j2m_det_single c k v : j2m c Detailed (JObj [(k, v)]) =
  if bytes_eqb k k_int then match v with JInt _ | JNegZero | JFloat _ => encode_number c v | _ => Err end
  else if bytes_eqb k k_string then match v with JStr s => new_text s | _ => Err end
  else if bytes_eqb k k_bytes then
    match v with JStr s => match unhex s with Some b => new_bytes b | None => Err end | _ => Err end
  else if bytes_eqb k k_list then
    match v with JArr l => let* xs := mapM (j2m c Detailed) l in Ok (MList xs) | _ => Err end
  else if bytes_eqb k k_map then
    match v with JArr es => let* kvs := mapM (entry_dec c (j2m c Detailed)) es in Ok (MMap (lhm_of_list kvs)) | _ => Err end
  else Err.
Proof. reflexivity. Qed.
Lemma j2m_det_bytes c s : j2m c Detailed (JObj [(k_bytes, JStr s)]) =
  match unhex s with Some b => new_bytes b | None => Err end.
Proof. reflexivity. Qed.
Lemma j2m_det_map c es : j2m c Detailed (JObj [(k_map, JArr es)]) =
  let* kvs := mapM (entry_dec c (j2m c Detailed)) es in Ok (MMap (lhm_of_list kvs)).
Proof. reflexivity. Qed.
(* what m2j wraps under a type key in the detailed schema is read like the bare value of the other schemas *)
Lemma j2m_wrap_list c sc l : j2m c sc (wrap sc k_list (JArr l)) = let* xs := mapM (j2m c sc) l in Ok (MList xs).
Proof. now destruct sc. Qed.
Lemma j2m_wrap_int c sc z : j2m c sc (wrap sc k_int (JInt z)) = encode_number c (JInt z).
Proof. now destruct sc. Qed.
Lemma j2m_wrap_string c sc s : j2m c sc (wrap sc k_string (JStr s)) = encode_string s sc.
Proof. now destruct sc. Qed.

Lemma m2j_det_map l : m2j Detailed (MMap l) = let* es := mapM entry_enc l in Ok (JObj [(k_map, JArr es)]).
Proof. reflexivity. Qed.
Lemma m2j_plain_map sc l : sc <> Detailed ->
  m2j sc (MMap l) = let* kvs := mapM (pair_dec sc) l in Ok (JObj (obj_of_list kvs)).
Proof. destruct sc; [reflexivity|reflexivity|contradiction]. Qed.
Lemma m2j_list sc l : m2j sc (MList l) = let* xs := mapM (m2j sc) l in Ok (wrap sc k_list (JArr xs)).
Proof. reflexivity. Qed.

Lemma entry_dec_exact {A} c (f : json -> result A) jk jv :
  entry_dec c f (JObj [(k_k, jk); (k_v, jv)]) = let* mk := f jk in let* mv := f jv in Ok (mk, mv).
Proof.
  unfold entry_dec, entry_shape_ok. change (has_key k_k [(k_k, jk); (k_v, jv)]) with true.
  change (has_key k_v [(k_k, jk); (k_v, jv)]) with true. cbn [andb List.length Nat.eqb].
  rewrite orb_true_r. reflexivity.
Qed.
Lemma entry_enc_key kv e : entry_enc kv = Ok e ->
  m2j Detailed (fst kv) = Ok (match e with JObj ((_, kj) :: _) => kj | _ => JNull end).
Proof. destruct kv as [k v]. intros H. apply bind_ok in H as (jk & Ek & H). apply bind_ok in H as (jv & _ & [= <-]). exact Ek. Qed.

Lemma pair_dec_noconv kv b : pair_dec NoConv kv = Ok b -> fst kv = MText (fst b) /\ m2j NoConv (snd kv) = Ok (snd b).
Proof.
  destruct kv as [k v]. intros H. apply bind_ok in H as (ks & Hk & H). apply bind_ok in H as (jv & Ev & [= <-]).
  destruct k; try discriminate. injection Hk as <-. now split.
Qed.

Lemma md_wf_map l : md_wf (MMap l) = true ->
  NoDup (List.map fst l) /\ forall kv, In kv l -> md_wf (fst kv) = true /\ md_wf (snd kv) = true.
Proof.
  cbn [md_wf]. rewrite andb_true_iff, keys_nodupb_NoDup, pairs_all_forallb, forallb_forall.
  intros [H1 H2]. split; [exact H1|]. intros kv Hkv. now apply andb_prop, H2.
Qed.

Lemma in_range_json z : in_range i64_min u64_max z = int_json_range z.
Proof. unfold in_range, int_json_range, i64_min, u64_max. destruct (0 <=? z)%Z eqn:E; lia. Qed.

Lemma new_text_ok s : blen s <=? MD_MAX_LEN = true -> new_text s = Ok (MText s).
Proof. intros H. unfold new_text. destruct (N.ltb_spec MD_MAX_LEN (blen s)); [lia|reflexivity]. Qed.
Lemma new_bytes_ok b : blen b <=? MD_MAX_LEN = true -> new_bytes b = Ok (MBytes b).
Proof. intros H. unfold new_bytes. destruct (N.ltb_spec MD_MAX_LEN (blen b)); [lia|reflexivity]. Qed.

(* a result that is a value exactly when a test holds, and an error otherwise *)
Definition res_dom {A} (r : result A) (b : bool) : Prop := if b then exists a, r = Ok a else r = Err.

Lemma res_dom_err {A} (r : result A) b : res_dom r b -> b = false -> r = Err.
Proof. now intros H ->. Qed.
Lemma res_dom_val {A} (r : result A) b : res_dom r b -> b = true -> exists a, r = Ok a.
Proof. now intros H ->. Qed.
Lemma res_dom_mapM {A B} (f : A -> result B) (g : A -> bool) l :
  Forall (fun x => res_dom (f x) (g x)) l -> res_dom (mapM f l) (forallb g l).
Proof.
  induction 1 as [|x r Hx _ IH]; cbn [mapM forallb]; [now exists []|].
  unfold res_dom in *. destruct (g x).
  - destruct Hx as [y ->]. cbn [bind andb]. destruct (forallb g r).
    + destruct IH as [ys ->]. now eexists.
    + now rewrite IH.
  - now rewrite Hx.
Qed.
Lemma res_dom_bind {A B} (r : result A) (f : A -> B) b :
  res_dom r b -> res_dom (let* a := r in Ok (f a)) b.
Proof. unfold res_dom. destruct b; [intros [a ->]; now eexists|intros ->; reflexivity]. Qed.
Lemma res_dom_seq {A B} (r : result A) (k : A -> result B) b1 b2 :
  res_dom r b1 -> (forall a, res_dom (k a) b2) -> res_dom (let* a := r in k a) (b1 && b2).
Proof. unfold res_dom at 1. destruct b1; [intros [a ->] Hk; exact (Hk a)|intros -> _; reflexivity]. Qed.
Lemma res_dom_pair {A B} (r1 : result A) (r2 : result B) b1 b2 :
  res_dom r1 b1 -> res_dom r2 b2 -> res_dom (let* a := r1 in let* b := r2 in Ok (a, b)) (b1 && b2).
Proof. intros H1 H2. apply res_dom_seq; [exact H1|]. intros a. now apply res_dom_bind. Qed.
Lemma res_dom_ok {A} (a : A) : res_dom (Ok a) true.
Proof. now exists a. Qed.

Lemma new_text_dom s : res_dom (new_text s) (blen s <=? MD_MAX_LEN).
Proof. unfold new_text, res_dom. destruct (MD_MAX_LEN <? blen s) eqn:E; destruct (blen s <=? MD_MAX_LEN) eqn:E2; try lia; eauto. Qed.
Lemma new_bytes_dom s : res_dom (new_bytes s) (blen s <=? MD_MAX_LEN).
Proof. unfold new_bytes, res_dom. destruct (MD_MAX_LEN <? blen s) eqn:E; destruct (blen s <=? MD_MAX_LEN) eqn:E2; try lia; eauto. Qed.

(* An entry of a detailed map converts exactly when it is an object with the two keys "k" and "v" whose values
   convert: an object is sorted, so with two entries it can hold "k" and "v" only in this order. *)
Lemma entry_dec_domain {A} c (f : json -> result A) (dom : json -> bool) e :
  c_entry_lenient c = false -> json_wf e = true ->
  (forall x, (jsize x < jsize e)%nat -> json_wf x = true -> res_dom (f x) (dom x)) ->
  res_dom (entry_dec c f e) (entry_okb k_k k_v dom e).
Proof.
  intros Hlen Hwf IH. destruct e as [| | | | | | |l2]; try reflexivity.
  unfold entry_dec, entry_shape_ok. rewrite Hlen. cbn [orb].
  destruct l2 as [|[a x] [|[b y] [|p r]]]; cbn [List.length Nat.eqb]; try (rewrite !andb_false_r; reflexivity).
  cbn [json_wf keys_ascending obj_all] in Hwf. rewrite !andb_true_iff in Hwf. destruct Hwf as [[Hlt _] [[_ Wx] [[_ Wy] _]]].
  destruct (jsize_entry a x b y) as [Sx Sy].
  rewrite andb_true_r, !on_key_get. unfold has_key. cbn [entry_okb].
  pose proof (obj2_get k_k k_v a x b y eq_refl Hlt) as G.
  destruct (obj_get k_k _) as [x'|]; [|now rewrite G]. destruct (obj_get k_v _) as [y'|]; [|now rewrite G].
  destruct G as (-> & -> & -> & ->). rewrite !bytes_eqb_refl. apply res_dom_pair; apply IH; assumption.
Qed.

(* the array under "list" / "fields" and the entry array under "map", for a converter [f] that is defined exactly on [dom]
   below the size of j *)
Section Below.
  Context {A : Type} (f : json -> result A) (dom : json -> bool) (j : json).
  Hypothesis IH : forall x, (jsize x < jsize j)%nat -> json_wf x = true -> res_dom (f x) (dom x).

  Lemma res_dom_items {B} (g : list A -> B) l :
    json_wf (JArr l) = true -> (forall x, In x l -> (jsize x < jsize j)%nat) ->
    res_dom (let* xs := mapM f l in Ok (g xs)) (forallb dom l).
  Proof.
    intros Wl Sl. apply res_dom_bind, res_dom_mapM. cbn [json_wf] in Wl. rewrite forallb_forall in Wl.
    apply Forall_forall. intros x Hx. apply IH; [now apply Sl|now apply Wl].
  Qed.
  Lemma res_dom_entries {B} c (g : list (A * A) -> B) es :
    c_entry_lenient c = false -> json_wf (JArr es) = true -> (forall e, In e es -> (jsize e < jsize j)%nat) ->
    res_dom (let* kvs := mapM (entry_dec c f) es in Ok (g kvs)) (entries_all k_k k_v dom es).
  Proof.
    intros Hlen Wl Sl. apply res_dom_bind. rewrite entries_all_forallb. apply res_dom_mapM.
    cbn [json_wf] in Wl. rewrite forallb_forall in Wl. apply Forall_forall. intros e He.
    apply entry_dec_domain; [exact Hlen|now apply Wl|]. intros x Hx Wx. apply IH; [specialize (Sl e He); lia|exact Wx].
  Qed.
End Below.

Section WithCfg.
  Variable c : cfg.
  Hypothesis Hneg : c_negmin_panics c = false.

  Lemma encode_number_spec j :
    encode_number c j = if num_in_schema j then Ok (MInt (match j with JInt z => z | _ => 0%Z end)) else Err.
  Proof.
    unfold encode_number, as_u64, as_i64, num_in_schema. rewrite Hneg. cbn [andb].
    destruct j; try reflexivity.
    assert (E : in_range i64_min u64_max z = in_range 0 u64_max z || in_range i64_min i64_max z)
      by (unfold in_range, i64_min, i64_max, u64_max; lia).
    rewrite E. destruct (in_range 0 u64_max z); [reflexivity|]. now destruct (in_range i64_min i64_max z).
  Qed.
  Lemma encode_number_int z : int_json_range z = true -> encode_number c (JInt z) = Ok (MInt z).
  Proof. intros H. rewrite encode_number_spec. cbn [num_in_schema]. now rewrite in_range_json, H. Qed.

  Theorem md_json_md sc m : sc <> Basic -> md_wf m = true -> match sc with NoConv => md_sorted m | _ => true end = true ->
    forall j, m2j sc m = Ok j -> j2m c sc j = Ok m.
  Proof.
    intros Hsc. induction m as [l IH|l IH|z|b|s] using md_ind'; intros Hwf Hs j Hj.
    - rewrite Forall_forall in IH. apply md_wf_map in Hwf as [Hnd Hwf]. destruct sc; [|contradiction|].
      + (* the sorted object holds the entries in the order of the map *)
        cbn [md_sorted] in Hs. apply andb_prop in Hs as [Hasc Hs].
        rewrite pairs_all_forallb, forallb_forall in Hs.
        rewrite m2j_plain_map in Hj by discriminate. apply bind_ok in Hj as (kvs & E & [= <-]).
        rewrite j2m_plain by discriminate. cbv match. rewrite obj_of_list_sorted.
        2: { rewrite <- Hasc. apply keys_ascending_keys. rewrite map_map. symmetry.
             apply (mapM_map_eq (pair_dec NoConv)); [|exact E]. intros kv b H. now destruct (pair_dec_noconv _ _ H) as [-> _]. }
        assert (Hinv : Forall (fun kv => forall b, pair_dec NoConv kv = Ok b -> pair_enc c NoConv b = Ok kv) l).
        { apply Forall_forall. intros [k v] Hkv [ks jv] H. destruct (pair_dec_noconv _ _ H) as [Hk Ev]. cbn [fst snd] in *. subst k.
          destruct (Hwf _ Hkv) as [Wk Wv]. destruct (IH _ Hkv) as [_ IHv]. specialize (Hs _ Hkv). cbn [fst snd] in *.
          cbn [pair_enc encode_key]. rewrite new_text_ok by exact Wk. cbn [bind]. now rewrite (IHv Wv Hs _ Ev). }
        rewrite (mapM_inverse _ _ _ _ Hinv E). cbn [bind]. now rewrite lhm_of_list_nodup.
      + rewrite m2j_det_map in Hj. apply bind_ok in Hj as (es & E & [= <-]).
        assert (Hinv : Forall (fun kv => forall e, entry_enc kv = Ok e -> entry_dec c (j2m c Detailed) e = Ok kv) l).
        { apply Forall_forall. intros [k v] Hkv e H. destruct (Hwf _ Hkv) as [Wk Wv]. destruct (IH _ Hkv) as [IHk IHv].
          apply bind_ok in H as (jk & Ek & H). apply bind_ok in H as (jv & Ev & [= <-]). cbn [fst snd] in *.
          now rewrite entry_dec_exact, (IHk Wk eq_refl _ Ek), (IHv Wv eq_refl _ Ev). }
        rewrite j2m_det_map, (mapM_inverse _ _ _ _ Hinv E). cbn [bind]. now rewrite lhm_of_list_nodup.
    - rewrite m2j_list in Hj. apply bind_ok in Hj as (xs & E & [= <-]). cbn [md_wf] in Hwf. rewrite forallb_forall in Hwf.
      rewrite Forall_forall in IH. rewrite j2m_wrap_list, (mapM_inverse (m2j sc) (j2m c sc) l xs); [reflexivity| |exact E].
      apply Forall_forall. intros x Hx y Hy. apply (IH x Hx); [now apply Hwf| |exact Hy].
      destruct sc; try reflexivity. cbn [md_sorted] in Hs. rewrite forallb_forall in Hs. now apply Hs.
    - cbn [m2j] in Hj. destruct (int_json_range z) eqn:E; [|discriminate]. injection Hj as <-.
      rewrite j2m_wrap_int. now apply encode_number_int.
    - destruct sc; [discriminate|contradiction|]. injection Hj as <-. cbn [wrap md_wf] in *.
      apply andb_prop in Hwf as [H1 H2]. rewrite j2m_det_bytes, (unhex_hex _ (bytes_okb_ok _ H1)). now apply new_bytes_ok.
    - injection Hj as <-. rewrite j2m_wrap_string. cbn [md_wf] in Hwf.
      destruct sc; [|contradiction|]; now apply new_text_ok.
  Qed.

  (* JSON -> metadata -> JSON on each schema's normal form: integer keys must be range-checked *)
  Hypothesis Hkey : c_key_unchecked c = false.

  Lemma basic_str_rt s : basic_str_nf s = true ->
    exists m, encode_string s Basic = Ok m /\ m2j Basic m = Ok (JStr s) /\ decode_key Basic m = Ok s.
  Proof.
    unfold basic_str_nf, encode_string, hex_string_to_bytes. intros H.
    assert (Ht : blen s <=? MD_MAX_LEN = true ->
                 exists m, new_text s = Ok m /\ m2j Basic m = Ok (JStr s) /\ decode_key Basic m = Ok s).
    { intros Hl. exists (MText s). now rewrite new_text_ok. }
    destruct (starts_with k_0x s) eqn:E0; [|now apply Ht].
    destruct (unhex (skipn 2 s)) as [b|] eqn:Eu; [|now apply Ht].
    apply andb_prop in H as [H1 H2]. exists (MBytes b). rewrite new_bytes_ok by exact H2.
    assert (Hs : bytes_to_hex_string b = s).
    { destruct (lower_hexb_unhex _ H1) as (b' & Eu' & Hh & _). rewrite Eu in Eu'. injection Eu' as <-.
      unfold bytes_to_hex_string. rewrite Hh. symmetry. exact (starts_with_app k_0x s E0). }
    repeat split; cbn [m2j decode_key wrap]; now rewrite Hs.
  Qed.

  Lemma key_rt sc rk : sc <> Detailed ->
    match sc with Basic => basic_key_nf rk | _ => blen rk <=? MD_MAX_LEN end = true ->
    exists mk, encode_key c sc rk = Ok mk /\ decode_key sc mk = Ok rk.
  Proof.
    intros Hsc H. destruct sc; [exists (MText rk); now rewrite <- (new_text_ok rk H)| |contradiction].
    unfold basic_key_nf in H. cbn [encode_key]. unfold int_key_range. rewrite Hkey. cbn [orb].
    destruct (parse_i128 rk) as [x|].
    - destruct (in_range (- u64_max) u64_max x).
      + apply andb_prop in H as [H1 H2]. apply bytes_eqb_eq in H2. exists (MInt x). split; [reflexivity|].
        cbn [decode_key]. rewrite <- in_range_json, H1. now rewrite H2.
      + destruct (basic_str_rt _ H) as [m [E1 [_ E3]]]. eauto.
    - destruct (basic_str_rt _ H) as [m [E1 [_ E3]]]. eauto.
  Qed.

  Theorem json_md_json_plain sc j : sc <> Detailed ->
    json_wf j = true -> nf_plain sc j = true -> exists m, j2m c sc j = Ok m /\ m2j sc m = Ok j.
  Proof.
    intros Hsc. induction j as [|b|z| |lit|s|l IH|l IH] using json_ind'; intros Hwf Hnf; try discriminate;
      rewrite j2m_plain by assumption; cbv match; cbn [json_wf nf_plain] in Hwf, Hnf.
    - exists (MInt z). rewrite in_range_json in Hnf. rewrite encode_number_int by exact Hnf.
      cbn [m2j]. rewrite Hnf. now destruct sc.
    - destruct sc; [|clear Hsc|contradiction].
      + exists (MText s). now rewrite <- (new_text_ok s Hnf).
      + destruct (basic_str_rt _ Hnf) as [m [E1 [E2 _]]]. now exists m.
    - rewrite forallb_forall in Hwf, Hnf. rewrite Forall_forall in IH.
      destruct (mapM_inverse_total (j2m c sc) (m2j sc) l) as (xs & E1 & E2); [apply Forall_forall; auto|].
      exists (MList xs). rewrite E1, m2j_list, E2. now destruct sc.
    - apply andb_prop in Hwf as [Hasc Hwf]. rewrite obj_all_forallb, forallb_forall in Hwf, Hnf. rewrite Forall_forall in IH.
      destruct (mapM_inverse_total (pair_enc c sc) (pair_dec sc) l) as (kvs & E1 & E2).
      { apply Forall_forall. intros [rk v] Hkv. specialize (Hwf _ Hkv). specialize (IH _ Hkv). destruct (andb_prop _ _ (Hnf _ Hkv)) as [Nk Nv].
        cbn [fst snd] in *. destruct (key_rt sc rk Hsc Nk) as [mk [K1 K2]]. destruct (IH Hwf Nv) as [mv [V1 V2]].
        exists (mk, mv). cbn [pair_enc pair_dec]. now rewrite K1, V1, K2, V2. }
      exists (MMap kvs). rewrite E1. cbn [bind]. rewrite lhm_of_list_nodup.
      + rewrite m2j_plain_map, E2 by assumption. cbn [bind]. now rewrite obj_of_list_sorted.
      + apply (mapM_NoDup_keys (pair_dec sc) fst fst (decode_key sc) kvs l); [|exact E2|now apply keys_ascending_NoDup].
        intros [k v] b H. apply bind_ok in H as (ks & Hk & H). apply bind_ok in H as (jv & _ & [= <-]). exact Hk.
  Qed.

  Theorem json_md_json_detailed j :
    nf_detailed j = true -> exists m, j2m c Detailed j = Ok m /\ m2j Detailed m = Ok j.
  Proof.
    induction j as [j IH] using json_size_ind. intros Hnf.
    destruct j as [| | | | | | |[|[k v] [|]]]; try discriminate. cbn [nf_detailed] in Hnf. rewrite j2m_det_single.
    destruct (bytes_eqb k k_int) eqn:E1.
    { apply bytes_eqb_eq in E1 as ->. destruct v; try discriminate. cbn [num_in_json_range] in Hnf. rewrite in_range_json in Hnf.
      exists (MInt z). rewrite encode_number_int by exact Hnf. cbn [m2j]. now rewrite Hnf. }
    destruct (bytes_eqb k k_string) eqn:E2.
    { apply bytes_eqb_eq in E2 as ->. destruct v; try discriminate. exists (MText s). rewrite new_text_ok by exact Hnf. split; reflexivity. }
    destruct (bytes_eqb k k_bytes) eqn:E3.
    { apply bytes_eqb_eq in E3 as ->. destruct v; try discriminate. apply andb_prop in Hnf as [H1 H2].
      destruct (lower_hexb_unhex _ H1) as (b & Hu & Hh & Hl).
      exists (MBytes b). rewrite Hu, new_bytes_ok by (unfold MD_MAX_LEN in *; lia). cbn [m2j wrap]. now rewrite Hh. }
    destruct (bytes_eqb k k_list) eqn:E4.
    { apply bytes_eqb_eq in E4 as ->. destruct v as [| | | | | |l|]; try discriminate. rewrite forallb_forall in Hnf.
      destruct (mapM_inverse_total (j2m c Detailed) (m2j Detailed) l) as (xs & X1 & X2).
      { apply Forall_forall. intros x Hx. apply IH; [now apply jsize_item|now apply Hnf]. }
      exists (MList xs). now rewrite X1, m2j_list, X2. }
    destruct (bytes_eqb k k_map) eqn:E5; [|discriminate].
    apply bytes_eqb_eq in E5 as ->. destruct v as [| | | | | |es|]; try discriminate.
    apply andb_prop in Hnf as [Hnd Hes]. apply json_nodupb_NoDup in Hnd. rewrite entries_all_forallb, forallb_forall in Hes.
    destruct (mapM_inverse_total (entry_dec c (j2m c Detailed)) entry_enc es) as (kvs & X1 & X2).
    { apply Forall_forall. intros e He. destruct (entry_okb_true _ _ _ _ (Hes e He)) as (kj & vj & -> & Nk & Nv).
      pose proof (jsize_item _ k_map _ He) as S. destruct (jsize_entry k_k kj k_v vj) as [Sk Sv].
      destruct (IH kj) as (mk & K1 & K2); [lia|exact Nk|]. destruct (IH vj) as (mv & V1 & V2); [lia|exact Nv|].
      exists (mk, mv). rewrite entry_dec_exact, K1, V1. cbn [bind entry_enc]. now rewrite K2, V2. }
    exists (MMap kvs). rewrite X1. cbn [bind]. rewrite lhm_of_list_nodup; [now rewrite m2j_det_map, X2|].
    exact (mapM_NoDup_keys entry_enc fst _ (m2j Detailed) kvs es entry_enc_key X2 Hnd).
  Qed.

  Theorem json_md_json sc j :
    json_wf j = true -> nf sc j = true -> exists m, j2m c sc j = Ok m /\ m2j sc m = Ok j.
  Proof.
    intros Hwf Hnf. destruct sc.
    - apply json_md_json_plain; [discriminate|assumption|assumption].
    - apply json_md_json_plain; [discriminate|assumption|assumption].
    - now apply json_md_json_detailed.
  Qed.

  (* the conversion is defined exactly on the schema's language, once entry objects may hold nothing but "k" and "v" *)
  Hypothesis Hlen : c_entry_lenient c = false.

  Lemma encode_number_dom j : res_dom (encode_number c j) (num_in_schema j).
  Proof. rewrite encode_number_spec. unfold res_dom. destruct (num_in_schema j); eauto. Qed.
  Lemma encode_string_basic_dom s : res_dom (encode_string s Basic) (basic_str_dom s).
  Proof.
    unfold encode_string, basic_str_dom. destruct (hex_string_to_bytes s); [apply new_bytes_dom|apply new_text_dom].
  Qed.
  Lemma encode_key_dom sc rk : sc <> Detailed ->
    res_dom (encode_key c sc rk) (match sc with Basic => basic_key_dom rk | _ => blen rk <=? MD_MAX_LEN end).
  Proof.
    intros Hsc. destruct sc; [apply new_text_dom| |contradiction].
    cbn [encode_key]. unfold basic_key_dom, int_key_range. rewrite Hkey. cbn [orb].
    destruct (parse_i128 rk) as [x|]; [|apply encode_string_basic_dom].
    destruct (in_range (- u64_max) u64_max x); cbn [orb]; [apply res_dom_ok|apply encode_string_basic_dom].
  Qed.

  Theorem j2m_plain_domain sc j : sc <> Detailed -> res_dom (j2m c sc j) (dom_plain sc j).
  Proof.
    intros Hsc. induction j as [|b|z| |lit|s|l IH|l IH] using json_ind'; rewrite j2m_plain by assumption; cbv match; cbn [dom_plain];
      try reflexivity; try apply encode_number_dom.
    - destruct sc; [apply new_text_dom|apply encode_string_basic_dom|contradiction].
    - now apply res_dom_bind, res_dom_mapM.
    - apply res_dom_bind. rewrite obj_all_forallb. apply res_dom_mapM.
      eapply Forall_impl; [|exact IH]. intros [rk v] Hv. apply res_dom_pair; [now apply encode_key_dom|exact Hv].
  Qed.

  Theorem j2m_detailed_domain j : json_wf j = true -> res_dom (j2m c Detailed j) (dom_detailed j).
  Proof.
    induction j as [j IH] using json_size_ind. intros Hwf.
    destruct j as [| | | | | | |[|[k v] [|]]]; try reflexivity. rewrite j2m_det_single. cbn [dom_detailed].
    cbn [json_wf keys_ascending obj_all] in Hwf. rewrite !andb_true_iff in Hwf. destruct Hwf as [_ [[_ Wv] _]].
    destruct (bytes_eqb k k_int); [destruct v; try reflexivity; apply encode_number_dom|].
    destruct (bytes_eqb k k_string); [destruct v; try reflexivity; apply new_text_dom|].
    destruct (bytes_eqb k k_bytes).
    { destruct v; try reflexivity. destruct (unhex s); [apply new_bytes_dom|reflexivity]. }
    destruct (bytes_eqb k k_list).
    { destruct v as [| | | | | |l|]; try reflexivity. apply (res_dom_items _ _ _ IH _ l Wv). intros x. apply jsize_item. }
    destruct (bytes_eqb k k_map); [|reflexivity].
    destruct v as [| | | | | |es|]; try reflexivity. apply (res_dom_entries _ _ _ IH c _ es Hlen Wv). intros x. apply jsize_item.
  Qed.

  Theorem j2m_domain sc j : json_wf j = true -> res_dom (j2m c sc j) (in_schema sc j).
  Proof.
    intros Hwf. destruct sc.
    - apply j2m_plain_domain. discriminate.
    - apply j2m_plain_domain. discriminate.
    - now apply j2m_detailed_domain.
  Qed.
End WithCfg.
