(* Sorted association lists keyed by byte strings (the model of a Rust BTreeMap<K, _> whose key order is the
   byte order of some key image): polymorphic insertion, and the facts the serde layer needs:
   the result is strictly sorted, it is a permutation of the input when keys are distinct, two strictly
   sorted permutations are equal, and lookup finds every entry. *)
From CSL Require Import Base.Prelude Base.Facts Json.Json Json.JsonProofs.
From Coq Require Import Permutation.
Local Open Scope N_scope.

Section Assoc.
  Context {A : Type}.

  Fixpoint ainsert (k : bytes) (v : A) (l : list (bytes * A)) : list (bytes * A) :=
    match l with
    | [] => [(k, v)]
    | (k', v') :: r =>
        match bytes_cmp k k' with
        | Lt => (k, v) :: l
        | Eq => (k, v) :: r
        | Gt => (k', v') :: ainsert k v r
        end
    end.
  Definition aof_list (l : list (bytes * A)) : list (bytes * A) :=
    fold_left (fun acc kv => ainsert (fst kv) (snd kv) acc) l [].
  Fixpoint aget (k : bytes) (l : list (bytes * A)) : option A :=
    match l with
    | [] => None
    | (k', v) :: r => if bytes_eqb k' k then Some v else aget k r
    end.

  (* head-bounded sortedness: every key of l is above k *)
  Definition above (k : bytes) (l : list (bytes * A)) : Prop := Forall (fun kv => bytes_ltb k (fst kv) = true) l.

  Lemma ainsert_above k0 k v l : bytes_ltb k0 k = true -> above k0 l -> above k0 (ainsert k v l).
  Proof.
    intros Hk. unfold above. induction 1 as [|[k' v'] r H H0 IH]; cbn [ainsert]; [constructor; [exact Hk|constructor]|].
    destruct (bytes_cmp k k').
    - constructor; [exact Hk|exact H0].
    - constructor; [exact Hk|]. constructor; [exact H|exact H0].
    - constructor; [exact H|exact IH].
  Qed.

  Lemma ainsert_sorted k v l : keys_ascending l = true -> keys_ascending (ainsert k v l) = true.
  Proof.
    induction l as [|[k' v'] r IH]; intros H; [reflexivity|]. cbn [ainsert].
    apply keys_ascending_cons in H as [Hr Ha].
    destruct (bytes_cmp k k') eqn:E.
    - apply bytes_cmp_eq in E. subst k'. apply keys_ascending_cons. split; assumption.
    - apply keys_ascending_cons. split; [apply keys_ascending_cons; split; assumption|].
      constructor; [now apply bytes_cmp_lt_ltb|]. eapply Forall_impl; [|exact Ha].
      intros kv Hkv. eapply bytes_ltb_trans; [apply bytes_cmp_lt_ltb; exact E|exact Hkv].
    - apply keys_ascending_cons. split; [now apply IH|]. apply ainsert_above; [now apply bytes_cmp_gt_lt|exact Ha].
  Qed.

  Theorem aof_list_sorted l : keys_ascending (aof_list l) = true.
  Proof. apply (fold_left_inv (fun acc => keys_ascending acc = true)); [|reflexivity]. intros acc kv _. apply ainsert_sorted. Qed.

  Lemma ainsert_perm k v l : ~ In k (List.map fst l) -> Permutation (ainsert k v l) ((k, v) :: l).
  Proof.
    induction l as [|[k' v'] r IH]; intros H; [reflexivity|]. cbn [ainsert]. cbn [List.map fst In] in H.
    destruct (bytes_cmp k k') eqn:E.
    - apply bytes_cmp_eq in E. subst. exfalso. apply H. now left.
    - reflexivity.
    - rewrite perm_swap. apply perm_skip. apply IH. tauto.
  Qed.
  Lemma aof_list_perm_gen l : forall acc, NoDup (List.map fst (acc ++ l)) ->
    Permutation (fold_left (fun acc kv => ainsert (fst kv) (snd kv) acc) l acc) (acc ++ l).
  Proof.
    induction l as [|[k v] r IH]; intros acc H; cbn [fold_left fst snd]; [now rewrite app_nil_r|].
    assert (P : Permutation (ainsert k v acc ++ r) (acc ++ (k, v) :: r)).
    { rewrite (ainsert_perm k v acc (NoDup_keys_fresh _ _ _ _ H)). apply Permutation_middle. }
    rewrite IH; [exact P|]. eapply Permutation_NoDup; [symmetry; apply Permutation_map; exact P|exact H].
  Qed.
  Theorem aof_list_perm l : NoDup (List.map fst l) -> Permutation (aof_list l) l.
  Proof. intros H. unfold aof_list. now apply (aof_list_perm_gen l []). Qed.

  (* strictly sorted lists with the same elements are equal *)
  Lemma sorted_perm_eq (l1 : list (bytes * A)) : forall l2,
    keys_ascending l1 = true -> keys_ascending l2 = true -> Permutation l1 l2 -> l1 = l2.
  Proof.
    induction l1 as [|[k1 v1] r1 IH]; intros l2 H1 H2 P.
    - apply Permutation_nil in P. now subst.
    - destruct l2 as [|[k2 v2] r2]; [symmetry in P; apply Permutation_nil in P; discriminate|].
      apply keys_ascending_cons in H1 as [S1 A1]. apply keys_ascending_cons in H2 as [S2 A2].
      assert (E : (k1, v1) = (k2, v2)).
      { assert (I1 : In (k1, v1) ((k2, v2) :: r2)) by (eapply Permutation_in; [exact P|now left]).
        assert (I2 : In (k2, v2) ((k1, v1) :: r1)) by (eapply Permutation_in; [symmetry; exact P|now left]).
        destruct I1 as [I1|I1]; [now symmetry|]. destruct I2 as [I2|I2]; [exact I2|].
        unfold above in A1, A2. rewrite Forall_forall in A1, A2.
        specialize (A1 _ I2). specialize (A2 _ I1). cbn [fst] in *.
        pose proof (bytes_ltb_trans _ _ _ A1 A2) as C. now rewrite bytes_ltb_irrefl in C. }
      inversion E; subst. f_equal. apply IH; [assumption|assumption|]. now apply Permutation_cons_inv in P.
  Qed.

  (* the sorted form of any rearrangement of a strictly sorted list is that list *)
  Theorem aof_list_of_perm l l' : keys_ascending l = true -> Permutation l' l -> aof_list l' = l.
  Proof.
    intros H P. apply sorted_perm_eq; [apply aof_list_sorted|exact H|].
    eapply Permutation_trans; [|exact P]. apply aof_list_perm.
    eapply Permutation_NoDup; [symmetry; apply Permutation_map; exact P|now apply keys_ascending_NoDup].
  Qed.

  Theorem aof_list_sorted_id l : keys_ascending l = true -> aof_list l = l.
  Proof. intros H. now apply aof_list_of_perm. Qed.

  (* every entry of the result was an entry of the input *)
  Lemma ainsert_in k v l e : In e (ainsert k v l) -> e = (k, v) \/ In e l.
  Proof.
    induction l as [|[k' v'] r IH]; cbn [ainsert]; [intros [<-|[]]; now left|].
    destruct (bytes_cmp k k'); cbn [In].
    - intros [<-|H]; [now left|right; now right].
    - intros [<-|H]; [now left|now right].
    - intros [<-|H]; [right; now left|]. destruct (IH H) as [->|H']; [now left|right; now right].
  Qed.
  Lemma aof_list_in l e : In e (aof_list l) -> In e l.
  Proof.
    revert e. apply (fold_left_inv (fun acc => forall e, In e acc -> In e l)); [|intros e []].
    intros acc [k v] Hkv IH e He. destruct (ainsert_in _ _ _ _ He) as [->|H]; [exact Hkv|exact (IH e H)].
  Qed.

  Lemma aget_in k v l : NoDup (List.map fst l) -> In (k, v) l -> aget k l = Some v.
  Proof.
    induction l as [|[k' v'] r IH]; intros Hnd Hin; [destruct Hin|]. cbn [aget]. cbn [List.map fst] in Hnd. inversion Hnd; subst.
    destruct Hin as [E|Hin].
    - inversion E; subst. now rewrite bytes_eqb_refl.
    - destruct (bytes_eqb k' k) eqn:E; [|now apply IH].
      apply bytes_eqb_eq in E. subst. exfalso. apply H1. apply in_map_iff. exists (k, v). split; [reflexivity|exact Hin].
  Qed.
  Theorem aget_of_list k v l : NoDup (List.map fst l) -> In (k, v) l -> aget k (aof_list l) = Some v.
  Proof.
    intros Hnd Hin. pose proof (aof_list_perm l Hnd) as P. apply aget_in.
    - eapply Permutation_NoDup; [symmetry; apply Permutation_map; exact P|exact Hnd].
    - eapply Permutation_in; [symmetry; exact P|exact Hin].
  Qed.
  Lemma aget_none k l : ~ In k (List.map fst l) -> aget k l = None.
  Proof.
    induction l as [|[k' v'] r IH]; intros H; [reflexivity|]. cbn [aget]. cbn [List.map fst In] in H.
    destruct (bytes_eqb k' k) eqn:E; [apply bytes_eqb_eq in E; tauto|]. apply IH. tauto.
  Qed.
End Assoc.

(* mapping the payloads commutes with sorting *)
Lemma ainsert_map {A B} (f : A -> B) k v l :
  ainsert k (f v) (List.map (fun kv => (fst kv, f (snd kv))) l) = List.map (fun kv => (fst kv, f (snd kv))) (ainsert k v l).
Proof.
  induction l as [|[k' v'] r IH]; [reflexivity|]. cbn [ainsert List.map fst snd].
  destruct (bytes_cmp k k'); cbn [List.map fst snd]; [reflexivity|reflexivity|now rewrite IH].
Qed.
Lemma aof_list_map {A B} (f : A -> B) l :
  aof_list (List.map (fun kv => (fst kv, f (snd kv))) l) = List.map (fun kv => (fst kv, f (snd kv))) (aof_list l).
Proof.
  unfold aof_list. change (@nil (bytes * B)) with (List.map (fun kv : bytes * A => (fst kv, f (snd kv))) []).
  generalize (@nil (bytes * A)). induction l as [|[k v] r IH]; intros acc; [reflexivity|].
  cbn [List.map fold_left fst snd]. rewrite ainsert_map. apply IH.
Qed.

(* the JSON object operations are this structure at A = json *)
Lemma obj_insert_ainsert k v l : obj_insert k v l = ainsert k v l.
Proof. induction l as [|[k' v'] r IH]; [reflexivity|]. cbn [obj_insert ainsert]. now rewrite IH. Qed.
Lemma obj_of_list_aof_list l : obj_of_list l = aof_list l.
Proof. apply (fold_left_sim eq); [|reflexivity]. intros a c kv ->. apply obj_insert_ainsert. Qed.
Lemma obj_get_aget k l : obj_get k l = aget k l.
Proof. induction l as [|[k' v'] r IH]; [reflexivity|]. cbn [obj_get aget]. now rewrite IH. Qed.
Lemma obj_of_list_sorted l : keys_ascending l = true -> obj_of_list l = l.
Proof. rewrite obj_of_list_aof_list. apply aof_list_sorted_id. Qed.
