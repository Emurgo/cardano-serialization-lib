(* The external-string parameters of the serde layer instantiated with the CONCRETE models of C11: the bech32 crate
   (Addr/Bech32.v, round trip proved in Addr/Bech32Proofs.v), the address byte forms (Addr/Shelley.v) and the library's
   prefix selection (Addr/Bech32Iface.v default_prefix: "stake" for reward addresses, "addr" otherwise, "_test" for
   network id 0 ONLY - ids 2..15 get the main-network prefix - address.rs:570-601).  With them the address / public-key
   leg of the typed round trip needs no premise: every well-formed address that has a network id, on ANY of the 16
   network ids and of any kind, is in the domain of the address leaf. *)
From CSL Require Import Base.Prelude Addr.Crc32 Addr.Byron Addr.Shelley Addr.ShelleyProofs Addr.Bech32 Addr.Bech32Proofs
  Addr.Bech32Iface Addr.TextProofs.
From CSL Require Codec.Schema Json.Json Json.JsonProofs Json.SerdeSchema Json.SerdeLedger.
Local Open Scope N_scope.

Definition addr_text (b : bytes) : bytes :=
  match Shelley.from_bytes b with
  | Ok a => match to_bech32 Bech32.b32_encode None a with Ok s => s | _ => [] end
  | _ => []
  end.
Definition addr_of_text (s : bytes) : option bytes :=
  match from_bech32 Bech32.b32_decode s with Ok a => Some (Shelley.to_bytes a) | _ => None end.

Definition hrp_pk : list N := [101; 100; 50; 53; 53; 49; 57; 95; 112; 107].          (* "ed25519_pk" *)
Definition vkey_text (b : bytes) : bytes := match Bech32.b32_encode hrp_pk b with Some s => s | None => [] end.
Definition vkey_of_text (s : bytes) : option bytes :=
  match Bech32.b32_decode s with
  | Some (h, d) => if Json.bytes_eqb h hrp_pk then Some d else None
  | None => None
  end.

Definition conc_str (id : N) (b : bytes) : bytes := if id =? SerdeLedger.EXT_VKEY then vkey_text b else addr_text b.
Definition conc_of_str (id : N) (s : bytes) : option bytes :=
  if id =? SerdeLedger.EXT_VKEY then vkey_of_text s else addr_of_text s.

Theorem addr_text_roundtrip a :
  wf_address a -> (exists p, default_prefix a = Ok p) -> addr_of_text (addr_text (Shelley.to_bytes a)) = Some (Shelley.to_bytes a).
Proof.
  intros Hwf [p Hp]. unfold addr_text, addr_of_text. rewrite (address_roundtrip a Hwf).
  destruct (to_bech32_default_total a p Hp) as [s Hs]. rewrite Hs.
  now rewrite (bech32_roundtrip_concrete None a s Hwf Hs).
Qed.

Theorem vkey_text_roundtrip b : bytes_ok b -> vkey_of_text (vkey_text b) = Some b.
Proof.
  intros Hb. unfold vkey_text, vkey_of_text.
  assert (Hc : exists c, check_hrp hrp_pk = Ok c /\ hrp_lower c hrp_pk = hrp_pk) by (eexists; split; vm_compute; reflexivity).
  destruct Hc as [c [Hc Hl]]. destruct (b32_encode_total hrp_pk b c Hc) as [s Hs]. rewrite Hs.
  destruct (b32_roundtrip hrp_pk b s Hb Hs) as [c' [Hc' Hd]]. rewrite Hd.
  assert (c' = c) by congruence. subst. rewrite Hl. now rewrite JsonProofs.bytes_eqb_refl.
Qed.

(* every Shelley address kind has a default prefix, whatever its network id *)
Lemma shelley_has_prefix a : (match a with Byron _ => False | _ => True end) -> exists p, default_prefix a = Ok p.
Proof. destruct a; intros H; try contradiction; unfold default_prefix; cbn [network_id bind]; eauto. Qed.
