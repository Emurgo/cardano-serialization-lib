(* What the round trips of the hand-written serde string forms (SerdeForms.v, Props/C17.v) rest on: num-bigint's parser
   reads back the decimal text of every integer. *)
From CSL Require Import Base.Prelude Base.Hex Json.Decimal Json.DecimalProofs Json.Json Json.JsonProofs
  Json.MetadataJson Json.MetadataJsonProofs Json.PlutusJson Json.SerdeForms.
From Coq Require Import Decimal DecimalZ DecimalPos.
Local Open Scope N_scope.

Lemma strip_digits l : forallb is_digit l = true -> strip_underscores l = l.
Proof.
  induction l as [|c r IH]; [reflexivity|]. cbn [forallb strip_underscores filter]. intros H.
  apply andb_prop in H as [Hc Hr]. unfold is_digit in Hc. destruct (c =? 95) eqn:E; [lia|]. cbn [negb]. f_equal.
  now apply IH.
Qed.

Lemma parse_biguint_digit : forall c, is_digit c = true -> forall r,
  parse_biguint (c :: r) = option_map (fun u => Z.of_int (Decimal.Pos u)) (digits_uint (strip_underscores (c :: r))).
Proof. refine (digit_ind _ _ _ _ _ _ _ _ _ _ _); reflexivity. Qed.
Lemma parse_bigint_digit : forall c, is_digit c = true -> forall r, parse_bigint (c :: r) = parse_biguint (c :: r).
Proof. refine (digit_ind _ _ _ _ _ _ _ _ _ _ _); reflexivity. Qed.
Lemma parse_bigint_neg_digit : forall c, is_digit c = true -> forall r,
  parse_bigint (45 :: c :: r) = option_map Z.opp (parse_biguint (c :: r)).
Proof. refine (digit_ind _ _ _ _ _ _ _ _ _ _ _); reflexivity. Qed.

Theorem parse_bigint_print z : parse_bigint (print_Z z) = Some z.
Proof.
  destruct (to_int_digits z) as (c & r & Hc & Hs). rewrite <- (DecimalZ.of_to z) at 2. unfold print_Z.
  assert (P : forall u, uint_digits u = c :: r -> parse_biguint (c :: r) = Some (Z.of_int (Decimal.Pos u))).
  { intros u E. rewrite (parse_biguint_digit c Hc), <- E, strip_digits, digits_uint_digits by apply uint_digits_all_digits.
    reflexivity. }
  destruct (Z.to_int z) as [u|u]; rewrite Hs.
  - rewrite (parse_bigint_digit c Hc). now apply P.
  - rewrite (parse_bigint_neg_digit c Hc), (P u Hs). reflexivity.
Qed.

Lemma hex_length b : blen (hex b) = 2 * blen b.
Proof.
  unfold blen. induction b as [|x r IH]; [reflexivity|]. cbn [hex List.length]. rewrite !Nat2N.inj_succ. lia.
Qed.

Theorem sf_de_non_string t j : (forall s, j <> JStr s) -> sf_de t j = Err.
Proof. destruct j; try reflexivity. intros H. exfalso. now apply (H s). Qed.

(* the behaviour of Int::from_str before /repo a6f00b9 broke the round trip and totality of [sf_de] *)
Example sf_old_int_refuted :
  sf_de_gen true SInt (sf_ser SInt (SVNum (- two64Z))) = Err /\
  sf_de_gen true SInt (JStr (print_Z i128_min)) = Panic.
Proof. split; vm_compute; reflexivity. Qed.
