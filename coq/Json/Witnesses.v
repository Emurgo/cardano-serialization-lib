(* The witnesses of the refutations in Props/C17.v (found by the correspondence run / by reading, replayed on the real
   code) and non-vacuity examples for the premises of the C17 theorems. *)
From CSL Require Import Base.Prelude Base.Hex Json.Decimal Json.Json Json.MetadataJson Json.Chunks Json.PlutusJson Json.SerdeForms.
From Coq Require Import String.
Local Open Scope string_scope.
Local Open Scope N_scope.

Definition t (s : String.string) : bytes := ascii_bytes s.

(* {"b":1,"a":2} as metadata: keys inserted in the order b, a *)
Definition w_unsorted : md := MMap [(MText (t "b"), MInt 1); (MText (t "a"), MInt 2)].
Lemma noconv_unsorted_in_class : md_unsorted_map w_unsorted = true.
Proof. vm_compute. reflexivity. Qed.

(* behaviour before the three repairs in /repo (eac05aa, 4362d12, 7c4c3d9) *)
Definition cfg_old_negmin : cfg := {| c_negmin_panics := true; c_key_unchecked := false; c_entry_lenient := false |}.
Definition cfg_old_key : cfg := {| c_negmin_panics := false; c_key_unchecked := true; c_entry_lenient := false |}.
Definition cfg_old_lenient : cfg := {| c_negmin_panics := false; c_key_unchecked := false; c_entry_lenient := true |}.

Definition w_bigkey : json := JObj [(t "99999999999999999999999", JInt 1)].

Definition w_extra : json :=
  JObj [(k_map, JArr [JObj [(k_k, JObj [(k_int, JInt 1)]); (k_v, JObj [(k_int, JInt 2)]); (t "z", JNull)]])].

(* a key with no values: PlutusMap::insert(k, &PlutusMapValues::new()) *)
Definition w_empty_values : pd := PMap [(PInt 1, [])].
Lemma plutus_empty_values_in_class : pd_has_empty_values w_empty_values = true.
Proof. vm_compute. reflexivity. Qed.

(* non-vacuity of the premises *)
Definition ex_md : md :=
  MMap [(MText (t "a"), MList [MInt (-9223372036854775808); MInt 18446744073709551615; MText (t "0x00")]);
        (MText (t "b"), MMap [(MText (t ""), MText (t "x")); (MText (t "k"), MList [])])].
Example ex_md_noconv : md_wf ex_md = true /\ md_unsorted_map ex_md = false /\ exists j, m2j NoConv ex_md = Ok j.
Proof. split; [vm_compute; reflexivity|]. split; [vm_compute; reflexivity|]. eexists. vm_compute. reflexivity. Qed.

Definition ex_md_detailed_v : md :=
  MMap [(MInt (-5), MBytes [0; 255]); (MMap [(MList [MInt 1], MText (t "v"))], MList [MText (t "b"); MText (t "a")]);
        (MBytes [], MInt 18446744073709551615)].
Example ex_md_detailed : md_wf ex_md_detailed_v = true /\ exists j, m2j Detailed ex_md_detailed_v = Ok j.
Proof. split; [vm_compute; reflexivity|]. eexists. vm_compute. reflexivity. Qed.

Definition ex_json_noconv : json :=
  JObj [(t "a", JArr [JInt (-9223372036854775808); JStr (t "0xzz")]); (t "b", JObj [(t "c", JInt 18446744073709551615)])].
Example ex_nf_noconv : json_wf ex_json_noconv = true /\ nf NoConv ex_json_noconv = true.
Proof. split; vm_compute; reflexivity. Qed.
Definition ex_json_basic : json :=
  JObj [(t "-7", JStr (t "0x00ff")); (t "0x0a", JArr [JInt 1; JStr (t "text")]); (t "99999999999999999999999", JInt 0);
        (t "key", JObj [(t "18446744073709551615", JStr (t "0xZZ"))])].
Example ex_nf_basic : json_wf ex_json_basic = true /\ nf Basic ex_json_basic = true.
Proof. split; vm_compute; reflexivity. Qed.
Definition ex_json_detailed : json :=
  JObj [(k_map, JArr [JObj [(k_k, JObj [(k_int, JInt (-1))]); (k_v, JObj [(k_bytes, JStr (t "00ff"))])];
                      JObj [(k_k, JObj [(k_list, JArr [JObj [(k_string, JStr (t "s"))]])]); (k_v, JObj [(k_map, JArr [])])]])].
Example ex_nf_detailed : json_wf ex_json_detailed = true /\ nf Detailed ex_json_detailed = true.
Proof. split; vm_compute; reflexivity. Qed.
Example ex_out_of_schema : json_wf w_extra = true /\ in_schema Detailed w_extra = false /\ in_schema NoConv (JFloat (t "1.5")) = false.
Proof. repeat split; vm_compute; reflexivity. Qed.

Definition ex_pd : pd :=
  PConstr 18446744073709551615
    [PMap [(PInt (-340282366920938463463374607431768211456), [PBytes [1; 2]; PList []]); (PBytes [], [PConstr 0 []])];
     PList [PInt 0; PMap []]].
Example ex_pd_ok : pd_wf ex_pd = true /\ pd_has_empty_values ex_pd = false.
Proof. split; vm_compute; reflexivity. Qed.

Example ex_serde : sval_ok SInt (SVNum (- two64Z)) = true /\ sval_ok (SHash 28) (SVBytes (List.repeat 7 28%nat)) = true /\
                   sf_canonical SBigNum (JStr (t "18446744073709551615")) = true /\ sf_canonical SAssetName (JStr (t "00ff")) = true.
Proof. repeat split; vm_compute; reflexivity. Qed.
