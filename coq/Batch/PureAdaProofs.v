(* Batch/PureAdaProofs.v — on UTxO sets without assets the batcher is modelled completely (Batch/PureAda.v) and
   REFINES the abstract batch of Batch/Proposal.v: every successful run is a plan of accepted operation sequences.
   Hence the full C13 statement holds there without any abstraction.  The refinement is stated once, as a relation:
     extends c p q us   q is reached from p by accepted operations that add exactly the UTxOs us
   with one lemma per primitive operation and transitivity; every function of PureAda.v (and, in AssetPathProofs.v,
   of AssetPath.v) that builds a candidate is shown to produce an extension of its argument. *)
From CSL Require Import Base.Prelude Base.Facts Base.U64 Batch.Calc Batch.CalcProofs Batch.EncProofs Batch.IntermediateProofs
  Batch.Proposal Batch.ProposalProofs Batch.BatchProofs Batch.PureAda.
From Coq Require Import Permutation.
Local Open Scope N_scope.

(* runs of accepted operations *)

Lemma run_app c : forall o1 o2 p, run c p (o1 ++ o2) = let* q := run c p o1 in run c q o2.
Proof.
  induction o1 as [|o t IH]; intros o2 p; [reflexivity|]. cbn [app run]. destruct (step c p o); cbn [bind]; auto.
Qed.

(* [q] is reached from [p] by accepted operations that add exactly the UTxOs [us], in this order *)
Definition extends (c : ctx) (p q : tprop) (us : list N) : Prop :=
  exists ops, run c p ops = Ok q /\ t_utxos q = t_utxos p ++ us.

Lemma extends_refl c p : extends c p p [].
Proof. exists []. rewrite app_nil_r. auto. Qed.
Lemma extends_trans c p q r a b : extends c p q a -> extends c q r b -> extends c p r (a ++ b).
Proof. intros (o1 & R1 & U1) (o2 & R2 & U2). exists (o1 ++ o2). rewrite run_app, R1, U2, U1, app_assoc. auto. Qed.
Lemma extends_step c p o q us : step c p o = Ok q -> t_utxos q = t_utxos p ++ us -> extends c p q us.
Proof. intros H U. exists [o]. cbn [run]. rewrite H. auto. Qed.

Lemma add_utxo_frame c p u p' :
  add_utxo c p u = Ok p' -> t_outputs p' = t_outputs p /\ t_utxos p' = t_utxos p ++ [u] /\ t_assets p' = t_assets p.
Proof.
  unfold add_utxo. destruct (memN u (t_utxos p)); [discriminate|]. intros H. apply bind_ok in H as [t [_ H]].
  apply bind_ok in H as [ow [_ H]]. injection H as <-. auto.
Qed.

Lemma extends_new_output c p : extends c p (add_new_output p) [].
Proof. apply (extends_step c p OpNewOutput); [reflexivity | symmetry; apply app_nil_r]. Qed.
Lemma extends_add_utxo c p u q :
  t_outputs p <> [] -> incl (utxo_assets c u) (t_assets p) -> add_utxo c p u = Ok q -> extends c p q [u].
Proof.
  intros Ho Hs H. apply (extends_step c p (OpAddUtxo u)); [|apply (add_utxo_frame _ _ _ _ H)]. cbn [step].
  destruct (t_outputs p); [contradiction Ho; reflexivity|]. apply subsetN_In in Hs. unfold utxo_assets in Hs. rewrite Hs. exact H.
Qed.
Lemma extends_set_min c p q sz : set_min_ada_for_tx c p = Ok (q, sz) -> extends c p q [].
Proof.
  intros H. apply (extends_step c p OpSetMinAda); [cbn [step]; rewrite H; reflexivity|].
  destruct (set_min_same _ _ _ _ H) as [<- _]. symmetry. apply app_nil_r.
Qed.

(* both candidate builders begin by giving a proposal without output its first one *)
Lemma with_output c p :
  let p0 := match t_outputs p with [] => add_new_output p | _ => p end in
  extends c p p0 [] /\ t_outputs p0 <> [] /\ t_assets p0 = t_assets p.
Proof.
  cbn zeta. destruct (t_outputs p) eqn:E; [split; [apply extends_new_output | split; [exact (snoc_ne _ _) | reflexivity]]|].
  split; [apply extends_refl | split; [rewrite E; discriminate | reflexivity]].
Qed.

(* no operation removes an output or forgets an asset *)
Lemma step_mono c p o q :
  step c p o = Ok q -> (t_outputs p <> [] -> t_outputs q <> []) /\ incl (t_assets p) (t_assets q).
Proof.
  intros H. destruct o as [|a|u|]; cbn [step] in H.
  - injection H as <-. split; [intros _; exact (snoc_ne _ _) | apply incl_refl].
  - destruct (t_outputs p) eqn:E; [discriminate|]. rewrite <- E in *. destruct (memN a (t_assets p)); [discriminate|].
    destruct (_ <=? _); [|discriminate]. injection H as <-. cbn [add_asset t_outputs t_assets]. split.
    + intros _ E'. apply (f_equal (@length _)) in E'. rewrite map_last_length, E in E'. discriminate.
    + intros x Hx. apply in_insertN. right. exact Hx.
  - destruct (t_outputs p) eqn:E; [discriminate|]. rewrite <- E. destruct (subsetN _ _); [|discriminate].
    destruct (add_utxo_frame _ _ _ _ H) as (-> & _ & ->). split; [auto | apply incl_refl].
  - apply bind_ok in H as [[q' sz] [Hs H]]. injection H as <-. destruct (set_min_same _ _ _ _ Hs) as (_ & <- & _ & _ & _ & F).
    split; [|apply incl_refl]. intros Ho E. rewrite E in F. apply map_eq_nil in F. contradiction.
Qed.
Lemma extends_mono c p q us :
  extends c p q us -> (t_outputs p <> [] -> t_outputs q <> []) /\ incl (t_assets p) (t_assets q).
Proof.
  intros (ops & R & _). revert p R. induction ops as [|o t IH]; intros p R; cbn [run] in R.
  - injection R as <-. split; [auto | apply incl_refl].
  - apply bind_ok in R as [p1 [H1 R]]. destruct (step_mono _ _ _ _ H1) as [O1 A1]. destruct (IH p1 R) as [O2 A2].
    split; [auto | eapply incl_tran; eassumption].
Qed.
Lemma extends_outputs c p q us : extends c p q us -> t_outputs p <> [] -> t_outputs q <> [].
Proof. intros E. apply (extends_mono _ _ _ _ E). Qed.
Lemma extends_assets c p q us : extends c p q us -> incl (t_assets p) (t_assets q).
Proof. intros E. apply (extends_mono _ _ _ _ E). Qed.

(* the pure-ADA functions as operation sequences *)

Definition asset_free (c : ctx) (l : list N) : Prop := forall u, In u l -> ui_assets (utxo_of c u) = [].

Lemma asset_free_sub c l m : incl m l -> asset_free c l -> asset_free c m.
Proof. intros H F u Hu. apply F, H, Hu. Qed.

Lemma asset_free_incl c l u m : asset_free c l -> In u l -> incl (utxo_assets c u) m.
Proof. intros F Hu. unfold utxo_assets. rewrite (F u Hu). apply incl_nil_l. Qed.

Lemma add_utxos_run c : forall us p p',
  asset_free c us -> t_outputs p <> [] -> add_utxos c p us = Ok p' -> extends c p p' us.
Proof.
  induction us as [|u t IH]; intros p p' Hf Ho H; cbn [add_utxos] in H; [injection H as <-; apply extends_refl|].
  apply bind_ok in H as [q [Hq H]].
  pose proof (extends_add_utxo c p u q Ho (asset_free_incl c _ u _ Hf (or_introl eq_refl)) Hq) as E.
  apply (extends_trans c p q p' [u] t E). apply IH; [eapply asset_free_sub; [apply incl_tl, incl_refl | exact Hf] | | exact H].
  exact (extends_outputs _ _ _ _ E Ho).
Qed.

(* the UTxOs by_amount returns beyond [acc]: from the pool, none ignored, each once, at least one if something is needed *)
Lemma by_amount_spec c : forall rp ignore left acc r,
  by_amount c rp ignore left acc = Ok r ->
  exists nw, r = rev acc ++ nw /\ incl nw rp /\ (forall x, In x nw -> ~ In x ignore) /\
             (NoDup rp -> NoDup nw) /\ (left <> 0 -> nw <> []).
Proof.
  induction rp as [|u t IH]; intros ignore left acc r H; cbn [by_amount] in H.
  - destruct (left =? 0) eqn:E; [|discriminate]. injection H as <-. apply N.eqb_eq in E. exists []. rewrite app_nil_r.
    repeat split; auto using incl_nil_l, NoDup_nil.
  - destruct (memN u ignore) eqn:M.
    + destruct (IH _ _ _ _ H) as (nw & E & I & D & Nd & Ne). exists nw. repeat split; auto using incl_tl.
      intros Hn. apply Nd. inversion Hn; assumption.
    + apply memN_false in M. destruct (left - ui_ada (utxo_of c u) =? 0) eqn:E.
      * injection H as <-. exists [u]. repeat split; [apply incl_cons; [left; reflexivity | apply incl_nil_l] | | | discriminate].
        -- intros x [<-|[]]. exact M.
        -- intros _. constructor; [intros [] | constructor].
      * destruct (IH _ _ _ _ H) as (nw & E' & I & D & Nd & _). cbn [rev] in E'. exists (u :: nw).
        rewrite E', <- app_assoc. repeat split; [apply incl_cons; [left; reflexivity | apply incl_tl, I] | | | discriminate].
        -- intros x [<-|Hx]; [exact M | apply D, Hx].
        -- intros Hn. inversion Hn as [|? ? Hu Ht]; subst. constructor; [intros Hx; apply Hu, I, Hx | apply Nd, Ht].
Qed.

Lemma topup_run c pool orig : asset_free c pool -> forall fuel p used size p2 used2 size2,
  t_outputs p <> [] -> topup_loop fuel c pool orig p used size = Ok (p2, used2, size2) ->
  exists added, extends c p p2 added /\ used2 = used ++ added /\ incl added pool.
Proof.
  intros Hf. induction fuel as [|f IH]; intros p used size p2 used2 size2 Ho H; cbn [topup_loop] in H;
    apply bind_ok in H as [need [_ H]]; destruct (need =? 0); try discriminate.
  1, 2: injection H as <- <- <-; exists []; rewrite app_nil_r; split; [apply extends_refl | split; [reflexivity | apply incl_nil_l]].
  apply bind_ok in H as [next [Hn H]]. apply bind_ok in H as [p1 [Ha H]]. apply bind_ok in H as [[q sz] [Hs H]]. cbn [fst snd] in H.
  destruct ((cx_max_tx c <? sz) && orig); [discriminate|].
  destruct (by_amount_spec _ _ _ _ _ _ Hn) as (nw & -> & Hnp & _). cbn [rev app] in *.
  assert (Inw : incl nw pool) by (intros x Hx; apply in_rev, Hnp, Hx).
  pose proof (add_utxos_run c nw p p1 (asset_free_sub _ _ _ Inw Hf) Ho Ha) as E1.
  pose proof (extends_set_min _ _ _ _ Hs) as E2.
  destruct (IH q (used ++ nw) sz p2 used2 size2 (extends_outputs _ _ _ _ E2 (extends_outputs _ _ _ _ E1 Ho)) H)
    as (added & E3 & -> & I).
  exists (nw ++ added). split; [exact (extends_trans _ _ _ _ _ _ E1 (extends_trans _ _ _ _ [] _ E2 E3))|].
  split; [symmetry; apply app_assoc | apply incl_app; assumption].
Qed.

(* the loop ends only without a shortage *)
Lemma topup_need c pool orig : forall fuel p used size p2 u2 s2,
  topup_loop fuel c pool orig p used size = Ok (p2, u2, s2) -> get_need_ada p2 = Ok 0.
Proof.
  induction fuel as [|f IH]; intros p used size p2 u2 s2 H; cbn [topup_loop] in H;
    apply bind_ok in H as [need [Hn H]]; destruct (need =? 0) eqn:E; try discriminate.
  1, 2: injection H as <- <- <-; apply N.eqb_eq in E; subst; exact Hn.
  apply bind_ok in H as [next [_ H]]. apply bind_ok in H as [p1 [_ H]]. apply bind_ok in H as [[q sz] [_ H]]. cbn [fst snd] in H.
  destruct ((cx_max_tx c <? sz) && orig); [discriminate | exact (IH _ _ _ _ _ _ H)].
Qed.

(* a proposal without output has no shortage (it has neither outputs nor fee), so the shortage branch starts with one *)
Lemma try_append_pure_run c pool p p2 used :
  asset_free c pool -> (get_need_ada p = Ok 0 \/ t_outputs p <> []) ->
  try_append_pure c pool p = Ok (Some (p2, used)) ->
  extends c p p2 used /\ incl used pool /\ t_outputs p2 <> [] /\
  get_need_ada p2 = Ok 0 /\ (get_need_ada p = Ok 0 -> used <> []).
Proof.
  intros Hf Hp H. unfold try_append_pure in H. apply bind_ok in H as [need [Hneed H]]. apply bind_ok in H as [start [Hst H]].
  destruct start as [[p1 used1]|]; [|discriminate].
  apply bind_ok in H as [[q sz] [Hs H]]. cbn [fst snd] in H. apply bind_ok in H as [[[p3 used3] size3] [Ht H]].
  destruct (cx_max_tx c <? size3); [discriminate|]. injection H as <- <-.
  assert (S1 : extends c p p1 used1 /\ incl used1 pool /\ t_outputs p1 <> [] /\ (need = 0 -> used1 <> [])).
  { destruct (need =? 0) eqn:En.
    - destruct (rev pool) as [|u rp] eqn:Er; [discriminate|]. apply bind_ok in Hst as [p1' [Ha Hst]]. injection Hst as <- <-.
      assert (Hu : In u pool) by (apply in_rev; rewrite Er; left; reflexivity).
      destruct (with_output c p) as (E0 & O0 & _).
      pose proof (extends_add_utxo c _ u p1' O0 (asset_free_incl c _ u _ Hf Hu) Ha) as E1.
      split; [exact (extends_trans _ _ _ _ [] [u] E0 E1)|].
      split; [intros x [<-|[]]; exact Hu | split; [exact (extends_outputs _ _ _ _ E1 O0) | discriminate]].
    - injection Hst as <- <-. split; [apply extends_refl|]. split; [apply incl_nil_l|].
      split; [|intros ->; discriminate]. destruct Hp as [Hp|Hp]; [|exact Hp].
      rewrite Hneed in Hp. injection Hp as ->. discriminate. }
  destruct S1 as (E1 & I1 & O1 & Ne1). pose proof (extends_set_min _ _ _ _ Hs) as E2.
  pose proof (extends_outputs _ _ _ _ E2 O1) as Oq.
  destruct (topup_run c pool _ Hf _ _ _ _ _ _ _ Oq Ht) as (added & E3 & -> & I3).
  split; [exact (extends_trans _ _ _ _ _ _ E1 (extends_trans _ _ _ _ [] _ E2 E3))|].
  split; [apply incl_app; assumption|]. split; [exact (extends_outputs _ _ _ _ E3 Oq)|].
  split; [exact (topup_need _ _ _ _ _ _ _ _ _ _ Ht)|].
  intros H0. rewrite Hneed in H0. injection H0 as ->. intros E. apply app_eq_nil in E as [E _]. exact (Ne1 eq_refl E).
Qed.

Lemma fill_run c : forall fuel pool p p' pool',
  asset_free c pool -> (get_need_ada p = Ok 0 \/ t_outputs p <> []) ->
  fill fuel c pool p = Ok (p', pool') ->
  exists consumed, extends c p p' consumed /\ incl consumed pool /\ pool' = remove_all consumed pool.
Proof.
  assert (Stop : forall (pool : list N) p, exists consumed : list N,
            extends c p p consumed /\ incl consumed pool /\ pool = remove_all consumed pool)
    by (intros; exists []; split; [apply extends_refl | split; [apply incl_nil_l | reflexivity]]).
  induction fuel as [|f IH]; intros pool p p' pool' Hf Hp H; cbn [fill] in H;
    (destruct pool as [|u0 t0] eqn:Epool; [injection H as <- <-; apply Stop|]); [discriminate|].
  rewrite <- Epool in *. apply bind_ok in H as [r [Hr H]]. destruct r as [[q used]|]; [|injection H as <- <-; apply Stop].
  destruct (try_append_pure_run c pool p q used Hf Hp Hr) as (E1 & I1 & O1 & _).
  destruct (IH (remove_all used pool) q p' pool' (asset_free_sub c _ _ (remove_all_incl used pool) Hf) (or_intror O1) H)
    as (cons2 & E2 & I2 & ->).
  exists (used ++ cons2). split; [exact (extends_trans _ _ _ _ _ _ E1 E2)|].
  split; [apply incl_app; [exact I1 | eapply incl_tran; [exact I2 | apply remove_all_incl]] | symmetry; apply remove_all_app].
Qed.

Lemma need_tp_new : get_need_ada tp_new = Ok 0.
Proof. reflexivity. Qed.

(* the complete pure-ADA batcher is an instance of the abstract batch *)
Theorem pure_build_batch c : forall fuel pool txs,
  asset_free c pool -> pure_build fuel c pool = Ok txs -> exists plan, batch c pool plan = Ok txs.
Proof.
  induction fuel as [|f IH]; intros pool txs Hf H; cbn [pure_build] in H;
    (destruct pool as [|u0 t0] eqn:Epool; [injection H as <-; exists []; reflexivity|]); [discriminate|].
  rewrite <- Epool in *.
  apply bind_ok in H as [[p pool'] [Hfill H]]. apply bind_ok in H as [[p' tx] [Hfin H]]. apply bind_ok in H as [rest [Hrest H]].
  injection H as <-. cbn [fst snd] in *.
  destruct (fill_run c _ pool tp_new p pool' Hf (or_introl need_tp_new) Hfill) as (consumed & (ops & R & U) & I & ->).
  cbn [tp_new t_utxos app] in U.
  destruct (IH _ rest (asset_free_sub c _ _ (remove_all_incl consumed pool) Hf) Hrest) as [plan Hplan].
  exists (ops :: plan). rewrite <- U in *. apply (batch_round c pool ops p (p', tx) rest plan R I); [rewrite Epool; discriminate | assumption..].
Qed.

(* the sorted pool *)

Lemma insert_sorted_perm c u l : Permutation (insert_sorted c u l) (u :: l).
Proof.
  induction l as [|v t IH]; cbn [insert_sorted]; [apply Permutation_refl|].
  destruct (ui_ada (utxo_of c u) <? ui_ada (utxo_of c v)); [apply Permutation_refl|].
  eapply perm_trans; [apply perm_skip, IH | apply perm_swap].
Qed.

Lemma sort_pool_perm c l : Permutation (sort_pool c l) l.
Proof.
  induction l as [|u t IH] using rev_ind; [apply perm_nil|]. unfold sort_pool. rewrite fold_left_app. cbn [fold_left].
  eapply perm_trans; [apply insert_sorted_perm|]. eapply perm_trans; [apply perm_skip, IH | apply Permutation_cons_append].
Qed.

Lemma indices_where_false {A} (f : A -> bool) l i : forallb (fun x => negb (f x)) l = true -> indices_where f l i = [].
Proof.
  revert i. induction l as [|x t IH]; intros i H; [reflexivity|]. cbn [forallb] in H. apply andb_true_iff in H as [H1 H2].
  cbn [indices_where]. apply negb_true_iff in H1. rewrite H1. cbn [app]. apply IH, H2.
Qed.

Lemma indices_where_sound {A} (f : A -> bool) (l : list A) (d : A) : forall i u,
  In u (indices_where f l i) -> i <= u /\ f (nth (N.to_nat (u - i)) l d) = true.
Proof.
  induction l as [|x t IH]; intros i u H; cbn [indices_where] in H; [contradiction|].
  apply in_app_iff in H as [H|H].
  - destruct (f x) eqn:E; [|contradiction]. destruct H as [<-|[]]. replace (i - i) with 0 by lia. cbn. split; [lia|exact E].
  - destruct (IH _ _ H) as [L F]. split; [lia|]. replace (N.to_nat (u - i)) with (S (N.to_nat (u - (i + 1)))) by lia. exact F.
Qed.

Lemma ada_pool_asset_free c : asset_free c (ada_pool c).
Proof.
  intros u Hu. unfold ada_pool in Hu. apply (Permutation_in _ (sort_pool_perm c _)) in Hu.
  unfold free_pools in Hu. cbn [snd] in Hu.
  destruct (indices_where_sound (is_ada_utxo false) (cx_utxos c) dummy_u 0 u Hu) as [_ F].
  replace (u - 0) with u in F by lia. unfold utxo_of, nthN.
  destruct (nth_error (cx_utxos c) (N.to_nat u)) as [x|] eqn:E; [|reflexivity].
  rewrite (nth_error_nth _ _ dummy_u E) in F. unfold is_ada_utxo, is_asset_utxo in F. destruct (ui_assets x); [reflexivity|discriminate].
Qed.

Lemma ada_pool_nodup c : NoDup (ada_pool c).
Proof.
  unfold ada_pool. eapply Permutation_NoDup; [apply Permutation_sym, sort_pool_perm|].
  pose proof (pools_cover c) as P. unfold free_pools in *. cbn [snd].
  apply Permutation_sym, Permutation_NoDup in P; [|apply idx_from_nodup]. apply nodup_app_inv in P. tauto.
Qed.

Lemma ada_pool_all c : no_assets c = true -> Permutation (ada_pool c) (all_indices c).
Proof.
  intros Hn. unfold ada_pool. eapply perm_trans; [apply sort_pool_perm|]. pose proof (pools_cover c) as PC.
  unfold free_pools in *. cbn [snd]. rewrite (indices_where_false is_asset_utxo (cx_utxos c) 0 Hn) in PC. exact PC.
Qed.
