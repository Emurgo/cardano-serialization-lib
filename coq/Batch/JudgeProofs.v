(* Batch/JudgeProofs.v — the executable judge of BatchSpec.v implies the Prop-level C13 statement: every flag of the
   judge reflects one clause, on parsed transactions and from bytes (every transaction is read by [read_tx]). *)
From CSL Require Import Base.Prelude Cbor.Head Cbor.Item Cbor.ItemProofs Batch.BatchSpec.
From Coq Require Import Permutation.
Local Open Scope N_scope.

(* the statement as a proposition *)

Definition tx_statement (c : config) (target : bytes) (us : list utxo) (t s : ptx) : Prop :=
  (* T *) Forall (fun o => po_addr o = target) (pt_outputs t) /\
  (* B *) jsum (map u_coin (spent us t)) = jsum (map po_coin (pt_outputs t)) + pt_fee t /\
          (forall p n, asset_total p n (flat_map u_assets (spent us t)) =
                       asset_total p n (flat_map po_assets (pt_outputs t))) /\
  (* K *) Forall (fun k => In k [0; 1; 2; 3; 8]) (pt_keys t) /\ pt_valid t = true /\
  (* F *) signed_ok us t s = true /\ c_a c * pt_size s + c_b c <= pt_fee t /\
  (* S *) pt_size t <= c_max_tx c /\ pt_size s <= c_max_tx c /\
  (* V *) Forall (fun o => po_vsize o <= c_max_value c) (pt_outputs t) /\
  (* M *) Forall (fun o => c_cpb c * (160 + po_size o) <= po_coin o) (pt_outputs t).

Definition C13_statement (c : config) (target : bytes) (us : list utxo) (ts : list (ptx * ptx)) : Prop :=
  (* P *) Permutation (flat_map pt_inputs (map fst ts)) (map utxo_input us) /\
  Forall (fun p => tx_statement c target us (fst p) (snd p)) ts.

Lemma input_eqb_eq a b : input_eqb a b = true <-> a = b.
Proof.
  destruct a as [h i], b as [h' i']. unfold input_eqb. cbn [fst snd].
  rewrite andb_true_iff, bytes_eqb_eq, N.eqb_eq. split; [intros [-> ->]; reflexivity | intros H; injection H; auto].
Qed.

Lemma mem_input_In x l : mem_input x l = true <-> In x l.
Proof.
  induction l as [|y t IH]; cbn [mem_input In]; [split; [discriminate|tauto]|].
  rewrite orb_true_iff, input_eqb_eq, IH. split; intros [H|H]; auto.
Qed.

Lemma nodup_inputs_NoDup l : nodup_inputs l = true <-> NoDup l.
Proof.
  induction l as [|x t IH]; cbn [nodup_inputs]; [split; [constructor|reflexivity]|].
  rewrite andb_true_iff, negb_true_iff, IH. split.
  - intros [H1 H2]. constructor; [|exact H2]. intros Hin. apply mem_input_In in Hin. congruence.
  - intros H. inversion H; subst. split; [|assumption].
    destruct (mem_input x t) eqn:E; [|reflexivity]. apply mem_input_In in E. contradiction.
Qed.

Lemma flag_nil b code i : flag b code i = [] -> b = true.
Proof. destruct b; [reflexivity|discriminate]. Qed.

Lemma flag_app_nil b code i r : flag b code i ++ r = [] -> b = true /\ r = [].
Proof. destruct b; [auto | discriminate]. Qed.

Lemma partition_ok_perm us txs :
  utxos_distinct us = true -> partition_ok us txs = true ->
  Permutation (flat_map pt_inputs txs) (map utxo_input us).
Proof.
  unfold utxos_distinct, partition_ok. intros Hd H.
  apply andb_true_iff in H as [H Hlen]. apply andb_true_iff in H as [Hnd Hin].
  apply nodup_inputs_NoDup in Hnd. apply N.eqb_eq in Hlen. unfold len in Hlen.
  apply NoDup_Permutation_bis; [exact Hnd | rewrite map_length; lia |].
  intros x Hx. rewrite forallb_forall in Hin. apply mem_input_In, Hin, Hx.
Qed.

Lemma find_utxo_In x us : In x (map utxo_input us) -> exists u, find_utxo x us = Some u /\ utxo_input u = x.
Proof.
  induction us as [|u t IH]; cbn [map In find_utxo]; [tauto|]. intros [H|H].
  - exists u. rewrite <- H. destruct (input_eqb (utxo_input u) (utxo_input u)) eqn:E; [auto|].
    assert (input_eqb (utxo_input u) (utxo_input u) = true) by (apply input_eqb_eq; reflexivity). congruence.
  - destruct (input_eqb x (utxo_input u)) eqn:E.
    + exists u. apply input_eqb_eq in E. auto.
    + apply IH, H.
Qed.

(* every input of a transaction of a partition is found among the supplied UTxOs: [spent] drops none *)
Lemma spent_all us txs t :
  Permutation (flat_map pt_inputs txs) (map utxo_input us) -> In t txs ->
  map utxo_input (spent us t) = pt_inputs t.
Proof.
  intros Hp Ht. unfold spent.
  assert (Hin : forall x, In x (pt_inputs t) -> In x (map utxo_input us)).
  { intros x Hx. eapply Permutation_in; [exact Hp|]. apply in_flat_map. exists t. auto. }
  induction (pt_inputs t) as [|x l IH]; [reflexivity|]. cbn [flat_map].
  destruct (find_utxo_In x us (Hin x (or_introl eq_refl))) as [u [Hf Hu]]. rewrite Hf. cbn [app map].
  rewrite Hu, IH; [reflexivity|]. intros y Hy. apply Hin. right. exact Hy.
Qed.

(* balance of the assets *)

Lemma asset_total_present_or_zero p n es :
  asset_total p n es = 0 \/ exists q, In (p, n, q) es.
Proof.
  induction es as [|[[p' n'] q] t IH]; [left; reflexivity|]. cbn [asset_total fold_right].
  destruct (bytes_eqb p p' && bytes_eqb n n') eqn:E.
  - right. apply andb_true_iff in E as [E1 E2]. apply bytes_eqb_eq in E1, E2. subst. exists q. left. reflexivity.
  - destruct IH as [IH|[q' IH]]; [left; exact IH | right; exists q'; right; exact IH].
Qed.

Lemma balance_assets_sound ins outs :
  forallb (fun e : asset_entry => match e with (p, n, _) => asset_total p n ins =? asset_total p n outs end) (ins ++ outs) = true ->
  forall p n, asset_total p n ins = asset_total p n outs.
Proof.
  intros H p n. rewrite forallb_forall in H.
  destruct (asset_total_present_or_zero p n ins) as [Hi|[q Hi]].
  - destruct (asset_total_present_or_zero p n outs) as [Ho|[q Ho]]; [congruence|].
    specialize (H (p, n, q) (in_or_app _ _ _ (or_intror Ho))). apply N.eqb_eq in H. exact H.
  - specialize (H (p, n, q) (in_or_app _ _ _ (or_introl Hi))). apply N.eqb_eq in H. exact H.
Qed.

Lemma forallb_Forall {A} (f : A -> bool) (P : A -> Prop) l :
  (forall x, f x = true -> P x) -> forallb f l = true -> Forall P l.
Proof.
  intros Hf H. rewrite forallb_forall in H. apply Forall_forall. intros x Hx. apply Hf, H, Hx.
Qed.

Lemma judge_tx_sound c target us i t s : judge_tx c target us i t s = [] -> tx_statement c target us t s.
Proof.
  unfold judge_tx. intros H.
  apply flag_app_nil in H as [F H]. apply flag_app_nil in H as [F0 H]. apply flag_app_nil in H as [F1 H].
  apply flag_app_nil in H as [F2 H]. apply flag_app_nil in H as [F3 H]. apply flag_app_nil in H as [F4 H].
  apply flag_app_nil in H as [F5 H]. apply flag_app_nil in H as [F6 H]. apply flag_app_nil in H as [F7 H]. apply flag_nil in H.
  unfold tx_statement. repeat split.
  - revert F. unfold target_ok. apply forallb_Forall. intros o. apply bytes_eqb_eq.
  - unfold balance_coin_ok in F0. apply N.eqb_eq in F0. exact F0.
  - apply balance_assets_sound. exact F1.
  - revert F2. unfold body_shape_ok. apply forallb_Forall. intros k Hk. cbn [In].
    repeat (apply orb_true_iff in Hk as [Hk|Hk]); apply N.eqb_eq in Hk; subst; tauto.
  - exact F3.
  - exact F4.
  - unfold fee_ok in F5. apply N.leb_le in F5. exact F5.
  - unfold size_ok in F6. apply andb_true_iff in F6 as [A _]. apply N.leb_le in A. exact A.
  - unfold size_ok in F6. apply andb_true_iff in F6 as [_ A]. apply N.leb_le in A. exact A.
  - revert F7. unfold value_size_ok. apply forallb_Forall. intros o. apply N.leb_le.
  - revert H. unfold min_ada_ok. apply forallb_Forall. intros o. apply N.leb_le.
Qed.

Lemma judge_txs_sound c target us : forall ts i,
  judge_txs c target us i ts = [] -> Forall (fun p => tx_statement c target us (fst p) (snd p)) ts.
Proof.
  induction ts as [|[t s] r IH]; intros i H; [constructor|]. cbn [judge_txs] in H.
  apply app_eq_nil in H as [H1 H2]. constructor; [apply (judge_tx_sound _ _ _ i), H1 | apply (IH _ H2)].
Qed.

Theorem judge_parsed_sound c target us ts :
  utxos_distinct us = true -> judge_parsed c target us ts = [] -> C13_statement c target us ts.
Proof.
  intros Hd H. unfold judge_parsed in H. apply flag_app_nil in H as [H1 H2].
  split; [apply partition_ok_perm; assumption | eapply judge_txs_sound; exact H2].
Qed.

(* from bytes: every pair is read by [read_tx] and the statement holds of what was read *)
Lemma read_pairs_ok : forall l i ts, read_pairs i l = ([], ts) ->
  Forall2 (fun b p => read_tx (fst b) = Some (fst p) /\ read_tx (snd b) = Some (snd p)) l ts.
Proof.
  induction l as [|[a b] r IH]; intros i ts H; cbn [read_pairs] in H.
  - injection H as <-. constructor.
  - destruct (read_pairs (i + 1) r) as [bad ok] eqn:E.
    destruct (read_tx a) as [t|] eqn:Ea; [destruct (read_tx b) as [s|] eqn:Eb|]; try discriminate.
    injection H as -> <-. constructor; [cbn [fst snd]; auto | eapply IH; exact E].
Qed.

Theorem judge_sound c target us l :
  utxos_distinct us = true -> judge c target us l = [] ->
  exists ts, Forall2 (fun b p => read_tx (fst b) = Some (fst p) /\ read_tx (snd b) = Some (snd p)) l ts /\
             C13_statement c target us ts.
Proof.
  intros Hd H. unfold judge in H. destruct (read_pairs 0 l) as [bad ts] eqn:E.
  destruct bad; [|discriminate]. exists ts. split; [eapply read_pairs_ok; exact E | apply judge_parsed_sound; assumption].
Qed.
