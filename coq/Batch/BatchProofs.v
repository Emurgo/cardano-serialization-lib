(* Batch/BatchProofs.v — the batch loop: the transactions produced by ANY plan of accepted operation sequences spend
   every free UTxO exactly once; asset balance and value-size limit of every finalised proposal; hence every
   transaction of a batch is valid. *)
From CSL Require Import Base.Prelude Base.Facts Base.U64 Cbor.Head Codec.Schema Ledger.Schemas
  Batch.Calc Batch.CalcProofs Batch.Denote Batch.EncProofs Batch.IntermediateProofs Batch.Proposal Batch.ProposalProofs.
From Coq Require Import Permutation.
Local Open Scope N_scope.

(* the pools cover the supplied UTxOs *)

Fixpoint idx_from (i : N) (n : nat) : list N := match n with O => [] | S k => i :: idx_from (i + 1) k end.
Definition all_indices (c : ctx) : list N := idx_from 0 (length (cx_utxos c)).

Lemma idx_from_ge i n x : In x (idx_from i n) -> i <= x.
Proof. revert i. induction n as [|k IH]; intros i; cbn [idx_from In]; [tauto|]. intros [<-|H]; [lia | specialize (IH _ H); lia]. Qed.
Lemma idx_from_nodup i n : NoDup (idx_from i n).
Proof. revert i. induction n as [|k IH]; intros i; cbn [idx_from]; constructor; [|apply IH]. intros H. apply idx_from_ge in H. lia. Qed.

Lemma indices_where_split {A} (f g : A -> bool) l : (forall x, g x = negb (f x)) -> forall i,
  Permutation (indices_where f l i ++ indices_where g l i) (idx_from i (length l)).
Proof.
  intros Hfg. induction l as [|x t IH]; intros i; [constructor|]. cbn [indices_where length idx_from].
  rewrite Hfg. destruct (f x); cbn [negb app].
  - constructor. apply IH.
  - eapply perm_trans; [apply Permutation_sym, Permutation_middle|]. constructor. apply IH.
Qed.

Theorem pools_cover c :
  let '(assets, adas) := free_pools false c in Permutation (assets ++ adas) (all_indices c).
Proof. unfold free_pools, all_indices. apply indices_where_split. intros x. reflexivity. Qed.

(* removing the used UTxOs from the pool *)

Lemma remove_all_cons x t l : remove_all (x :: t) l = remove_all t (removeN x l).
Proof. reflexivity. Qed.

Lemma remove_all_filter xs : forall l, remove_all xs l = filter (fun y => negb (memN y xs)) l.
Proof.
  induction xs as [|x t IH]; intros l; [cbn; induction l as [|y l' IHl]; [reflexivity | cbn; rewrite <- IHl; reflexivity]|].
  rewrite remove_all_cons, IH. unfold removeN. induction l as [|y l' IHl]; [reflexivity|]. cbn [filter].
  change (memN y (x :: t)) with ((y =? x) || memN y t). rewrite (N.eqb_sym y x).
  destruct (x =? y); cbn [negb orb filter]; [exact IHl|]. destruct (memN y t); cbn [negb]; [exact IHl | rewrite IHl; reflexivity].
Qed.

Lemma remove_all_In xs l y : In y (remove_all xs l) <-> In y l /\ ~ In y xs.
Proof. rewrite remove_all_filter, filter_In, negb_true_iff, memN_false. reflexivity. Qed.
Lemma remove_all_incl us free : incl (remove_all us free) free.
Proof. intros y Hy. apply remove_all_In in Hy. tauto. Qed.
Lemma remove_all_nodup xs l : NoDup l -> NoDup (remove_all xs l).
Proof. rewrite remove_all_filter. apply NoDup_filter. Qed.
Lemma remove_all_app a b l : remove_all (a ++ b) l = remove_all b (remove_all a l).
Proof. apply fold_left_app. Qed.

Lemma NoDup_app_intro {A} (l m : list A) :
  NoDup l -> NoDup m -> (forall x, In x l -> ~ In x m) -> NoDup (l ++ m).
Proof.
  intros Hl Hm Hd. induction Hl as [|x t Hx Ht IH]; [exact Hm|]. cbn [app]. constructor.
  - rewrite in_app_iff. intros [H|H]; [contradiction | apply (Hd x (or_introl eq_refl) H)].
  - apply IH. intros y Hy. apply Hd. right. exact Hy.
Qed.
Lemma nodup_app_inv {A} (l m : list A) : NoDup (l ++ m) -> NoDup l /\ NoDup m /\ (forall x, In x l -> ~ In x m).
Proof.
  induction l as [|y t IH]; cbn [app]; [intros H; split; [constructor | split; [exact H | intros x []]]|].
  intros H. inversion H as [|? ? Hy Ht]; subst. destruct (IH Ht) as (N1 & N2 & D). rewrite in_app_iff in Hy.
  split; [constructor; tauto|]. split; [exact N2|]. intros x [<-|Hx]; [tauto | apply D, Hx].
Qed.

Lemma remove_all_perm us free : NoDup free -> NoDup us -> incl us free -> Permutation (us ++ remove_all us free) free.
Proof.
  intros Hf Hu Hi. apply NoDup_Permutation; [|exact Hf|].
  - apply NoDup_app_intro; [exact Hu | apply remove_all_nodup, Hf | intros x Hx Hy; apply remove_all_In in Hy; tauto].
  - intros x. rewrite in_app_iff, remove_all_In. destruct (in_dec N.eq_dec x us) as [H|H]; [|tauto].
    split; [intros _; apply Hi, H | auto].
Qed.

Lemma remove_all_shrinks xs l : NoDup l -> xs <> [] -> incl xs l -> (length (remove_all xs l) < length l)%nat.
Proof.
  intros Hn Hx Hi. destruct xs as [|x t]; [contradiction Hx; reflexivity|].
  apply (NoDup_incl_length (l := x :: remove_all (x :: t) l)).
  - constructor; [rewrite remove_all_In; cbn [In]; tauto | apply remove_all_nodup, Hn].
  - intros y [<-|Hy]; [apply Hi; left; reflexivity | eapply remove_all_incl, Hy].
Qed.

(* C13_partition *)

Lemma finalise_inputs c p p' tx : finalise c p = Ok (p', tx) -> x_inputs tx = t_utxos p.
Proof.
  intros H. apply finalise_ok in H as (_ & p1 & sz & Hlast & Hset & _ & Hct).
  destruct (create_tx_ok _ _ _ Hct) as (-> & _).
  destruct (set_min_same _ _ _ _ Hset) as [A _]. destruct (add_last_same _ _ Hlast) as [B _]. congruence.
Qed.

(* one round of the batch loop: an accepted operation sequence on free UTxOs, finalised *)
Lemma batch_cons c free ops rest txs :
  batch c free (ops :: rest) = Ok txs ->
  exists p p' tx txs', run c tp_new ops = Ok p /\ incl (t_utxos p) free /\ finalise c p = Ok (p', tx) /\
    batch c (remove_all (t_utxos p) free) rest = Ok txs' /\ txs = tx :: txs'.
Proof.
  cbn [batch]. destruct free as [|f0 fr] eqn:Ef; [discriminate|]. rewrite <- Ef. intros H.
  apply bind_ok in H as [[free' tx] [Hs H]]. apply bind_ok in H as [txs' [Hb H]]. injection H as <-. cbn [fst snd] in *.
  unfold batch_step in Hs. apply bind_ok in Hs as [p [Hrun Hs]].
  destruct (subsetN (t_utxos p) free) eqn:Sub; [|discriminate]. apply subsetN_In in Sub.
  apply bind_ok in Hs as [[p' tx'] [Hfin Hs]]. injection Hs as <- <-. exists p, p', tx', txs'. auto.
Qed.

Lemma batch_round c free ops p r rest plan :
  run c tp_new ops = Ok p -> incl (t_utxos p) free -> free <> [] -> finalise c p = Ok r ->
  batch c (remove_all (t_utxos p) free) plan = Ok rest -> batch c free (ops :: plan) = Ok (snd r :: rest).
Proof.
  intros R I Hne Hfin Hplan. cbn [batch]. destruct free as [|f0 fr] eqn:Ef; [contradiction Hne; reflexivity|]. rewrite <- Ef in *.
  unfold batch_step. rewrite R. cbn [bind]. apply subsetN_In in I. rewrite I, Hfin. cbn [bind fst snd]. rewrite Hplan. reflexivity.
Qed.

Lemma batch_partition c : forall plan free txs,
  NoDup free -> batch c free plan = Ok txs -> Permutation (concat (map x_inputs txs)) free.
Proof.
  induction plan as [|ops rest IH]; intros free txs Hn H.
  - cbn [batch] in H. destruct free; [injection H as <-; constructor | discriminate].
  - apply batch_cons in H as (p & p' & tx & txs' & Hrun & Sub & Hfin & Hb & ->).
    pose proof (run_inv c ops tp_new p (inv_new c) Hrun) as I.
    cbn [map concat]. rewrite (finalise_inputs _ _ _ _ Hfin).
    eapply perm_trans; [apply Permutation_app_head, IH; [apply remove_all_nodup, Hn | exact Hb]|].
    apply remove_all_perm; [exact Hn | apply (inv_nodup c p I) | exact Sub].
Qed.

Lemma batch_partition_all c free plan txs :
  Permutation free (all_indices c) -> batch c free plan = Ok txs -> Permutation (concat (map x_inputs txs)) (all_indices c).
Proof.
  intros P H. eapply perm_trans; [eapply batch_partition; [|exact H] | exact P].
  eapply Permutation_NoDup; [apply Permutation_sym, P | apply idx_from_nodup].
Qed.

(* balance of every asset *)

(* quantity of asset [a] that output [o] of a transaction spending [used] holds *)
Definition held (c : ctx) (used : list N) (o : oprop) (a : N) : N :=
  if memN a (o_assets o) then sumN (map (fun u => amount c u a) used) else 0.

Lemma lookupN_absent a l : ~ In a (map fst l) -> lookupN a l = 0.
Proof.
  induction l as [|[k q] t IH]; [reflexivity|]. cbn [map fst In lookupN]. intros H.
  destruct (a =? k) eqn:E; [apply N.eqb_eq in E; subst; exfalso; apply H; left; reflexivity | apply IH; tauto].
Qed.

Lemma memN_app a l m : memN a (l ++ m) = memN a l || memN a m.
Proof. apply existsb_app. Qed.

(* an asset is in at most one output: the outputs together hold [X] of it if one lists it, else nothing *)
Lemma held_unique X a : forall (outs : list oprop), NoDup (concat (map o_assets outs)) ->
  sumN (map (fun o => if memN a (o_assets o) then X else 0) outs) = if memN a (concat (map o_assets outs)) then X else 0.
Proof.
  induction outs as [|o t IH]; cbn [map concat]; [reflexivity|]. intros Hn. rewrite sumN_cons.
  apply nodup_app_inv in Hn as (_ & Hn & D). rewrite (IH Hn), memN_app.
  destruct (memN a (o_assets o)) eqn:M; cbn [orb]; [|apply N.add_0_l].
  apply memN_In, D, memN_false in M. rewrite M. apply N.add_0_r.
Qed.

(* C13 (assets): in a finalised proposal every asset is conserved: what the outputs hold of it is what the spent
   UTxOs hold of it *)
Theorem asset_balance c q a :
  Inv c q ->
  sumN (map (fun o => held c (t_utxos q) o a) (t_outputs q)) = sumN (map (fun u => amount c u a) (t_utxos q)).
Proof.
  intros I. unfold held. rewrite (held_unique _ a _ (inv_assets_nodup c q I)). fold (out_assets q).
  destruct (memN a (out_assets q)) eqn:M; [reflexivity|]. apply memN_false in M.
  rewrite (sumN_const _ _ 0); [reflexivity|]. intros u Hu. apply lookupN_absent. intros Ha.
  apply M, (inv_assets_eq c q I), (inv_assets_cover c q I u a Hu Ha).
Qed.

(* the value-size limit *)

(* what UtxosStat::new computes (it reports an error when a sum overflows) *)
Definition ctx_wf (c : ctx) : Prop :=
  cx_ada_total c = sumN (map (fun u => ui_ada (utxo_of c u)) (all_indices c)) /\
  forall a, ai_total (asset_of c a) = sumN (map (fun u => amount c u a) (all_indices c)).

Lemma sumN_perm (f : N -> N) l m : Permutation l m -> sumN (map f l) = sumN (map f m).
Proof. induction 1; cbn [map]; rewrite ?sumN_cons; lia. Qed.

Lemma sumN_sub (f : N -> N) us all : NoDup us -> NoDup all -> incl us all -> sumN (map f us) <= sumN (map f all).
Proof. intros Hu Ha Hi. rewrite <- (sumN_perm f _ _ (remove_all_perm us all Ha Hu Hi)), map_app, sumN_app. lia. Qed.

Lemma out_qty_le c used a q : ctx_wf c -> NoDup used -> incl used (all_indices c) ->
  out_qty c used a = Ok q -> q <= ai_total (asset_of c a).
Proof.
  intros [_ W] Hn Hi H. unfold out_qty in H. apply checked_sum_ok in H. subst q. rewrite W.
  apply sumN_sub; [exact Hn | apply idx_from_nodup | exact Hi].
Qed.

(* the groups an output denotes: quantities at most the grand totals, and their bound is the closed form of the model *)
Lemma bound_value_of c used assets gs :
  ctx_wf c -> NoDup used -> incl used (all_indices c) ->
  out_groups c used assets = Ok gs ->
  bound_value (cx_ada_total c) gs = bound_of c assets /\
  Forall (Forall (fun x : N * N * N => match x with (_, q, tot) => q <= tot end)) gs.
Proof.
  intros W Hn Hi H. pose proof (out_groups_nilb _ _ _ _ H) as Hnil. unfold out_groups in H. apply omapR_ok in H.
  assert (Hg : forall (g : N * list N) g',
    omapR (fun a => let* q := out_qty c used a in Ok (ai_name_len (asset_of c a), q, ai_total (asset_of c a))) (snd g) = Ok g' ->
    Forall (fun x : N * N * N => match x with (_, q, tot) => q <= tot end) g' /\
    bound_group g' = policy_size + get_struct_size (lenN (snd g)) +
                     sumN (map (fun a => asset_name_size (ai_name_len (asset_of c a)) + get_coin_size (ai_total (asset_of c a))) (snd g))).
  { intros g g' Hg. apply omapR_ok in Hg. split.
    - eapply Forall2_Forall_r; [exact Hg|]. intros a x Ha. apply bind_ok in Ha as [q [Hq Ha]]. injection Ha as <-.
      eapply out_qty_le; eassumption.
    - unfold bound_group. rewrite <- (Forall2_lenN _ _ _ Hg). f_equal. symmetry. eapply sumN_eq2; [exact Hg|].
      intros a x Ha. apply bind_ok in Ha as [q [_ Ha]]. injection Ha as <-. reflexivity. }
  split; [|eapply Forall2_Forall_r; [exact H | intros g g' E; apply (Hg g g' E)]].
  unfold bound_value, bound_of. destruct gs, assets; cbn [is_nilb] in Hnil; try discriminate; [reflexivity|].
  rewrite <- (Forall2_lenN _ _ _ H). do 2 f_equal. symmetry. eapply sumN_eq2; [exact H|]. intros g g' E. symmetry. apply (Hg g g' E).
Qed.

(* C13 (value size): every output of a finalised proposal that holds assets has a value of at most max_value_size
   bytes; an output without assets has a value of at most 9 bytes *)
Theorem value_size_limit c q o gs :
  ctx_wf c -> Inv c q -> incl (t_utxos q) (all_indices c) ->
  In o (t_outputs q) -> out_groups c (t_utxos q) (o_assets o) = Ok gs ->
  o_total_ada o <= cx_ada_total c ->
  (gs <> [] -> real_value_size (o_total_ada o) gs <= cx_max_value c) /\
  (gs = [] -> real_value_size (o_total_ada o) gs <= 9).
Proof.
  intros W I Hi Ho Hg Hc. split.
  - intros Hne. destruct (bound_value_of c _ _ _ W (inv_nodup c q I) Hi Hg) as [B F].
    pose proof (intermediate_upper_bound (o_total_ada o) (cx_ada_total c) gs Hc F) as U.
    pose proof (out_groups_nilb _ _ _ _ Hg) as Hnil.
    pose proof (inv_bound c q I) as Hb. rewrite Forall_forall in Hb.
    destruct (Hb o Ho) as [E|E]; [rewrite E in Hnil; destruct gs; [contradiction Hne; reflexivity | discriminate]|].
    unfold real_value_size. change (shape_of gs) with (real_shape gs). rewrite <- B in E.
    change (is_nilb gs) with (match gs with [] => true | _ => false end). lia.
  - intros ->. pose proof (struct_size_bounds (o_total_ada o)).
    change (real_value_size (o_total_ada o) []) with (get_struct_size (o_total_ada o) + 0 + 0 + 0). lia.
Qed.

Lemma shape_nil (gsb : groups) gs : groups_shape gsb = shape_of gs -> is_nil gsb = is_nilb gs.
Proof. unfold groups_shape, shape_of. destruct gsb, gs; cbn; intros H; try discriminate; reflexivity. Qed.

(* the premises are satisfiable *)

(* two UTxOs of one key owner: 3 ADA with 7 units of an asset (3-byte name), and 10 ADA; mainnet parameters *)
Definition ex_ctx : ctx :=
  mkCtx [mkUinfo 3000000 36 0 true [(0, 7)]; mkUinfo 10000000 36 0 false []] [mkAinfo 0 3 7] [KVkey]
        57 44 155381 4310 5000 16384 13000000.
Definition ex_plan : list (list op) := [[OpNewOutput; OpAddAsset 0; OpAddUtxo 0; OpSetMinAda; OpAddUtxo 1; OpSetMinAda]].

Example ex_send_all :
  send_all ex_ctx ex_plan =
  Ok [mkAtx [0; 1] [(12831463, [[(3, 7, 7)]])] 168537 [0]].
Proof. vm_compute. reflexivity. Qed.

Example ex_ctx_wf : ctx_wf ex_ctx.
Proof.
  split; [reflexivity|]. intros [|q]; [reflexivity|]. unfold asset_of, nthN. cbn [N.to_nat].
  destruct (Pos2Nat.is_succ q) as [n ->]. destruct n; reflexivity.
Qed.

(* C13_finalise, assembled *)

Lemma Forall2_in_r {A B} (R : A -> B -> Prop) l m : Forall2 R l m -> forall y, In y m -> exists x, In x l /\ R x y.
Proof.
  induction 1 as [|x y l m Hxy _ IH]; intros z []; [subst; exists x; split; [left; reflexivity | exact Hxy]|].
  destruct (IH z H) as [x' [Hx' Hr]]. exists x'. split; [right; exact Hx' | exact Hr].
Qed.

Definition tx_valid (c : ctx) (tx : atx) : Prop :=
  (* balanced in lovelace *)
  sumN (map (fun u => ui_ada (utxo_of c u)) (x_inputs tx)) = sumN (map fst (x_outputs tx)) + x_fee tx /\
  (* fee covers the real size (one witness per distinct owner address), within max_tx_size *)
  real_tx_size c tx * cx_a c + cx_b c <= x_fee tx /\ real_tx_size c tx <= cx_max_tx c /\
  (* every output: min ADA for its real size, value size within the limit *)
  Forall (fun o => (real_out_size c (fst o) (snd o) + 160) * cx_cpb c <= fst o /\
                   (snd o <> [] -> real_value_size (fst o) (snd o) <= cx_max_value c) /\
                   (snd o = [] -> real_value_size (fst o) (snd o) <= 9)) (x_outputs tx).

Theorem finalise_full c ops p p' tx :
  ctx_wf c -> run c tp_new ops = Ok p -> incl (t_utxos p) (all_indices c) -> finalise c p = Ok (p', tx) ->
  tx_valid c tx /\
  (* every asset is conserved, and the transaction's outputs hold exactly these quantities *)
  (forall a, sumN (map (fun o => held c (x_inputs tx) o a) (t_outputs p')) = sumN (map (fun u => amount c u a) (x_inputs tx))) /\
  Forall2 (fun o x => fst x = o_total_ada o /\ out_groups c (x_inputs tx) (o_assets o) = Ok (snd x)) (t_outputs p') (x_outputs tx).
Proof.
  intros W Hrun Hi Hfin. pose proof (finalise_inputs _ _ _ _ Hfin) as Ein.
  destruct (finalise_sound c ops p p' tx Hrun Hfin) as (I & X1 & X4 & Hbal & Hsz & Hfee & Hmin).
  rewrite <- X1 in X4. split; [|split; [intros a; rewrite X1; apply asset_balance, I | exact X4]].
  unfold tx_valid. split; [exact Hbal|]. split; [exact Hfee|]. split; [exact Hsz|].
  assert (Hi' : incl (t_utxos p') (all_indices c)) by (rewrite <- X1, Ein; exact Hi).
  (* the output coins together are at most the grand ADA total *)
  assert (Hada : sumN (map fst (x_outputs tx)) <= cx_ada_total c).
  { destruct W as [W1 _]. rewrite W1. pose proof (sumN_sub (fun u => ui_ada (utxo_of c u)) (t_utxos p') (all_indices c)
      (inv_nodup c p' I) (idx_from_nodup _ _) Hi'). rewrite X1 in Hbal. lia. }
  rewrite X1 in X4. apply Forall_forall. intros x Hx. rewrite Forall_forall in Hmin. split; [apply Hmin, Hx|].
  destruct (Forall2_in_r _ _ _ X4 x Hx) as [o [Ho [E1 E2]]]. rewrite E1.
  apply (value_size_limit c p' o (snd x) W I Hi' Ho E2). rewrite <- E1. pose proof (sumN_In_le fst _ _ Hx). lia.
Qed.

(* every transaction of ANY successful batch (any plan) is valid *)
Theorem batch_valid c : ctx_wf c -> forall plan free txs,
  incl free (all_indices c) -> batch c free plan = Ok txs -> Forall (tx_valid c) txs.
Proof.
  intros W. induction plan as [|ops rest IH]; intros free txs Hi H.
  - cbn [batch] in H. destruct free; [injection H as <-; constructor | discriminate].
  - apply batch_cons in H as (p & p' & tx & txs' & Hrun & Sub & Hfin & Hb & ->). constructor.
    + apply (finalise_full c ops p p' tx W Hrun (incl_tran Sub Hi) Hfin).
    + eapply IH; [|exact Hb]. eapply incl_tran; [apply remove_all_incl | exact Hi].
Qed.

(* a successful batch over all the supplied UTxOs, whatever its plan: the C13 statement *)
Theorem batch_sound c free plan txs :
  ctx_wf c -> Permutation free (all_indices c) -> batch c free plan = Ok txs ->
  Permutation (concat (map x_inputs txs)) (all_indices c) /\ Forall (tx_valid c) txs.
Proof.
  intros W P H. split; [exact (batch_partition_all c free plan txs P H)|].
  eapply batch_valid; [exact W | | exact H]. intros u Hu. eapply Permutation_in; [exact P | exact Hu].
Qed.
