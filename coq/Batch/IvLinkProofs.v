(* Batch/IvLinkProofs.v — the value-size test of the model ([bound_of], a closed form over the assets grouped by
   policy) IS the size the code maintains incrementally in IntermediateOutputValue (Calc.iv_add_asset / iv_set_coin):
   the policy table after adding the assets of a duplicate-free list is [groups_of], so build_intermediate_value (assets,
   then set_coin) and build_empty_intermediate_value followed by the additions both end with iv_total = bound_of. *)
From CSL Require Import Base.Prelude Base.Facts Base.U64 Batch.Calc Batch.CalcProofs Batch.EncProofs Batch.IntermediateProofs
  Batch.Proposal Batch.ProposalProofs.
Local Open Scope N_scope.

Section Link.
  Variable c : ctx.
  Definition pol_of (a : N) : N := ai_policy (asset_of c a).
  Definition asz (a : N) : N := asset_name_size (ai_name_len (asset_of c a)).
  Definition csz (a : N) : N := get_coin_size (ai_total (asset_of c a)).
  Definition add_op (a : N) : iv_op := IAdd (pol_of a) a.
  Definition stepc := iv_step policy_size asz csz.

  Definition iv_groups (v : ivalue) : list (N * list N) := map (fun kp => (fst kp, ip_assets (snd kp))) (iv_policies v).

  Lemma find_has pol l : group_has pol (map (fun kp : N * ipolicy => (fst kp, ip_assets (snd kp))) l) =
                         match iv_find pol l with Some _ => true | None => false end.
  Proof. induction l as [|[k p] t IH]; [reflexivity|]. cbn [map fst snd group_has iv_find]. destruct (pol =? k); [reflexivity|exact IH]. Qed.

  Lemma replace_update pol a l p p' :
    iv_find pol l = Some p -> ip_assets p' = a :: ip_assets p ->
    map (fun kp : N * ipolicy => (fst kp, ip_assets (snd kp))) (iv_replace pol p' l) =
    group_update pol a (map (fun kp : N * ipolicy => (fst kp, ip_assets (snd kp))) l).
  Proof.
    intros Hf Hp. induction l as [|[k q] t IH]; cbn [iv_find] in Hf; [discriminate|].
    cbn [iv_replace map fst snd group_update]. destruct (pol =? k).
    - injection Hf as ->. cbn [map fst snd]. rewrite Hp. reflexivity.
    - cbn [map fst snd]. rewrite (IH Hf). reflexivity.
  Qed.

  (* one addition of an asset that is in no list yet *)
  Lemma iv_groups_add v a :
    (forall l, In l (map snd (iv_groups v)) -> ~ In a l) ->
    iv_groups (stepc v (add_op a)) = group_insert (pol_of a) a (iv_groups v).
  Proof.
    intros Hfresh. unfold stepc, add_op, iv_step, iv_add_asset, group_insert, iv_groups. rewrite find_has.
    destruct (iv_find (pol_of a) (iv_policies v)) as [p|] eqn:Ef; cbn [iv_policies].
    - apply replace_update with (p := p); [exact Ef|]. unfold ip_add_asset.
      assert (M : memN a (ip_assets p) = false).
      { apply memN_false. apply Hfresh. unfold iv_groups. rewrite map_map. cbn [snd].
        rewrite <- (map_map snd ip_assets). apply in_map, (iv_find_In _ _ _ Ef). }
      rewrite M. reflexivity.
    - cbn [map fst snd]. reflexivity.
  Qed.

  Lemma group_insert_lists pol a gs l :
    In l (map snd (group_insert pol a gs)) -> (exists l0, l = a :: l0 /\ (l0 = [] \/ In l0 (map snd gs))) \/ In l (map snd gs).
  Proof.
    unfold group_insert. destruct (group_has pol gs).
    - induction gs as [|[k g] t IH]; cbn [group_update map snd In]; [tauto|]. destruct (pol =? k); cbn [map snd In].
      + intros [<-|H]; [left; exists g; split; [reflexivity | right; left; reflexivity] | right; right; exact H].
      + intros [<-|H]; [right; left; reflexivity|]. destruct (IH H) as [(l0 & E & [E0|E0])|H']; [left; exists l0; tauto | left; exists l0; split; [exact E | right; right; exact E0] | right; right; exact H'].
    - cbn [map snd In]. intros [<-|H]; [left; exists []; tauto | right; exact H].
  Qed.

  (* all the additions of a duplicate-free list: the policy table is groups_of *)
  Lemma iv_groups_fold : forall l v,
    NoDup l -> (forall a g, In a l -> In g (map snd (iv_groups v)) -> ~ In a g) ->
    iv_groups (fold_left stepc (map add_op l) v) =
    fold_left (fun gs a => group_insert (pol_of a) a gs) l (iv_groups v).
  Proof.
    induction l as [|a t IH]; intros v Hn Hf; [reflexivity|]. inversion Hn as [|? ? Ha Ht]; subst. cbn [map fold_left].
    rewrite IH; [rewrite iv_groups_add; [reflexivity | intros g Hg; apply (Hf a g (or_introl eq_refl) Hg)] | exact Ht|].
    intros b g Hb Hg. rewrite iv_groups_add in Hg by (intros g' Hg'; apply (Hf a g' (or_introl eq_refl) Hg')).
    destruct (group_insert_lists _ _ _ _ Hg) as [(l0 & -> & [->|H0])|H0].
    - intros [<-|[]]. contradiction.
    - intros [<-|H]; [contradiction | apply (Hf b l0 (or_intror Hb) H0 H)].
    - apply (Hf b g (or_intror Hb) H0).
  Qed.

  Lemma set_coin_groups v coin : iv_groups (iv_set_coin v coin) = iv_groups v.
  Proof. reflexivity. Qed.

  (* the closed form of IntermediateProofs in terms of the groups *)
  Definition groups_closed (gs : list (N * list N)) : N :=
    match gs with
    | [] => 0
    | _ => get_struct_size 2 + get_struct_size (lenN gs) +
           sumN (map (fun g => policy_size + get_struct_size (lenN (snd g)) + sumN (map (fun a => asz a + csz a) (snd g))) gs)
    end.

  Lemma closed_sum (l : list (N * ipolicy)) :
    (forall g, In g (map (fun kp : N * ipolicy => ip_assets (snd kp)) l) -> g <> []) ->
    sumN (map (fun kp : N * ipolicy => policy_size + ip_closed asz csz (ip_assets (snd kp))) l) =
    sumN (map (fun g : N * list N => policy_size + get_struct_size (lenN (snd g)) + sumN (map (fun a => asz a + csz a) (snd g)))
              (map (fun kp : N * ipolicy => (fst kp, ip_assets (snd kp))) l)).
  Proof.
    induction l as [|[k q] t IH]; intros H; [reflexivity|]. cbn [map fst snd]. rewrite !sumN_cons, IH.
    - f_equal. unfold ip_closed. specialize (H (ip_assets q) (or_introl eq_refl)).
      destruct (ip_assets q); [contradiction H; reflexivity | lia].
    - intros g Hg. apply H. right. exact Hg.
  Qed.

  Lemma iv_closed_groups v :
    (forall g, In g (map snd (iv_groups v)) -> g <> []) ->
    iv_closed policy_size asz csz (iv_policies v) = groups_closed (iv_groups v).
  Proof.
    unfold iv_groups. rewrite map_map. cbn [snd]. intros H. unfold iv_closed, groups_closed.
    destruct (iv_policies v) as [|kp0 t0] eqn:E; [reflexivity|]. rewrite <- E in *.
    assert (M : map (fun kp : N * ipolicy => (fst kp, ip_assets (snd kp))) (iv_policies v) <> []) by (rewrite E; discriminate).
    destruct (map (fun kp : N * ipolicy => (fst kp, ip_assets (snd kp))) (iv_policies v)) eqn:Em; [contradiction M; reflexivity|].
    rewrite <- Em. unfold lenN at 2. rewrite map_length. fold (lenN (iv_policies v)). rewrite (closed_sum _ H). reflexivity.
  Qed.

  Lemma fold_groups_nonempty l gs : (forall g, In g (map snd gs) -> g <> []) ->
    forall g, In g (map snd (fold_left (fun gs a => group_insert (pol_of a) a gs) l gs)) -> g <> [].
  Proof.
    apply (fold_left_inv (fun gs => forall g, In g (map snd gs) -> g <> [])). intros gs' a _ H g Hg.
    destruct (group_insert_lists _ _ _ _ Hg) as [(l0 & -> & _)|H0]; [discriminate | apply H, H0].
  Qed.

  Lemma bound_of_groups l : bound_of c l = get_coin_size (cx_ada_total c) + groups_closed (groups_of c l).
  Proof.
    unfold bound_of, groups_closed. f_equal. destruct l as [|a t] eqn:E; [reflexivity|]. rewrite <- E.
    destruct (groups_of c l) eqn:Eg; [apply groups_of_nil_iff in Eg; rewrite E in Eg; discriminate|]. rewrite <- Eg. reflexivity.
  Qed.

  Lemma iv_coins_adds l : iv_coins (map add_op l) = 0.
  Proof. unfold iv_coins. rewrite map_map. cbn. rewrite (sumN_const l _ 0); [reflexivity | auto]. Qed.

  (* the additions of a duplicate-free list to a value without assets give the closed form of the groups *)
  Lemma iv_closed_adds l v0 : NoDup l -> iv_policies v0 = [] ->
    iv_closed policy_size asz csz (iv_policies (fold_left stepc (map add_op l) v0)) = groups_closed (groups_of c l).
  Proof.
    intros Hn E0. assert (Eg : iv_groups v0 = []) by (unfold iv_groups; rewrite E0; reflexivity).
    assert (G : iv_groups (fold_left stepc (map add_op l) v0) = groups_of c l)
      by (rewrite iv_groups_fold; [rewrite Eg; reflexivity | exact Hn | rewrite Eg; intros a g _ []]).
    rewrite iv_closed_groups, G; [reflexivity|]. rewrite G. apply fold_groups_nonempty. intros g [].
  Qed.

  (* C13: the incrementally maintained intermediate value size is the closed form the model's value-size test uses *)
  Theorem iv_bound_link l : NoDup l ->
    iv_total (fold_left stepc (map add_op l ++ [ICoin (cx_ada_total c)]) iv_new) = bound_of c l /\
    iv_total (fold_left stepc (ICoin (cx_ada_total c) :: map add_op l) iv_new) = bound_of c l.
  Proof.
    intros Hn. rewrite bound_of_groups. unfold stepc. split; rewrite (iv_total_closed policy_size asz csz); fold stepc.
    - rewrite fold_left_app. cbn [fold_left stepc iv_step iv_set_coin iv_policies]. rewrite (iv_closed_adds l iv_new Hn eq_refl).
      unfold iv_coins. rewrite map_app, sumN_app. fold (iv_coins (map add_op l)). rewrite iv_coins_adds. cbn. lia.
    - cbn [fold_left]. rewrite (iv_closed_adds l (stepc iv_new (ICoin (cx_ada_total c))) Hn eq_refl).
      unfold iv_coins. cbn [map]. rewrite sumN_cons. fold (iv_coins (map add_op l)). rewrite iv_coins_adds. lia.
  Qed.
End Link.
