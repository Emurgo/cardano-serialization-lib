(* Batch/AssetPathProofs.v — for EVERY oracle (every possible HashSet iteration order) the complete batcher of
   Batch/AssetPath.v refines the abstract batch of Batch/Proposal.v: each accepted candidate is the result of an
   operation sequence that passes the guards.  Hence C13_partition / C13_finalise hold for it without the
   "any accepted operation sequence" abstraction.  Whatever the oracle answers, the order used is a duplicate-free
   enumeration of the set; the distribution of a UTxO's assets over outputs extends the proposal (OpNewOutput /
   OpAddAsset); a candidate extends the current proposal by the UTxO and the pure-ADA UTxOs it took. *)
From CSL Require Import Base.Prelude Base.Facts Base.U64 Batch.Calc Batch.CalcProofs Batch.EncProofs Batch.IntermediateProofs
  Batch.Proposal Batch.ProposalProofs Batch.BatchProofs Batch.PureAda Batch.PureAdaProofs Batch.AssetPath.
From Coq Require Import Permutation.
Local Open Scope N_scope.

(* the oracle cannot leave the set *)

Lemma insertN_nodup x l : NoDup l -> NoDup (insertN x l).
Proof.
  intros H. unfold insertN. destruct (memN x l) eqn:E; [exact H|]. apply NoDup_snoc; [exact H | apply memN_false, E].
Qed.

Lemma uniq_spec l : NoDup (uniq l) /\ forall x, In x (uniq l) <-> In x l.
Proof.
  unfold uniq. induction l as [|y t [N E]] using rev_ind; [split; [constructor | cbn; tauto]|].
  rewrite fold_left_app. cbn [fold_left]. split; [apply insertN_nodup, N|].
  intros x. rewrite in_insertN, in_app_iff, E. cbn [In]. clear. intuition.
Qed.

Lemma take_order_spec set o ord o' :
  NoDup set -> take_order set o = (ord, o') -> NoDup ord /\ forall x, In x ord <-> In x set.
Proof.
  intros Hn H. unfold take_order in H. destruct o as [|ans rest].
  - injection H as <- <-. split; [exact Hn | tauto].
  - injection H as <- <-. set (a := uniq (filter (fun x => memN x set) ans)).
    destruct (uniq_spec (filter (fun x => memN x set) ans)) as [Na Ea]. fold a in Na, Ea.
    assert (Ha : forall x, In x a -> In x set).
    { intros x Hx. apply Ea in Hx. apply filter_In in Hx as [_ Hx]. apply memN_In, Hx. }
    split.
    + apply NoDup_app_intro; [exact Na | apply NoDup_filter, Hn |].
      intros x Hx Hy. apply filter_In in Hy as [_ Hy]. apply negb_true_iff, memN_false in Hy. contradiction.
    + intros x. rewrite in_app_iff, filter_In, negb_true_iff. split.
      * intros [H|[H _]]; [apply Ha, H | exact H].
      * intros H. destruct (memN x a) eqn:E; [left; apply memN_In, E | right; split; [exact H | reflexivity]].
Qed.

Definition last_assets (p : tprop) : list N := o_assets (last (t_outputs p) op_new).

Lemma add_asset_facts p a : t_outputs p <> [] ->
  last_assets (add_asset p a) = insertN a (last_assets p) /\ t_assets (add_asset p a) = insertN a (t_assets p).
Proof.
  intros Ho. unfold add_asset, last_assets. cbn [t_outputs t_assets].
  destruct (list_snoc_cases (t_outputs p)) as [E|[t [x E]]]; [contradiction|]. rewrite E, map_last_snoc, !last_last. auto.
Qed.

Lemma extends_add_asset c p a :
  t_outputs p <> [] -> ~ In a (t_assets p) -> bound_of c (insertN a (last_assets p)) <= cx_max_value c ->
  extends c p (add_asset p a) [].
Proof.
  intros Ho Ha Hb. apply (extends_step c p (OpAddAsset a)); [|symmetry; apply app_nil_r]. cbn [step].
  destruct (t_outputs p) eqn:E; [contradiction Ho; reflexivity|]. rewrite <- E. apply memN_false in Ha. rewrite Ha.
  apply N.leb_le in Hb. unfold last_assets in Hb. rewrite Hb. reflexivity.
Qed.

(* one pass over the assets in iteration order: those that fit are added to the last output, the others deferred *)
Lemma place_assets_run c : forall assets cur acc0 def0 acc dfr p,
  t_outputs p <> [] -> last_assets p = cur -> NoDup assets -> (forall a, In a assets -> ~ In a (t_assets p)) ->
  place_assets c cur assets acc0 def0 = Ok (acc, dfr) ->
  exists added dl, acc = acc0 ++ added /\ dfr = def0 ++ dl /\ Permutation (added ++ dl) assets /\
    extends c p (fold_left add_asset added p) [] /\
    (forall a, In a (t_assets (fold_left add_asset added p)) <-> In a (t_assets p) \/ In a added).
Proof.
  induction assets as [|a t IH]; intros cur acc0 def0 acc dfr p Ho Hc Hn Hd H; cbn [place_assets] in H.
  - injection H as <- <-. exists [], []. rewrite !app_nil_r. cbn [app fold_left In]. repeat split; auto using extends_refl, perm_nil; tauto.
  - inversion Hn as [|? ? Ha Ht]; subst.
    destruct (bound_of c (insertN a (last_assets p)) <=? cx_max_value c) eqn:B.
    + destruct (add_asset_facts p a Ho) as (L & A).
      pose proof (extends_add_asset c p a Ho (Hd a (or_introl eq_refl)) (proj1 (N.leb_le _ _) B)) as E.
      assert (Hd' : forall x, In x t -> ~ In x (t_assets (add_asset p a))).
      { intros x Hx. rewrite A, in_insertN. intros [->|H']; [contradiction | apply (Hd x (or_intror Hx) H')]. }
      destruct (IH _ _ _ _ _ (add_asset p a) (extends_outputs _ _ _ _ E Ho) L Ht Hd' H) as (added & dl & E1 & E2 & P & R & M).
      exists (a :: added), dl. split; [rewrite E1, <- app_assoc; reflexivity|]. split; [exact E2|].
      split; [cbn [app]; constructor; exact P|]. cbn [fold_left]. split; [exact (extends_trans _ _ _ _ [] [] E R)|].
      intros x. rewrite M, A, in_insertN. cbn [In]. clear. intuition.
    + destruct (last_assets p) eqn:El; [discriminate|]. rewrite <- El in *.
      destruct (IH _ _ _ _ _ p Ho eq_refl Ht (fun x Hx => Hd x (or_intror Hx)) H) as (added & dl & E1 & E2 & P & R).
      exists added, (a :: dl). split; [exact E1|]. split; [rewrite E2, <- app_assoc; reflexivity|].
      split; [eapply perm_trans; [apply Permutation_sym, Permutation_middle | constructor; exact P] | exact R].
Qed.

Lemma add_assets_run c create_new p ordered p' dfr :
  t_outputs p <> [] -> NoDup ordered -> (forall a, In a ordered -> ~ In a (t_assets p)) ->
  add_assets_to_output c create_new p ordered = Ok (p', dfr) ->
  extends c p p' [] /\ NoDup dfr /\ (forall a, In a dfr -> In a ordered /\ ~ In a (t_assets p')) /\
  (forall a, In a ordered -> In a (t_assets p') \/ In a dfr).
Proof.
  intros Ho Hn Hd H. unfold add_assets_to_output in H. apply bind_ok in H as [[acc dl0] [Hp H]]. injection H as <- <-. cbn [fst snd].
  set (p1 := if create_new then add_new_output p else p).
  assert (P1 : extends c p p1 [] /\ t_assets p1 = t_assets p /\
               last_assets p1 = (if create_new then [] else match t_outputs p with [] => [] | _ => o_assets (last (t_outputs p) op_new) end)).
  { unfold p1. destruct create_new.
    - split; [apply extends_new_output|]. unfold add_new_output, last_assets. cbn [t_outputs t_assets]. rewrite last_last. auto.
    - split; [apply extends_refl|]. split; [reflexivity|]. unfold last_assets. destruct (t_outputs p); [contradiction Ho|]; reflexivity. }
  destruct P1 as (E1 & A1 & L1). pose proof (extends_outputs _ _ _ _ E1 Ho) as O1. rewrite <- A1 in Hd.
  destruct (place_assets_run c ordered _ [] [] acc dl0 p1 O1 L1 Hn Hd Hp) as (added & dl & -> & -> & P & E2 & A2).
  cbn [app]. assert (Nad : NoDup (added ++ dl)) by (eapply Permutation_NoDup; [apply Permutation_sym, P | exact Hn]).
  apply nodup_app_inv in Nad as (_ & Nd & D).
  split; [exact (extends_trans _ _ _ _ [] [] E1 E2)|]. split; [exact Nd|]. split.
  - intros a Ha. assert (Hin : In a ordered) by (eapply Permutation_in; [exact P | apply in_or_app; right; exact Ha]).
    split; [exact Hin|]. rewrite A2. intros [H|H]; [apply (Hd a Hin H) | apply (D a H Ha)].
  - intros a Ha. apply (Permutation_in _ (Permutation_sym P)) in Ha. rewrite A2. apply in_app_iff in Ha. tauto.
Qed.

Lemma place_loop_run c : forall fuel create_new p assets o p1 cn o1,
  t_outputs p <> [] -> NoDup assets -> (forall a, In a assets -> ~ In a (t_assets p)) ->
  place_loop fuel c create_new p assets o = Ok (p1, cn, o1) ->
  extends c p p1 [] /\ incl assets (t_assets p1).
Proof.
  induction fuel as [|f IH]; intros create_new p assets o p1 cn o1 Ho Hn Hd H; cbn [place_loop] in H; [discriminate|].
  destruct (take_order assets o) as [ordered o'] eqn:Et.
  destruct (take_order_spec _ _ _ _ Hn Et) as [No Eo].
  apply bind_ok in H as [[q dfr] [Ha H]]. cbn [fst snd] in H.
  destruct (add_assets_run c create_new p ordered q dfr Ho No (fun a Hx => Hd a (proj1 (Eo a) Hx)) Ha) as (E1 & Nd & D1 & C1).
  destruct dfr as [|d dt].
  - injection H as <- <- <-. split; [exact E1|]. intros a Hx. apply Eo in Hx. destruct (C1 a Hx) as [H|[]]. exact H.
  - destruct (IH true q (d :: dt) o' p1 cn o1 (extends_outputs _ _ _ _ E1 Ho) Nd (fun a Hx => proj2 (D1 a Hx)) H) as (E2 & C2).
    split; [exact (extends_trans _ _ _ _ [] [] E1 E2)|].
    intros a Hx. apply Eo in Hx. destruct (C1 a Hx) as [H'|H']; [apply (extends_assets _ _ _ _ E2), H' | apply C2, H'].
Qed.

(* every UTxO lists an asset at most once (its multiasset is a map) *)
Definition utxos_ok (c : ctx) : Prop := forall u, NoDup (uassets c u).

Lemma last_assets_in_out p a : t_outputs p <> [] -> In a (last_assets p) -> In a (out_assets p).
Proof.
  intros Ho Ha. unfold last_assets in Ha. destruct (list_snoc_cases (t_outputs p)) as [E|[t [x E]]]; [contradiction|].
  rewrite E, last_last in Ha. rewrite (out_assets_snoc _ _ _ E). apply in_or_app. right. exact Ha.
Qed.

(* where prototype_append starts: an output exists, and the assets still to add are distinct and new *)
Lemma prototype_start c p u : utxos_ok c ->
  let in_output := match t_outputs p with [] => [] | _ => o_assets (last (t_outputs p) op_new) end in
  let afa := filter (fun a => negb (memN a in_output) && negb (memN a (t_assets p))) (uassets c u) in
  let p0 := match t_outputs p with [] => add_new_output p | _ => p end in
  extends c p p0 [] /\ t_outputs p0 <> [] /\ t_assets p0 = t_assets p /\ NoDup afa /\ (forall a, In a afa -> ~ In a (t_assets p0)).
Proof.
  intros Hu in_output afa p0. destruct (with_output c p) as (E0 & O0 & A0). fold p0 in E0, O0, A0.
  split; [exact E0|]. split; [exact O0|]. split; [exact A0|]. split; [apply NoDup_filter, Hu|].
  intros a Ha. apply filter_In in Ha as [_ Ha]. apply andb_true_iff in Ha as [_ Ha]. apply negb_true_iff, memN_false in Ha.
  rewrite A0. exact Ha.
Qed.

Lemma prototype_append_run c st p u o p4 adas mk o' :
  utxos_ok c -> Inv c p -> asset_free c (free_adas st) ->
  prototype_append c st p u o = Ok (Some (p4, adas, mk), o') ->
  extends c p p4 (u :: adas) /\ incl adas (free_adas st) /\ t_outputs p4 <> [] /\ get_need_ada p4 = Ok 0.
Proof.
  intros Hu I Hf H. unfold prototype_append in H. destruct (prototype_start c p u Hu) as (E0 & O0 & A0 & Nafa & Dafa).
  set (in_output := match t_outputs p with [] => [] | _ => o_assets (last (t_outputs p) op_new) end) in *.
  set (afa := filter (fun a => negb (memN a in_output) && negb (memN a (t_assets p))) (uassets c u)) in *.
  set (p0 := match t_outputs p with [] => add_new_output p | _ => p end) in *.
  apply bind_ok in H as [[[p1 cn] o1] [Hl H]].
  destruct (place_loop_run c _ _ _ _ _ _ _ _ O0 Nafa Dafa Hl) as (E1 & C1).
  pose proof (extends_outputs _ _ _ _ E1 O0) as O1.
  apply bind_ok in H as [p2 [Ha H]]. apply bind_ok in H as [[p3 sz] [Hs H]]. cbn [fst snd] in H.
  destruct (cx_max_tx c <? sz); [destruct (is_nilb (t_utxos p)); discriminate|].
  (* the UTxO is added after all its assets are in the transaction *)
  assert (Sub : incl (utxo_assets c u) (t_assets p1)).
  { intros a Hx. destruct (memN a in_output) eqn:M1; [|destruct (memN a (t_assets p)) eqn:M2].
    - apply (extends_assets _ _ _ _ E1). rewrite A0. apply memN_In in M1. apply (inv_assets_eq c p I). unfold in_output in M1.
      destruct (t_outputs p) eqn:Eo; [contradiction|]. rewrite <- Eo in M1. apply last_assets_in_out; [rewrite Eo; discriminate | exact M1].
    - apply (extends_assets _ _ _ _ E1). rewrite A0. apply memN_In, M2.
    - apply C1. apply filter_In. split; [exact Hx | rewrite M1, M2; reflexivity]. }
  pose proof (extends_add_utxo c p1 u p2 O1 Sub Ha) as E2. pose proof (extends_set_min _ _ _ _ Hs) as E3.
  pose proof (extends_trans _ _ _ _ [] _ E0 (extends_trans _ _ _ _ [] _ E1 (extends_trans _ _ _ _ [u] [] E2 E3))) as E.
  pose proof (extends_outputs _ _ _ _ E3 (extends_outputs _ _ _ _ E2 O1)) as O3.
  apply bind_ok in H as [need [Hn H]]. destruct (0 <? need) eqn:En.
  - apply bind_ok in H as [t [Ht H]]. destruct t as [[q used]|]; [|discriminate]. injection H as <- <- <- <-.
    destruct (try_append_pure_run c (free_adas st) p3 q used Hf (or_intror O3) Ht) as (E4 & I4 & O4 & N4 & _).
    split; [exact (extends_trans _ _ _ _ [u] _ E E4) | repeat split; assumption].
  - injection H as <- <- <- <-. assert (need = 0) as -> by lia.
    split; [exact E | split; [apply incl_nil_l | split; [exact O3 | exact Hn]]].
Qed.

(* make_candidate: where a candidate comes from *)

Definition came_from (c : ctx) (st : pools) (p : tprop) (x : cand * N) : Prop :=
  In (snd x) (free_assets st) /\ exists o1 o2, prototype_append c st p (snd x) o1 = Ok (Some (fst x), o2).
Definition opt_from (c : ctx) (st : pools) (p : tprop) (b : option (cand * N)) : Prop :=
  forall x, b = Some x -> came_from c st p x.

Lemma scan_utxos_from c st p cf : forall us best o ret res o',
  (forall u, In u us -> In u (free_assets st)) -> opt_from c st p best ->
  scan_utxos c st p cf us best o = Ok (ret, res, o') -> opt_from c st p res.
Proof.
  induction us as [|u t IH]; intros best o ret res o' Hu Hb H; cbn [scan_utxos] in H.
  - injection H as _ <- _. exact Hb.
  - apply bind_ok in H as [[r o1] [Hp H]]. cbn [fst snd] in H. destruct r as [cd|].
    + assert (F : came_from c st p (cd, u)) by (split; [apply Hu; left; reflexivity | exists o, o1; exact Hp]).
      assert (Fo : opt_from c st p (Some (cd, u))) by (intros x E; injection E as <-; exact F).
      destruct (snd cd); [destruct cf|].
      * injection H as _ <- _. exact Fo.
      * eapply IH; [intros v Hv; apply Hu; right; exact Hv | exact Fo | exact H].
      * injection H as _ <- _. exact Fo.
    + eapply IH; [intros v Hv; apply Hu; right; exact Hv | exact Hb | exact H].
Qed.

Lemma free_holders_incl c st a u : In u (free_holders c st a) -> In u (free_assets st).
Proof. unfold free_holders. intros H. apply filter_In in H. tauto. Qed.

Lemma make_candidate_from c st p cf : NoDup (free_assets st) -> forall assets best o res o',
  opt_from c st p best -> make_candidate c st p cf assets best o = Ok (res, o') -> opt_from c st p res.
Proof.
  intros Hn. induction assets as [|a t IH]; intros best o res o' Hb H; cbn [make_candidate] in H.
  - injection H as <- _. exact Hb.
  - destruct (free_holders c st a) as [|h ht] eqn:Eh; [eapply IH; eassumption|]. rewrite <- Eh in H.
    destruct (take_order (free_holders c st a) o) as [ord o1] eqn:Et.
    assert (Nh : NoDup (free_holders c st a)) by (apply NoDup_filter, Hn).
    destruct (take_order_spec _ _ _ _ Nh Et) as [_ Eo].
    apply bind_ok in H as [[[ret cd] o2] [Hs H]].
    assert (F : opt_from c st p cd).
    { eapply scan_utxos_from; [|exact Hb|exact Hs]. intros u Hu. apply (free_holders_incl c st a), Eo, Hu. }
    destruct ret; [injection H as <- _; exact F | eapply IH; [exact F | exact H]].
Qed.

Lemma opt_from_none c st p : opt_from c st p None.
Proof. intros x E. discriminate. Qed.

Lemma try_append_asset_from c st p o x o' :
  NoDup (free_assets st) -> try_append_asset c st p o = Ok (Some x, o') -> came_from c st p x.
Proof.
  intros Hn H. unfold try_append_asset in H. apply bind_ok in H as [[r1 o1] [H1 H]]. cbn [fst snd] in H.
  pose proof (make_candidate_from c st p false Hn _ _ _ _ _ (opt_from_none c st p) H1) as F1.
  destruct r1 as [cd|]; [injection H as <- _; apply F1; reflexivity|].
  apply bind_ok in H as [[r2 o2] [H2 H]]. cbn [fst snd] in H.
  pose proof (make_candidate_from c st p false Hn _ _ _ _ _ (opt_from_none c st p) H2) as F2.
  destruct r2 as [cd|]; [injection H as <- _; apply F2; reflexivity|].
  apply (make_candidate_from c st p true Hn _ _ _ _ _ (opt_from_none c st p) H). reflexivity.
Qed.

Definition flat (st : pools) : list N := free_assets st ++ free_adas st.
Definition pools_ok (c : ctx) (st : pools) : Prop := NoDup (flat st) /\ asset_free c (free_adas st).

Lemma flat_after_asset st u adas :
  NoDup (flat st) -> In u (free_assets st) -> incl adas (free_adas st) ->
  removeN u (free_assets st) ++ remove_all adas (free_adas st) = remove_all (u :: adas) (flat st).
Proof.
  intros Hn Hu Ha. apply nodup_app_inv in Hn as (_ & _ & D). unfold flat, removeN. rewrite !remove_all_filter, filter_app.
  f_equal; apply filter_ext_in; intros y Hy; change (memN y (u :: adas)) with ((y =? u) || memN y adas).
  - assert (memN y adas = false) as -> by (apply memN_false; intros H; apply (D y Hy), Ha, H).
    rewrite orb_false_r, N.eqb_sym. reflexivity.
  - assert (y =? u = false) as -> by (apply N.eqb_neq; intros ->; apply (D u Hu Hy)). reflexivity.
Qed.

Lemma try_append_next_run c st p o p' st' o' :
  utxos_ok c -> Inv c p -> pools_ok c st -> (get_need_ada p = Ok 0 \/ t_outputs p <> []) ->
  try_append_next c st p o = Ok (Some (p', st'), o') ->
  exists consumed, extends c p p' consumed /\ incl consumed (flat st) /\
    flat st' = remove_all consumed (flat st) /\ pools_ok c st' /\ t_outputs p' <> [] /\
    get_need_ada p' = Ok 0 /\ (get_need_ada p = Ok 0 -> consumed <> []).
Proof.
  intros Hu I [Hn Hf] Hp H. unfold try_append_next in H. pose proof (nodup_app_inv _ _ Hn) as (Nfa & _ & _).
  destruct (free_assets st) as [|a0 at0] eqn:Efa.
  - destruct (free_adas st) as [|d0 dt0] eqn:Efd; [discriminate|]. rewrite <- Efd in *.
    apply bind_ok in H as [r [Hr H]]. destruct r as [[q used]|]; [|discriminate]. injection H as <- <- _.
    destruct (try_append_pure_run c (free_adas st) p q used Hf Hp Hr) as (E & Iu & O & N0 & Ne).
    exists used. unfold flat in *. rewrite Efa in *. cbn [free_assets free_adas app] in *.
    split; [exact E|]. split; [exact Iu|]. split; [reflexivity|]. split; [|auto].
    split; [cbn [app]; apply remove_all_nodup, Hn | eapply asset_free_sub; [apply remove_all_incl | exact Hf]].
  - rewrite <- Efa in *. apply bind_ok in H as [[r o1] [Hr H]]. cbn [fst snd] in H.
    destruct r as [[[[q adas] mk] u]|]; [|discriminate]. injection H as <- <- _.
    destruct (try_append_asset_from c st p o _ _ Nfa Hr) as [Hin [oa [ob Hpa]]]. cbn [fst snd] in *.
    destruct (prototype_append_run c st p u oa q adas mk ob Hu I Hf Hpa) as (E & Ia & O & N0).
    assert (Ef : flat (mkPools (removeN u (free_assets st)) (remove_all adas (free_adas st))) = remove_all (u :: adas) (flat st))
      by (apply flat_after_asset; assumption).
    exists (u :: adas). split; [exact E|].
    split; [intros x [<-|Hx]; unfold flat; apply in_or_app; [left; exact Hin | right; apply Ia, Hx]|].
    split; [exact Ef|]. split; [|split; [exact O | split; [exact N0 | discriminate]]].
    split; [rewrite Ef; apply remove_all_nodup, Hn|].
    cbn [free_adas]. eapply asset_free_sub; [apply remove_all_incl | exact Hf].
Qed.

Lemma fill_all_run c : utxos_ok c -> forall fuel st p o p' st' o',
  Inv c p -> pools_ok c st -> (get_need_ada p = Ok 0 \/ t_outputs p <> []) ->
  fill_all fuel c st p o = Ok (p', st', o') ->
  exists consumed, extends c p p' consumed /\ incl consumed (flat st) /\
    flat st' = remove_all consumed (flat st) /\ pools_ok c st'.
Proof.
  intros Hu. induction fuel as [|f IH]; intros st p o p' st' o' I Hk Hp H; cbn [fill_all] in H; [discriminate|].
  apply bind_ok in H as [[r o1] [Hr H]]. cbn [fst snd] in H. destruct r as [[q st1]|].
  - destruct (try_append_next_run c st p o q st1 o1 Hu I Hk Hp Hr) as (cons1 & E1 & I1 & F1 & K1 & O1 & _).
    assert (Iq : Inv c q) by (destruct E1 as (ops & R & _); eapply run_inv; eassumption).
    destruct (IH st1 q o1 p' st' o' Iq K1 (or_intror O1) H) as (cons2 & E2 & I2 & F2 & K2).
    exists (cons1 ++ cons2). split; [exact (extends_trans _ _ _ _ _ _ E1 E2)|].
    split; [apply incl_app; [exact I1 | rewrite F1 in I2; eapply incl_tran; [exact I2 | apply remove_all_incl]]|].
    split; [rewrite F2, F1; symmetry; apply remove_all_app | exact K2].
  - injection H as <- <- _. exists []. split; [apply extends_refl | split; [apply incl_nil_l | split; [reflexivity | exact Hk]]].
Qed.

Lemma pools_empty_flat st : pools_empty st = is_nilb (flat st).
Proof. unfold pools_empty, flat. destruct (free_assets st), (free_adas st); reflexivity. Qed.

(* the complete batcher is an instance of the abstract batch, whatever the oracle *)
Theorem build_all_batch c : utxos_ok c -> forall fuel st o txs,
  pools_ok c st -> build_all fuel c st o = Ok txs -> exists plan, batch c (flat st) plan = Ok txs.
Proof.
  intros Hu. induction fuel as [|f IH]; intros st o txs Hk H; cbn [build_all] in H; rewrite pools_empty_flat in H;
    (destruct (flat st) as [|f0 ft] eqn:Ef; [injection H as <-; exists []; reflexivity|]); [discriminate|].
  cbn [is_nilb] in H. rewrite <- Ef.
  apply bind_ok in H as [[[p st'] o'] [Hfill H]]. apply bind_ok in H as [[p' tx] [Hfin H]]. apply bind_ok in H as [rest [Hrest H]].
  injection H as <-. cbn [snd].
  destruct (fill_all_run c Hu _ st tp_new o p st' o' (inv_new c) Hk (or_introl need_tp_new) Hfill)
    as (consumed & (ops & R & U) & I & F & K').
  cbn [tp_new t_utxos app] in U.
  destruct (IH st' o' rest K' Hrest) as [plan Hplan].
  exists (ops :: plan). rewrite <- U in *. rewrite F in Hplan.
  apply (batch_round c (flat st) ops p (p', tx) rest plan R I); [rewrite Ef; discriminate | assumption..].
Qed.

Lemma initial_pools_ok c : pools_ok c (initial_pools c) /\ Permutation (flat (initial_pools c)) (all_indices c).
Proof.
  assert (P : Permutation (flat (initial_pools c)) (all_indices c)).
  { unfold flat, initial_pools, ada_pool. cbn [free_assets free_adas]. pose proof (pools_cover c) as PC.
    destruct (free_pools false c) as [fa fd]. cbn [fst snd].
    eapply perm_trans; [apply Permutation_app_head, sort_pool_perm | exact PC]. }
  split; [|exact P]. split.
  - eapply Permutation_NoDup; [apply Permutation_sym, P | apply idx_from_nodup].
  - apply ada_pool_asset_free.
Qed.
