(* Batch/CalcProofs.v — the head-size table of the calculator is the length of the real CBOR head, for every argument;
   the two fixpoint estimators (minimum ADA of an output, fee of a transaction) return a cost that is the cost of the
   returned size, and a size that covers the object once it carries that cost. *)
From CSL Require Import Base.Prelude Base.Facts Base.U64 Cbor.Head Cbor.HeadProofs Batch.Calc.
Local Open Scope N_scope.

Lemma struct_size_head_size n : get_struct_size n = head_size n.
Proof.
  unfold get_struct_size, head_size, MAX_INLINE_ENCODING.
  destruct (n <=? 23) eqn:A, (n <? 24) eqn:B; try lia; reflexivity.
Qed.

Theorem struct_size_head m n : get_struct_size n = N.of_nat (length (encode_head m n)).
Proof. rewrite head_length. apply struct_size_head_size. Qed.

Lemma struct_size_mono a b : a <= b -> get_struct_size a <= get_struct_size b.
Proof. rewrite !struct_size_head_size. apply head_size_mono. Qed.

Lemma struct_size_bounds n : 1 <= get_struct_size n <= 9.
Proof. rewrite struct_size_head_size. apply head_size_bounds. Qed.

Lemma coin_size_max n : get_coin_size n <= get_coin_size coin_max.
Proof. unfold get_coin_size. pose proof (struct_size_bounds n). change (get_struct_size coin_max) with 9. lia. Qed.

Lemma sumN_cons x l : sumN (x :: l) = x + sumN l.
Proof. reflexivity. Qed.
Lemma sumN_app a b : sumN (a ++ b) = sumN a + sumN b.
Proof. induction a as [|x t IH]; [reflexivity|]. cbn [app]. rewrite !sumN_cons, IH. lia. Qed.

Lemma lenN_cons {A} (x : A) l : lenN (x :: l) = 1 + lenN l.
Proof. unfold lenN. cbn [length]. lia. Qed.
Lemma lenN_app {A} (a b : list A) : lenN (a ++ b) = lenN a + lenN b.
Proof. unfold lenN. rewrite app_length. lia. Qed.
Lemma lenN_map {A B} (f : A -> B) l : lenN (map f l) = lenN l.
Proof. unfold lenN. rewrite map_length. reflexivity. Qed.

Lemma sumN_map_ext {A} (f g : A -> N) l : (forall x, In x l -> f x = g x) -> sumN (map f l) = sumN (map g l).
Proof.
  induction l as [|x t IH]; intros H; [reflexivity|]. cbn [map]. rewrite !sumN_cons, (H x (or_introl eq_refl)).
  f_equal. apply IH. intros. apply H. right. assumption.
Qed.
Lemma sumN_const {A} (l : list A) f c : (forall x, In x l -> f x = c) -> sumN (map f l) = c * lenN l.
Proof.
  induction l as [|x t IH]; intros H; [cbn; lia|]. cbn [map]. rewrite sumN_cons, lenN_cons, (H x (or_introl eq_refl)).
  rewrite IH by (intros; apply H; right; assumption). lia.
Qed.

Lemma sumN_add {A} (f g h : A -> N) l :
  (forall x, In x l -> f x + g x = h x) -> sumN (map f l) + sumN (map g l) = sumN (map h l).
Proof.
  induction l as [|x t IH]; intros H; [reflexivity|]. cbn [map]. rewrite !sumN_cons, <- (H x (or_introl eq_refl)), <- IH.
  - lia.
  - intros y Hy. apply H. right. exact Hy.
Qed.

Lemma checked_add_ok a b s : checked_add a b = Ok s -> s = a + b.
Proof. unfold checked_add. destruct (a + b <? two64); [intros H; injection H as <-; reflexivity | discriminate]. Qed.
Lemma checked_mul_ok a b s : checked_mul a b = Ok s -> s = a * b.
Proof. unfold checked_mul. destruct (a * b <? two64); [intros H; injection H as <-; reflexivity | discriminate]. Qed.

Lemma calc_size_cost_ok cpb size c : calc_size_cost cpb size = Ok c -> c = (size + 160) * cpb.
Proof.
  unfold calc_size_cost. intros H. apply bind_ok in H as [s [Hs H]].
  apply checked_add_ok in Hs. apply checked_mul_ok in H. subst. reflexivity.
Qed.

Lemma min_fee_ok size a b f : min_fee_for_size size a b = Ok f -> f = size * a + b.
Proof.
  unfold min_fee_for_size. intros H. apply bind_ok in H as [m [Hm H]].
  apply checked_mul_ok in Hm. apply checked_add_ok in H. subst. reflexivity.
Qed.

(* the size of the output when its coin is [c], given that [size] was measured with the coin [used] *)
Definition size_with_coin (used size c : N) : N := size - get_coin_size used + get_coin_size c.

Lemma output_cost_loop_safe cpb swc used :
  used < (swc + get_coin_size used + 160) * cpb ->
  forall k last cost sz,
  swc + get_coin_size used <= last ->
  output_cost_loop k cpb swc last = Ok (Some (cost, sz)) ->
  cost = (sz + 160) * cpb /\ swc + get_coin_size cost = sz /\ used < cost.
Proof.
  intros Hu. induction k as [|k IH]; intros last cost sz Hlo H; cbn [output_cost_loop] in H; [discriminate|].
  apply bind_ok in H as [c [Hc H]]. apply calc_size_cost_ok in Hc.
  assert (Hc' : used < c) by (subst c; nia).
  destruct (swc + get_coin_size c =? last) eqn:E.
  - injection H as <- <-. apply N.eqb_eq in E. repeat split; assumption.
  - eapply IH; [|exact H]. pose proof (struct_size_mono used c ltac:(lia)). unfold get_coin_size. lia.
Qed.

(* C13_estimators_safe, output part.  Premise: the measured size contains the coin it was measured with. *)
Theorem output_cost_safe used size cpb cost sz :
  get_coin_size used <= size ->
  estimate_output_cost used size cpb = Ok (cost, sz) ->
  cost = (sz + 160) * cpb /\
  size_with_coin used size (N.max used cost) <= sz /\
  (sz <> size + get_coin_size coin_max -> size_with_coin used size (N.max used cost) = sz).
Proof.
  intros Hsz H. unfold estimate_output_cost in H. unfold size_with_coin.
  apply bind_ok in H as [c0 [Hc0 H]]. apply calc_size_cost_ok in Hc0.
  destruct (c0 <=? used) eqn:E.
  - injection H as <- <-. rewrite N.max_l by lia. repeat split; [exact Hc0 | lia | lia].
  - apply bind_ok in H as [r [Hr H]]. destruct r as [[c s]|].
    + injection H as <- <-.
      apply (output_cost_loop_safe cpb (size - get_coin_size used) used) in Hr as [A [B C]].
      * rewrite N.max_r by lia. repeat split; [exact A | lia | lia].
      * replace (size - get_coin_size used + get_coin_size used) with size by lia. subst c0. lia.
      * pose proof (struct_size_mono used c0 ltac:(lia)). unfold get_coin_size. lia.
    + apply bind_ok in H as [pc [Hpc H]]. apply calc_size_cost_ok in Hpc. injection H as <- <-.
      assert (used < pc) by (subst pc c0; nia).
      rewrite N.max_r by lia. pose proof (coin_size_max pc).
      repeat split; [exact Hpc | lia | intros X; contradiction X; reflexivity].
Qed.

Lemma fee_loop_safe base a b mn dp : forall k last fee sz,
  fee_loop k base a b mn dp last = Ok (Some (fee, sz)) ->
  fee = sz * a + b /\ recalc_size_with_dependable_value (base + get_coin_size fee) fee mn dp = sz.
Proof.
  induction k as [|k IH]; intros last fee sz H; cbn [fee_loop] in H; [discriminate|].
  apply bind_ok in H as [c [Hc H]]. apply min_fee_ok in Hc.
  destruct (recalc_size_with_dependable_value (base + get_coin_size c) c mn dp =? last) eqn:E.
  - injection H as <- <-. apply N.eqb_eq in E. split; assumption.
  - eapply IH; exact H.
Qed.

Lemma recalc_bound size c mn dp :
  recalc_size_with_dependable_value size c mn dp <=
  size + match dp with Some _ => get_coin_size coin_max | None => 0 end.
Proof.
  unfold recalc_size_with_dependable_value. destruct dp as [d|]; [|lia].
  destruct mn as [m|]; [destruct (d - c <? m)|]; apply N.add_le_mono_l, coin_size_max.
Qed.

(* C13_estimators_safe, fee part: the fee is the linear fee of the returned size, and the returned size is at
   least the size of the transaction carrying that fee and the last-output coin predicted from it (equal
   when the iteration settled) *)
Theorem fee_safe base mn dp a b fee sz :
  estimate_fee base mn dp a b = Ok (fee, sz) ->
  fee = sz * a + b /\
  recalc_size_with_dependable_value (base + get_coin_size fee) fee mn dp <= sz.
Proof.
  unfold estimate_fee, estimate_fee_gen. intros H.
  apply bind_ok in H as [c0 [Hc0 H]]. apply bind_ok in H as [r [Hr H]]. destruct r as [[f s]|].
  - injection H as <- <-. apply fee_loop_safe in Hr as [A B]. split; [exact A | lia].
  - apply bind_ok in H as [pc [Hpc H]]. apply min_fee_ok in Hpc. injection H as <- <-. split; [exact Hpc|].
    pose proof (recalc_bound (base + get_coin_size pc) pc mn dp). pose proof (coin_size_max pc).
    destruct dp; lia.
Qed.
