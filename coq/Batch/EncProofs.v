(* Batch/EncProofs.v — every calculator formula equals the length of the real encoder's output (Codec/Schema.v [enc] on
   the schemas of Ledger/Schemas.v) for the object the proposal denotes (Batch/Denote.v), for ALL counts and widths:
   value, output, vkey witness, witness set, transaction.  The total the WitnessesCalculator maintains incrementally is
   a closed form of its counters ([wit_inv]), and that closed form is the length of the encoded witness set. *)
From CSL Require Import Base.Prelude Base.U64 Cbor.Head Cbor.HeadProofs Codec.Schema Ledger.Schemas
  Batch.Calc Batch.CalcProofs Batch.Denote.
Local Open Scope N_scope.

Lemma lenN_nil {A} : lenN (@nil A) = 0.
Proof. reflexivity. Qed.
Lemma lenN_head m n : lenN (encode_head m n) = get_struct_size n.
Proof. unfold lenN. symmetry. apply struct_size_head. Qed.
Lemma lenN_concat_map {A} (f : A -> bytes) l : lenN (concat (map f l)) = sumN (map (fun x => lenN (f x)) l).
Proof.
  induction l as [|x t IH]; [reflexivity|]. cbn [map concat sumN fold_right]. rewrite lenN_app, IH. reflexivity.
Qed.

Lemma enc_assets_len (g : list (bytes * N)) :
  lenN (enc Assets (assets_val g)) =
  get_struct_size (lenN g) + sumN (map (fun a => asset_name_size (lenN (fst a)) + get_coin_size (snd a)) g).
Proof.
  unfold Assets, assets_val. cbn [enc]. rewrite lenN_app, lenN_head, map_length. f_equal.
  rewrite map_map, lenN_concat_map. apply sumN_map_ext. intros [n q] _. cbn [fst snd].
  unfold AssetNameS, Coin, U64. cbn [enc]. rewrite !lenN_app, !lenN_head. unfold asset_name_size, get_coin_size, lenN. lia.
Qed.

Lemma enc_ma_len (gs : groups) :
  Forall (fun p => lenN (fst p) = 28) gs ->
  lenN (enc MultiAsset (ma_val gs)) =
  get_struct_size (lenN gs) + sumN (map calc_group_size (groups_shape gs)).
Proof.
  intros H. unfold MultiAsset, ma_val. cbn [enc]. rewrite lenN_app, lenN_head, map_length. f_equal.
  unfold groups_shape. rewrite !map_map, lenN_concat_map. apply sumN_map_ext. intros [p g] Hin. cbn [fst snd].
  rewrite Forall_forall in H. specialize (H _ Hin). cbn [fst] in H.
  rewrite lenN_app. fold Assets. rewrite enc_assets_len. unfold H28. cbn [enc]. rewrite lenN_app, lenN_head.
  fold (lenN p). rewrite H. unfold calc_group_size, policy_size. rewrite lenN_map, map_map. cbn [fst snd].
  assert (R : forall x y z w : N, x + y + (z + w) = y + x + z + w) by (intros; lia). apply R.
Qed.

(* C13: the value-size calculator (calc_value_size + the array head added by estimate_output_cost) is exact *)
Theorem value_size_exact coin (gs : groups) :
  Forall (fun p => lenN (fst p) = 28) gs ->
  lenN (enc Value (value_val coin gs)) =
  calc_value_size coin (groups_shape gs) + get_value_struct_size (is_nil gs).
Proof.
  intros H. unfold calc_value_size, value_val. destruct gs as [|g gs'].
  - unfold Value, choice, Coin, U64. cbn. rewrite lenN_head. unfold get_coin_size.
    change (0 <? 0) with false. cbn iota. lia.
  - set (l := g :: gs') in *. unfold Value, choice. cbn [cl enc enc_cl app]. unfold arr. cbn [sl enc enc_sl slen].
    rewrite !lenN_app, lenN_head. fold MultiAsset. rewrite (enc_ma_len l H). unfold Coin, U64. cbn [enc].
    rewrite lenN_head. change (lenN (@nil N)) with 0.
    assert (E : lenN (groups_shape l) = lenN l) by (unfold groups_shape; apply lenN_map). rewrite E.
    assert (0 <? lenN l = true) as -> by (unfold l; rewrite lenN_cons; lia).
    assert (is_nil l = false) as -> by reflexivity. cbn [get_value_struct_size]. unfold get_coin_size.
    change (1 + (1 + 0)) with 2. lia.
Qed.

(* C13: the output size AssetCategorizer::estimate_output_cost starts from *)
Theorem output_size_exact d addr coin (gs : groups) :
  Forall (fun p => lenN (fst p) = 28) gs ->
  lenN (enc (TransactionOutput d) (output_val addr coin gs)) =
  get_output_size (lenN addr) + calc_value_size coin (groups_shape gs) + get_value_struct_size (is_nil gs).
Proof.
  intros H. unfold TransactionOutput, output_val, choice. cbn [cl enc enc_cl app].
  unfold TransactionOutputArr. cbn [sl enc enc_sl slen app]. rewrite !lenN_app, lenN_head. change (lenN (@nil N)) with 0.
  rewrite (value_size_exact coin gs H). unfold AddressS. cbn [enc]. rewrite lenN_app, lenN_head.
  unfold get_output_size. fold (lenN addr). change (1 + (1 + 0)) with 2. lia.
Qed.

Theorem vkey_witness_size vk sg :
  lenN vk = 32 -> lenN sg = 64 -> lenN (enc Vkeywitness (vkeywit_val vk sg)) = get_fake_vkey_size.
Proof.
  intros Hv Hs. unfold Vkeywitness, vkeywit_val, arr, H32. cbn [sl enc enc_sl slen].
  rewrite !lenN_app, !lenN_head. change (lenN (@nil N)) with 0. fold (lenN vk) (lenN sg). rewrite Hv, Hs. reflexivity.
Qed.

(* closed form of the WitnessesCalculator total *)
Definition wit_fields (v b : N) : list N :=
  (if 0 <? b then [WS_BOOTSTRAPS] else []) ++ (if 0 <? v then [WS_VKEYS] else []).
Definition wit_closed (v : N) (boots : list N) : N :=
  if (v =? 0) && (lenN boots =? 0) then 0
  else
    1 + (if 0 <? v then 1 + get_wrapped_struct_size v + get_fake_vkey_size * v else 0)
      + (if 0 <? lenN boots then 1 + get_wrapped_struct_size (lenN boots) + sumN boots else 0).

(* the total the calculator maintains has three independent parts: the map head with the keys of the used fields,
   the vkey array and the bootstrap array *)
Definition fields_size (fs : list N) : N := if 0 <? lenN fs then get_witnesses_set_struct_size fs else 0.
Definition vkeys_size (v : N) : N := if v =? 0 then 0 else get_wrapped_struct_size v + get_fake_vkey_size * v.
Definition boots_size (boots : list N) : N :=
  if lenN boots =? 0 then 0 else get_wrapped_struct_size (lenN boots) + sumN boots.

Definition wit_inv (w : witcalc) : Prop :=
  w_boot w = lenN (w_boot_sizes w) /\
  w_total w = fields_size (w_fields w) + vkeys_size (w_vkeys w) + boots_size (w_boot_sizes w) /\
  (w_fields w = wit_fields (w_vkeys w) (w_boot w) \/ w_fields w = rev (wit_fields (w_vkeys w) (w_boot w))).

Lemma wit_inv_new : wit_inv wit_new.
Proof. repeat split. left. reflexivity. Qed.

Lemma wit_inv_total w : wit_inv w -> w_total w = wit_closed (w_vkeys w) (w_boot_sizes w).
Proof.
  intros (Hb & -> & Hf). unfold wit_closed, vkeys_size, boots_size, wit_fields in *. rewrite <- Hb in *.
  assert (0 <? w_vkeys w = negb (w_vkeys w =? 0)) as Pv by lia. assert (0 <? w_boot w = negb (w_boot w =? 0)) as Pb by lia.
  rewrite Pv, Pb in *. unfold get_fake_vkey_size.
  destruct (w_vkeys w =? 0), (w_boot w =? 0); cbn [negb andb app rev] in *; destruct Hf as [-> | ->];
    change (fields_size []) with 0; change (fields_size [_]) with 2; change (fields_size [_; _]) with 3; lia.
Qed.

(* opening a field of the witness-set map replaces the part of the total that depends on the fields *)
Lemma open_field_spec w f :
  wit_open_field w f =
  (if memN f (w_fields w) then w_fields w else f :: w_fields w,
   w_total w - fields_size (w_fields w) + fields_size (if memN f (w_fields w) then w_fields w else f :: w_fields w)).
Proof.
  unfold wit_open_field, fields_size. do 2 f_equal; [destruct (0 <? _); [reflexivity | lia]|].
  destruct (memN f (w_fields w)) eqn:M; [destruct (w_fields w); [discriminate M|]|]; rewrite lenN_cons;
    destruct (0 <? 1 + _) eqn:E; (reflexivity || lia).
Qed.

Lemma wit_inv_add_vkey w : wit_inv w -> wit_inv (wit_add_vkey w).
Proof.
  intros (Hb & Ht & Hf). unfold wit_add_vkey. rewrite open_field_spec.
  destruct (w_vkeys w =? 0) eqn:Ev; cbn [negb]; unfold wit_inv; cbn [w_vkeys w_boot w_boot_sizes w_fields w_total];
    (split; [exact Hb|]); unfold vkeys_size, wit_fields in *; rewrite Ev in *.
  - apply N.eqb_eq in Ev. rewrite Ev in *. change (0 + 1 =? 0) with false. change (0 <? 0 + 1) with true.
    change (0 <? 0) with false in Hf. rewrite app_nil_r in Hf.
    assert (Hm : memN WS_VKEYS (w_fields w) = false) by (destruct (0 <? w_boot w); destruct Hf as [-> | ->]; reflexivity).
    rewrite Hm. split; [lia|]. destruct (0 <? w_boot w); destruct Hf as [-> | ->]; auto.
  - assert (w_vkeys w + 1 =? 0 = false) as -> by lia. assert (0 <? w_vkeys w + 1 = (0 <? w_vkeys w)) as -> by lia.
    unfold get_fake_vkey_size in *. split; [lia | exact Hf].
Qed.

Lemma wit_inv_add_bootstrap w sz : wit_inv w -> wit_inv (wit_add_bootstrap w sz).
Proof.
  intros (Hb & Ht & Hf). unfold wit_add_bootstrap. rewrite open_field_spec.
  assert (Hlen : lenN (w_boot_sizes w ++ [sz]) = w_boot w + 1) by (rewrite lenN_app, Hb; reflexivity).
  destruct (w_boot w =? 0) eqn:Ev; cbn [negb]; unfold wit_inv; cbn [w_vkeys w_boot w_boot_sizes w_fields w_total];
    (split; [symmetry; exact Hlen|]); unfold boots_size, wit_fields in *; rewrite Hlen, sumN_app, <- Hb, Ev in *;
    change (sumN [sz]) with (sz + 0).
  - apply N.eqb_eq in Ev. rewrite Ev in *. change (0 + 1 =? 0) with false. change (0 <? 0 + 1) with true.
    change (0 <? 0) with false in Hf. cbn [app] in Hf.
    assert (Hm : memN WS_BOOTSTRAPS (w_fields w) = false) by (destruct (0 <? w_vkeys w); destruct Hf as [-> | ->]; reflexivity).
    assert (sumN (w_boot_sizes w) = 0) by (destruct (w_boot_sizes w); [reflexivity | rewrite lenN_cons in Hb; lia]).
    rewrite Hm. split; [lia|]. destruct (0 <? w_vkeys w); destruct Hf as [-> | ->]; auto.
  - assert (w_boot w + 1 =? 0 = false) as -> by lia. assert (0 <? w_boot w + 1 = (0 <? w_boot w)) as -> by lia.
    split; [lia | exact Hf].
Qed.

Lemma add_vkey_counts w : w_vkeys (wit_add_vkey w) = w_vkeys w + 1 /\ w_boot_sizes (wit_add_vkey w) = w_boot_sizes w.
Proof. unfold wit_add_vkey. destruct (w_vkeys w =? 0); [destruct (wit_open_field _ _)|]; split; reflexivity. Qed.
Lemma add_bootstrap_counts w sz :
  w_vkeys (wit_add_bootstrap w sz) = w_vkeys w /\ w_boot_sizes (wit_add_bootstrap w sz) = w_boot_sizes w ++ [sz].
Proof. unfold wit_add_bootstrap. destruct (w_boot w =? 0); [destruct (wit_open_field _ _)|]; split; reflexivity. Qed.

(* a sequence of add_vkey / add_boostrap calls: the order in which owners are met *)
Inductive wit_op := WVkey | WBoot (sz : N).
Definition wit_step (w : witcalc) (o : wit_op) : witcalc :=
  match o with WVkey => wit_add_vkey w | WBoot sz => wit_add_bootstrap w sz end.

Lemma enc_set_len s (l : list val) :
  lenN (enc (SSetOf s) (VList l)) = get_wrapped_struct_size (lenN l) + sumN (map (fun x => lenN (enc s x)) l).
Proof.
  cbn [enc]. rewrite !lenN_app, !lenN_head, lenN_concat_map. unfold get_wrapped_struct_size, get_tag_size, lenN. lia.
Qed.

(* C13: the witness-set size the calculator accumulates is the size of the encoded witness set *)
Theorem witness_set_exact d (vks boots : list val) :
  (forall x, In x vks -> lenN (enc Vkeywitness x) = get_fake_vkey_size) ->
  (vks <> [] \/ boots <> []) ->
  lenN (enc (TransactionWitnessSet d) (ws_val vks boots)) =
  wit_closed (lenN vks) (map (fun b => lenN (enc BootstrapWitness b)) boots).
Proof.
  intros Hv Hne. unfold TransactionWitnessSet, mapS, ws_val. cbn [kl].
  unfold wit_closed. rewrite lenN_map.
  assert (P1 : forall (x : val) t, (lenN (x :: t) =? 0) = false) by (intros; rewrite lenN_cons; lia).
  assert (P2 : forall (x : val) t, (0 <? lenN (x :: t)) = true) by (intros; rewrite lenN_cons; lia).
  destruct vks as [|v vt], boots as [|b bt]; [destruct Hne as [X|X]; contradiction X; reflexivity | ..].
  (* the same steps whichever of the two fields is present *)
  all: cbn [opt_set enc count_kl enc_kl present is_empty_val negb app]; fold Vkeywitnesses BootstrapWitnesses.
  all: rewrite !lenN_app; unfold enc_uint; rewrite !lenN_head; unfold Vkeywitnesses, BootstrapWitnesses.
  all: rewrite !enc_set_len, ?(sumN_const _ _ _ Hv), ?P1, ?P2.
  all: change (lenN (@nil val)) with 0; change (lenN (@nil N)) with 0; change (0 =? 0) with true; change (0 <? 0) with false.
  all: cbn [andb]; cbn iota; rewrite ?N.add_0_r, ?N.add_0_l.
  all: change (get_struct_size 0) with 1; change (get_struct_size 1) with 1; change (get_struct_size 2) with 1.
  all: change (get_struct_size (1 + 1)) with 1; lia.
Qed.

(* C13: the transaction size AssetCategorizer::get_tx_proposal_size adds up (bare tx, bare body with the fields
   inputs/outputs/fee, witness set, output list, fee, input list) is the size of the encoded transaction *)
Theorem tx_size_exact d (ins outs : list val) (fee : N) (ws : val) :
  lenN (enc (Transaction d) (tx_val (body_val ins outs fee) ws)) =
  get_bare_tx_size false + get_bare_tx_body_size [0; 1; 2] + lenN (enc (TransactionWitnessSet d) ws) +
  (get_struct_size (lenN outs) + sumN (map (fun o => lenN (enc (TransactionOutput d) o)) outs)) +
  get_coin_size fee +
  (get_struct_size (lenN ins) + sumN (map (fun i => lenN (enc TransactionInput i)) ins)).
Proof.
  unfold Transaction, tx_val, arr. cbn [sl enc enc_sl slen]. rewrite !lenN_app, lenN_head.
  change (lenN [245]) with 1. change (lenN [246]) with 1. change (lenN (@nil N)) with 0.
  assert (B : lenN (enc (TransactionBody d) (body_val ins outs fee)) =
              get_bare_tx_body_size [0; 1; 2] +
              (get_struct_size (lenN outs) + sumN (map (fun o => lenN (enc (TransactionOutput d) o)) outs)) +
              get_coin_size fee +
              (get_struct_size (lenN ins) + sumN (map (fun i => lenN (enc TransactionInput i)) ins))).
  { unfold TransactionBody, mapS, body_val. cbn [kl enc count_kl enc_kl present is_empty_val negb app].
    rewrite !lenN_app. unfold enc_uint. rewrite !lenN_head.
    fold TransactionInputs. fold (TransactionOutputs d). unfold TransactionInputs at 1. rewrite enc_set_len.
    unfold TransactionOutputs. cbn [enc]. rewrite !lenN_app, !lenN_head, lenN_concat_map. fold (lenN outs).
    change (lenN (@nil N)) with 0. unfold Coin, U64. cbn [enc]. rewrite lenN_head.
    change (get_bare_tx_body_size [0; 1; 2]) with 7. unfold get_wrapped_struct_size, get_tag_size, get_coin_size.
    rewrite ?N.add_0_r, ?N.add_0_l. change (get_struct_size (1 + (1 + 1))) with 1. change (get_struct_size 0) with 1.
    change (get_struct_size 1) with 1. change (get_struct_size 2) with 1. change (get_struct_size 258) with 3. lia. }
  rewrite B. change (get_bare_tx_size false) with 3. rewrite ?N.add_0_r, ?N.add_0_l.
  change (get_struct_size (1 + (1 + (1 + 1)))) with 1. lia.
Qed.

(* a transaction input [txid (32 bytes), index]: the size get_inputs_sizes measures on the real object *)
Lemma input_size txid ix : lenN txid = 32 ->
  lenN (enc TransactionInput (input_val txid ix)) = 1 + 34 + get_struct_size ix.
Proof.
  intros H. unfold TransactionInput, input_val, arr, H32, U32. cbn [sl enc enc_sl slen].
  rewrite !lenN_app, !lenN_head. fold (lenN txid). rewrite H. change (lenN (@nil N)) with 0.
  rewrite ?N.add_0_r, ?N.add_0_l. change (get_struct_size (1 + 1)) with 1. change (get_struct_size 32) with 2. lia.
Qed.
