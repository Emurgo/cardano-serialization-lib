(* Batch/IntermediateProofs.v — IntermediateOutputValue (assets_calculator.rs): the incrementally maintained size is a
   closed form of the set of assets added (independent of the order of additions, duplicates ignored), and that closed
   form is an UPPER bound of the real value size: it prices the coin at the width of the grand ADA total and every
   quantity at the width of the asset's grand total.  The invariant [iv_inv]: iv_total = coin part + iv_closed (policies). *)
From CSL Require Import Base.Prelude Base.U64 Cbor.Head Cbor.HeadProofs Batch.Calc Batch.CalcProofs.
Local Open Scope N_scope.

Section Intermediate.
  Variable policy_sz : N.
  Variable asz csz : N -> N.          (* per asset index: name size, size of the quantity *)

  Definition ip_closed (assets : list N) : N :=
    match assets with
    | [] => 0
    | _ => get_struct_size (lenN assets) + sumN (map (fun a => asz a + csz a) assets)
    end.
  Definition iv_closed (pols : list (N * ipolicy)) : N :=
    match pols with
    | [] => 0
    | _ => get_struct_size 2 + get_struct_size (lenN pols) +
           sumN (map (fun kp => policy_sz + ip_closed (ip_assets (snd kp))) pols)
    end.

  Definition ip_inv (p : ipolicy) : Prop := ip_total p = ip_closed (ip_assets p).
  Definition iv_inv (c : N) (v : ivalue) : Prop :=
    iv_total v = c + iv_closed (iv_policies v) /\
    Forall (fun kp => ip_inv (snd kp) /\ ip_assets (snd kp) <> []) (iv_policies v).

  Lemma ip_add_inv p a : ip_inv p -> ip_inv (ip_add_asset p a (asz a) (csz a)) /\
                                     ip_assets (ip_add_asset p a (asz a) (csz a)) <> [].
  Proof.
    unfold ip_inv, ip_add_asset. intros H. destruct (memN a (ip_assets p)) eqn:E.
    - split; [exact H|]. destruct (ip_assets p); [discriminate|discriminate].
    - cbn [ip_assets ip_total]. split; [|discriminate]. rewrite H. unfold ip_closed.
      destruct (ip_assets p) as [|b t] eqn:Ea.
      + change (lenN (@nil N)) with 0. change (0 <? 0) with false. cbn iota. cbn [map]. rewrite sumN_cons.
        change (lenN [a]) with 1. change (0 + 1) with 1. change (sumN []) with 0. lia.
      + assert (0 <? lenN (b :: t) = true) as -> by (rewrite lenN_cons; lia).
        rewrite (lenN_cons a), (N.add_comm 1). cbn [map]. rewrite !sumN_cons. pose proof (struct_size_bounds (lenN (b :: t))). lia.
  Qed.

  Lemma iv_is_empty_nil v c : iv_inv c v -> iv_is_empty v = match iv_policies v with [] => true | _ => false end.
  Proof.
    intros [_ H]. unfold iv_is_empty. destruct (iv_policies v) as [|[k p] t]; [reflexivity|].
    inversion H as [|x l [_ Hne] _]; subst. cbn [map snd] in *. rewrite sumN_cons.
    destruct (ip_assets p) as [|a r]; [contradiction Hne; reflexivity|]. rewrite lenN_cons.
    destruct (1 + lenN r + sumN _ <=? 0) eqn:E; [lia|reflexivity].
  Qed.

  Lemma iv_find_replace k p l p' :
    iv_find k l = Some p ->
    sumN (map (fun kp => policy_sz + ip_closed (ip_assets (snd kp))) (iv_replace k p' l)) + ip_closed (ip_assets p) =
    sumN (map (fun kp => policy_sz + ip_closed (ip_assets (snd kp))) l) + ip_closed (ip_assets p') /\
    ip_closed (ip_assets p) <= sumN (map (fun kp => policy_sz + ip_closed (ip_assets (snd kp))) l) /\
    lenN (iv_replace k p' l) = lenN l.
  Proof.
    induction l as [|[k' q] t IH]; cbn [iv_find iv_replace]; [discriminate|].
    destruct (k =? k') eqn:E.
    - intros H; injection H as ->. cbn [map snd]. rewrite !sumN_cons. split; [lia | split; [lia | rewrite !lenN_cons; reflexivity]].
    - intros H. destruct (IH H) as (A & L & B). cbn [map snd]. rewrite !sumN_cons, !lenN_cons, B. split; [lia | split; [lia | reflexivity]].
  Qed.

  Lemma iv_find_In k p l : iv_find k l = Some p -> In p (map snd l).
  Proof.
    induction l as [|[k' q] t IH]; cbn [iv_find]; [discriminate|]. destruct (k =? k').
    - intros H; injection H as ->. left. reflexivity.
    - intros H. right. apply IH, H.
  Qed.

  Lemma iv_replace_Forall (P : N * ipolicy -> Prop) k p' l :
    Forall P l -> (forall k', P (k', p')) -> Forall P (iv_replace k p' l).
  Proof.
    induction 1 as [|[k' q] t Hq Ht IH]; intros Hp; cbn [iv_replace]; [constructor|].
    destruct (k =? k'); constructor; auto.
  Qed.

  Lemma iv_closed_ne l : lenN l <> 0 ->
    iv_closed l = get_struct_size 2 + get_struct_size (lenN l) +
                  sumN (map (fun kp => policy_sz + ip_closed (ip_assets (snd kp))) l).
  Proof. destruct l; [intros X; contradiction X; reflexivity | reflexivity]. Qed.

  Theorem iv_inv_add c v pol a :
    iv_inv c v -> iv_inv c (iv_add_asset v pol a policy_sz (asz a) (csz a)).
  Proof.
    intros I. pose proof (iv_is_empty_nil v c I) as He. destruct I as [Ht Hf]. unfold iv_add_asset. rewrite He.
    destruct (iv_find pol (iv_policies v)) as [p|] eqn:Ef.
    - (* existing policy *)
      destruct (iv_policies v) as [|kp0 t0] eqn:Ep; [discriminate|]. rewrite <- Ep in *.
      assert (Hp : ip_inv p /\ ip_assets p <> []).
      { rewrite Forall_forall in Hf. apply iv_find_In in Ef. apply in_map_iff in Ef as [[k q] [<- Hin]]. apply (Hf _ Hin). }
      destruct Hp as [Hp Hne]. destruct (ip_add_inv p a Hp) as [Hp' Hne'].
      set (p' := ip_add_asset p a (asz a) (csz a)) in *.
      destruct (iv_find_replace pol p (iv_policies v) p' Ef) as (A & L0 & B).
      unfold iv_inv. cbn [iv_policies iv_total]. split.
      + rewrite Ht.
        assert (L : lenN (iv_policies v) <> 0) by (rewrite Ep, lenN_cons; lia).
        rewrite (iv_closed_ne _ L), (iv_closed_ne (iv_replace pol p' (iv_policies v))) by (rewrite B; exact L).
        rewrite B. unfold ip_inv in Hp, Hp'. rewrite Hp, Hp'. lia.
      + apply iv_replace_Forall; [exact Hf | intros k'; cbn [snd]; split; assumption].
    - (* new policy *)
      destruct (ip_add_inv ip_new a eq_refl) as [Hp' Hne'].
      set (p' := ip_add_asset ip_new a (asz a) (csz a)) in *.
      unfold iv_inv. cbn [iv_policies iv_total]. split.
      + rewrite (iv_closed_ne ((pol, p') :: iv_policies v)) by (rewrite lenN_cons; lia).
        rewrite lenN_cons, (N.add_comm 1 (lenN (iv_policies v))). cbn [map snd]. rewrite sumN_cons. unfold ip_inv in Hp'. rewrite <- Hp'.
        rewrite Ht. destruct (iv_policies v) as [|kp0 t0] eqn:Ep.
        * change (lenN (@nil (N * ipolicy))) with 0. change (0 <? 0) with false. cbn iota. unfold iv_closed.
          change (sumN (map _ [])) with 0. lia.
        * rewrite <- Ep. assert (L : lenN (iv_policies v) <> 0) by (rewrite Ep, lenN_cons; lia).
          assert (0 <? lenN (iv_policies v) = true) as -> by lia.
          rewrite (iv_closed_ne _ L). pose proof (struct_size_bounds (lenN (iv_policies v))). lia.
      + constructor; [cbn [snd]; split; assumption | exact Hf].
  Qed.

  Lemma iv_inv_set_coin c v coin : iv_inv c v -> iv_inv (c + get_coin_size coin) (iv_set_coin v coin).
  Proof. intros [A B]. split; [cbn [iv_set_coin iv_total iv_policies]; lia | exact B]. Qed.

  Lemma iv_inv_new : iv_inv 0 iv_new.
  Proof. split; [reflexivity | constructor]. Qed.

  (* the operations applied to an intermediate value: add_asset_to_intermediate_value / set_coin *)
  Inductive iv_op := IAdd (pol a : N) | ICoin (coin : N).
  Definition iv_step (v : ivalue) (o : iv_op) : ivalue :=
    match o with
    | IAdd pol a => iv_add_asset v pol a policy_sz (asz a) (csz a)
    | ICoin coin => iv_set_coin v coin
    end.
  Definition iv_coins (ops : list iv_op) : N :=
    sumN (map (fun o => match o with ICoin c => get_coin_size c | _ => 0 end) ops).

  (* C13: whatever the order of additions (HashSet iteration), the maintained total is the closed form *)
  Theorem iv_total_closed ops :
    let v := fold_left iv_step ops iv_new in
    iv_total v = iv_coins ops + iv_closed (iv_policies v).
  Proof.
    cbn zeta. enough (H : iv_inv (iv_coins ops) (fold_left iv_step ops iv_new)) by apply H.
    induction ops as [|o t IH] using rev_ind; [exact iv_inv_new|].
    rewrite fold_left_app. unfold iv_coins. rewrite map_app, sumN_app. fold (iv_coins t). cbn [fold_left map sumN fold_right].
    destruct o as [pol a|coin]; cbn [iv_step]; rewrite !N.add_0_r; [apply iv_inv_add, IH | apply iv_inv_set_coin, IH].
  Qed.
End Intermediate.

(* upper bound of the real value size *)

(* an output's assets grouped by policy, each asset with its name length, its quantity in the output and the
   grand total of that asset over all supplied UTxOs (UtxosStat::coins_in_assets) *)
Definition real_shape (gs : list (list (N * N * N))) : list (list (N * N)) :=
  map (map (fun a => match a with (nl, q, _) => (nl, q) end)) gs.
Definition bound_group (g : list (N * N * N)) : N :=
  policy_size + get_struct_size (lenN g) +
  sumN (map (fun a => match a with (nl, _, tot) => asset_name_size nl + get_coin_size tot end) g).
Definition bound_value (ada_total : N) (gs : list (list (N * N * N))) : N :=
  get_coin_size ada_total +
  match gs with [] => 0 | _ => get_struct_size 2 + get_struct_size (lenN gs) + sumN (map bound_group gs) end.
Definition slack_value (coin ada_total : N) (gs : list (list (N * N * N))) : N :=
  (get_coin_size ada_total - get_coin_size coin) +
  sumN (map (fun g => sumN (map (fun a => match a with (_, q, tot) => get_coin_size tot - get_coin_size q end) g)) gs).

(* C13: the value size the splitting decision is based on over-approximates the real value size by exactly the
   width differences (coin priced at the grand ADA total, quantities at the assets' grand totals) *)
Theorem intermediate_upper_bound coin ada_total (gs : list (list (N * N * N))) :
  coin <= ada_total ->
  Forall (Forall (fun a => match a with (_, q, tot) => q <= tot end)) gs ->
  calc_value_size coin (real_shape gs) + get_value_struct_size (match gs with [] => true | _ => false end)
    + slack_value coin ada_total gs = bound_value ada_total gs.
Proof.
  intros Hc Hq. unfold calc_value_size, bound_value, slack_value, real_shape.
  pose proof (struct_size_mono coin ada_total Hc) as Mc. unfold get_coin_size in *.
  rewrite map_map, lenN_map. rewrite Forall_forall in Hq.
  set (pr := fun a : N * N * N => match a with (nl, q, _) => (nl, q) end).
  set (sl := fun a : N * N * N => match a with (_, q, tot) => get_struct_size tot - get_struct_size q end).
  (* group by group, asset by asset: the real size plus the slack is the bound *)
  assert (G : sumN (map (fun g => calc_group_size (map pr g)) gs) + sumN (map (fun g => sumN (map sl g)) gs) =
              sumN (map bound_group gs)).
  { apply sumN_add. intros g Hg. unfold calc_group_size, bound_group, get_coin_size. rewrite map_map, lenN_map.
    rewrite <- N.add_assoc. f_equal. apply sumN_add. intros [[nl q] tot] Ha. cbn [pr sl fst snd]. specialize (Hq g Hg). rewrite Forall_forall in Hq.
    pose proof (struct_size_mono q tot (Hq _ Ha)). lia. }
  unfold lenN. destruct gs; cbn [length get_value_struct_size map] in *; change (sumN []) with 0 in *; destruct (0 <? _) eqn:E; lia.
Qed.
