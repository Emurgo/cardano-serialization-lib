(* Batch/NoOofProofs.v — no function of the batcher ever answers OutOfFuel.
   Part 1: the functions without fuel are built from Ok / Err only.
   Part 2: with the fuel the model passes, no loop of Batch/PureAda.v / Batch/AssetPath.v runs out of it, for every oracle.
   The measures:
     place_loop     every further round (a new output) places at least one asset or reports "asset too big"
     topup_loop     every round takes at least one pure-ADA UTxO not taken before
     fill / fill_all every accepted candidate removes at least one UTxO from the pools (this uses the invariant that an
                    accepted proposal has no ADA shortage: try_append_pure_ada_utxo entered with a shortage that vanishes
                    after set_min_ada_for_tx returns a candidate that consumes nothing, and the build loop would spin)
     pure_build / build_all  every finished transaction spends at least one UTxO *)
From CSL Require Import Base.Prelude Base.Facts Base.U64 Batch.Calc Batch.CalcProofs Batch.EncProofs Batch.IntermediateProofs
  Batch.Proposal Batch.ProposalProofs Batch.BatchProofs Batch.PureAda Batch.PureAdaProofs Batch.AssetPath
  Batch.AssetPathProofs.
From Coq Require Import Permutation.
Local Open Scope N_scope.

Definition no_oof {A} (r : result A) : Prop := r <> OutOfFuel.

Lemma bind_no_oof {A B} (r : result A) (f : A -> result B) :
  no_oof r -> (forall a, r = Ok a -> no_oof (f a)) -> no_oof (bind r f).
Proof. unfold no_oof. destruct r; cbn [bind]; intros H1 H2; try congruence. apply H2. reflexivity. Qed.

(* A body built from Ok, Err, bind, tests and matches is not OutOfFuel when the functions it calls are not: one closure
   lemma per construct.  With them in the database [noof], next to the facts proved before, each fuel-free function
   below is one [auto]; depth 9 is that of the longest body (prototype_append). *)
Lemma no_oof_Ok {A} (a : A) : no_oof (Ok a).
Proof. discriminate. Qed.
Lemma no_oof_Err {A} : no_oof (@Err A).
Proof. discriminate. Qed.
(* the hint form of bind_no_oof: the continuation is safe for every argument *)
Lemma no_oof_bind {A B} (r : result A) (f : A -> result B) : no_oof r -> (forall a, no_oof (f a)) -> no_oof (bind r f).
Proof. intros H1 H2. apply bind_no_oof; [exact H1 | intros a _; apply H2]. Qed.
Lemma no_oof_if {A} (b : bool) (x y : result A) : no_oof x -> no_oof y -> no_oof (if b then x else y).
Proof. destruct b; trivial. Qed.
Lemma no_oof_option {A B} (o : option A) (f : A -> result B) y :
  (forall a, no_oof (f a)) -> no_oof y -> no_oof (match o with Some a => f a | None => y end).
Proof. destruct o; auto. Qed.
Lemma no_oof_list {A B} (l : list A) (f : A -> list A -> result B) y :
  no_oof y -> (forall a t, no_oof (f a t)) -> no_oof (match l with [] => y | a :: t => f a t end).
Proof. destruct l; auto. Qed.
Lemma no_oof_prod {A B C} (x : A * B) (f : A -> B -> result C) :
  (forall a b, no_oof (f a b)) -> no_oof (let (a, b) := x in f a b).
Proof. destruct x; auto. Qed.
Lemma no_oof_okind {B} (k : okind) (v s n : result B) (f : N -> result B) :
  no_oof v -> (forall sz, no_oof (f sz)) -> no_oof s -> no_oof n ->
  no_oof (match k with KVkey => v | KByron sz => f sz | KScript => s | KNone => n end).
Proof. destruct k; auto. Qed.

Create HintDb noof.
#[export] Hint Resolve no_oof_Ok no_oof_Err no_oof_bind no_oof_if no_oof_option no_oof_list no_oof_prod no_oof_okind : noof.

Lemma noof_checked_add a b : no_oof (checked_add a b).  Proof. unfold checked_add. auto 9 with noof. Qed.
Lemma noof_checked_mul a b : no_oof (checked_mul a b).  Proof. unfold checked_mul. auto 9 with noof. Qed.
#[export] Hint Resolve noof_checked_add noof_checked_mul : noof.
Lemma noof_calc_size_cost a b : no_oof (calc_size_cost a b).  Proof. unfold calc_size_cost. auto 9 with noof. Qed.
Lemma noof_min_fee a b d : no_oof (min_fee_for_size a b d).  Proof. unfold min_fee_for_size. auto 9 with noof. Qed.
#[export] Hint Resolve noof_calc_size_cost noof_min_fee : noof.
Lemma noof_output_cost_loop k : forall a b d, no_oof (output_cost_loop k a b d).
Proof. induction k as [|k IH]; intros; cbn [output_cost_loop]; auto 9 with noof. Qed.
#[export] Hint Resolve noof_output_cost_loop : noof.
Lemma noof_estimate_output_cost a b d : no_oof (estimate_output_cost a b d).
Proof. unfold estimate_output_cost. auto 9 with noof. Qed.
Lemma noof_fee_loop k : forall a b d e f g, no_oof (fee_loop k a b d e f g).
Proof. induction k as [|k IH]; intros; cbn [fee_loop]; auto 9 with noof. Qed.
#[export] Hint Resolve noof_estimate_output_cost noof_fee_loop : noof.
Lemma noof_estimate_fee l a b d e f : no_oof (estimate_fee_gen l a b d e f).
Proof. unfold estimate_fee_gen. auto 9 with noof. Qed.
Lemma noof_estimate_fee' a b d e f : no_oof (estimate_fee a b d e f).
Proof. apply noof_estimate_fee. Qed.
#[export] Hint Resolve noof_estimate_fee noof_estimate_fee' : noof.

Lemma noof_checked_sum l : no_oof (checked_sum l).
Proof. induction l; cbn [checked_sum]; auto 9 with noof. Qed.
#[export] Hint Resolve noof_checked_sum : noof.
Lemma noof_total_outputs p : no_oof (get_total_ada_for_outputs p).
Proof. unfold get_total_ada_for_outputs. auto 9 with noof. Qed.
#[export] Hint Resolve noof_total_outputs : noof.
Lemma noof_need p : no_oof (get_need_ada p).  Proof. unfold get_need_ada. auto 9 with noof. Qed.
Lemma noof_unused p : no_oof (get_unused_ada p).  Proof. unfold get_unused_ada. auto 9 with noof. Qed.
#[export] Hint Resolve noof_need noof_unused : noof.
Lemma noof_add_address c o w a : no_oof (add_address c o w a).  Proof. unfold add_address. auto 9 with noof. Qed.
#[export] Hint Resolve noof_add_address : noof.
Lemma noof_add_utxo c p u : no_oof (add_utxo c p u).  Proof. unfold add_utxo. auto 9 with noof. Qed.
Lemma noof_add_last p : no_oof (add_last_ada_to_last_output p).
Proof. unfold add_last_ada_to_last_output. auto 9 with noof. Qed.
#[export] Hint Resolve noof_add_utxo noof_add_last : noof.
Lemma noof_omapR {A B} (f : A -> result B) l : (forall x, no_oof (f x)) -> no_oof (omapR f l).
Proof. intros H. induction l; cbn [omapR]; auto with noof. Qed.
#[export] Hint Resolve noof_omapR : noof.
Lemma noof_out_qty c u a : no_oof (out_qty c u a).  Proof. unfold out_qty. auto 9 with noof. Qed.
#[export] Hint Resolve noof_out_qty : noof.
Lemma noof_out_groups c u a : no_oof (out_groups c u a).
Proof. unfold out_groups. auto with noof. Qed.
#[export] Hint Resolve noof_out_groups : noof.
Lemma noof_estimate_output c u o : no_oof (estimate_output c u o).  Proof. unfold estimate_output. auto 9 with noof. Qed.
#[export] Hint Resolve noof_estimate_output : noof.
Lemma noof_recalc_output c u o : no_oof (recalc_output c u o).  Proof. unfold recalc_output. auto 9 with noof. Qed.
#[export] Hint Resolve noof_recalc_output : noof.
Lemma noof_recalculate c p : no_oof (recalculate_outputs c p).
Proof. unfold recalculate_outputs. auto with noof. Qed.
#[export] Hint Resolve noof_recalculate : noof.
Lemma noof_estimate_fee_p l c p : no_oof (estimate_fee_p l c p).  Proof. unfold estimate_fee_p. auto 9 with noof. Qed.
#[export] Hint Resolve noof_estimate_fee_p : noof.
Lemma noof_set_min_gen l c p : no_oof (set_min_ada_for_tx_gen l c p).
Proof. unfold set_min_ada_for_tx_gen. auto 9 with noof. Qed.
Lemma noof_set_min c p : no_oof (set_min_ada_for_tx c p).  Proof. apply noof_set_min_gen. Qed.
#[export] Hint Resolve noof_set_min_gen noof_set_min : noof.
Lemma noof_check_finished c p s : no_oof (check_finished c p s).  Proof. unfold check_finished. auto 9 with noof. Qed.
Lemma noof_create_tx c p : no_oof (create_tx c p).
Proof. unfold create_tx. auto with noof. Qed.
#[export] Hint Resolve noof_check_finished noof_create_tx : noof.
Lemma noof_finalise w c p : no_oof (finalise_gen w c p).  Proof. unfold finalise_gen. auto 9 with noof. Qed.
Lemma noof_finalise' c p : no_oof (finalise c p).  Proof. apply noof_finalise. Qed.
#[export] Hint Resolve noof_finalise noof_finalise' : noof.

Lemma noof_by_amount c : forall rp ig l acc, no_oof (by_amount c rp ig l acc).
Proof. induction rp; intros; cbn [by_amount]; auto 9 with noof. Qed.
Lemma noof_add_utxos c : forall us p, no_oof (add_utxos c p us).
Proof. induction us; intros; cbn [add_utxos]; auto 9 with noof. Qed.
#[export] Hint Resolve noof_by_amount noof_add_utxos : noof.
Lemma noof_place_assets c : forall assets cur acc d, no_oof (place_assets c cur assets acc d).
Proof. induction assets; intros; cbn [place_assets]; auto 9 with noof. Qed.
#[export] Hint Resolve noof_place_assets : noof.
Lemma noof_add_assets c cn p o : no_oof (add_assets_to_output c cn p o).
Proof. unfold add_assets_to_output. auto 9 with noof. Qed.
#[export] Hint Resolve noof_add_assets : noof.

Lemma place_assets_len c : forall assets cur acc dfr acc' dfr',
  place_assets c cur assets acc dfr = Ok (acc', dfr') ->
  (length dfr' <= length dfr + length assets)%nat /\
  (cur = [] -> assets <> [] -> (length dfr' < length dfr + length assets)%nat).
Proof.
  induction assets as [|a t IH]; intros cur acc dfr acc' dfr' H; cbn [place_assets] in H.
  - injection H as _ <-. split; [cbn; lia | intros _ X; contradiction X; reflexivity].
  - destruct (bound_of c (insertN a cur) <=? cx_max_value c).
    + destruct (IH _ _ _ _ _ H) as [L _]. cbn [length]. split; [lia | intros _ _; lia].
    + destruct cur as [|x cur']; [discriminate|]. destruct (IH _ _ _ _ _ H) as [L _]. rewrite app_length in L. cbn [length] in *.
      split; [lia | intros X; discriminate].
Qed.

Lemma take_order_length set o ord o' : NoDup set -> take_order set o = (ord, o') -> length ord = length set.
Proof.
  intros Hn H. destruct (take_order_spec _ _ _ _ Hn H) as [No Eo].
  apply Permutation_length. apply NoDup_Permutation; assumption.
Qed.

Lemma place_loop_no_oof c : forall fuel (create_new : bool) p assets o,
  NoDup assets -> t_outputs p <> [] -> (forall a, In a assets -> ~ In a (t_assets p)) ->
  (length assets + (if create_new then 0 else 1) < fuel)%nat ->
  no_oof (place_loop fuel c create_new p assets o).
Proof.
  induction fuel as [|f IH]; intros create_new p assets o Hn Ho Hd Hf; [lia|]. cbn [place_loop].
  destruct (take_order assets o) as [ordered o1] eqn:Et.
  pose proof (take_order_length _ _ _ _ Hn Et) as Hl. destruct (take_order_spec _ _ _ _ Hn Et) as [No Eo].
  apply bind_no_oof; [auto with noof|].
  intros [q dfr] Ha. cbn [fst snd].
  destruct (add_assets_run c create_new p ordered q dfr Ho No (fun a Hx => Hd a (proj1 (Eo a) Hx)) Ha) as (E1 & Nd & D1 & _).
  destruct dfr as [|d dt] eqn:Ed; [discriminate|]. rewrite <- Ed in *.
  apply IH; [exact Nd | exact (extends_outputs _ _ _ _ E1 Ho) | intros a Hx; apply (D1 a Hx) |].
  (* a round on a new output places an asset, so fewer are deferred than were offered *)
  unfold add_assets_to_output in Ha. apply bind_ok in Ha as [[acc dl] [Hp Ha]]. injection Ha as _ E. cbn [snd] in E. subst dl.
  destruct (place_assets_len c _ _ _ _ _ _ Hp) as [L1 L2]. cbn [length] in *.
  destruct create_new; [|lia].
  assert (ordered <> []) by (intros X; rewrite X in Hp; cbn in Hp; injection Hp as _ Y; rewrite <- Y in Ed; discriminate).
  specialize (L2 eq_refl H). lia.
Qed.

Lemma topup_no_oof c pool orig : NoDup pool -> forall fuel p used size,
  NoDup used -> incl used pool -> (length pool - length used < fuel)%nat ->
  no_oof (topup_loop fuel c pool orig p used size).
Proof.
  intros Np. induction fuel as [|f IH]; intros p used size Nu Iu Hf; [lia|]. cbn [topup_loop].
  apply bind_no_oof; [auto with noof|]. intros need _. destruct (need =? 0) eqn:En; [discriminate|]. apply N.eqb_neq in En.
  apply bind_no_oof; [auto with noof|]. intros next Hn.
  destruct (by_amount_spec c _ _ _ _ _ Hn) as (nw & -> & I & D & Nd & Ne). cbn [rev app].
  apply bind_no_oof; [auto with noof|]. intros p1 _. apply bind_no_oof; [auto with noof|]. intros [q sz] _. cbn [fst snd].
  destruct ((cx_max_tx c <? sz) && orig); [discriminate|].
  assert (Inw : incl nw pool) by (intros x Hx; apply in_rev, I, Hx).
  assert (Nun : NoDup (used ++ nw)) by (apply NoDup_app_intro; [exact Nu | apply Nd, NoDup_rev, Np | intros x Hx Hy; apply (D x Hy Hx)]).
  apply IH; [exact Nun | apply incl_app; assumption |].
  pose proof (NoDup_incl_length Nun (incl_app Iu Inw)) as L. rewrite app_length in *.
  destruct nw; [contradiction (Ne En); reflexivity|]. cbn [length] in *. lia.
Qed.

Lemma try_append_pure_no_oof c pool p : NoDup pool -> no_oof (try_append_pure c pool p).
Proof.
  intros Np. unfold try_append_pure. apply bind_no_oof; [auto with noof|]. intros need _.
  apply bind_no_oof.
  - destruct (need =? 0); [|discriminate]. destruct (rev pool); [discriminate|]. auto with noof.
  - intros [[p1 used]|] Hs; [|discriminate]. apply bind_no_oof; [auto with noof|]. intros [q sz] _. cbn [fst snd].
    apply bind_no_oof; [|intros [[p2 u2] s2] _; destruct (cx_max_tx c <? s2); discriminate].
    destruct (need =? 0).
    + destruct (rev pool) as [|u rp] eqn:Er; [discriminate|]. apply bind_ok in Hs as [p1' [_ Hs]]. injection Hs as _ <-.
      assert (Hu : In u pool) by (apply in_rev; rewrite Er; left; reflexivity).
      apply topup_no_oof; [exact Np | constructor; [intros []|constructor] | intros x [<-|[]]; exact Hu | cbn [length]; lia].
    + injection Hs as _ <-. apply topup_no_oof; [exact Np | constructor | intros x [] | cbn [length]; lia].
Qed.
#[export] Hint Resolve try_append_pure_no_oof : noof.

Lemma prototype_append_no_oof c st p u o : utxos_ok c -> NoDup (free_adas st) -> no_oof (prototype_append c st p u o).
Proof.
  intros Hu Np. unfold prototype_append. destruct (prototype_start c p u Hu) as (_ & O0 & _ & Nafa & Dafa).
  apply bind_no_oof; [|intros [[p1 cn] o1] _; auto 9 with noof].
  apply place_loop_no_oof; [exact Nafa | exact O0 | exact Dafa | lia].
Qed.
#[export] Hint Resolve prototype_append_no_oof : noof.

Lemma scan_utxos_no_oof c st p cf : utxos_ok c -> NoDup (free_adas st) -> forall us best o,
  no_oof (scan_utxos c st p cf us best o).
Proof. intros Hu Np. induction us as [|u t IH]; intros best o; cbn [scan_utxos]; auto 9 with noof. Qed.
#[export] Hint Resolve scan_utxos_no_oof : noof.

Lemma make_candidate_no_oof c st p cf : utxos_ok c -> NoDup (free_adas st) -> forall assets best o,
  no_oof (make_candidate c st p cf assets best o).
Proof. intros Hu Np. induction assets as [|a t IH]; intros best o; cbn [make_candidate]; auto 9 with noof. Qed.
#[export] Hint Resolve make_candidate_no_oof : noof.

Lemma try_append_asset_no_oof c st p o : utxos_ok c -> NoDup (free_adas st) -> no_oof (try_append_asset c st p o).
Proof. intros Hu Np. unfold try_append_asset. auto 9 with noof. Qed.
#[export] Hint Resolve try_append_asset_no_oof : noof.

Lemma try_append_next_no_oof c st p o : utxos_ok c -> NoDup (free_adas st) -> no_oof (try_append_next c st p o).
Proof. intros Hu Np. unfold try_append_next. auto 9 with noof. Qed.

(* the fill and build loops *)

Lemma pools_ok_adas c st : pools_ok c st -> NoDup (free_adas st).
Proof. intros [Hn _]. apply nodup_app_inv in Hn. tauto. Qed.

Lemma pools_size_flat st : pools_size st = length (flat st).
Proof. unfold pools_size, flat. rewrite app_length. reflexivity. Qed.

(* an accepted candidate keeps the invariants, has no shortage and takes at least one UTxO out of the pools *)
Lemma try_append_next_progress c st p o p' st' o' :
  utxos_ok c -> Inv c p -> pools_ok c st -> get_need_ada p = Ok 0 ->
  try_append_next c st p o = Ok (Some (p', st'), o') ->
  Inv c p' /\ pools_ok c st' /\ get_need_ada p' = Ok 0 /\ (pools_size st' < pools_size st)%nat.
Proof.
  intros Hu I K Hn Hr.
  destruct (try_append_next_run c st p o p' st' o' Hu I K (or_introl Hn) Hr) as (cons & (ops & R & _) & Ic & F & K1 & _ & N1 & Ne).
  split; [eapply run_inv; eassumption|]. split; [exact K1|]. split; [exact N1|].
  rewrite !pools_size_flat, F. apply remove_all_shrinks; [apply K | exact (Ne Hn) | exact Ic].
Qed.

Lemma fill_all_no_oof c : utxos_ok c -> forall fuel st p o,
  Inv c p -> pools_ok c st -> get_need_ada p = Ok 0 -> (pools_size st < fuel)%nat -> no_oof (fill_all fuel c st p o).
Proof.
  intros Hu. induction fuel as [|f IH]; intros st p o I K Hn Hf; [lia|]. cbn [fill_all].
  apply bind_no_oof; [apply try_append_next_no_oof; [exact Hu | exact (pools_ok_adas c st K)]|].
  intros [[[q st1]|] o1] Hr; cbn [fst snd]; [|discriminate].
  destruct (try_append_next_progress c st p o q st1 o1 Hu I K Hn Hr) as (Iq & K1 & N1 & L1).
  apply IH; [exact Iq | exact K1 | exact N1 | lia].
Qed.

(* C13 termination: the build loop of the complete batcher terminates for every oracle *)
Theorem build_all_no_oof c : utxos_ok c -> forall fuel st o,
  pools_ok c st -> (pools_size st < fuel)%nat -> no_oof (build_all fuel c st o).
Proof.
  intros Hu. induction fuel as [|f IH]; intros st o K Hf; [lia|]. cbn [build_all].
  destruct (pools_empty st); [discriminate|].
  apply bind_no_oof; [apply fill_all_no_oof; [exact Hu | apply inv_new | exact K | apply need_tp_new | lia]|].
  intros [[p st'] o'] Hfill. apply bind_no_oof; [auto with noof|]. intros [p' tx] Hfin. apply bind_no_oof; [|intros; discriminate].
  destruct (fill_all_run c Hu _ st tp_new o p st' o' (inv_new c) K (or_introl need_tp_new) Hfill) as (consumed & (ops & _ & U) & I & F & K').
  cbn [tp_new t_utxos app] in U. apply IH; [exact K'|].
  (* finalise succeeded, so the proposal spent at least one UTxO *)
  apply finalise_ok in Hfin as [Hfin _]. rewrite U in Hfin.
  rewrite !pools_size_flat in *. rewrite F. pose proof (remove_all_shrinks consumed (flat st) (proj1 K) Hfin I). lia.
Qed.

Lemma idx_from_length n : forall i, length (idx_from i n) = n.
Proof. induction n as [|n IH]; intros i; cbn [idx_from length]; [reflexivity | rewrite IH; reflexivity]. Qed.

Lemma initial_pools_size c : pools_size (initial_pools c) = length (cx_utxos c).
Proof.
  rewrite pools_size_flat, (Permutation_length (proj2 (initial_pools_ok c))). apply idx_from_length.
Qed.

(* the oracle-free pure-ADA batcher (PureAda.v) *)

Lemma fill_no_oof c : forall fuel pool p,
  NoDup pool -> asset_free c pool -> get_need_ada p = Ok 0 -> (length pool < fuel)%nat -> no_oof (fill fuel c pool p).
Proof.
  induction fuel as [|f IH]; intros pool p Np Hf Hn Hl; [lia|]. cbn [fill]. destruct pool as [|u0 t0] eqn:Ep; [discriminate|].
  rewrite <- Ep in *. apply bind_no_oof; [apply try_append_pure_no_oof, Np|]. intros [[q used]|] Hr; [|discriminate].
  destruct (try_append_pure_run c pool p q used Hf (or_introl Hn) Hr) as (_ & I & _ & N1 & Ne).
  apply IH; [apply remove_all_nodup, Np | eapply asset_free_sub; [apply remove_all_incl | exact Hf] | exact N1 |].
  pose proof (remove_all_shrinks used pool Np (Ne Hn) I). lia.
Qed.

Theorem pure_build_no_oof c : forall fuel pool,
  NoDup pool -> asset_free c pool -> (length pool < fuel)%nat -> no_oof (pure_build fuel c pool).
Proof.
  induction fuel as [|f IH]; intros pool Np Hf Hl; [lia|]. cbn [pure_build]. destruct pool as [|u0 t0] eqn:Ep; [discriminate|].
  rewrite <- Ep in *.
  apply bind_no_oof; [apply fill_no_oof; [exact Np | exact Hf | apply need_tp_new | lia]|].
  intros [p pool'] Hfill. apply bind_no_oof; [auto with noof|]. intros [p' tx] Hfin. apply bind_no_oof; [|intros; discriminate].
  cbn [fst snd] in *.
  destruct (fill_run c _ pool tp_new p pool' Hf (or_introl need_tp_new) Hfill) as (consumed & (ops & _ & U) & I & ->).
  cbn [tp_new t_utxos app] in U. apply finalise_ok in Hfin as [Hfin _]. rewrite U in Hfin.
  apply IH; [apply remove_all_nodup, Np | eapply asset_free_sub; [apply remove_all_incl | exact Hf]|].
  pose proof (remove_all_shrinks consumed pool Np Hfin I). lia.
Qed.

Lemma indices_where_length {A} (f : A -> bool) l : forall i, (length (indices_where f l i) <= length l)%nat.
Proof.
  induction l as [|x t IH]; intros i; cbn [indices_where length]; [lia|]. rewrite app_length. specialize (IH (i + 1)).
  destruct (f x); cbn [length]; lia.
Qed.

Lemma ada_pool_length c : (length (ada_pool c) <= length (cx_utxos c))%nat.
Proof.
  unfold ada_pool. rewrite (Permutation_length (sort_pool_perm c _)). apply indices_where_length.
Qed.
