(* Batch/ProposalProofs.v — invariants of transaction proposals under ANY accepted operation sequence, and what a
   finalised proposal denotes. *)
From CSL Require Import Base.Prelude Base.Facts Base.U64 Batch.Calc Batch.CalcProofs Batch.EncProofs Batch.IntermediateProofs Batch.Proposal.
From Coq Require Import Permutation.
Local Open Scope N_scope.

Lemma checked_sum_ok l s : checked_sum l = Ok s -> s = sumN l.
Proof.
  revert s. induction l as [|x t IH]; intros s H; cbn [checked_sum] in H; [injection H as <-; reflexivity|].
  apply bind_ok in H as [s' [H1 H2]]. apply checked_add_ok in H2. rewrite (IH _ H1) in H2. exact H2.
Qed.

Lemma memN_In x l : memN x l = true <-> In x l.
Proof.
  unfold memN. rewrite existsb_exists. split; [intros [y [Hy E]]; apply N.eqb_eq in E; subst; exact Hy |
                                              intros H; exists x; split; [exact H | apply N.eqb_refl]].
Qed.
Lemma memN_false x l : memN x l = false <-> ~ In x l.
Proof. rewrite <- memN_In. destruct (memN x l); split; congruence. Qed.

Lemma subsetN_In l m : subsetN l m = true <-> incl l m.
Proof. unfold subsetN, incl. rewrite forallb_forall. split; intros H x Hx; apply memN_In, H, Hx. Qed.

Lemma in_insertN x a l : In x (insertN a l) <-> x = a \/ In x l.
Proof.
  unfold insertN. destruct (memN a l) eqn:E.
  - apply memN_In in E. split; [tauto | intros [->|H]; assumption].
  - rewrite in_app_iff. cbn [In]. split; [intros [H|[H|[]]]; auto | intros [->|H]; auto].
Qed.

Lemma omapR_ok {A B} (f : A -> result B) l r : omapR f l = Ok r -> Forall2 (fun x y => f x = Ok y) l r.
Proof.
  revert r. induction l as [|x t IH]; intros r H; cbn [omapR] in H; [injection H as <-; constructor|].
  apply bind_ok in H as [y [Hy H]]. apply bind_ok in H as [r' [Hr H]]. injection H as <-. constructor; [exact Hy | apply IH, Hr].
Qed.

Lemma Forall2_lenN {A B} (R : A -> B -> Prop) l m : Forall2 R l m -> lenN l = lenN m.
Proof. induction 1 as [|x y l m _ _ IH]; [reflexivity|]. rewrite !lenN_cons, IH. reflexivity. Qed.

Lemma Forall2_with_l {A B} (R Q : A -> B -> Prop) (P : A -> Prop) l m :
  Forall2 R l m -> Forall P l -> (forall x y, R x y -> P x -> Q x y) -> Forall2 Q l m.
Proof. induction 1; intros HP HQ; inversion HP; subst; constructor; auto. Qed.
Lemma Forall2_Forall_r {A B} (R : A -> B -> Prop) (P : B -> Prop) l m :
  Forall2 R l m -> (forall x y, R x y -> P y) -> Forall P m.
Proof. induction 1; constructor; eauto. Qed.

Lemma sumN_le2 {A B} (R : A -> B -> Prop) (f : A -> N) (g : B -> N) l m :
  Forall2 R l m -> (forall x y, R x y -> g y <= f x) -> sumN (map g m) <= sumN (map f l).
Proof.
  intros H HR. induction H as [|x y l m Hxy _ IH]; [cbn; lia|]. cbn [map]. rewrite !sumN_cons. specialize (HR _ _ Hxy). lia.
Qed.
Lemma sumN_eq2 {A B} (R : A -> B -> Prop) (f : A -> N) (g : B -> N) l m :
  Forall2 R l m -> (forall x y, R x y -> f x = g y) -> sumN (map f l) = sumN (map g m).
Proof.
  intros H HR. induction H as [|x y l m Hxy _ IH]; [reflexivity|]. cbn [map]. rewrite !sumN_cons, (HR _ _ Hxy), IH. reflexivity.
Qed.
Lemma sumN_In_le {A} (f : A -> N) l x : In x l -> f x <= sumN (map f l).
Proof.
  induction l as [|y t IH]; [intros []|]. cbn [map]. rewrite sumN_cons. intros [->|H]; [lia | specialize (IH H); lia].
Qed.

Lemma snoc_ne {A} (l : list A) x : l ++ [x] <> [].
Proof. destruct l; discriminate. Qed.
Lemma list_snoc_cases {A} (l : list A) : l = [] \/ exists t x, l = t ++ [x].
Proof. induction l as [|x t _] using rev_ind; [left; reflexivity | right; exists t, x; reflexivity]. Qed.
Lemma last_In {A} (l : list A) d : l <> [] -> In (last l d) l.
Proof.
  intros H. destruct (list_snoc_cases l) as [->|[t [x ->]]]; [contradiction H; reflexivity|].
  rewrite last_last. apply in_or_app. right. left. reflexivity.
Qed.
Lemma NoDup_snoc {A} (l : list A) x : NoDup l -> ~ In x l -> NoDup (l ++ [x]).
Proof. intros H Hx. eapply Permutation_NoDup; [apply Permutation_cons_append | constructor; assumption]. Qed.

Lemma map_last_length {A} (f : A -> A) l : length (map_last f l) = length l.
Proof. induction l as [|x [|y t] IH]; [reflexivity|reflexivity|]. cbn [map_last length] in *. rewrite IH. reflexivity. Qed.
Lemma map_last_snoc {A} (f : A -> A) l x : map_last f (l ++ [x]) = l ++ [f x].
Proof.
  induction l as [|y t IH]; [reflexivity|]. cbn [app]. rewrite <- IH.
  destruct (t ++ [x]) eqn:E; [destruct t; discriminate | reflexivity].
Qed.

(* the invariant of proposals *)

Definition out_assets (p : tprop) : list N := concat (map o_assets (t_outputs p)).
Definition utxo_assets (c : ctx) (u : N) : list N := map fst (ui_assets (utxo_of c u)).

(* the WitnessesCalculator state is a function of the list of distinct owners met so far *)
Definition owner_step (c : ctx) (w : witcalc) (o : N) : witcalc :=
  match owner_of c o with KVkey => wit_add_vkey w | KByron sz => wit_add_bootstrap w sz | _ => w end.
Definition wit_of (c : ctx) (owners : list N) : witcalc := fold_left (owner_step c) owners wit_new.

Lemma wit_of_snoc c l o : wit_of c (l ++ [o]) = owner_step c (wit_of c l) o.
Proof. unfold wit_of. rewrite fold_left_app. reflexivity. Qed.

Lemma wit_of_spec c owners :
  wit_inv (wit_of c owners) /\ w_vkeys (wit_of c owners) = owner_vkeys c owners /\
  w_boot_sizes (wit_of c owners) = owner_boots c owners.
Proof.
  induction owners as [|o l (I & V & B)] using rev_ind; [split; [apply wit_inv_new | split; reflexivity]|].
  rewrite wit_of_snoc. unfold owner_step, owner_vkeys, owner_boots. rewrite filter_app, flat_map_app, lenN_app.
  cbn [filter flat_map]. fold (owner_vkeys c l) (owner_boots c l). rewrite app_nil_r.
  destruct (owner_of c o).
  - destruct (add_vkey_counts (wit_of c l)) as [-> ->]. rewrite V, B, app_nil_r.
    split; [apply wit_inv_add_vkey, I | split; reflexivity].
  - destruct (add_bootstrap_counts (wit_of c l) witness_size) as [-> ->]. rewrite V, B, N.add_0_r.
    split; [apply wit_inv_add_bootstrap, I | split; reflexivity].
  - rewrite N.add_0_r, app_nil_r. auto.
  - rewrite N.add_0_r, app_nil_r. auto.
Qed.

Lemma wit_of_total c owners : w_total (wit_of c owners) = wit_size (owner_vkeys c owners) (owner_boots c owners).
Proof. destruct (wit_of_spec c owners) as (I & V & B). rewrite (wit_inv_total _ I), V, B. reflexivity. Qed.

Record Inv (c : ctx) (p : tprop) : Prop := mkInv {
  inv_nodup : NoDup (t_utxos p);
  inv_total : t_total_ada p = sumN (map (fun u => ui_ada (utxo_of c u)) (t_utxos p));
  inv_wit : t_wit p = wit_of c (t_owners p);
  inv_assets_nodup : NoDup (out_assets p);
  inv_assets_eq : forall a, In a (t_assets p) <-> In a (out_assets p);
  inv_assets_cover : forall u a, In u (t_utxos p) -> In a (utxo_assets c u) -> In a (t_assets p);
  inv_bound : Forall (fun o => o_assets o = [] \/ bound_of c (o_assets o) <= cx_max_value c) (t_outputs p);
  inv_has_output : t_utxos p <> [] -> t_outputs p <> [] }.

Lemma inv_new c : Inv c tp_new.
Proof. constructor; cbn; try constructor; try tauto; reflexivity. Qed.

(* operations that only touch coins, sizes and the fee *)
Definition same_structure (p q : tprop) : Prop :=
  t_utxos p = t_utxos q /\ t_assets p = t_assets q /\ t_total_ada p = t_total_ada q /\
  t_owners p = t_owners q /\ t_wit p = t_wit q /\ map o_assets (t_outputs p) = map o_assets (t_outputs q).

Lemma inv_same c p q : same_structure p q -> Inv c p -> Inv c q.
Proof.
  intros (A & B & C & D & E & F) []. unfold out_assets in *.
  constructor; unfold out_assets; rewrite <- ?A, <- ?B, <- ?C, <- ?D, <- ?E, <- ?F; auto.
  - apply (Forall_map o_assets (fun l => l = [] \/ bound_of c l <= cx_max_value c)). rewrite <- F. apply Forall_map. assumption.
  - intros H1 H2. apply inv_has_output0; [exact H1|]. apply (map_eq_nil o_assets). rewrite F, H2. reflexivity.
Qed.

Lemma out_assets_snoc p t lst : t_outputs p = t ++ [lst] -> out_assets p = concat (map o_assets t) ++ o_assets lst.
Proof. intros E. unfold out_assets. rewrite E, map_app, concat_app. cbn. rewrite app_nil_r. reflexivity. Qed.

Lemma out_assets_new_output p : out_assets (add_new_output p) = out_assets p.
Proof. rewrite (out_assets_snoc (add_new_output p) (t_outputs p) op_new eq_refl). apply app_nil_r. Qed.

Lemma inv_add_new_output c p : Inv c p -> Inv c (add_new_output p).
Proof.
  intros []. constructor; rewrite ?out_assets_new_output; auto; unfold add_new_output; cbn [t_outputs].
  - apply Forall_app. split; [assumption | constructor; [left; reflexivity | constructor]].
  - intros _. apply snoc_ne.
Qed.

(* an asset that is in no output yet goes to the end of the last output's list *)
Lemma inv_add_asset c p a :
  Inv c p -> t_outputs p <> [] -> memN a (t_assets p) = false ->
  bound_of c (insertN a (o_assets (last (t_outputs p) op_new))) <= cx_max_value c ->
  Inv c (add_asset p a).
Proof.
  intros [] Hne Hm Hb. destruct (list_snoc_cases (t_outputs p)) as [E|[t [lst E]]]; [contradiction|].
  rewrite E, last_last in Hb. rewrite E in inv_bound0. apply Forall_app in inv_bound0 as [F1 _].
  assert (Hnot : ~ In a (out_assets p)) by (rewrite <- inv_assets_eq0; apply memN_false, Hm).
  assert (Eo : t_outputs (add_asset p a) = t ++ [mkOprop (insertN a (o_assets lst)) (o_min_ada lst) (o_total_ada lst) (o_size lst)])
    by (unfold add_asset; cbn [t_outputs]; rewrite E, map_last_snoc; reflexivity).
  assert (Hout : out_assets (add_asset p a) = out_assets p ++ [a]).
  { rewrite (out_assets_snoc _ _ _ Eo), (out_assets_snoc _ _ _ E) in *. cbn [o_assets].
    unfold insertN. destruct (memN a (o_assets lst)) eqn:M; [|apply app_assoc].
    exfalso. apply Hnot, in_or_app. right. apply memN_In, M. }
  constructor; rewrite ?Hout, ?Eo; auto; cbn [add_asset t_assets].
  - apply NoDup_snoc; assumption.
  - intros x. rewrite in_insertN, in_app_iff, inv_assets_eq0. cbn [In]. clear. intuition.
  - intros u x Hu Hx. apply in_insertN. right. eapply inv_assets_cover0; eassumption.
  - apply Forall_app. split; [exact F1 | constructor; [right; exact Hb | constructor]].
  - intros _. apply snoc_ne.
Qed.

Lemma add_address_spec c owners o owners' w' :
  add_address c owners (wit_of c owners) o = Ok (owners', w') -> w' = wit_of c owners'.
Proof.
  unfold add_address. destruct (memN o owners); [intros H; injection H as <- <-; reflexivity|].
  pose proof (wit_of_snoc c owners o) as S. unfold owner_step in S.
  destruct (owner_of c o); intros H; try discriminate; injection H as <- <-; auto.
Qed.

Lemma inv_add_utxo c p u p' :
  Inv c p -> t_outputs p <> [] -> subsetN (utxo_assets c u) (t_assets p) = true -> add_utxo c p u = Ok p' -> Inv c p'.
Proof.
  intros [] Hout Hsub H. unfold add_utxo in H.
  destruct (memN u (t_utxos p)) eqn:Mu; [discriminate|]. apply memN_false in Mu.
  apply bind_ok in H as [total [Ht H]]. apply checked_add_ok in Ht.
  apply bind_ok in H as [[owners' wit'] [Ha H]]. injection H as <-. cbn [fst snd].
  rewrite inv_wit0 in Ha. apply add_address_spec in Ha as ->.
  constructor; cbn [t_utxos t_total_ada t_wit t_owners t_assets t_outputs]; auto.
  - apply NoDup_snoc; assumption.
  - rewrite map_app, sumN_app. cbn [map]. rewrite sumN_cons. change (sumN []) with 0. lia.
  - intros x a Hx Ha. apply in_app_iff in Hx as [Hx|[<-|[]]]; [eapply inv_assets_cover0; eassumption|].
    apply subsetN_In in Hsub. apply Hsub, Ha.
Qed.

(* coin-only operations keep the structure *)

Lemma map_last_assets (f : oprop -> oprop) l :
  (forall o, o_assets (f o) = o_assets o) -> map o_assets (map_last f l) = map o_assets l.
Proof.
  intros H. destruct (list_snoc_cases l) as [->|[t [x ->]]]; [reflexivity|].
  rewrite map_last_snoc, !map_app. cbn [map]. rewrite H. reflexivity.
Qed.

Lemma recalc_output_assets c used o o' : recalc_output c used o = Ok o' -> o_assets o' = o_assets o.
Proof. unfold recalc_output. intros H. apply bind_ok in H as [cs [_ H]]. injection H as <-. reflexivity. Qed.

Lemma omapR_assets c used l l' : omapR (recalc_output c used) l = Ok l' -> map o_assets l' = map o_assets l.
Proof.
  intros H. apply omapR_ok in H. induction H as [|o o' t t' Ho _ IH]; [reflexivity|].
  cbn [map]. rewrite (recalc_output_assets _ _ _ _ Ho), IH. reflexivity.
Qed.

Lemma recalculate_same c p p1 : recalculate_outputs c p = Ok p1 -> same_structure p p1.
Proof.
  unfold recalculate_outputs. intros H. apply bind_ok in H as [outs [Ho H]]. injection H as <-.
  unfold same_structure. cbn. repeat split. symmetry. eapply omapR_assets; eassumption.
Qed.

Lemma set_min_same c p p' sz : set_min_ada_for_tx c p = Ok (p', sz) -> same_structure p p'.
Proof.
  unfold set_min_ada_for_tx, set_min_ada_for_tx_gen. intros H. apply bind_ok in H as [p1 [H1 H]].
  apply bind_ok in H as [fs [_ H]]. injection H as <- _. apply recalculate_same in H1 as (A & B & C & D & E & F).
  unfold same_structure. cbn. repeat split; assumption.
Qed.

Lemma add_last_same p p1 : add_last_ada_to_last_output p = Ok p1 -> same_structure p p1.
Proof.
  unfold add_last_ada_to_last_output. intros H. apply bind_ok in H as [unused [_ H]].
  destruct (t_outputs p) eqn:E; [injection H as <-; unfold same_structure; repeat split; reflexivity|].
  rewrite <- E in H. apply bind_ok in H as [total [_ H]]. injection H as <-. unfold same_structure.
  cbn [t_utxos t_assets t_total_ada t_owners t_wit t_outputs]. repeat split.
  symmetry. apply map_last_assets. reflexivity.
Qed.

(* every accepted operation sequence keeps the invariant *)

Lemma step_inv c p o p' : Inv c p -> step c p o = Ok p' -> Inv c p'.
Proof.
  intros I H. destruct o as [|a|u|]; cbn [step] in H.
  - injection H as <-. apply inv_add_new_output, I.
  - destruct (t_outputs p) eqn:E; [discriminate|]. rewrite <- E in H.
    destruct (memN a (t_assets p)) eqn:M; [discriminate|].
    destruct (bound_of c (insertN a (o_assets (last (t_outputs p) op_new))) <=? cx_max_value c) eqn:B; [|discriminate].
    injection H as <-. apply inv_add_asset; [exact I | rewrite E; discriminate | exact M | lia].
  - destruct (t_outputs p) eqn:E; [discriminate|].
    destruct (subsetN (map fst (ui_assets (utxo_of c u))) (t_assets p)) eqn:S; [|discriminate].
    eapply inv_add_utxo; [exact I | rewrite E; discriminate | exact S | exact H].
  - apply bind_ok in H as [[q sz] [Hs H]]. injection H as <-. cbn [fst]. eapply inv_same; [eapply set_min_same; exact Hs | exact I].
Qed.

Theorem run_inv c : forall ops p p', Inv c p -> run c p ops = Ok p' -> Inv c p'.
Proof.
  induction ops as [|o t IH]; intros p p' I H; cbn [run] in H; [injection H as <-; exact I|].
  apply bind_ok in H as [q [Hq H]]. eapply IH; [eapply step_inv; eassumption | exact H].
Qed.

(* what set_min_ada_for_tx establishes *)

Definition out_ok (c : ctx) (used : list N) (o : oprop) : Prop :=
  exists gs, out_groups c used (o_assets o) = Ok gs /\
    o_min_ada o = (o_size o + 160) * cx_cpb c /\ o_min_ada o <= o_total_ada o /\
    real_out_size c (o_total_ada o) gs <= o_size o.

Lemma group_insert_ne pol a gs : group_insert pol a gs <> [].
Proof.
  unfold group_insert. destruct (group_has pol gs) eqn:E; [|discriminate].
  destruct gs as [|[k l] t]; [discriminate|]. cbn [group_update]. destruct (pol =? k); discriminate.
Qed.

Lemma groups_of_nil_iff c assets : groups_of c assets = [] <-> assets = [].
Proof.
  unfold groups_of. split; [|intros ->; reflexivity].
  destruct assets as [|a t]; [reflexivity|]. cbn [fold_left]. intros E. exfalso. revert E.
  apply (fold_left_inv (fun gs => gs <> [])); intros; apply group_insert_ne.
Qed.

Lemma out_groups_nilb c used assets gs : out_groups c used assets = Ok gs -> is_nilb gs = is_nilb assets.
Proof.
  unfold out_groups. intros H. apply omapR_ok in H.
  destruct assets as [|a t].
  - change (groups_of c []) with (@nil (N * list N)) in H. inversion H. reflexivity.
  - destruct (groups_of c (a :: t)) eqn:E; [apply groups_of_nil_iff in E; discriminate|]. inversion H. reflexivity.
Qed.

Lemma recalc_output_ok c used o o' : recalc_output c used o = Ok o' -> out_ok c used o'.
Proof.
  unfold recalc_output, estimate_output. intros H. apply bind_ok in H as [[cost sz] [He H]]. injection H as <-.
  apply bind_ok in He as [gs [Hg He]]. cbn [fst snd] in *.
  pose proof (out_groups_nilb _ _ _ _ Hg) as Hn.
  set (output_size := categorizer_output_size c + calc_value_size (o_total_ada o) (shape_of gs) +
                      get_value_struct_size match o_assets o with [] => true | _ :: _ => false end) in *.
  assert (Hsz : get_coin_size (o_total_ada o) <= output_size) by (unfold output_size, calc_value_size; lia).
  destruct (output_cost_safe _ _ _ _ _ Hsz He) as (A & B & _).
  exists gs. cbn [o_assets o_min_ada o_total_ada o_size]. split; [exact Hg|]. split; [exact A|].
  assert (Hmax : (if o_total_ada o <? cost then cost else o_total_ada o) = N.max (o_total_ada o) cost).
  { destruct (o_total_ada o <? cost) eqn:E; [rewrite N.max_r by lia | rewrite N.max_l by lia]; reflexivity. }
  rewrite Hmax. split; [lia|].
  unfold size_with_coin in B. unfold real_out_size, real_value_size. rewrite Hn.
  (* only the coin's width depends on the coin *)
  unfold output_size, categorizer_output_size, calc_value_size in *. unfold is_nilb.
  destruct (o_assets o); lia.
Qed.

Lemma recalculate_ok c p p1 : recalculate_outputs c p = Ok p1 -> Forall (out_ok c (t_utxos p1)) (t_outputs p1).
Proof.
  unfold recalculate_outputs. intros H. apply bind_ok in H as [outs [Ho H]]. injection H as <-. cbn [t_utxos t_outputs].
  apply omapR_ok in Ho. induction Ho as [|o o' t t' H1 _ IH]; constructor; [eapply recalc_output_ok; exact H1 | exact IH].
Qed.

Lemma set_min_post c p p' sz :
  set_min_ada_for_tx c p = Ok (p', sz) ->
  exists p1, estimate_fee_p false c p1 = Ok (t_fee p', sz) /\
             t_outputs p' = t_outputs p1 /\ t_utxos p' = t_utxos p1 /\ t_total_ada p' = t_total_ada p1 /\ t_wit p' = t_wit p1 /\
             Forall (out_ok c (t_utxos p')) (t_outputs p').
Proof.
  unfold set_min_ada_for_tx, set_min_ada_for_tx_gen. intros H. apply bind_ok in H as [p1 [H1 H]].
  apply bind_ok in H as [[f s] [Hf H]]. injection H as <- <-. exists p1. cbn [fst snd t_fee t_outputs t_utxos t_total_ada t_wit].
  repeat split; [exact Hf | exact (recalculate_ok _ _ _ H1)].
Qed.

(* get_need_ada and get_unused_ada compare the ADA of the inputs with the outputs plus the fee *)
Lemma outputs_plus_fee p (k : N -> N) r :
  (let* outs := get_total_ada_for_outputs p in let* need := checked_add outs (t_fee p) in Ok (k need)) = Ok r ->
  r = k (sumN (map o_total_ada (t_outputs p)) + t_fee p).
Proof.
  unfold get_total_ada_for_outputs. intros H. apply bind_ok in H as [outs [Ho H]]. apply bind_ok in H as [nd [Hnd H]].
  injection H as <-. apply checked_sum_ok in Ho. apply checked_add_ok in Hnd. subst. reflexivity.
Qed.
Lemma need_ada_ok p n : get_need_ada p = Ok n -> n = sumN (map o_total_ada (t_outputs p)) + t_fee p - t_total_ada p.
Proof. exact (outputs_plus_fee p (fun need => need - t_total_ada p) n). Qed.
Lemma unused_ada_ok p u : get_unused_ada p = Ok u -> u = t_total_ada p - (sumN (map o_total_ada (t_outputs p)) + t_fee p).
Proof. exact (outputs_plus_fee p (fun need => t_total_ada p - need) u). Qed.

Lemma check_finished_ok c p sz :
  check_finished c p sz = Ok tt ->
  sumN (map o_total_ada (t_outputs p)) + t_fee p = t_total_ada p /\ sz <= cx_max_tx c.
Proof.
  unfold check_finished. intros H. apply bind_ok in H as [need [Hn H]]. apply bind_ok in H as [unused [Hu H]].
  apply need_ada_ok in Hn. apply unused_ada_ok in Hu.
  destruct (0 <? need) eqn:E1; [discriminate|]. destruct (0 <? unused) eqn:E2; [discriminate|].
  destruct (cx_max_tx c <? sz) eqn:E3; [discriminate|]. lia.
Qed.

Lemma create_tx_ok c p tx :
  create_tx c p = Ok tx ->
  x_inputs tx = t_utxos p /\ x_fee tx = t_fee p /\ x_owners tx = t_owners p /\
  Forall2 (fun o x => fst x = o_total_ada o /\ out_groups c (t_utxos p) (o_assets o) = Ok (snd x)) (t_outputs p) (x_outputs tx).
Proof.
  unfold create_tx. intros H. apply bind_ok in H as [outs [Ho H]]. injection H as <-. cbn [x_inputs x_fee x_owners x_outputs].
  repeat split. apply omapR_ok in Ho. induction Ho as [|o x t t' H1 _ IH]; constructor; [|exact IH].
  apply bind_ok in H1 as [gs [Hg H1]]. injection H1 as <-. cbn [fst snd]. split; [reflexivity|exact Hg].
Qed.

Lemma finalise_ok c p p' tx :
  finalise c p = Ok (p', tx) ->
  t_utxos p <> [] /\ exists p1 sz, add_last_ada_to_last_output p = Ok p1 /\ set_min_ada_for_tx c p1 = Ok (p', sz) /\
    check_finished c p' sz = Ok tt /\ create_tx c p' = Ok tx.
Proof.
  unfold finalise, finalise_gen. destruct (t_utxos p); [discriminate|]. cbn iota. intros H. split; [discriminate|].
  apply bind_ok in H as [p1 [Hlast H]]. apply bind_ok in H as [[q sz] [Hset H]]. cbn [fst snd] in H.
  apply bind_ok in H as [[] [Hchk H]]. apply bind_ok in H as [tx' [Hct H]]. injection H as <- <-. exists p1, sz. auto.
Qed.

(* the fee estimate of a proposal that is balanced under the estimated fee: the fee is the linear fee of the estimated
   size, and that size covers the proposal with the fee written in it (the coin predicted for the last output is at
   least the coin it holds) *)
Lemma estimate_fee_p_safe c p fee sz :
  t_outputs p <> [] -> Forall (fun o => get_coin_size (o_total_ada o) <= o_size o) (t_outputs p) ->
  estimate_fee_p false c p = Ok (fee, sz) ->
  sumN (map o_total_ada (t_outputs p)) + fee = t_total_ada p ->
  fee = sz * cx_a c + cx_b c /\ get_tx_proposal_size c p false + get_coin_size fee <= sz.
Proof.
  intros Hne Hsz Hfee Hbal. unfold estimate_fee_p in Hfee. set (lst := last (t_outputs p) op_new) in *.
  assert (Hin : In lst (t_outputs p)) by (apply last_In, Hne).
  destruct (t_outputs p) as [|o0 t0] eqn:Eo; [contradiction Hne; reflexivity|]. rewrite <- Eo in *.
  apply bind_ok in Hfee as [unused [Hun Hfee]]. apply bind_ok in Hfee as [d0 [Hd0 Hfee]]. apply bind_ok in Hfee as [d [Hd Hfee]].
  apply checked_add_ok in Hd0, Hd. apply unused_ada_ok in Hun.
  destruct (fee_safe _ _ _ _ _ _ _ Hfee) as [Fa Fb]. split; [exact Fa|].
  unfold recalc_size_with_dependable_value in Fb.
  set (remain := if d - fee <? o_min_ada lst then o_min_ada lst else d - fee) in *.
  assert (Hrem : o_total_ada lst <= remain).
  { assert (o_total_ada lst <= d - fee); [|unfold remain; destruct (d - fee <? o_min_ada lst) eqn:Erem; lia].
    pose proof (sumN_In_le o_total_ada _ _ Hin). subst d d0 unused. lia. }
  pose proof (struct_size_mono _ _ Hrem) as Hw.
  assert (Hlst : get_coin_size (o_total_ada lst) <= sumN (map o_size (t_outputs p))).
  { pose proof (sumN_In_le o_size _ _ Hin). rewrite Forall_forall in Hsz. specialize (Hsz _ Hin). lia. }
  unfold get_tx_proposal_size in *. rewrite Eo in *. rewrite <- Eo in *. unfold get_coin_size in *. lia.
Qed.

(* the transaction a proposal with recalculated outputs denotes is no larger than the proposal reckons, and its outputs
   hold the minimum ADA of their real size *)
Lemma create_tx_size c q tx :
  Inv c q -> t_outputs q <> [] -> Forall (out_ok c (t_utxos q)) (t_outputs q) -> create_tx c q = Ok tx ->
  real_tx_size c tx <= get_tx_proposal_size c q true /\
  Forall (fun o => (real_out_size c (fst o) (snd o) + 160) * cx_cpb c <= fst o) (x_outputs tx).
Proof.
  intros Iq Hne Hok Hct. destruct (create_tx_ok _ _ _ Hct) as (X1 & X2 & X3 & X4).
  (* every output of the transaction: no larger than recorded, and holding the minimum ADA of the recorded size *)
  assert (F : Forall2 (fun o (x : N * list (list (N * N * N))) =>
                real_out_size c (fst x) (snd x) <= o_size o /\ (o_size o + 160) * cx_cpb c <= fst x) (t_outputs q) (x_outputs tx)).
  { eapply Forall2_with_l; [exact X4 | exact Hok|]. intros o x [E1 E2] [gs (G1 & G2 & G3 & G4)].
    rewrite E2 in G1. injection G1 as <-. rewrite E1, <- G2. auto. }
  split; [|eapply Forall2_Forall_r; [exact F|]; intros o x [A B]; cbn beta; nia].
  assert (Hreal : sumN (map (fun o => real_out_size c (fst o) (snd o)) (x_outputs tx)) <= sumN (map o_size (t_outputs q)))
    by (eapply sumN_le2; [exact F | intros o x H; apply H]).
  unfold real_tx_size, get_tx_proposal_size.
  rewrite X1, X2, X3, <- wit_of_total, <- (inv_wit c q Iq), <- (Forall2_lenN _ _ _ X4).
  destruct (t_outputs q); [contradiction Hne; reflexivity | lia].
Qed.

(* C13_finalise (coins, fee, sizes, min ADA): for ANY accepted operation sequence, a finalised proposal denotes a
   transaction that is balanced in lovelace, whose fee covers its real size, that fits max_tx_size and whose outputs
   hold their minimum ADA *)
Theorem finalise_sound c ops p p' tx :
  run c tp_new ops = Ok p -> finalise c p = Ok (p', tx) ->
  Inv c p' /\ x_inputs tx = t_utxos p' /\
  Forall2 (fun o x => fst x = o_total_ada o /\ out_groups c (t_utxos p') (o_assets o) = Ok (snd x)) (t_outputs p') (x_outputs tx) /\
  sumN (map (fun u => ui_ada (utxo_of c u)) (x_inputs tx)) = sumN (map fst (x_outputs tx)) + x_fee tx /\
  real_tx_size c tx <= cx_max_tx c /\
  real_tx_size c tx * cx_a c + cx_b c <= x_fee tx /\
  Forall (fun o => (real_out_size c (fst o) (snd o) + 160) * cx_cpb c <= fst o) (x_outputs tx).
Proof.
  intros Hrun Hfin. pose proof (run_inv c ops tp_new p (inv_new c) Hrun) as I. rename p' into q.
  apply finalise_ok in Hfin as (Eu & p1 & sz & Hlast & Hset & Hchk & Hct).
  pose proof (add_last_same _ _ Hlast) as Sa. pose proof (set_min_same _ _ _ _ Hset) as Ss.
  pose proof (inv_same c p1 q Ss (inv_same c p p1 Sa I)) as Iq.
  destruct (set_min_post _ _ _ _ Hset) as (r & Hfee & Eo & Eus & Eta & Ew & Hok).
  destruct (check_finished_ok _ _ _ Hchk) as [Hbal Hsz].
  destruct (create_tx_ok _ _ _ Hct) as (X1 & X2 & _ & X4).
  assert (Hne : t_outputs q <> []) by (apply (inv_has_output c q Iq); rewrite <- (proj1 Ss), <- (proj1 Sa); exact Eu).
  destruct (create_tx_size c q tx Iq Hne Hok Hct) as [Hrt Hmin].
  split; [exact Iq|]. split; [exact X1|]. split; [exact X4|]. split.
  { rewrite X1, X2, <- (sumN_eq2 _ o_total_ada fst _ _ X4) by (intros o x [E _]; symmetry; exact E).
    rewrite <- (inv_total c q Iq). lia. }
  (* the recorded size of an output contains its coin *)
  assert (Hcs : Forall (fun o => get_coin_size (o_total_ada o) <= o_size o) (t_outputs q)).
  { eapply Forall_impl; [|exact Hok]. intros o [gs (_ & _ & _ & G)].
    unfold real_out_size, real_value_size, calc_value_size in G. lia. }
  rewrite Eo in Hcs, Hne. rewrite Eo, Eta in Hbal.
  destruct (estimate_fee_p_safe c r (t_fee q) sz Hne Hcs Hfee Hbal) as [Fa Fb].
  assert (Hps : get_tx_proposal_size c q true <= sz) by (unfold get_tx_proposal_size in *; rewrite Eo, Eus, Ew; lia).
  split; [lia|]. split; [rewrite X2, Fa; nia | exact Hmin].
Qed.
