(* Collateral/ValueLemmas.v — what Value arithmetic (Num/Value.v) means for values whose map keys are strictly
   increasing, with no bound on the quantities: the only premise the C19 statements put on values.
   [ma_sorted] is [ma_sortedb] of Num/ValueProofs.v and [value_sorted] agrees with [value_sortedb]; the facts about
   Value::checked_add / checked_sub and the deciders are the theorems there, read at these two tests. *)
From CSL Require Import Base.Prelude Base.Facts Num.Value Num.ValueProofs.
Local Open Scope N_scope.

Definition ma_sorted (m : multiasset) : bool :=
  am_sorted bytes_cmp m && forallb (fun pa : bytes * assets => am_sorted name_cmp (snd pa)) m.
Definition value_sorted (v : value) : bool :=
  match multiasset_of v with Some m => ma_sorted m | None => true end.

Lemma ma_sorted_sortedb m : ma_sorted m = ma_sortedb m.
Proof. reflexivity. Qed.

Lemma value_sorted_sortedb v : value_sorted v = value_sortedb v.
Proof. unfold value_sorted, value_sortedb. destruct (multiasset_of v); reflexivity. Qed.

Lemma value_wfb_sorted : forall v, value_wfb v = true -> value_sorted v = true.
Proof. intros v W. rewrite value_sorted_sortedb. exact (value_wf_sorted v W). Qed.

Lemma ma_get_asset_zero_or_in : forall m p n,
  ma_get_asset p n m = 0 \/ In (p, n, ma_get_asset p n m) (ma_entries m).
Proof.
  intros m p n. destruct (N.eq_dec (ma_get_asset p n m) 0) as [Z | NZ]; [left; exact Z | right].
  exact (qty_in_entries m p n NZ).
Qed.

Lemma ma_entries_in_get_asset : forall m p n q, ma_sorted m = true ->
  In (p, n, q) (ma_entries m) -> ma_get_asset p n m = q.
Proof. intros m p n q Hs Hin. exact (ma_entries_in_qty m p n q Hs Hin). Qed.

Lemma ma_sub_nil_le : forall l r,
  ma_sorted l = true -> ma_sorted r = true -> ma_sub l r = [] -> forall p n, ma_qty l p n <= ma_qty r p n.
Proof.
  intros l r Hl Hr H p n. pose proof (proj2 (ma_sub_spec l r Hl Hr) p n) as Hq.
  rewrite H, ma_qty_nil in Hq. lia.
Qed.

Lemma value_checked_add_sem : forall a b c,
  value_sorted a = true -> value_sorted b = true -> value_checked_add a b = Ok c ->
  value_sorted c = true /\ coin c = coin a + coin b /\ coin c < two64 /\
  forall p n, qty c p n = qty a p n + qty b p n.
Proof.
  intros a b c Ha Hb E. rewrite value_sorted_sortedb in *.
  pose proof (value_checked_add_sorted a b Ha Hb) as C. rewrite E in C. tauto.
Qed.

Lemma value_checked_sub_sem : forall a b c,
  value_sorted a = true -> value_sorted b = true -> value_checked_sub a b = Ok c ->
  value_sorted c = true /\ coin a = coin c + coin b /\
  forall p n, qty a p n = qty c p n + qty b p n.
Proof.
  intros a b c Ha Hb E. rewrite value_sorted_sortedb in *.
  pose proof (value_checked_sub_outcome a b Hb) as C. rewrite E in C. destruct C as (-> & Hc & Hq).
  destruct (value_clamped_sub_sorted a b Ha Hb) as [S Q].
  split; [exact S|]. split; [unfold value_clamped_sub, u64_clamped_sub; cbn [coin]; lia|].
  intros p n. rewrite Q. specialize (Hq p n). lia.
Qed.

(* "The difference has no assets": a multiasset that lists no empty policy and no zero quantity stays so under
   MultiAsset::sub, and is empty as soon as every quantity is zero *)

Definition ma_positive (m : multiasset) : bool :=
  forallb (fun pa : bytes * assets =>
             match snd pa with [] => false | _ => forallb (fun nq : bytes * N => 0 <? snd nq) (snd pa) end) m.

Definition assets_positive (a : assets) : bool :=
  match a with [] => false | _ => forallb (fun nq : bytes * N => 0 <? snd nq) a end.

Lemma ma_positive_unfold m : ma_positive m = forallb (fun pa : bytes * assets => assets_positive (snd pa)) m.
Proof. reflexivity. Qed.

Lemma assets_positive_iff a :
  assets_positive a = true <-> a <> [] /\ forallb (fun nq : bytes * N => 0 <? snd nq) a = true.
Proof. destruct a; unfold assets_positive; split; [discriminate | intros [H _]; congruence | split; [discriminate | exact H] | tauto]. Qed.

Lemma ma_sub_entry_positive lhs e : ma_positive lhs = true -> ma_positive (ma_sub_entry lhs e) = true.
Proof.
  destruct e as [[p0 n0] amt]. rewrite !ma_positive_unfold. intros Hpos. unfold ma_sub_entry.
  destruct (ma_get p0 lhs) as [a|] eqn:Ea; [|exact Hpos].
  assert (Ha : assets_positive a = true).
  { apply (am_get_in bytes_cmp bytes_key_order) in Ea. rewrite forallb_forall in Hpos. apply (Hpos _ Ea). }
  apply assets_positive_iff in Ha. destruct Ha as [_ Ha].
  destruct (assets_get n0 a) as [cur|]; [|exact Hpos].
  destruct (amt <? cur) eqn:El.
  - apply forallb_am_insert; [|exact Hpos]. cbn [snd]. apply assets_positive_iff. split.
    + unfold assets_insert. destruct a as [|[n1 q1] a]; cbn [am_insert]; [|destruct (name_cmp n0 n1)]; discriminate.
    + apply forallb_am_insert; [|exact Ha]. cbn [snd]. lia.
  - pose proof (forallb_am_remove name_cmp _ n0 a Ha) as Hr. cbv zeta.
    destruct (am_remove name_cmp n0 a) as [|x a'].
    + apply forallb_am_remove, Hpos.
    + apply forallb_am_insert; [|exact Hpos]. apply assets_positive_iff. split; [discriminate | exact Hr].
Qed.

Lemma ma_sub_positive l r : ma_positive l = true -> ma_positive (ma_sub l r) = true.
Proof.
  unfold ma_sub. apply (fold_left_inv (fun m => ma_positive m = true)). intros m e _. apply ma_sub_entry_positive.
Qed.

Lemma ma_positive_zero_nil m : ma_positive m = true -> (forall p n, ma_qty m p n = 0) -> m = [].
Proof.
  destruct m as [|[p [|[n q] a]] m]; cbn [ma_positive forallb snd]; intros Hpos Hz; [reflexivity | discriminate |].
  apply andb_true_iff in Hpos. destruct Hpos as [Hq _]. apply andb_true_iff in Hq. destruct Hq as [Hq _].
  specialize (Hz p n). rewrite ma_qty_unfold in Hz. unfold ma_get, aq, assets_get in Hz.
  cbn [am_get] in Hz. rewrite bytes_cmp_refl in Hz. cbn [am_get] in Hz. rewrite name_cmp_refl in Hz. lia.
Qed.

Lemma ma_sub_all_covered_nil l r :
  ma_sorted l = true -> ma_sorted r = true -> ma_positive l = true ->
  (forall p n, ma_qty l p n <= ma_qty r p n) -> ma_sub l r = [].
Proof.
  intros Hl Hr Hpos Hle. apply ma_positive_zero_nil.
  - apply ma_sub_positive, Hpos.
  - intros p n. rewrite (proj2 (ma_sub_spec l r Hl Hr)). specialize (Hle p n). lia.
Qed.

Lemma value_leb_sem_spec : forall v w, value_sorted v = true ->
  (value_leb_sem v w = true <-> value_le_sem v w).
Proof. intros v w Hv. rewrite value_sorted_sortedb in Hv. exact (value_leb_sem_sorted_iff v w Hv). Qed.

Lemma value_eqb_sem_spec : forall v w, value_sorted v = true -> value_sorted w = true ->
  (value_eqb_sem v w = true <-> value_eq_sem v w).
Proof. intros v w Hv Hw. rewrite value_sorted_sortedb in *. exact (value_eqb_sem_sorted_iff v w Hv Hw). Qed.

Print Assumptions value_wfb_sorted.
Print Assumptions value_checked_add_sem.
Print Assumptions value_checked_add_total.
Print Assumptions value_checked_sub_sem.
Print Assumptions value_checked_sub_err.
Print Assumptions value_checked_sub_total.
Print Assumptions ma_sub_all_covered_nil.
Print Assumptions ma_sub_nil_le.
Print Assumptions value_leb_sem_spec.
Print Assumptions value_eqb_sem_spec.
