(* Collateral/CollateralProofs.v — the collateral model (property C19).  Each of the three helpers, when it succeeds,
   establishes the statement [spec_holds] on the collateral inputs it read and leaves them as they were; a failing one
   changes nothing (explicit helpers) or clears both fields (percentage helper).  The invariant [inv] carries this along
   arbitrary histories under provenance Governed, and the executable judge decides the statement, so it accepts the
   model's own observations. *)
From CSL Require Import Base.Prelude Base.Facts Num.Value Num.ValueProofs Num.ValueNorm Num.ValueNormProofs
  Collateral.ValueLemmas Collateral.Collateral.
Local Open Scope N_scope.

Definition vals_sorted (l : list value) : Prop := Forall (fun v => value_sorted v = true) l.
Definition col_sorted (c : col_inputs) : Prop := vals_sorted (map snd c).

Lemma qty_no_assets : forall v p n, multiasset_of v = None -> qty v p n = 0.
Proof. intros v p n H. unfold qty. rewrite H. reflexivity. Qed.

Lemma sum_values_sem : forall l acc s,
  value_sorted acc = true -> vals_sorted l -> sum_values acc l = Ok s ->
  value_sorted s = true /\ coin s = coin acc + sum_coin l /\ forall p n, qty s p n = qty acc p n + sum_qty l p n.
Proof.
  induction l as [|v l IH]; intros acc s Ha Hl H; cbn [sum_values] in H.
  - injection H as <-. cbn [sum_coin sum_qty]. repeat split; [exact Ha | lia | intros; lia].
  - inversion Hl as [|? ? Hv Hl']; subst.
    apply bind_ok in H as (a & E & H).
    destruct (value_checked_add_sem _ _ _ Ha Hv E) as (Hs & Hc & _ & Hq).
    destruct (IH _ _ Hs Hl' H) as (Hs' & Hc' & Hq').
    cbn [sum_coin sum_qty]. repeat split; [exact Hs' | lia | intros p n; rewrite Hq', Hq; lia].
Qed.

Lemma sum_values_total : forall l acc, sum_values acc l <> Panic /\ sum_values acc l <> OutOfFuel.
Proof.
  induction l as [|v l IH]; intro acc; cbn [sum_values]; [split; discriminate|].
  destruct (value_checked_add_ok_or_err acc v) as [H1 H2].
  destruct (value_checked_add acc v); cbn [bind]; try (split; discriminate); try congruence. apply IH.
Qed.

Lemma total_value_sem : forall c s, col_sorted c -> total_value c = Ok s ->
  value_sorted s = true /\ coin s = sum_coin (map snd c) /\ forall p n, qty s p n = sum_qty (map snd c) p n.
Proof.
  intros c s Hc H. exact (sum_values_sem (map snd c) value_zero s eq_refl Hc H).
Qed.

(* subtracting a pure-lovelace value *)
Lemma checked_sub_pure : forall inp t, coin inp <? t = false ->
  value_checked_sub inp (value_new t) = Ok (mkValue (coin inp - t) (multiasset_of inp)).
Proof.
  intros inp t H. apply N.ltb_ge in H.
  unfold value_checked_sub, u64_sub, value_new, value_sub_assets. cbn [coin multiasset_of].
  replace (t <=? coin inp) with true by (symmetry; apply N.leb_le; exact H). cbn [bind].
  destruct (multiasset_of inp); reflexivity.
Qed.

Section Proofs.
  Variable min_ada : output -> result N.

  (* computes the record projections of a state written with the with_* updates *)
  Ltac fields := cbn [b_total b_return b_collateral b_fee with_total with_return with_fee with_collateral clear_fields
                      o_amount o_addr o_extra output_new coin multiasset_of fst snd].

  (* how every helper establishes the statement: the sum of the inputs splits into the return and the total *)
  Lemma spec_holds_of_sum : forall b s r t, col_sorted (b_collateral b) -> total_value (b_collateral b) = Ok s ->
    coin s = coin (return_value r) + t -> (forall p n, qty s p n = qty (return_value r) p n) -> spec_min_ada min_ada r ->
    spec_holds min_ada (with_total (Some t) (with_return r b)).
  Proof.
    intros b s r t Hc Et C Q M. destruct (total_value_sem _ _ Hc Et) as (_ & Hcoin & Hq).
    unfold spec_holds. fields. split; [split | exact M]; [rewrite <- Hcoin; exact C | intros p n; rewrite <- Hq; apply Q].
  Qed.

  Theorem return_then_total_ok : forall ret b b',
    col_sorted (b_collateral b) -> value_sorted (o_amount ret) = true ->
    set_collateral_return_and_total min_ada ret b = Ok b' ->
    spec_holds min_ada b' /\
    b_return b' = Some ret /\ b_collateral b' = b_collateral b /\ b_fee b' = b_fee b /\ b_collateral b <> [] /\
    exists s, total_value (b_collateral b) = Ok s /\ b_total b' = Some (coin s - coin (o_amount ret)).
  Proof.
    intros ret b b' Hc Hr H. unfold set_collateral_return_and_total in H.
    destruct (is_nil (b_collateral b)) eqn:En; [discriminate|].
    apply bind_ok in H as (s & Et & (tot & Es & H)%bind_ok).
    destruct (multiasset_of tot) eqn:Em; cbn [is_some] in H; [discriminate|].
    apply bind_ok in H as (m & Ea & H).
    destruct (coin (o_amount ret) <? m) eqn:El; [discriminate|].
    injection H as <-.
    destruct (value_checked_sub_sem _ _ _ (proj1 (total_value_sem _ _ Hc Et)) Hr Es) as (_ & Hsc & Hsq).
    split; [apply (spec_holds_of_sum b s _ _ Hc Et); cbn [return_value] | fields; repeat split].
    - lia.
    - intros p n. rewrite Hsq, (qty_no_assets tot p n Em). reflexivity.
    - exists m. split; [exact Ea | apply N.ltb_ge; exact El].
    - intro E. rewrite E in En. discriminate.
    - exists s. split; [exact Et|]. f_equal. lia.
  Qed.

  (* the converse: consistent figures are accepted.  [value_normal]: the sum of the inputs lists no zero quantity, no
     empty policy and is not an empty-but-present multiasset (for such sums the code is stricter than the equation) *)
  Definition value_normal (v : value) : bool :=
    match multiasset_of v with None => true | Some [] => false | Some l => ma_positive l end.

  (* a sum in normal form that holds no more of any asset than [r] leaves no asset behind *)
  Lemma normal_sub_assets_none : forall s r, value_sorted s = true -> value_sorted r = true -> value_normal s = true ->
    (forall p n, qty s p n <= qty r p n) -> value_sub_assets s r = None.
  Proof.
    intros s r Hs Hr Hn Hq. unfold value_sub_assets, value_normal, value_sorted, qty in *.
    destruct (multiasset_of s) as [[|x l]|]; try discriminate; [|destruct (multiasset_of r); reflexivity].
    destruct (multiasset_of r) as [m|]; cbn [opt_ma_qty] in Hq.
    - rewrite ma_sub_all_covered_nil; auto.
    - exfalso. assert (E : x :: l = []); [|discriminate E].
      apply ma_positive_zero_nil; [exact Hn|]. intros p n. specialize (Hq p n). lia.
  Qed.

  Theorem return_then_total_complete : forall ret b s m,
    col_sorted (b_collateral b) -> value_sorted (o_amount ret) = true ->
    b_collateral b <> [] -> total_value (b_collateral b) = Ok s -> value_normal s = true ->
    coin (o_amount ret) <= coin s -> (forall p n, qty s p n = qty (o_amount ret) p n) ->
    min_ada ret = Ok m -> m <= coin (o_amount ret) ->
    exists b', set_collateral_return_and_total min_ada ret b = Ok b'.
  Proof.
    intros ret b s m Hc Hr Hne Et Hn Hcoin Hq Ea Hm.
    destruct (total_value_sem _ _ Hc Et) as (Hs & _ & _).
    unfold set_collateral_return_and_total.
    destruct (b_collateral b) as [|kv c] eqn:En; [congruence|]. cbn [is_nil]. rewrite Et. cbn [bind].
    pose proof (value_checked_sub_outcome s (o_amount ret)) as C. rewrite <- value_sorted_sortedb in C. specialize (C Hr).
    destruct (value_checked_sub s (o_amount ret)) as [tot| | |]; try contradiction.
    - destruct C as (-> & _ & _). unfold value_clamped_sub. cbn [bind multiasset_of].
      rewrite (normal_sub_assets_none s _ Hs Hr Hn) by (intros p n; rewrite Hq; lia).
      cbn [is_some]. rewrite Ea. cbn [bind].
      replace (coin (o_amount ret) <? m) with false by (symmetry; apply N.ltb_ge; exact Hm).
      eexists. reflexivity.
    - exfalso. destruct C as [E|(p & n & E)]; [lia | rewrite Hq in E; lia].
  Qed.

  Theorem total_then_return_ok : forall lr t addr b b',
    col_sorted (b_collateral b) -> (lr = false \/ b_return b = None) ->
    set_total_collateral_and_return_gen min_ada lr t addr b = Ok b' ->
    spec_holds min_ada b' /\
    b_total b' = Some t /\ b_collateral b' = b_collateral b /\ b_fee b' = b_fee b /\ b_collateral b <> [] /\
    exists s, total_value (b_collateral b) = Ok s /\ t <= coin s /\
      b_return b' = if is_some (multiasset_of s) || (0 <? coin s - t)
                    then Some (output_new addr (mkValue (coin s - t) (multiasset_of s))) else None.
  Proof.
    intros lr t addr b b' Hc Hlr H. unfold set_total_collateral_and_return_gen in H.
    destruct (is_nil (b_collateral b)) eqn:En; [discriminate|].
    apply bind_ok in H as (s & Et & H).
    destruct (coin s <? t) eqn:Elt; [discriminate|].
    rewrite (checked_sub_pure s t Elt) in H. cbn [bind coin multiasset_of] in H.
    assert (Hle : t <= coin s) by (apply N.ltb_ge; exact Elt).
    assert (Hne : b_collateral b <> []) by (intro E; rewrite E in En; discriminate).
    destruct (is_some (multiasset_of s) || (0 <? coin s - t)) eqn:Eany.
    - apply bind_ok in H as (m & Ea & H).
      destruct (coin s - t <? m) eqn:El; [discriminate|]. injection H as <-.
      split; [apply (spec_holds_of_sum b s _ _ Hc Et); cbn [return_value]; fields | fields; repeat split; auto].
      + lia.
      + reflexivity.
      + exists m. fields. split; [exact Ea | apply N.ltb_ge; exact El].
      + exists s. split; [exact Et|]. split; [exact Hle|]. rewrite Eany. reflexivity.
    - (* nothing to return: the sum is pure lovelace and equals the total; both switches leave the same state *)
      assert (Eb : b' = with_total (Some t) (with_return None b)).
      { destruct lr; injection H as <-; [|reflexivity]. destruct Hlr as [|Hr]; [discriminate|].
        destruct b; cbn in Hr; subst; reflexivity. }
      subst b'. destruct (orb_false_elim _ _ Eany) as [Ema Ez]. apply N.ltb_ge in Ez.
      assert (Em : multiasset_of s = None) by (destruct (multiasset_of s); [discriminate|reflexivity]).
      split; [apply (spec_holds_of_sum b s None _ Hc Et); cbn [return_value value_zero value_new coin]
             | fields; repeat split; auto].
      + lia.
      + intros p n. apply (qty_no_assets s p n Em).
      + exact I.
      + exists s. rewrite Eany. repeat split; auto.
  Qed.

  (* a failing explicit helper changes nothing (it assigns no field before its last check) *)
  Theorem explicit_failure_unchanged : forall lr le o b,
    (match o with OpReturnAndTotal _ | OpTotalAndReturn _ _ => True | _ => False end) ->
    fst (step_gen min_ada lr le o b) = false -> snd (step_gen min_ada lr le o b) = b.
  Proof.
    intros lr le o b Ho H. destruct o; try contradiction; cbn [step_gen] in *;
      match goal with |- snd (of_result ?r _) = _ => destruct r end; cbn [of_result fst snd] in *; congruence.
  Qed.

  Lemma ceil_le_floor_plus_one : forall x, ceil_div x 100 <= x / 100 + 1.
  Proof. intro x. unfold ceil_div. change (100 - 1) with 99. lia. Qed.

  Lemma percent_add_never_overflows : forall fee pct x, u64_mul fee pct = Ok x -> u64_add (x / 100) 1 = Ok (x / 100 + 1).
  Proof.
    intros fee pct x H. unfold u64_mul in H. destruct (fee * pct <? two64) eqn:E; [|discriminate]. injection H as <-.
    apply N.ltb_lt in E. unfold u64_add.
    replace (fee * pct / 100 + 1 <? two64) with true; [reflexivity|]. symmetry. apply N.ltb_lt. unfold two64 in *. lia.
  Qed.

  (* the total the helper asks for *)
  Definition f_required (fee : option N) (pct : N) : N :=
    match fee with Some f => f * pct / 100 + 1 | None => 0 end.

  Theorem percent_ok : forall le pct addr ok fee b b',
    col_sorted (b_collateral b) ->
    percent_helper_gen min_ada false le pct addr ok fee b = (true, b') ->
    spec_holds min_ada b' /\ b_collateral b' = b_collateral b /\ ok = true /\
    (exists f, fee = Some f /\ b_fee b' = Some f /\ f * pct < two64 /\
               b_total b' = Some (f * pct / 100 + 1) /\ spec_percent f pct (f * pct / 100 + 1)) /\
    exists s, total_value (b_collateral b) = Ok s /\
      b_return b' = if is_some (multiasset_of s) || (0 <? coin s - (f_required fee pct))
                    then Some (output_new addr (mkValue (coin s - f_required fee pct) (multiasset_of s))) else None.
  Proof.
    intros le pct addr ok fee b b' Hc H. unfold percent_helper_gen in H.
    destruct (total_value (b_collateral b)) as [tc| | |] eqn:Etv; try (destruct le; discriminate).
    destruct ok; cbn [negb] in H; [|discriminate]. fields. cbn [b_fee clear_fields with_total with_return with_fee] in H.
    destruct fee as [f|]; [|discriminate].
    unfold u64_mul in H. destruct (f * pct <? two64) eqn:Emul; cbn [bind] in H; [|discriminate].
    rewrite (percent_add_never_overflows f pct (f * pct)) in H by (unfold u64_mul; rewrite Emul; reflexivity).
    match type of H with context [set_total_collateral_and_return_gen _ _ _ _ ?b3] => set (b3' := b3) in * end.
    destruct (set_total_collateral_and_return_gen min_ada false (f * pct / 100 + 1) addr b3') as [b4| | |] eqn:E;
      try discriminate.
    injection H as <-.
    assert (Hc3 : col_sorted (b_collateral b3')) by exact Hc.
    destruct (total_then_return_ok false _ addr b3' b4 Hc3 (or_introl eq_refl) E) as (Hspec & Ht & Hcol & Hfee & _ & s & Hs & _ & Hret).
    split; [exact Hspec|]. split; [exact Hcol|]. split; [reflexivity|]. split.
    - exists f. repeat split; auto.
      + apply N.ltb_lt; exact Emul.
      + unfold spec_percent. apply ceil_le_floor_plus_one.
    - exists s. split; [|exact Hret]. change (b_collateral b3') with (b_collateral b) in Hs. congruence.
  Qed.

  (* a failed attempt: once the collateral sum is there, every failure path ends with both fields cleared; when the
     sum itself overflows the fields are cleared too, unless [le] (before fixes/C19-percent-early-failure.patch) *)
  Lemma percent_failure : forall lr le pct addr ok fee b b',
    percent_helper_gen min_ada lr le pct addr ok fee b = (false, b') ->
    match total_value (b_collateral b) with
    | Ok _ => b_return b' = None /\ b_total b' = None /\ b_collateral b' = b_collateral b
    | _ => b' = if le then b else clear_fields b
    end.
  Proof.
    intros lr le pct addr ok fee b b' H. unfold percent_helper_gen in H.
    destruct (total_value (b_collateral b)) as [tc| | |]; try (injection H as <-; reflexivity).
    (* every failing path returns the placeholder state with the fields cleared, once or twice *)
    destruct ok; cbn [negb] in H;
      [destruct fee as [f|]; cbn [b_fee clear_fields with_total with_return with_fee] in H;
         [destruct (let* x := u64_mul f pct in u64_add (x / 100) 1) as [req| | |];
            [destruct (set_total_collateral_and_return_gen min_ada lr req addr _)|..]|]|].
    all: try discriminate; injection H as <-; repeat split; reflexivity.
  Qed.

  Theorem percent_failure_unset : forall lr pct addr ok fee b b',
    percent_helper_gen min_ada lr false pct addr ok fee b = (false, b') ->
    b_return b' = None /\ b_total b' = None /\ b_collateral b' = b_collateral b.
  Proof.
    intros lr pct addr ok fee b b' H. apply percent_failure in H.
    destruct (total_value (b_collateral b)); [exact H | | |]; subst b'; repeat split; reflexivity.
  Qed.

  Definition op_wf (o : op) : Prop :=
    match o with
    | OpSetCollateral c => vals_sorted (map snd c)
    | OpReturnAndTotal r => value_sorted (o_amount r) = true
    | _ => True
    end.

  Lemma col_insert_sorted : forall k v m, value_sorted v = true -> col_sorted m -> col_sorted (col_insert k v m).
  Proof.
    intros k v m Hv. induction m as [|[k' v'] m IH]; intro Hm; cbn [col_insert].
    - constructor; [exact Hv|constructor].
    - inversion Hm as [|? ? Hv' Hm']; subst. destruct (txin_cmp k k'); cbn [map snd].
      + constructor; assumption.
      + constructor; [exact Hv|]. constructor; assumption.
      + constructor; [exact Hv'|]. apply IH. exact Hm'.
  Qed.

  (* push_input stores the amount without its empty entries (Num/ValueNorm.v): still sorted *)
  Lemma value_sorted_without_empty_entries : forall v, value_sorted v = true -> value_sorted (value_without_empty_entries v) = true.
  Proof.
    intros v. unfold value_sorted, value_without_empty_entries. cbn [multiasset_of].
    destruct (multiasset_of v) as [m|]; [exact (ma_drop_empty_sortedb m) | reflexivity].
  Qed.

  Lemma col_of_list_sorted : forall l, vals_sorted (map snd l) -> col_sorted (col_of_list l).
  Proof.
    intro l. unfold col_of_list. cut (col_sorted []); [|constructor]. generalize (@nil (txin * value)).
    induction l as [|[k v] l IH]; intros acc Ha Hl; cbn [fold_left]; [exact Ha|].
    inversion Hl; subst. apply IH; [|assumption].
    apply col_insert_sorted; [apply value_sorted_without_empty_entries|]; assumption.
  Qed.

  Lemma spec_holds_fee : forall f b, spec_holds min_ada (with_fee f b) <-> spec_holds min_ada b.
  Proof. intros f b. unfold spec_holds. fields. reflexivity. Qed.

  (* what a successful helper leaves behind besides the spec: the sum of the inputs fits, the stored return is sorted *)
  Definition governed_ok (b : builder) : Prop :=
    spec_holds min_ada b /\ (exists s, total_value (b_collateral b) = Ok s) /\
    value_sorted (return_value (b_return b)) = true.

  Definition inv (b : builder) (p : prov) : Prop :=
    col_sorted (b_collateral b) /\ (p = Governed -> governed_ok b).

  Lemma return_sorted_of_sum : forall s addr t, value_sorted s = true ->
    value_sorted (return_value (if is_some (multiasset_of s) || (0 <? coin s - t)
                                then Some (output_new addr (mkValue (coin s - t) (multiasset_of s))) else None)) = true.
  Proof.
    intros s addr t Hs. destruct (is_some (multiasset_of s) || (0 <? coin s - t)); [|reflexivity].
    unfold return_value, output_new, value_sorted in *. cbn [o_amount multiasset_of]. exact Hs.
  Qed.

  (* what each of the three helpers establishes when it succeeds *)
  Lemma governed_intro : forall b b' s p, col_sorted (b_collateral b) ->
    spec_holds min_ada b' -> b_collateral b' = b_collateral b -> total_value (b_collateral b) = Ok s ->
    value_sorted (return_value (b_return b')) = true -> inv b' p.
  Proof.
    intros b b' s p Hc Hs Hcol Hsum Hr. split; [rewrite Hcol; exact Hc|]. intros _.
    split; [exact Hs|]. split; [exists s; rewrite Hcol; exact Hsum | exact Hr].
  Qed.

  Lemma step_inv : forall le o b p, op_wf o -> inv b p ->
    inv (snd (step_gen min_ada false le o b)) (prov_step_gen min_ada false le o b p).
  Proof.
    intros le o b p Ho [Hc Hg]. destruct o; cbn [step_gen prov_step_gen snd fst op_wf] in *.
    - split; [fields; apply col_of_list_sorted; exact Ho|]. destruct p; discriminate.
    - split; [exact Hc|discriminate].
    - split; [exact Hc|discriminate].
    - split; [exact Hc|discriminate].
    - split; [exact Hc|discriminate].
    - destruct (set_collateral_return_and_total min_ada o b) as [b'| | |] eqn:E; cbn [of_result fst snd];
        try (split; assumption).
      destruct (return_then_total_ok _ _ _ Hc Ho E) as (Hs & Hr & Hcol & _ & _ & s & Hsum & _).
      apply (governed_intro b b' s _ Hc Hs Hcol Hsum). rewrite Hr. exact Ho.
    - destruct (set_total_collateral_and_return_gen min_ada false t addr b) as [b'| | |] eqn:E; cbn [of_result fst snd];
        try (split; assumption).
      destruct (total_then_return_ok _ _ _ _ _ Hc (or_introl eq_refl) E) as (Hs & _ & Hcol & _ & _ & s & Hsum & _ & Hr).
      apply (governed_intro b b' s _ Hc Hs Hcol Hsum). rewrite Hr. apply return_sorted_of_sum, (total_value_sem _ _ Hc Hsum).
    - destruct (percent_helper_gen min_ada false le pct addr bal_ok fee_after b) as [[|] b'] eqn:E; cbn [fst snd].
      + destruct (percent_ok _ _ _ _ _ _ _ Hc E) as (Hs & Hcol & _ & _ & s & Hsum & Hr).
        apply (governed_intro b b' s _ Hc Hs Hcol Hsum). rewrite Hr. apply return_sorted_of_sum, (total_value_sem _ _ Hc Hsum).
      + apply percent_failure in E. destruct (total_value (b_collateral b)).
        1: destruct E as (_ & _ & Hcol); split; [rewrite Hcol; exact Hc | discriminate].
        all: subst b'; destruct le; split; try assumption; discriminate.
    - split; [exact Hc|]. intro E. destruct (Hg E) as (H1 & H2 & H3). split; [apply spec_holds_fee; exact H1|]. split; assumption.
  Qed.

  Lemma run_prov_inv : forall le h b p, Forall op_wf h -> inv b p ->
    inv (fst (run_prov_gen min_ada false le h b p)) (snd (run_prov_gen min_ada false le h b p)).
  Proof.
    intros le h. induction h as [|o h IH]; intros b p Hh Hi; cbn [run_prov_gen fst snd]; [exact Hi|].
    inversion Hh; subst. apply IH; [assumption|]. apply step_inv; assumption.
  Qed.

  Lemma inv_new : inv builder_new Free.
  Proof. split; [constructor|discriminate]. Qed.

  Lemma run_prov_fst : forall lr le h b p, fst (run_prov_gen min_ada lr le h b p) = run_gen min_ada lr le h b.
  Proof.
    intros lr le h. unfold run_gen. induction h as [|o h IH]; intros b p; cbn [run_prov_gen fold_left]; [reflexivity|apply IH].
  Qed.

  Lemma spec_min_adab_spec : forall r, spec_min_adab min_ada r = true <-> spec_min_ada min_ada r.
  Proof.
    intros [o|]; cbn [spec_min_adab spec_min_ada]; [|tauto].
    destruct (min_ada o) as [m| | |]; [rewrite N.leb_le|..]; split; try discriminate; try (intros (? & ? & _); discriminate).
    - intro H. exists m. split; [reflexivity|exact H].
    - intros (m' & [= <-] & H). exact H.
  Qed.

  Lemma spec_consistentb_spec : forall ins r t s,
    vals_sorted ins -> value_sorted (return_value r) = true -> sum_values value_zero ins = Ok s ->
    (spec_consistentb ins r t = true <-> spec_consistent ins r t).
  Proof.
    intros ins r t s Hi Hr Hs. unfold spec_consistentb. rewrite Hs.
    destruct (sum_values_sem _ _ _ (eq_refl : value_sorted value_zero = true) Hi Hs) as (Hss & Hc & Hq).
    rewrite (value_eqb_sem_spec s _ Hss) by exact Hr.
    unfold value_eq_sem, spec_consistent. cbn [coin]. change (coin value_zero) with 0 in Hc.
    split; intros [H1 H2]; (split; [lia|]); intros p n; specialize (H2 p n); specialize (Hq p n);
      change (qty value_zero p n) with 0 in Hq; unfold qty in *; cbn [multiasset_of] in *; lia.
  Qed.

  (* the executable judge decides the statement: acceptance is sound for all inputs; it is complete whenever the plain
     sum of the inputs fits in 64 bits per lovelace and per asset (which every state written by a helper satisfies) *)
  Theorem judge_decides_spec : forall ins r t,
    vals_sorted ins -> value_sorted (return_value r) = true ->
    (spec_holdsb min_ada ins r t = true ->
       exists t', t = Some t' /\ spec_consistent ins r t' /\ spec_min_ada min_ada r) /\
    (forall s t', sum_values value_zero ins = Ok s -> t = Some t' -> spec_consistent ins r t' -> spec_min_ada min_ada r ->
       spec_holdsb min_ada ins r t = true).
  Proof.
    intros ins r t Hi Hr. split.
    - unfold spec_holdsb. destruct t as [t'|]; [|discriminate]. intro H. apply andb_true_iff in H. destruct H as [H1 H2].
      exists t'. split; [reflexivity|]. split; [|apply spec_min_adab_spec; exact H2].
      unfold spec_consistentb in H1. destruct (sum_values value_zero ins) as [s| | |] eqn:Es; try discriminate.
      apply (spec_consistentb_spec ins r t' s Hi Hr Es). unfold spec_consistentb. rewrite Es. exact H1.
    - intros s t' Es -> H1 H2. unfold spec_holdsb. apply andb_true_iff. split.
      + apply (spec_consistentb_spec ins r t' s Hi Hr Es). exact H1.
      + apply spec_min_adab_spec. exact H2.
  Qed.

  Lemma inv_good : forall b p, inv b p -> p = Governed ->
    spec_holdsb min_ada (map snd (b_collateral b)) (b_return b) (b_total b) = true.
  Proof.
    intros b p [Hc Hg] E. destruct (Hg E) as (Hs & (s & Hsum) & Hr).
    unfold spec_holds in Hs. destruct (b_total b) as [t|] eqn:Et; [|contradiction]. destruct Hs as [H1 H2].
    exact (proj2 (judge_decides_spec _ _ (Some t) Hc Hr) s t Hsum eq_refl H1 H2).
  Qed.

  Lemma txin_cmp_refl : forall k, txin_cmp k k = Eq.
  Proof. intros [a i]. unfold txin_cmp. cbn [fst snd]. rewrite bytes_cmp_refl. apply N.compare_refl. Qed.

  Lemma fields_keys_match_refl : forall b, fields_keys_match b (build_fields b) = true.
  Proof.
    intro b. unfold fields_keys_match, build_fields. cbn [f13].
    destruct (b_collateral b) as [|kv c]; [reflexivity|].
    apply andb_true_iff. split.
    - rewrite map_length. apply Nat.eqb_refl.
    - generalize (map fst (kv :: c)). intro l. induction l as [|k l IH]; [reflexivity|].
      cbn [combine forallb fst snd]. rewrite txin_cmp_refl. exact IH.
  Qed.

  Lemma opt_eqb_refl : forall {A} (eqb : A -> A -> bool), (forall x, eqb x x = true) -> forall o, opt_eqb eqb o o = true.
  Proof. intros A eqb H [x|]; cbn [opt_eqb]; [apply H|reflexivity]. Qed.
  Lemma output_eqb_refl : forall o, output_eqb o o = true.
  Proof.
    intro o. unfold output_eqb, value_struct_eqb.
    rewrite !bytes_eqb_refl, N.eqb_refl, (opt_eqb_refl ma_eqb ma_eqb_refl). reflexivity.
  Qed.

  Lemma prov_step_obs_model : forall o b p,
    prov_step_obs o p (fst (step min_ada o b)) = prov_step_gen min_ada false false o b p.
  Proof.
    intros o b p. unfold step, legacy_keeps_stale_return, legacy_early_failure_keeps_fields.
    destruct o; cbn [prov_step_obs prov_step_gen]; try reflexivity.
    destruct (fst (step_gen min_ada false false (OpPercent pct addr bal_ok fee_after) b)); [reflexivity|].
    destruct (total_value (b_collateral b)); reflexivity.
  Qed.

  Lemma by_prov_ok : forall b p, inv b p ->
    match p with
    | Governed => if spec_holdsb min_ada (map snd (b_collateral b)) (b_return b) (b_total b) then Holds else FailsUnknown
    | Stale => if spec_holdsb min_ada (map snd (b_collateral b)) (b_return b) (b_total b) then Holds else FailsKnown 1
    | Free => NotApplicable
    end <> FailsUnknown.
  Proof.
    intros b p Hi. destruct p; [discriminate| |].
    - rewrite (inv_good b Governed Hi eq_refl). discriminate.
    - destruct (spec_holdsb _ _ _ _); discriminate.
  Qed.

  Lemma judge_op_model : forall o b p, op_wf o -> inv b p ->
    judge_op min_ada o (build_fields b) (snd (step min_ada o b)) (prov_step_gen min_ada false false o b p)
             (mkObs (fst (step min_ada o b)) (build_fields (snd (step min_ada o b))) (b_fee (snd (step min_ada o b))))
    <> FailsUnknown.
  Proof.
    intros o b p Ho Hi.
    pose proof (step_inv false o b p Ho Hi) as Hi'.
    unfold step, legacy_keeps_stale_return, legacy_early_failure_keeps_fields in *.
    set (b' := snd (step_gen min_ada false false o b)) in *.
    set (p' := prov_step_gen min_ada false false o b p) in *.
    unfold judge_op. cbn [ob_fields ob_ok ob_fee]. rewrite fields_keys_match_refl. cbn [negb].
    cbn [build_fields f16 f17].
    pose proof (by_prov_ok b' p' Hi') as Hprov.
    destruct o; try exact Hprov.
    (* the two explicit helpers: success is judged by the spec, failure leaves the state, hence fields 16/17, as it was *)
    1-2: destruct (fst (step_gen min_ada false false _ b)) eqn:Eok;
      [ assert (Ep : p' = Governed) by (unfold p'; cbn [prov_step_gen]; rewrite Eok; reflexivity);
        rewrite (inv_good b' p' Hi' Ep); discriminate
      | assert (Eb : b' = b) by (refine (explicit_failure_unchanged false false _ b _ Eok); exact I);
        rewrite Eb in *;
        rewrite (opt_eqb_refl output_eqb output_eqb_refl), (opt_eqb_refl N.eqb N.eqb_refl); exact Hprov ].
    - (* percentage helper *)
      destruct Hi as [Hc _].
      destruct (step_gen min_ada false false (OpPercent pct addr bal_ok fee_after) b) as [ok b2] eqn:Es.
      cbn [step_gen] in Es. cbn [fst snd] in *. subst b'.
      destruct ok.
      + assert (Ep : p' = Governed) by (unfold p'; cbn [prov_step_gen step_gen]; rewrite Es; reflexivity).
        destruct (percent_ok _ _ _ _ _ _ _ Hc Es) as (_ & _ & _ & (f & _ & Hfee & _ & Ht & Hp) & _).
        rewrite Hfee, Ht.
        pose proof (inv_good b2 p' Hi' Ep) as Hg. rewrite Ht in Hg. rewrite Hg. cbn [andb].
        unfold spec_percentb. replace (ceil_div (f * pct) 100 <=? f * pct / 100 + 1) with true; [discriminate|].
        symmetry. apply N.leb_le. exact Hp.
      + destruct (percent_failure_unset _ _ _ _ _ _ _ Es) as (Hr & Ht & _). rewrite Hr, Ht. discriminate.
  Qed.

  Lemma worse_ok : forall a b, a <> FailsUnknown -> b <> FailsUnknown -> worse a b <> FailsUnknown.
  Proof. intros [] []; cbn [worse]; congruence. Qed.

  Lemma judge_run_model : forall h b p acc,
    Forall op_wf h -> inv b p -> acc <> FailsUnknown ->
    judge_run min_ada h (model_obs min_ada h b) (build_fields b) b p acc <> FailsUnknown.
  Proof.
    induction h as [|o h IH]; intros b p acc Hh Hi Ha; cbn [model_obs judge_run]; [exact Ha|].
    inversion Hh; subst. cbn [ob_ok ob_fields]. rewrite prov_step_obs_model.
    apply IH; [assumption| |].
    - pose proof (step_inv false o b p H1 Hi) as Hi'. exact Hi'.
    - apply worse_ok; [exact Ha|]. apply judge_op_model; assumption.
  Qed.

End Proofs.

(* Witnesses: the histories and states of the refutations in Props/C19.v *)

(* the statement fails as soon as the lovelace equation does *)
Lemma spec_refuted : forall min_ada b t, b_total b = Some t ->
  sum_coin (map snd (b_collateral b)) <> coin (return_value (b_return b)) + t -> ~ spec_holds min_ada b.
Proof. intros min_ada b t Et Hne H. unfold spec_holds in H. rewrite Et in H. destruct H as [[H _] _]. exact (Hne H). Qed.

Definition w_min_ada : output -> result N := fun _ => Ok 0.
Definition w_tid (i : N) : bytes := repeat i 32.
Definition w_addr (i : N) : bytes := 96 :: repeat i 28.
Definition w_policy : bytes := repeat 9 28.
Definition w_tokens (q : N) : multiasset := ma_set_asset w_policy [120] q ma_new.

(* the known class: figures computed by a helper, collateral inputs replaced afterwards *)
Definition w_stale : list op :=
  [ OpSetCollateral [((w_tid 1, 1), value_new 5000000)];
    OpReturnAndTotal (output_new (w_addr 2) (value_new 3000000));
    OpSetCollateral [((w_tid 4, 4), value_new 9000000)] ].

(* before fixes/C19-stale-return.patch: a return stored earlier survived set_total_collateral_and_return(total = all) *)
Definition w_legacy_return : list op :=
  [ OpSetCollateral [((w_tid 1, 1), value_new 5000000)];
    OpSetReturn (output_new (w_addr 2) (value_new 3000000));
    OpTotalAndReturn 5000000 (w_addr 3) ].

(* ... and the repaired code is fine on the same history *)
Example legacy_stale_return_repaired :
  build_fields (run w_min_ada w_legacy_return builder_new) = mkBody (Some [(w_tid 1, 1)]) None (Some 5000000).
Proof. vm_compute. reflexivity. Qed.

(* before fixes/C19-percent-early-failure.patch: the helper failed on the overflowing sum before clearing the fields *)
Definition w_early_state : builder :=
  mkBuilder (col_of_list [((w_tid 1, 1), mkValue 5000000 (Some (w_tokens 18446744073709551615)));
                          ((w_tid 2, 2), mkValue 5000000 (Some (w_tokens 1)))])
            (Some (output_new (w_addr 2) (value_new 3000000))) (Some 7000000) None.

Example legacy_early_failure_repaired :
  percent_helper w_min_ada 150 (w_addr 6) true (Some 170000) w_early_state = (false, clear_fields w_early_state).
Proof. vm_compute. reflexivity. Qed.

(* non-vacuity of the premises: a history with assets where every helper succeeds *)
Definition w_good : list op :=
  [ OpSetCollateral [((w_tid 1, 1), mkValue 5000000 (Some (w_tokens 7))); ((w_tid 2, 0), value_new 2000000)];
    OpReturnAndTotal (mkOutput (w_addr 2) (mkValue 4000000 (Some (w_tokens 7))) []);
    OpBalance (Some 170000);
    OpTotalAndReturn 1000000 (w_addr 3);
    OpPercent 150 (w_addr 3) true (Some 200000) ].

Example good_history_governed :
  Forall op_wf w_good /\ snd (run_prov w_min_ada w_good builder_new Free) = Governed /\
  build_fields (fst (run_prov w_min_ada w_good builder_new Free)) =
    mkBody (Some [(w_tid 1, 1); (w_tid 2, 0)])
           (Some (output_new (w_addr 3) (mkValue 6699999 (Some (w_tokens 7))))) (Some 300001).
Proof. split; [repeat constructor|]. split; vm_compute; reflexivity. Qed.
