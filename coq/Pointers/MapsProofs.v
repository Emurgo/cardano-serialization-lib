(* Facts about the container functions of Pointers.v (key-sorted association lists = BTreeMap,
   insertion-ordered association lists = LinkedHashMap), positions and ranks, and the finite map such
   a list represents (refines).  Generic in the key order, which is a Section premise discharged by the
   instances of Base/BytesOrd.v. *)
From CSL Require Import Base.Prelude Base.BytesOrd Pointers.Pointers.
From Coq Require Import Sorting.Sorted Permutation.
Local Open Scope N_scope.

Section Keys.
  Context {K : Type} (ltb : K -> K -> bool) (ST : strict_total ltb).
  Local Notation keq := (eqb_of ltb).
  Local Notation lt := (fun a b => ltb a b = true).
  Definition sortedk (l : list K) : Prop := StronglySorted lt l.

  Lemma keq_spec x y : reflect (x = y) (keq x y).
  Proof. apply iff_reflect. symmetry. apply eqb_of_true, ST. Qed.
  Lemma keq_sym x y : keq x y = keq y x.
  Proof. unfold eqb_of. apply andb_comm. Qed.

  Lemma sortedk_nodup l : sortedk l -> NoDup l.
  Proof.
    induction 1 as [|a l _ IH Hall]; constructor; [|exact IH].
    intros Hin. rewrite Forall_forall in Hall. specialize (Hall _ Hin). cbv beta in Hall.
    rewrite (st_irrefl _ ST) in Hall. discriminate.
  Qed.
  Lemma sset_insert_In x k l : In x (sset_insert ltb k l) <-> x = k \/ In x l.
  Proof.
    induction l as [|y t IH]; cbn [sset_insert In]; [intuition|].
    destruct (ltb k y) eqn:E1; [cbn [In]; intuition|].
    destruct (ltb y k) eqn:E2; cbn [In].
    - rewrite IH. intuition.
    - assert (k = y) by (apply (st_total _ ST); assumption). subst. intuition.
  Qed.

  Lemma sset_insert_sorted k l : sortedk l -> sortedk (sset_insert ltb k l).
  Proof.
    induction 1 as [|y t Ht IH Hall]; cbn [sset_insert]; [repeat constructor|].
    destruct (ltb k y) eqn:E1.
    - constructor; [constructor; assumption|]. constructor; [exact E1|].
      rewrite Forall_forall in *. intros z Hz. apply (st_trans _ ST _ _ _ E1). apply Hall, Hz.
    - destruct (ltb y k) eqn:E2; [|constructor; assumption].
      constructor; [exact IH|]. rewrite Forall_forall in *. intros z Hz.
      apply sset_insert_In in Hz as [->|Hz]; [exact E2 | apply Hall, Hz].
  Qed.

  Lemma sset_sort_In x l : In x (sset_sort ltb l) <-> In x l.
  Proof.
    induction l as [|y t IH]; cbn [sset_sort fold_right In]; [tauto|].
    fold (sset_sort ltb t). rewrite sset_insert_In, IH. intuition.
  Qed.

  Lemma sset_sort_sorted l : sortedk (sset_sort ltb l).
  Proof.
    induction l as [|y t IH]; cbn [sset_sort fold_right]; [constructor|].
    apply sset_insert_sorted, IH.
  Qed.

  (* a sorted list is determined by its elements: the heads are both the least element *)
  Lemma sorted_unique l1 : forall l2, sortedk l1 -> sortedk l2 -> (forall x, In x l1 <-> In x l2) -> l1 = l2.
  Proof.
    assert (Hhd : forall a t b t', sortedk (a :: t) -> sortedk (b :: t') -> In a (b :: t') -> In b (a :: t) -> a = b).
    { intros a t b t' S S' [E|Hin] [E'|Hin']; try congruence.
      apply StronglySorted_inv in S as [_ Ha], S' as [_ Hb]. rewrite Forall_forall in Ha, Hb.
      pose proof (st_asym ltb ST _ _ (Ha _ Hin')) as L. rewrite (Hb _ Hin) in L. discriminate. }
    induction l1 as [|a t1 IH]; intros [|b t2] S1 S2 Heq.
    - reflexivity.
    - destruct (proj2 (Heq b) (or_introl eq_refl)).
    - destruct (proj1 (Heq a) (or_introl eq_refl)).
    - assert (a = b) as <- by (eapply Hhd; [exact S1 | exact S2 | apply Heq; left; reflexivity | apply Heq; left; reflexivity]).
      pose proof (sortedk_nodup _ S1) as N1. pose proof (sortedk_nodup _ S2) as N2.
      apply NoDup_cons_iff in N1 as [N1 _], N2 as [N2 _].
      apply StronglySorted_inv in S1 as [S1 _], S2 as [S2 _].
      f_equal. apply IH; [assumption..|].
      intros x. split; intros Hx.
      + destruct (proj1 (Heq x) (or_intror Hx)) as [<-|H]; [contradiction | exact H].
      + destruct (proj2 (Heq x) (or_intror Hx)) as [<-|H]; [contradiction | exact H].
  Qed.

  Lemma sset_sort_of_sorted l : sortedk l -> sset_sort ltb l = l.
  Proof.
    intros S. apply sorted_unique; [apply sset_sort_sorted | exact S | intros x; apply sset_sort_In].
  Qed.

  Lemma sset_sort_same_set l l' : (forall x, In x l <-> In x l') -> sset_sort ltb l = sset_sort ltb l'.
  Proof.
    intros H. apply sorted_unique; [apply sset_sort_sorted..|].
    intros x. rewrite !sset_sort_In. apply H.
  Qed.
  Lemma index_of_nth_inv l : forall x i, index_of ltb x l = Some i -> nth_error l (N.to_nat i) = Some x.
  Proof.
    induction l as [|y t IH]; intros x i; cbn [index_of]; [discriminate|].
    destruct (keq_spec y x) as [->|_].
    - intros H. injection H as <-. reflexivity.
    - destruct (index_of ltb x t) as [j|] eqn:Ej; cbn [option_map]; [|discriminate].
      intros H. injection H as <-. rewrite N2Nat.inj_succ. cbn [nth_error]. apply IH. exact Ej.
  Qed.

  Lemma index_of_In x l i : index_of ltb x l = Some i -> In x l.
  Proof. intros H. eapply nth_error_In, index_of_nth_inv, H. Qed.

  Lemma index_of_inj x y l i : index_of ltb x l = Some i -> index_of ltb y l = Some i -> x = y.
  Proof. intros Hx Hy. apply index_of_nth_inv in Hx, Hy. congruence. Qed.

  Lemma index_of_some x l : In x l -> exists i, index_of ltb x l = Some i.
  Proof.
    induction l as [|y t IH]; [contradiction|]. intros H. cbn [index_of].
    destruct (keq_spec y x) as [_|Hne]; [eexists; reflexivity|].
    destruct H as [->|H]; [contradiction|].
    destruct (IH H) as [i ->]. eexists; reflexivity.
  Qed.

  Lemma filter_lt_nil x t : Forall (fun z => ltb x z = true) t -> filter (fun z => ltb z x) t = [].
  Proof.
    induction 1 as [|z t Hz _ IH]; [reflexivity|]. cbn [filter].
    rewrite (st_asym ltb ST _ _ Hz). exact IH.
  Qed.

  Lemma index_of_sorted_rank x l : sortedk l -> In x l -> index_of ltb x l = Some (rank ltb x l).
  Proof.
    induction 1 as [|y t Ht IH Hall]; [contradiction|]. intros Hin. cbn [index_of]. unfold rank. cbn [filter].
    destruct (keq_spec y x) as [->|Hne].
    - rewrite (st_irrefl _ ST), filter_lt_nil by exact Hall. reflexivity.
    - destruct Hin as [->|Hin]; [contradiction|].
      rewrite (IH Hin). unfold rank. rewrite Forall_forall in Hall. rewrite (Hall _ Hin). cbn [length option_map].
      f_equal. lia.
  Qed.

  Lemma rank_perm x l l' : Permutation l l' -> rank ltb x l = rank ltb x l'.
  Proof.
    intros P. unfold rank. f_equal. apply Permutation_length.
    (* filter preserves Permutation *)
    induction P; cbn [filter]; try (destruct (ltb _ x)); try (destruct (ltb _ x)); eauto using Permutation.
  Qed.

  Lemma sset_sort_perm l : NoDup l -> Permutation (sset_sort ltb l) l.
  Proof.
    intros ND. apply NoDup_Permutation; [apply sortedk_nodup, sset_sort_sorted | exact ND | intros x; apply sset_sort_In].
  Qed.

  Lemma sorted_index_rank x l : NoDup l -> In x l -> index_of ltb x (sset_sort ltb l) = Some (rank ltb x l).
  Proof.
    intros ND Hin. rewrite index_of_sorted_rank; [| apply sset_sort_sorted | apply sset_sort_In; exact Hin].
    f_equal. apply rank_perm, sset_sort_perm, ND.
  Qed.

  Lemma index_of_nth l : forall n x, NoDup l -> nth_error l n = Some x -> index_of ltb x l = Some (N.of_nat n).
  Proof.
    induction l as [|y t IH]; intros [|n] x ND H; cbn in H; try discriminate.
    - injection H as ->. cbn [index_of]. rewrite (eqb_of_refl _ ST). reflexivity.
    - apply NoDup_cons_iff in ND as [Hy NDt]. cbn [index_of].
      destruct (keq_spec y x) as [->|_].
      + exfalso. apply Hy. eapply nth_error_In, H.
      + rewrite (IH n x NDt H). cbn [option_map]. f_equal. lia.
  Qed.
End Keys.

Section Maps.
  Context {K V : Type} (ltb : K -> K -> bool) (ST : strict_total ltb).
  Local Notation keq := (eqb_of ltb).
  Implicit Types (l : list (K * V)).
  Lemma al_get_In k v l : al_get ltb k l = Some v -> In (k, v) l.
  Proof.
    induction l as [|[k' v'] t IH]; cbn [al_get]; [discriminate|].
    destruct (keq_spec ltb ST k' k) as [->|_].
    - intros H. injection H as ->. left; reflexivity.
    - intros H. right. apply IH, H.
  Qed.

  Lemma al_get_none k l : al_get ltb k l = None <-> ~ In k (map fst l).
  Proof.
    induction l as [|[k' v'] t IH]; cbn [al_get map fst In]; [tauto|].
    destruct (keq_spec ltb ST k' k) as [->|Hne].
    - split; [discriminate | intros H; exfalso; apply H; left; reflexivity].
    - rewrite IH. tauto.
  Qed.

  Lemma al_get_some_key k v l : al_get ltb k l = Some v -> In k (map fst l).
  Proof. intros H. apply al_get_In in H. apply (in_map fst) in H. exact H. Qed.

  Lemma al_get_key_some k l : In k (map fst l) -> exists v, al_get ltb k l = Some v.
  Proof.
    intros H. destruct (al_get ltb k l) as [v|] eqn:E; [eexists; reflexivity|].
    apply al_get_none in E. contradiction.
  Qed.

  Lemma al_get_nodup k v l : NoDup (map fst l) -> In (k, v) l -> al_get ltb k l = Some v.
  Proof.
    induction l as [|[k' v'] t IH]; [contradiction|]. cbn [map fst al_get]. intros ND H.
    apply NoDup_cons_iff in ND as [Hk NDt].
    destruct H as [H|H].
    - injection H as -> ->. rewrite (eqb_of_refl _ ST). reflexivity.
    - destruct (keq_spec ltb ST k' k) as [->|_]; [|apply IH; assumption].
      exfalso. apply Hk. apply (in_map fst) in H. exact H.
  Qed.

  (* position n of a list with distinct keys holds (k, v): lookup and index of k *)
  Lemma keyed_nth_error k v l n : NoDup (map fst l) ->
    (nth_error l n = Some (k, v) <-> al_get ltb k l = Some v /\ index_of ltb k (map fst l) = Some (N.of_nat n)).
  Proof.
    intros ND. split.
    - intros H. split; [apply al_get_nodup, (nth_error_In _ _ H); exact ND|].
      apply (index_of_nth ltb ST _ _ _ ND), (map_nth_error fst _ _ H).
    - intros [G I]. apply (index_of_nth_inv ltb ST) in I. rewrite Nat2N.id, nth_error_map in I.
      destruct (nth_error l n) as [[k' v']|] eqn:E; [|discriminate]. injection I as ->.
      apply nth_error_In, (al_get_nodup _ _ _ ND) in E. congruence.
  Qed.

  Lemma al_get_app k l1 l2 :
    al_get ltb k (l1 ++ l2) = match al_get ltb k l1 with Some v => Some v | None => al_get ltb k l2 end.
  Proof.
    induction l1 as [|[k' v'] t IH]; cbn [al_get app]; [reflexivity|].
    destruct (keq k' k); [reflexivity | exact IH].
  Qed.
  Lemma sm_insert_get k v l k' : al_get ltb k' (sm_insert ltb k v l) = if keq k k' then Some v else al_get ltb k' l.
  Proof.
    induction l as [|[k2 v2] t IH]; cbn [sm_insert al_get]; [reflexivity|].
    destruct (ltb k k2) eqn:E1; [reflexivity|].
    destruct (ltb k2 k) eqn:E2; cbn [al_get].
    - rewrite IH. destruct (keq_spec ltb ST k2 k') as [<-|_]; [|reflexivity].
      unfold eqb_of at 1. rewrite E2, andb_false_r. reflexivity.
    - assert (k = k2) by (apply (st_total _ ST); assumption). subst k2.
      destruct (keq k k'); reflexivity.
  Qed.

  Lemma sm_insert_keys k v l : map fst (sm_insert ltb k v l) = sset_insert ltb k (map fst l).
  Proof.
    induction l as [|[k2 v2] t IH]; cbn [sm_insert sset_insert map fst]; [reflexivity|].
    destruct (ltb k k2) eqn:E1; [reflexivity|].
    destruct (ltb k2 k) eqn:E2; cbn [map fst].
    - rewrite IH. reflexivity.
    - assert (k = k2) by (apply (st_total _ ST); assumption). subst. reflexivity.
  Qed.

  Lemma sm_insert_keys_sorted k v l : sortedk ltb (map fst l) -> sortedk ltb (map fst (sm_insert ltb k v l)).
  Proof. intros S. rewrite sm_insert_keys. apply sset_insert_sorted; assumption. Qed.
  Lemma sm_sort_keys l : map fst (sm_sort ltb l) = sset_sort ltb (map fst l).
  Proof.
    induction l as [|[k v] t IH]; cbn [sm_sort fold_right map fst sset_sort]; [reflexivity|].
    fold (sm_sort ltb t). rewrite sm_insert_keys, IH. reflexivity.
  Qed.

  Lemma sm_sort_get k l : al_get ltb k (sm_sort ltb l) = al_get ltb k l.
  Proof.
    induction l as [|[k' v'] t IH]; cbn [sm_sort fold_right al_get fst snd]; [reflexivity|].
    fold (sm_sort ltb t). rewrite sm_insert_get, IH. reflexivity.
  Qed.
  Lemma lm_remove_keys k l : map fst (lm_remove ltb k l) = filter (fun k' => negb (keq k' k)) (map fst l).
  Proof.
    induction l as [|[k' v'] t IH]; cbn [lm_remove filter map fst]; [reflexivity|].
    destruct (negb (keq k' k)); cbn [map fst]; fold (lm_remove ltb k t); rewrite IH; reflexivity.
  Qed.

  Lemma lm_remove_get k l k' : al_get ltb k' (lm_remove ltb k l) = if keq k k' then None else al_get ltb k' l.
  Proof.
    induction l as [|[k2 v2] t IH]; cbn [lm_remove filter al_get fst]; [destruct (keq k k'); reflexivity|].
    fold (lm_remove ltb k t). destruct (keq_spec ltb ST k2 k) as [->|Hne]; cbn [negb al_get]; rewrite IH.
    - destruct (keq k k'); reflexivity.
    - destruct (keq_spec ltb ST k2 k') as [<-|_]; [|reflexivity].
      destruct (keq_spec ltb ST k k2) as [->|_]; [contradiction | reflexivity].
  Qed.

  Lemma lm_insert_get k v l k' :
    al_get ltb k' (lm_insert ltb k v l) = if keq k k' then Some v else al_get ltb k' l.
  Proof.
    unfold lm_insert. rewrite al_get_app, lm_remove_get. cbn [al_get].
    destruct (keq k k'); [reflexivity|]. destruct (al_get ltb k' l); reflexivity.
  Qed.

  Lemma lm_insert_keys_In k v l k' : In k' (map fst (lm_insert ltb k v l)) <-> k' = k \/ In k' (map fst l).
  Proof.
    unfold lm_insert. rewrite map_app, in_app_iff, lm_remove_keys, filter_In. cbn [map fst In].
    destruct (keq_spec ltb ST k' k) as [->|Hne]; cbn; intuition congruence.
  Qed.

  Lemma lm_insert_In k v l p : In p (lm_insert ltb k v l) -> p = (k, v) \/ In p l.
  Proof.
    unfold lm_insert, lm_remove. rewrite in_app_iff, filter_In. cbn [In].
    intros [[H _]|[H|[]]]; [right; exact H | left; symmetry; exact H].
  Qed.

  Lemma lm_insert_nodup k v l : NoDup (map fst l) -> NoDup (map fst (lm_insert ltb k v l)).
  Proof.
    intros ND. unfold lm_insert. rewrite map_app, lm_remove_keys. cbn [map fst].
    eapply Permutation_NoDup; [apply Permutation_cons_append|].
    constructor; [|apply NoDup_filter, ND].
    rewrite filter_In. intros [_ H]. rewrite (eqb_of_refl _ ST) in H. discriminate.
  Qed.
End Maps.

(* The keyed list st represents the finite map m: its keys satisfy inv (NoDup for an insertion-ordered
   map, sortedk for a key-sorted one) and lookup in st is m.  Each insertion of the model updates m at one key. *)
Definition refines {K V} (ltb : K -> K -> bool) (inv : list K -> Prop) (st : list (K * V)) (m : K -> option V) : Prop :=
  inv (map fst st) /\ forall k, al_get ltb k st = m k.

Section Refines.
  Context {K V : Type} {ltb : K -> K -> bool} (ST : strict_total ltb).
  Local Notation keq := (eqb_of ltb).
  Local Notation refines := (refines ltb).
  Implicit Types (st : list (K * V)) (m : K -> option V).

  Lemma refines_ext {inv st m m'} : (forall k, m k = m' k) -> refines inv st m -> refines inv st m'.
  Proof. intros E [I G]. split; [exact I|]. intros k. rewrite G. apply E. Qed.

  Lemma refines_nodup {st m} : refines (sortedk ltb) st m -> refines (@NoDup K) st m.
  Proof. intros [S G]. split; [apply (sortedk_nodup ltb ST), S | exact G]. Qed.

  Lemma refines_lm_insert k v {st m} :
    refines (@NoDup K) st m -> refines (@NoDup K) (lm_insert ltb k v st) (fun k' => if keq k k' then Some v else m k').
  Proof.
    intros [ND G]. split; [apply (lm_insert_nodup ltb ST), ND|].
    intros k'. rewrite (lm_insert_get ltb ST), G. reflexivity.
  Qed.

  Lemma refines_sm_insert k v {st m} :
    refines (sortedk ltb) st m -> refines (sortedk ltb) (sm_insert ltb k v st) (fun k' => if keq k k' then Some v else m k').
  Proof.
    intros [S G]. split; [apply (sm_insert_keys_sorted ltb ST), S|].
    intros k'. rewrite (sm_insert_get ltb ST), G. reflexivity.
  Qed.

  Lemma refines_sm_or_insert k v {st m} :
    refines (sortedk ltb) st m ->
    refines (sortedk ltb) (sm_or_insert ltb k v st)
            (match m k with Some _ => m | None => fun k' => if keq k k' then Some v else m k' end).
  Proof.
    intros R. unfold sm_or_insert. rewrite (proj2 R k).
    destruct (m k); [exact R | apply refines_sm_insert, R].
  Qed.

  Lemma refines_sm_sort {st m} : refines (@NoDup K) st m -> refines (sortedk ltb) (sm_sort ltb st) m.
  Proof.
    intros [_ G]. split; [rewrite (sm_sort_keys ltb ST); apply sset_sort_sorted, ST|].
    intros k. rewrite (sm_sort_get ltb ST). apply G.
  Qed.

  Lemma refines_keys {inv st m} k : refines inv st m -> (In k (map fst st) <-> m k <> None).
  Proof.
    intros [_ G]. rewrite <- G. split.
    - intros H E. apply (al_get_none ltb ST) in E. contradiction.
    - intros H. destruct (al_get ltb k st) eqn:E; [eapply al_get_some_key, E; exact ST | congruence].
  Qed.

  Lemma refines_In {st m} k v : refines (@NoDup K) st m -> (In (k, v) st <-> m k = Some v).
  Proof.
    intros [ND G]. rewrite <- G. split; [apply (al_get_nodup ltb ST), ND | apply (al_get_In ltb ST)].
  Qed.
End Refines.

Lemma refines_map_values {K V W} {ltb : K -> K -> bool} (g : V -> W) {inv} {st : list (K * V)} {m} :
  refines ltb inv st m -> refines ltb inv (map (fun e => (fst e, g (snd e))) st) (fun k => option_map g (m k)).
Proof.
  intros [I G]. split; [rewrite map_map; exact I|].
  intros k. rewrite <- G. clear. induction st as [|[k' v] t IH]; [reflexivity|].
  cbn [map al_get fst snd]. destruct (eqb_of ltb k' k); [reflexivity | exact IH].
Qed.
