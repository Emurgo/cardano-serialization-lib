(* C10 proofs: every redeemer of a built transaction designates, under the ledger's pointer rules,
   the item the caller attached it to; for ALL call sequences (any items, any insertion order,
   repeated calls included). *)
From CSL Require Import Base.Prelude Base.Facts Base.BytesOrd Pointers.Pointers Pointers.PointersSpec Pointers.MapsProofs.
From Coq Require Import Sorting.Sorted Permutation.
Local Open Scope N_scope.

#[local] Hint Resolve lex_strict_total opt_strict_total N_strict_total bytes_strict_total : orders.
Lemma key3_st : strict_total key3_ltb.
Proof. unfold key3_ltb. auto with orders. Qed.
Lemma outpoint_st : strict_total outpoint_ltb.
Proof. apply lex_strict_total; auto with orders. Qed.

Lemma flag_inj (a b : bool) (x y : N) : x <> y -> (if a then x else y) = (if b then x else y) -> a = b.
Proof. destruct a, b; congruence. Qed.

(* the key of a credential: (script flag, hash), whichever of the two flag values comes first *)
Lemma cred_key_inj (x y : N) : x <> y ->
  forall c c', ((if cr_script c then x else y), cr_hash c) = ((if cr_script c' then x else y), cr_hash c') -> c = c'.
Proof.
  intros Hxy [s h] [s' h'] H. cbn [cr_script cr_hash] in H. injection H as Hs ->.
  apply (flag_inj _ _ _ _ Hxy) in Hs as ->. reflexivity.
Qed.

Lemma racct_code_st : strict_total racct_code_ltb.
Proof.
  apply on_strict_total; [|apply key3_st].
  intros [n c] [n' c'] H. injection H as -> H. f_equal. apply (cred_key_inj 0 1); [discriminate | f_equal; assumption].
Qed.

Lemma racct_code_ledger : racct_code_ltb = racct_ledger_ltb.
Proof. reflexivity. Qed.
Lemma racct_ledger_st : strict_total racct_ledger_ltb.
Proof. exact racct_code_st. Qed.
Lemma outpoint_code_ledger : outpoint_ltb = outpoint_ledger_ltb.
Proof. reflexivity. Qed.

(* the three voter keys: (constructor index, credential key), a stake pool having the flag value s *)
Section VoterKeys.
  Variables (ck : cred -> N * bytes) (s : N).
  Hypothesis ck_inj : forall c c', ck c = ck c' -> c = c'.
  Let key (v : voter) : N * (N * bytes) :=
    match v with VCC c => (0, ck c) | VDRep c => (1, ck c) | VSPO h => (2, (s, h)) end.
  Lemma voter_key_st : strict_total (on_ltb key key3_ltb).
  Proof.
    apply on_strict_total; [|apply key3_st].
    intros [c|c|h] [c'|c'|h'] H; try discriminate H; injection H as H; f_equal; auto.
  Qed.
End VoterKeys.

Lemma voter_rust_st : strict_total voter_rust_ltb.
Proof. apply (voter_key_st cred_rust_key 0), (cred_key_inj 1 0). discriminate. Qed.
Lemma voter_code_st : strict_total voter_code_ltb.
Proof. apply (voter_key_st cred_ledger_key 1), (cred_key_inj 0 1). discriminate. Qed.
Lemma voter_ledger_st : strict_total voter_ledger_ltb.
Proof. apply (voter_key_st cred_ledger_key 0), (cred_key_inj 0 1). discriminate. Qed.

(* VotingBuilder::ledger_order_key orders voters exactly as the ledger does: the keys differ only in the
   flag of a stake pool, which is compared with another stake pool's only *)
Lemma voter_code_ledger v1 v2 : voter_code_ltb v1 v2 = voter_ledger_ltb v1 v2.
Proof. destruct v1, v2; reflexivity. Qed.

Lemma cert_st : strict_total cert_ltb.
Proof.
  apply on_strict_total; [|auto with orders].
  intros [k s i] [k' s' i'] H. injection H as -> Hs ->. apply flag_inj in Hs as ->; [reflexivity | discriminate].
Qed.
Lemma prop_st : strict_total prop_rust_ltb.
Proof.
  apply on_strict_total; [|auto with orders].
  intros [k p i] [k' p' i'] H. injection H as -> -> ->. reflexivity.
Qed.

(* used where the builder's key order and the ledger's differ (voters) *)
Lemma eqb_of_indep {A} (l1 l2 : A -> A -> bool) : strict_total l1 -> strict_total l2 -> forall x y, eqb_of l1 x y = eqb_of l2 x y.
Proof.
  intros S1 S2 x y. destruct (keq_spec l2 S2 x y) as [->|Hne]; [apply eqb_of_refl, S1 | apply (eqb_of_false l1 S1), Hne].
Qed.

(* Certificate::has_required_script_witness is the ledger's table: the kinds are compared bit by bit, 18 has five bits *)
Lemma cert_locked_code_ledger c : cert_has_required_script_witness c = ledger_cert_script_locked c.
Proof.
  destruct c as [[|p] s i]; [reflexivity|].
  do 5 (destruct p as [p|p|]; try reflexivity).
Qed.

(* a component of a folded state is the fold of the component *)
Lemma fold_left_component {S O C P} (get : S -> C) (step : S -> O -> S) (cstep : C -> P -> C) (sel : O -> list P) :
  (forall st o, get (step st o) = fold_left cstep (sel o) (get st)) ->
  forall ops st, get (fold_left step ops st) = fold_left cstep (flat_map sel ops) (get st).
Proof.
  intros H ops. induction ops as [|o ops IH]; intros st; cbn [fold_left flat_map]; [reflexivity|].
  rewrite IH, H, fold_left_app. reflexivity.
Qed.

(* a call without its success flag, and a sub-builder call whose error leaves the sub-builder as it was *)
Definition step_st (st : txb) (o : op) : txb := fst (step st o).
Definition apply_res {A} (r : result A) (old : A) : A := match r with Ok a => a | _ => old end.
Definition mint_apply (st : mbuilder) (o : mint_op) : mbuilder := apply_res (mint_step st o) st.
Definition cert_apply (st : cbuilder) (o : wop cert) : cbuilder := apply_res (cert_step st o) st.
Definition wd_apply (st : wbuilder) (o : wop racct) : wbuilder := apply_res (wd_step st o) st.
Definition vote_apply (st : vbuilder) (o : wop voter) : vbuilder := apply_res (vote_step st o) st.
Definition prop_apply (st : pbuilder) (o : wop proposal) : pbuilder := apply_res (prop_step st o) st.

Lemma run_state ops : fst (run ops) = fold_left step_st ops txb_empty.
Proof.
  unfold run, run_from. change txb_empty with (fst (txb_empty, @nil bool)) at 2.
  generalize (txb_empty, @nil bool). induction ops as [|o ops IH]; intros acc; cbn [fold_left]; [reflexivity|].
  rewrite IH. unfold step_st. destruct (step (fst acc) o); reflexivity.
Qed.

Lemma txb_eta s : s = mkTxb (t_inputs s) (t_collateral s) (t_mint s) (t_certs s) (t_wdrl s) (t_votes s) (t_props s) (t_mint_amt s) (t_hash s).
Proof. destruct s; reflexivity. Qed.

(* each sub-builder has seen its own calls, in order, and nothing else *)
Lemma run_components {ops st flags} : run ops = (st, flags) ->
  exists amt hash,
    st = mkTxb (fold_left ib_step (ops_in ops) ib_empty) (fold_left ib_step (ops_col ops) ib_empty)
               (fold_left mint_apply (ops_mint ops) []) (fold_left cert_apply (ops_cert ops) [])
               (fold_left wd_apply (ops_wd ops) []) (fold_left vote_apply (ops_vote ops) [])
               (fold_left prop_apply (ops_prop ops) []) amt hash.
Proof.
  intros H. assert (st = fst (run ops)) as -> by (rewrite H; reflexivity). rewrite run_state.
  eexists. eexists. rewrite (txb_eta (fold_left step_st ops txb_empty)) at 1.
  (* each call changes one component, by the sub-builder's step or not at all *)
  f_equal; refine (fold_left_component _ step_st _ _ _ _ _); intros s o;
    unfold step_st, step, utxo_calls, mint_apply, cert_apply, wd_apply, vote_apply, prop_apply, apply_res;
    destruct o as [| | | | | | |c e a h x r|]; try reflexivity.
  all: try (destruct (utxo_effect e a h x r), c; reflexivity).
  all: cbn [fold_left]; match goal with |- context [match ?r with Ok _ => _ | Err => _ | Panic => _ | OutOfFuel => _ end] => destruct r end; reflexivity.
Qed.

(* the "asked for" maps.  final_last and final_first are folds of a step that changes the map at the key of an
   accepted call only, and gives an accepted call for a fresh key its value; what follows needs no more *)
Definition final_step_ok {O K V} (okey : O -> K) (oval : O -> V) (accept : O -> bool)
           (fstep : (K -> option V) -> O -> K -> option V) : Prop :=
  (forall m o k, fstep m o k = m k \/ accept o = true /\ okey o = k /\ fstep m o k = Some (oval o)) /\
  (forall m o, accept o = true -> m (okey o) = None -> fstep m o (okey o) = Some (oval o)).

Section FinalFacts.
  Context {O K V : Type} {okey : O -> K} {oval : O -> V} {accept : O -> bool}
          {fstep : (K -> option V) -> O -> K -> option V} (fstep_ok : final_step_ok okey oval accept fstep).
  Let final ops := fold_left fstep ops (fun _ => None).
  Let final_snoc ops o : final (ops ++ [o]) = fstep (final ops) o.
  Proof. apply fold_left_app. Qed.

  (* a value of the map always comes from an accepted call for that item *)
  Lemma final_origin ops : forall k v, final ops k = Some v ->
    exists o, In o ops /\ accept o = true /\ okey o = k /\ oval o = v.
  Proof.
    apply (fold_left_inv (fun m => forall k v, m k = Some v -> exists o, In o ops /\ accept o = true /\ okey o = k /\ oval o = v)).
    - intros m o Hin IH k v. destruct (proj1 fstep_ok m o k) as [->|(A & E & ->)]; [apply IH|].
      intros H. injection H as <-. exists o. auto.
    - discriminate.
  Qed.

  Lemma final_support ops k : final ops k <> None -> In k (map okey ops).
  Proof.
    destruct (final ops k) eqn:F; [|congruence]. intros _.
    apply final_origin in F as (o & Hin & _ & <- & _). apply in_map, Hin.
  Qed.

  (* when every item is mentioned by one call only, the map is: item -> value of its (accepted) call *)
  Lemma final_distinct ops : NoDup (map okey ops) -> forall k v,
    final ops k = Some v <-> exists o, In o ops /\ accept o = true /\ okey o = k /\ oval o = v.
  Proof.
    intros ND k v. split; [apply final_origin|].
    revert k v. induction ops as [|o ops IH] using rev_ind; intros k v (o' & Hin & A & Ek & Ev); [contradiction|].
    rewrite map_app in ND. cbn [map] in ND. apply NoDup_remove in ND as [ND Hnot]. rewrite app_nil_r in ND, Hnot.
    rewrite final_snoc. apply in_app_iff in Hin as [Hin|[<-|[]]].
    - destruct (proj1 fstep_ok (final ops) o k) as [->|(_ & E & _)]; [apply (IH ND); exists o'; auto|].
      exfalso. apply Hnot. rewrite E, <- Ek. apply in_map, Hin.
    - subst. apply (proj2 fstep_ok); [exact A|].
      destruct (final ops (okey o)) eqn:F; [|reflexivity]. exfalso. apply Hnot, final_support. congruence.
  Qed.

  Lemma final_perm ops ops' : NoDup (map okey ops) -> Permutation ops ops' -> forall k, final ops k = final ops' k.
  Proof.
    intros ND P k.
    assert (ND' : NoDup (map okey ops')) by (eapply Permutation_NoDup; [apply Permutation_map, P | exact ND]).
    assert (X : forall v, final ops k = Some v <-> final ops' k = Some v).
    { intros v. rewrite (final_distinct ops ND), (final_distinct ops' ND').
      split; intros (o & Hin & R); exists o; (split; [|exact R]); [rewrite <- P | rewrite P]; exact Hin. }
    destruct (final ops k) as [v|]; [symmetry; apply X; reflexivity|].
    destruct (final ops' k) as [v'|]; [apply X; reflexivity | reflexivity].
  Qed.
End FinalFacts.

Section FinalSteps.
  Context {O K V : Type} {ltb : K -> K -> bool} (ST : strict_total ltb) {okey : O -> K} {oval : O -> V} {accept : O -> bool}.
  Lemma final_last_ok :
    final_step_ok okey oval accept (fun m o => if accept o then upd (eqb_of ltb) m (okey o) (oval o) else m).
  Proof.
    split; intros m o; destruct (accept o) eqn:A; try discriminate; auto; unfold upd.
    - intros k. destruct (keq_spec ltb ST (okey o) k); auto.
    - rewrite (eqb_of_refl _ ST). reflexivity.
  Qed.
  Lemma final_first_ok :
    final_step_ok okey oval accept
      (fun m o => if accept o then match m (okey o) with Some _ => m | None => upd (eqb_of ltb) m (okey o) (oval o) end else m).
  Proof.
    split; intros m o; destruct (accept o) eqn:A; try discriminate; auto; unfold upd.
    - intros k. destruct (m (okey o)); [auto|]. destruct (keq_spec ltb ST (okey o) k); auto.
    - intros _ ->. rewrite (eqb_of_refl _ ST). reflexivity.
  Qed.
End FinalSteps.

Lemma redeemer_eta r : r = mkR (r_tag r) (r_index r) (r_data r).
Proof. destruct r; reflexivity. Qed.

Lemma not_none_iff {A} (x : option A) : x <> None <-> exists a, x = Some a.
Proof. destruct x; split; try congruence; [eauto | intros [a H]; discriminate]. Qed.

Lemma in_enum_from {A} (l : list A) : forall s i a,
  In (i, a) (enum_from s l) <-> exists n, nth_error l n = Some a /\ i = s + N.of_nat n.
Proof.
  induction l as [|x t IH]; intros s i a; cbn [enum_from In].
  - split; [contradiction | intros ([|n] & H & _); discriminate].
  - rewrite IH. split.
    + intros [E|(n & H & ->)]; [injection E as <- <-; exists 0%nat | exists (S n)]; split; try assumption; try reflexivity; lia.
    + intros ([|n] & H & ->); [left; injection H as ->; f_equal; lia | right; exists n; split; [exact H | lia]].
Qed.

Section Entries.
  Context {K : Type} {ltb : K -> K -> bool} (ST : strict_total ltb) (T : tag).
  Implicit Types (st : list (K * option wit)) (m : K -> option (option wit)).

  (* the entries of a builder that represents m, numbered from 0: the body field, and one redeemer per
     Plutus-witnessed entry at the entry's position *)
  Lemma entries_spec {st m} : refines ltb (@NoDup K) st m ->
    spec_field m (map fst st) /\
    spec_pointers T m (fun k => index_of ltb k (map fst st)) (flat_map (wentry_redeemer T) (enum_from 0 st)).
  Proof.
    intros R. split; [intros k; apply (refines_keys ST _ R)|]. destruct R as [ND G].
    intros r Ht. rewrite in_flat_map. split.
    - intros ([i [k w]] & Hin & Hr). apply in_enum_from in Hin as (n & Hn & ->).
      apply (keyed_nth_error ltb ST _ _ _ _ ND) in Hn as [Hg Hi].
      unfold wentry_redeemer in Hr. cbn [fst snd] in Hr. destruct w as [[|rid]|]; try contradiction. destruct Hr as [<-|[]].
      exists k, rid. rewrite <- G. auto.
    - intros (k & rid & Hf & Hi & <-). exists (r_index r, (k, Some (WPlutus (r_data r)))). split.
      + apply in_enum_from. exists (N.to_nat (r_index r)). split; [|lia].
        apply (keyed_nth_error ltb ST _ _ _ _ ND). rewrite N2Nat.id, G. auto.
      + left. rewrite <- Ht. symmetry. apply redeemer_eta.
  Qed.

  (* when the keys are sorted, the position is the ledger's index in the sorted set *)
  Lemma sorted_entries_spec {st m} : refines ltb (sortedk ltb) st m ->
    spec_field m (map fst st) /\
    spec_pointers T m (fun k => ledger_set_index ltb k (map fst st)) (flat_map (wentry_redeemer T) (enum_from 0 st)).
  Proof.
    intros R. unfold ledger_set_index. rewrite (sset_sort_of_sorted ltb ST _ (proj1 R)).
    apply entries_spec, (refines_nodup ST), R.
  Qed.
End Entries.

Lemma wop_locked {K} (locked : K -> bool) fstep (ops : list (wop K)) :
  final_step_ok wop_key wop_wit (fun o => Bool.eqb (locked (wop_key o)) (wop_wants_script o)) fstep ->
  spec_locked (fold_left fstep ops (fun _ => None)) locked.
Proof.
  intros OK k rid H. apply (final_origin OK) in H as (o & _ & A & <- & W).
  apply eqb_prop in A. rewrite A. destruct o; [discriminate W | reflexivity..].
Qed.

Lemma wd_refine ops : refines racct_code_ltb (@NoDup racct) (fold_left wd_apply ops []) (wd_final ops).
Proof.
  unfold wd_final, final_last. apply fold_left_sim; [|split; [constructor | reflexivity]].
  intros st m o R. unfold wd_apply, wd_step. fold (wd_accept o).
  destruct (wd_accept o); cbn [negb apply_res]; [apply (refines_lm_insert racct_code_st), R | exact R].
Qed.

Lemma wd_pointers ops : let st := fold_left wd_apply ops [] in
  spec_field (wd_final ops) (wd_body st) /\
  spec_pointers TReward (wd_final ops) (fun k => ledger_set_index racct_ledger_ltb k (wd_body st)) (wd_plutus st).
Proof. apply (sorted_entries_spec racct_code_st), (refines_sm_sort racct_code_st), wd_refine. Qed.

Lemma wd_locked ops : spec_locked (wd_final ops) (fun a => cr_script (ra_cred a)).
Proof. apply wop_locked, (final_last_ok racct_ledger_st). Qed.

Lemma cert_refine ops : refines cert_ltb (@NoDup cert) (fold_left cert_apply ops []) (cert_final ops).
Proof.
  unfold cert_final, final_first. apply fold_left_sim; [|split; [constructor | reflexivity]].
  intros st m o R. unfold cert_apply, cert_step, al_mem. rewrite cert_locked_code_ledger, (proj2 R). fold (cert_accept o).
  destruct (cert_accept o); cbn [negb apply_res]; [|exact R].
  destruct (m (wop_key o)); cbn [apply_res]; [exact R | apply (refines_lm_insert cert_st), R].
Qed.

Lemma cert_pointers ops : let st := fold_left cert_apply ops [] in
  spec_field (cert_final ops) (cert_body st) /\
  spec_pointers TCert (cert_final ops) (fun k => ledger_seq_index cert_ltb k (cert_body st)) (cert_plutus st).
Proof. apply (entries_spec cert_st), cert_refine. Qed.

Lemma cert_locked ops : spec_locked (cert_final ops) ledger_cert_script_locked.
Proof. apply wop_locked, (final_first_ok cert_st). Qed.

Lemma prop_refine ops : refines prop_rust_ltb (sortedk prop_rust_ltb) (fold_left prop_apply ops []) (prop_final ops).
Proof.
  unfold prop_final, final_last. apply fold_left_sim; [|split; [constructor | reflexivity]].
  intros st m o R. pose proof (fun w => refines_sm_insert prop_st (wop_key o) w R) as Hins.
  unfold prop_apply, prop_step. destruct o as [p|p|p rid]; cbn [prop_accept wop_key wop_wit apply_res] in *.
  - destruct (prop_has_script_hash p); cbn [negb apply_res]; [exact R | apply Hins].
  - exact R.
  - apply Hins.
Qed.

Lemma prop_pointers ops : let st := fold_left prop_apply ops [] in
  spec_field (prop_final ops) (prop_body st) /\
  spec_pointers TPropose (prop_final ops) (fun k => ledger_seq_index prop_rust_ltb k (prop_body st)) (prop_plutus st).
Proof. apply (entries_spec prop_st), (refines_nodup prop_st), prop_refine. Qed.

Lemma vote_refine ops : refines voter_rust_ltb (sortedk voter_rust_ltb) (fold_left vote_apply ops []) (vote_final ops).
Proof.
  unfold vote_final, final_first. apply fold_left_sim; [|split; [constructor | reflexivity]].
  intros st m o R. unfold vote_apply, vote_step. fold (vote_accept o).
  destruct (vote_accept o); cbn [negb apply_res]; [|exact R].
  eapply refines_ext; [|apply (refines_sm_or_insert voter_rust_st), R].
  intros k. cbv beta. destruct (m (wop_key o)); [reflexivity|].
  unfold upd. rewrite (eqb_of_indep _ _ voter_rust_st voter_ledger_st). reflexivity.
Qed.

(* the index of a vote redeemer is the voter's rank among the voters, which is its index in the sorted voter set *)
Lemma vote_entries_spec {st m} : refines voter_rust_ltb (sortedk voter_rust_ltb) st m ->
  spec_field m (vote_body st) /\
  spec_pointers TVote m (fun k => ledger_set_index voter_ledger_ltb k (vote_body st)) (vote_plutus st).
Proof.
  intros R. apply (refines_nodup voter_rust_st) in R. split; [intros k; apply (refines_keys voter_rust_st _ R)|].
  assert (Hix : forall v w, In (v, w) st ->
            ledger_set_index voter_ledger_ltb v (vote_body st) = Some (rank voter_code_ltb v (map fst st))).
  { intros v w Hin. apply (in_map fst) in Hin. cbn [fst] in Hin.
    unfold ledger_set_index, vote_body. rewrite (sorted_index_rank _ voter_ledger_st _ _ (proj1 R) Hin).
    unfold rank. do 3 f_equal. apply filter_ext. intros y. symmetry. apply voter_code_ledger. }
  intros r Ht. unfold vote_plutus. rewrite in_flat_map. split.
  - intros ([v w] & Hin & Hr). unfold vote_entry_redeemer in Hr. cbn [fst snd] in Hr.
    destruct w as [[|rid]|]; cbn [plutus_rid] in Hr; try contradiction. destruct Hr as [<-|[]].
    exists v, rid. split; [apply (refines_In voter_rust_st _ _ R), Hin|]. split; [apply (Hix _ _ Hin) | reflexivity].
  - intros (v & rid & Hf & Hi & <-). apply (refines_In voter_rust_st _ _ R) in Hf.
    exists (v, Some (WPlutus (r_data r))). split; [exact Hf|]. unfold vote_entry_redeemer. cbn [fst snd plutus_rid]. left.
    rewrite (Hix _ _ Hf) in Hi. injection Hi as ->. rewrite <- Ht. symmetry. apply redeemer_eta.
Qed.

Lemma vote_pointers ops : let st := fold_left vote_apply ops [] in
  spec_field (vote_final ops) (vote_body st) /\
  spec_pointers TVote (vote_final ops) (fun k => ledger_set_index voter_ledger_ltb k (vote_body st)) (vote_plutus st).
Proof. apply vote_entries_spec, vote_refine. Qed.

Lemma vote_locked ops : spec_locked (vote_final ops) voter_has_script.
Proof. apply wop_locked, (final_first_ok voter_ledger_st). Qed.

(* the conversion inside mint_wits (PointersSpec.v), named so that refines_map_values applies *)
Definition mint_conv_wit (w : mint_wit) : option wit :=
  match w with MNative _ => Some WNative | MPlutus _ r => Some (WPlutus r) end.
Definition mint_conv (st : mbuilder) : list (bytes * option wit) := map (fun e => (fst e, mint_conv_wit (snd e))) st.

Lemma mint_plutus_conv st : forall s,
  flat_map mint_entry_redeemer (enum_from s st) = flat_map (wentry_redeemer TMint) (enum_from s (mint_conv st)).
Proof.
  induction st as [|[p w] t IH]; intros s; [reflexivity|].
  cbn [enum_from mint_conv map flat_map]. fold (mint_conv t). rewrite IH. f_equal.
  unfold mint_entry_redeemer, wentry_redeemer. cbn [fst snd]. destruct w; reflexivity.
Qed.

Lemma mint_refine ops : refines bytes_ltb (sortedk bytes_ltb) (fold_left mint_apply ops []) (mint_final ops).
Proof.
  unfold mint_final, final_first. apply fold_left_sim; [|split; [constructor | reflexivity]].
  intros st m o R. unfold mint_apply, mint_step. destruct (mo_zero o); cbn [negb apply_res]; [exact R|].
  rewrite (proj2 R). destruct (m (mo_policy o)) as [cur|]; [destruct (mint_compatible cur (mo_wit o)); exact R|].
  apply (refines_sm_insert bytes_strict_total), R.
Qed.

Lemma mint_pointers ops : let st := fold_left mint_apply ops [] in
  spec_field (mint_wits (mint_final ops)) (mint_body st) /\
  spec_pointers TMint (mint_wits (mint_final ops)) (fun k => ledger_set_index policy_ledger_ltb k (mint_body st)) (mint_plutus st).
Proof.
  pose proof (sorted_entries_spec bytes_strict_total TMint (refines_map_values mint_conv_wit (mint_refine ops))) as H.
  rewrite map_map in H. cbv zeta. unfold mint_plutus. rewrite mint_plutus_conv. exact H.
Qed.

(* the witness registered for input o under script hash h *)
Definition wit2 (st : ibuilder) (h : bytes) (o : outpoint) : option (option wit) :=
  match al_get bytes_ltb h (ib_scripts st) with Some inner => al_get outpoint_ltb o inner | None => None end.
Definition ib_inv (st : ibuilder) : Prop :=
  sortedk outpoint_ltb (map fst (ib_inputs st)) /\ NoDup (map fst (ib_scripts st)) /\
  (forall h inner, In (h, inner) (ib_scripts st) -> NoDup (map fst inner)).

Lemma ib_set_wit_inv h o w st : ib_inv st -> ib_inv (ib_set_wit h o w st).
Proof.
  intros (S & ND & I). split; [exact S|]. split; cbn [ib_set_wit ib_scripts].
  - apply lm_insert_nodup; [apply bytes_strict_total | exact ND].
  - intros h' inner' Hin. apply lm_insert_In in Hin as [E|Hin]; [|eapply I, Hin].
    injection E as -> ->. apply lm_insert_nodup; [apply outpoint_st|].
    destruct (al_get bytes_ltb h (ib_scripts st)) as [m|] eqn:E; [|constructor].
    eapply I, al_get_In, E. apply bytes_strict_total.
Qed.
Lemma wit2_set_wit h o w st h' o' :
  wit2 (ib_set_wit h o w st) h' o' =
  if eqb_of bytes_ltb h h' && eqb_of outpoint_ltb o o' then Some w else wit2 st h' o'.
Proof.
  unfold wit2, ib_set_wit. cbn [ib_scripts]. rewrite (lm_insert_get bytes_ltb bytes_strict_total).
  destruct (keq_spec _ bytes_strict_total h h') as [<-|_]; cbn [andb]; [|reflexivity].
  rewrite (lm_insert_get outpoint_ltb outpoint_st).
  destruct (eqb_of outpoint_ltb o o'); [reflexivity|]. destruct (al_get bytes_ltb h (ib_scripts st)); reflexivity.
Qed.

(* one call: the input is (re)inserted with the script hash of the call; a script call registers its witness *)
Lemma ib_step_inputs st op :
  ib_inputs (ib_step st op) = sm_insert outpoint_ltb (in_op_key op) (option_map fst (in_op_val op)) (ib_inputs st).
Proof. destruct op; reflexivity. Qed.
Lemma ib_step_wit2 st op h' o' :
  wit2 (ib_step st op) h' o' =
  match in_op_val op with
  | Some (h, w) => if eqb_of bytes_ltb h h' && eqb_of outpoint_ltb (in_op_key op) o' then Some (Some w) else wit2 st h' o'
  | None => wit2 st h' o'
  end.
Proof.
  destruct op; cbn [ib_step in_op_val in_op_key]; unfold ib_add_script; rewrite ?wit2_set_wit;
    [reflexivity | destruct (_ && _); reflexivity..].
Qed.
Lemma ib_step_inv st op : ib_inv st -> ib_inv (ib_step st op).
Proof.
  intros I. assert (P : forall o hh, ib_inv (ib_push o hh st)).
  { intros o hh. destruct I as (S & I). split; [|exact I]. apply (sm_insert_keys_sorted _ outpoint_st), S. }
  destruct op; cbn [ib_step]; unfold ib_add_script; auto using ib_set_wit_inv.
Qed.

(* the input builder represents m: the inputs map holds each input's script hash, and the witness asked for
   is registered under that hash (witnesses left under other hashes by earlier calls are not described) *)
Definition ib_refines (st : ibuilder) (m : outpoint -> option (option (bytes * wit))) : Prop :=
  ib_inv st /\
  (forall o, al_get outpoint_ltb o (ib_inputs st) = option_map (option_map fst) (m o)) /\
  (forall o h w, m o = Some (Some (h, w)) -> wit2 st h o = Some (Some w)).

Lemma spend_refine ops : ib_refines (fold_left ib_step ops ib_empty) (spend_final ops).
Proof.
  unfold spend_final, final_last. apply fold_left_sim.
  - intros st m op (I & B & D). split; [apply ib_step_inv, I|]. unfold upd. split.
    + intros o. rewrite ib_step_inputs, (sm_insert_get _ outpoint_st), B.
      destruct (eqb_of outpoint_ltb (in_op_key op) o); reflexivity.
    + intros o h w. rewrite ib_step_wit2. destruct (keq_spec _ outpoint_st (in_op_key op) o) as [_|_]; intros H.
      * injection H as ->. rewrite (eqb_of_refl _ bytes_strict_total). reflexivity.
      * rewrite (D _ _ _ H). destruct (in_op_val op) as [[? ?]|]; [rewrite andb_false_r|]; reflexivity.
  - split; [split; [constructor | split; [constructor | intros ? ? []]]|]. split; [reflexivity | discriminate].
Qed.

(* ib_index_map keeps, for an input with a script hash, the hash and the input's position among all inputs *)
Lemma ib_index_map_get l : forall s o, NoDup (map fst l) ->
  al_get outpoint_ltb o (ib_index_map s l) =
  match al_get outpoint_ltb o l with
  | Some (Some h) => option_map (fun i => (h, s + i)) (index_of outpoint_ltb o (map fst l))
  | _ => None
  end.
Proof.
  induction l as [|[o' x] t IH]; intros s o ND; [reflexivity|].
  apply NoDup_cons_iff in ND as [Ho' NDt]. specialize (IH (s + 1) o NDt). cbn [map fst index_of al_get].
  assert (Ht : eqb_of outpoint_ltb o' o = false -> al_get outpoint_ltb o (ib_index_map (s + 1) t) =
            match al_get outpoint_ltb o t with
            | Some (Some h) => option_map (fun i => (h, s + i)) (option_map N.succ (index_of outpoint_ltb o (map fst t)))
            | _ => None
            end).
  { intros _. rewrite IH. destruct (al_get outpoint_ltb o t) as [[?|]|]; try reflexivity.
    destruct (index_of outpoint_ltb o (map fst t)); cbn [option_map]; [do 2 f_equal; lia | reflexivity]. }
  destruct x as [h|]; cbn [ib_index_map al_get]; destruct (keq_spec _ outpoint_st o' o) as [->|_]; auto.
  - cbn [option_map]. do 2 f_equal. lia.
  - rewrite IH, (proj2 (al_get_none _ outpoint_st o t) Ho'). reflexivity.
Qed.

Lemma ib_plutus_tag st r : In r (ib_plutus st) -> r_tag r = TSpend.
Proof.
  unfold ib_plutus. rewrite in_flat_map. intros (hm & _ & H). rewrite in_flat_map in H. destruct H as (ow & _ & H).
  unfold ib_entry_redeemer in H. destruct (snd ow) as [[|rid]|]; try contradiction.
  destruct (al_get outpoint_ltb (fst ow) _) as [[h' i]|]; [|contradiction].
  destruct (eqb_of bytes_ltb h' (fst hm)); [|contradiction]. destruct H as [<-|[]]. reflexivity.
Qed.

(* with distinct keys at both levels, the two-level lookup finds exactly the entries of the inner maps *)
Lemma wit2_In st : ib_inv st -> forall h o w,
  wit2 st h o = Some w <-> exists inner, In (h, inner) (ib_scripts st) /\ In (o, w) inner.
Proof.
  intros (_ & ND & I) h o w. unfold wit2. split.
  - destruct (al_get bytes_ltb h (ib_scripts st)) as [inner|] eqn:Eh; [|discriminate]. intros Hw. exists inner.
    split; [apply (al_get_In _ bytes_strict_total), Eh | apply (al_get_In _ outpoint_st), Hw].
  - intros (inner & Hh & Ho). rewrite (al_get_nodup _ bytes_strict_total h inner _ ND Hh).
    apply (al_get_nodup _ outpoint_st); [eapply I, Hh | exact Ho].
Qed.

(* an entry (o, w) of the inner map of script hash h yields a redeemer when w is a Plutus witness and h is
   the script hash the inputs map holds for o; the redeemer carries o's position among the inputs *)
Lemma ib_entry_redeemer_In l h o w r : NoDup (map fst l) ->
  In r (ib_entry_redeemer (ib_index_map 0 l) h (o, w)) <->
  r_tag r = TSpend /\ w = Some (WPlutus (r_data r)) /\ al_get outpoint_ltb o l = Some (Some h) /\
  index_of outpoint_ltb o (map fst l) = Some (r_index r).
Proof.
  intros ND. unfold ib_entry_redeemer. cbn [fst snd]. rewrite (ib_index_map_get _ 0 o ND). split.
  - destruct w as [[|rid]|]; try contradiction. destruct (al_get outpoint_ltb o l) as [[hh|]|]; try contradiction.
    destruct (index_of outpoint_ltb o (map fst l)) as [i|]; cbn [option_map]; [|contradiction].
    destruct (keq_spec _ bytes_strict_total hh h) as [->|_]; [|contradiction]. intros [<-|[]]. auto.
  - intros (Ht & -> & -> & ->). cbn [option_map]. rewrite (eqb_of_refl _ bytes_strict_total). left.
    rewrite <- Ht. symmetry. apply redeemer_eta.
Qed.

(* a redeemer is emitted exactly for a Plutus witness registered under the script hash the inputs map holds for the input *)
Lemma ib_plutus_spec st : ib_inv st -> forall r, In r (ib_plutus st) <->
  r_tag r = TSpend /\ exists h o, wit2 st h o = Some (Some (WPlutus (r_data r))) /\
    al_get outpoint_ltb o (ib_inputs st) = Some (Some h) /\
    index_of outpoint_ltb o (map fst (ib_inputs st)) = Some (r_index r).
Proof.
  intros I r. pose proof (sortedk_nodup _ outpoint_st _ (proj1 I)) as S. unfold ib_plutus. rewrite in_flat_map. split.
  - intros ([h inner] & Hh & Hin). apply in_flat_map in Hin as ([o w] & Ho & Hr).
    apply (ib_entry_redeemer_In _ _ _ _ _ S) in Hr as (Ht & -> & Hi & Hx). split; [exact Ht|].
    exists h, o. split; [apply (wit2_In st I); eauto | auto].
  - intros (Ht & h & o & Hw & Hi & Hx). apply (wit2_In st I) in Hw as (inner & Hh & Ho).
    exists (h, inner). split; [exact Hh|]. apply in_flat_map. exists (o, Some (WPlutus (r_data r))). split; [exact Ho|].
    apply (ib_entry_redeemer_In _ _ _ _ _ S). auto.
Qed.

Lemma ib_entries_spec {st m} : ib_refines st m ->
  spec_field (spend_wits m) (ib_body st) /\
  spec_pointers TSpend (spend_wits m) (fun k => ledger_set_index outpoint_ledger_ltb k (ib_body st)) (ib_plutus st).
Proof.
  intros (I & B & D). unfold spend_wits. split.
  - intros o. rewrite (refines_keys outpoint_st o (conj (proj1 I) B)). destruct (m o); cbn; split; congruence.
  - intros r Ht. rewrite (ib_plutus_spec st I), <- outpoint_code_ledger. unfold ledger_set_index, ib_body.
    rewrite (sset_sort_of_sorted _ outpoint_st _ (proj1 I)). split.
    + intros (_ & h & o & Hw & Hi & Hx). exists o, (r_data r). split; [|split; [exact Hx | reflexivity]].
      rewrite B in Hi. destruct (m o) as [[[h' w']|]|] eqn:F; cbn in Hi; try discriminate.
      injection Hi as ->. rewrite (D _ _ _ F) in Hw. injection Hw as ->. reflexivity.
    + intros (o & rid & Hf & Hx & <-). split; [exact Ht|].
      destruct (m o) as [[[h w]|]|] eqn:F; cbn in Hf; try discriminate. injection Hf as ->.
      exists h, o. split; [apply (D _ _ _ F)|]. split; [rewrite B, F; reflexivity | exact Hx].
Qed.

Lemma spend_pointers ops : let st := fold_left ib_step ops ib_empty in
  spec_field (spend_wits (spend_final ops)) (ib_body st) /\
  spec_pointers TSpend (spend_wits (spend_final ops)) (fun k => ledger_set_index outpoint_ledger_ltb k (ib_body st)) (ib_plutus st).
Proof. apply ib_entries_spec, spend_refine. Qed.

Lemma spend_locked_ok ops : spec_locked (spend_wits (spend_final ops)) (spend_locked (spend_wits (spend_final ops))).
Proof. intros o rid H. unfold spend_locked. rewrite H. reflexivity. Qed.

Lemma tag_code_inj a b : tag_code a = tag_code b -> a = b.
Proof. destruct a, b; cbn; intros H; try reflexivity; discriminate. Qed.
Lemma red_eqb_true a b : red_eqb a b = true <-> a = b.
Proof.
  unfold red_eqb. rewrite !andb_true_iff, !N.eqb_eq. split; [|intros ->; auto].
  intros [[Ht Hi] Hd]. apply tag_code_inj in Ht. rewrite (redeemer_eta a), (redeemer_eta b). congruence.
Qed.
Lemma dedup_first_In r l : In r (dedup_first l) <-> In r l.
Proof.
  induction l as [|a t IH]; cbn [dedup_first In]; [tauto|]. rewrite filter_In, IH. split.
  - intros [H|[H _]]; auto.
  - intros [H|H]; [auto|]. destruct (red_eqb a r) eqn:E; [apply red_eqb_true in E; auto | right; split; [exact H | reflexivity]].
Qed.

(* the redeemers emitted for tag T; both input builders emit spend redeemers *)
Definition tag_redeemers (st : txb) (T : tag) : list redeemer :=
  match T with
  | TSpend => ib_plutus (t_inputs st) ++ ib_plutus (t_collateral st)
  | TMint => mint_plutus (t_mint st)
  | TCert => cert_plutus (t_certs st)
  | TReward => wd_plutus (t_wdrl st)
  | TVote => vote_plutus (t_votes st)
  | TPropose => prop_plutus (t_props st)
  end.

Lemma wentries_tag {K} T (l : list (N * (K * option wit))) r : In r (flat_map (wentry_redeemer T) l) -> r_tag r = T.
Proof.
  rewrite in_flat_map. intros (e & _ & H). unfold wentry_redeemer in H.
  destruct (plutus_rid (snd (snd e))); [|contradiction]. destruct H as [<-|[]]. reflexivity.
Qed.
Lemma mint_tag st r : In r (mint_plutus st) -> r_tag r = TMint.
Proof. unfold mint_plutus. rewrite mint_plutus_conv. apply wentries_tag. Qed.
Lemma vote_tag st r : In r (vote_plutus st) -> r_tag r = TVote.
Proof.
  unfold vote_plutus. rewrite in_flat_map. intros (e & _ & H). unfold vote_entry_redeemer in H.
  destruct (plutus_rid (snd e)); [|contradiction]. destruct H as [<-|[]]. reflexivity.
Qed.

Lemma tx_redeemers_tag st r : In r (tx_redeemers st) <-> In r (tag_redeemers st (r_tag r)).
Proof.
  unfold tx_redeemers. rewrite dedup_first_In. unfold all_witness_redeemers. rewrite !in_app_iff. split.
  - intros [H|[H|[H|[H|[H|[H|H]]]]]].
    1,2: rewrite (ib_plutus_tag _ _ H); apply in_app_iff; auto.
    + rewrite (mint_tag _ _ H). exact H.
    + rewrite (wentries_tag _ _ _ H). exact H.
    + rewrite (wentries_tag _ _ _ H). exact H.
    + rewrite (vote_tag _ _ H). exact H.
    + rewrite (wentries_tag _ _ _ H). exact H.
  - destruct (r_tag r); cbn [tag_redeemers]; rewrite ?in_app_iff; tauto.
Qed.

Lemma built_pointers {K} T (final : K -> option (option wit)) ix st :
  spec_pointers T final ix (tag_redeemers st T) -> spec_pointers T final ix (tx_redeemers st).
Proof. intros P r Ht. rewrite tx_redeemers_tag, Ht. apply P, Ht. Qed.

Lemma build_fields {st b} : tx_build st = Ok b ->
  b = mkBuilt (ib_body (t_inputs st)) (ib_body (t_collateral st)) (mint_body (t_mint st)) (cert_body (t_certs st))
              (wd_body (t_wdrl st)) (vote_body (t_votes st)) (prop_body (t_props st)) (tx_redeemers st).
Proof. unfold tx_build. destruct (_ || _); [discriminate|]. intros H. injection H as <-. reflexivity. Qed.

Lemma set_index_total {K} (ltb : K -> K -> bool) (ST : strict_total ltb) field k :
  In k field -> exists i, ledger_set_index ltb k field = Some i.
Proof. intros Hin. apply (index_of_some ltb ST), (sset_sort_In ltb ST), Hin. Qed.

(* K1: some collateral input's LAST registration is add_plutus_script_input *)
Theorem known_collateral_plutus_iff ops :
  known_collateral_plutus ops = true <-> exists o h rid, spend_final (ops_col ops) o = Some (Some (h, WPlutus rid)).
Proof.
  unfold known_collateral_plutus. destruct (run ops) as [st flags] eqn:Hr. destruct (run_components Hr) as (amt & hash & ->).
  cbn [fst t_collateral].
  destruct (spend_pointers (ops_col ops)) as [F P].
  set (stc := fold_left ib_step (ops_col ops) ib_empty) in *.
  transitivity (exists r, In r (ib_plutus stc)).
  { destruct (ib_plutus stc) as [|x t]; split; try discriminate; [intros [r []] | exists x; left |]; reflexivity. }
  unfold spend_wits in P, F. split.
  - intros [r Hin]. apply (P r (ib_plutus_tag _ _ Hin)) in Hin as (o & rid & Hf & _ & _).
    destruct (spend_final (ops_col ops) o) as [[[h w]|]|] eqn:Fo; try discriminate Hf. injection Hf as ->. exists o, h, rid. exact Fo.
  - intros (o & h & rid & Hf).
    destruct (set_index_total outpoint_ledger_ltb outpoint_st (ib_body stc) o) as [i Hi]; [apply F; rewrite Hf; discriminate|].
    exists (mkR TSpend i rid). apply (P (mkR TSpend i rid) eq_refl). exists o, rid. rewrite Hf. auto.
Qed.

(* K2: some proposal without policy hash whose last accepted call is add_with_plutus_witness *)
Theorem known_prop_nonscript_iff ops :
  known_prop_nonscript ops = true <->
  exists p rid, prop_final (ops_prop ops) p = Some (Some (WPlutus rid)) /\ prop_has_script_hash p = false.
Proof.
  unfold known_prop_nonscript. destruct (run ops) as [st flags] eqn:Hr. destruct (run_components Hr) as (amt & hash & ->).
  cbn [fst t_props].
  pose proof (fun p w => refines_In prop_st p w (refines_nodup prop_st (prop_refine (ops_prop ops)))) as RI.
  rewrite existsb_exists. split.
  - intros ([p w] & Hin & H). cbn [fst snd] in H. destruct w as [[|rid]|]; cbn [plutus_rid] in H; try discriminate.
    exists p, rid. split; [apply RI, Hin | apply negb_true_iff, H].
  - intros (p & rid & Hf & Hs). exists (p, Some (WPlutus rid)). split; [apply RI, Hf|]. cbn. rewrite Hs. reflexivity.
Qed.

(* hence a proposal holds a Plutus witness only if it has a policy hash -- outside the known class *)
Lemma prop_locked ops : known_prop_nonscript ops = false -> spec_locked (prop_final (ops_prop ops)) prop_has_script_hash.
Proof.
  intros K2 p rid H. destruct (prop_has_script_hash p) eqn:E; [reflexivity|].
  rewrite (proj2 (known_prop_nonscript_iff ops)) in K2; [discriminate | eauto].
Qed.

(* no two redeemers share a pointer: an index designates one item *)
Lemma pointers_unique {K} {ltb : K -> K -> bool} (ST : strict_total ltb) T {final l R} :
  spec_pointers T final (fun k => index_of ltb k l) R ->
  forall r1 r2, In r1 R -> In r2 R -> r_tag r1 = T -> r_tag r2 = T -> r_index r1 = r_index r2 -> r1 = r2.
Proof.
  intros P r1 r2 H1 H2 T1 T2 E.
  apply (P r1 T1) in H1 as (k1 & d1 & F1 & I1 & D1). apply (P r2 T2) in H2 as (k2 & d2 & F2 & I2 & D2).
  rewrite E in I1. assert (k1 = k2) by (eapply index_of_inj; eassumption). subst k2. rewrite F1 in F2. injection F2 as <-.
  rewrite (redeemer_eta r1), (redeemer_eta r2). congruence.
Qed.

Lemma no_collateral_redeemers {ops st flags} :
  run ops = (st, flags) -> known_collateral_plutus ops = false -> ib_plutus (t_collateral st) = [].
Proof.
  intros Hr. unfold known_collateral_plutus. rewrite Hr. cbn [fst].
  destruct (ib_plutus (t_collateral st)); [reflexivity | discriminate].
Qed.

(* every item is named by one call only *)
Definition distinct_items (ops : list op) : Prop :=
  NoDup (map in_op_key (ops_in ops)) /\ NoDup (map mo_policy (ops_mint ops)) /\ NoDup (map wop_key (ops_cert ops)) /\
  NoDup (map wop_key (ops_wd ops)) /\ NoDup (map wop_key (ops_vote ops)) /\ NoDup (map wop_key (ops_prop ops)).

(* the same items asked for give the same sorted set, hence the same indices and the same redeemers *)
Lemma set_pointers_same {K} {ltb : K -> K -> bool} (ST : strict_total ltb) T {final final' : K -> option (option wit)}
      {field field' R R'} :
  spec_field final field -> spec_pointers T final (fun k => ledger_set_index ltb k field) R ->
  spec_field final' field' -> spec_pointers T final' (fun k => ledger_set_index ltb k field') R' ->
  (forall k, final k = final' k) -> forall r, r_tag r = T -> (In r R <-> In r R').
Proof.
  intros F P F' P' E r Ht. rewrite (P r Ht), (P' r Ht). unfold ledger_set_index.
  assert (sset_sort ltb field = sset_sort ltb field') as ->.
  { apply (sset_sort_same_set ltb ST). intros x. rewrite (F x), (F' x), E. tauto. }
  split; intros (k & rid & Fk & I & D); exists k, rid; repeat split; try assumption; congruence.
Qed.

(* the proposal builder keeps its proposals sorted, so a position in the sequence is an index in the sorted set *)
Lemma sorted_seq_pointers {K} {ltb : K -> K -> bool} (ST : strict_total ltb) {T final field R} : sortedk ltb field ->
  spec_pointers T final (fun k => ledger_seq_index ltb k field) R -> spec_pointers T final (fun k => ledger_set_index ltb k field) R.
Proof. intros S P. unfold ledger_set_index. rewrite (sset_sort_of_sorted ltb ST _ S). exact P. Qed.

Lemma built_proposals_sorted {ops st flags b} : run ops = (st, flags) -> tx_build st = Ok b -> sortedk prop_rust_ltb (b_proposals b).
Proof. intros Hr Hb. destruct (run_components Hr) as (amt & hash & ->). rewrite (build_fields Hb). apply prop_refine. Qed.

(* call sequences inside the known classes, on which the unrestricted statements fail (Props/C10.v) *)
Definition w_o1 : outpoint := ([1], 0).
Definition w_oc : outpoint := ([204], 0).
Definition w_of : outpoint := ([240], 7).
(* a Plutus-witnessed collateral input *)
Definition w_collateral_ops : list op := [OpIn (InPlutus [10] w_o1 1); OpCol (InPlutus [11] w_oc 2)].
(* an info-action proposal (no policy hash) given a Plutus witness *)
Definition w_prop_ops : list op := [OpCol (InKey w_oc); OpIn (InKey w_of); OpProp (WAddPlutus (mkProp 6 None 5) 7)].

(* call sequences on which the code before the repairs (2fef2d7, c263357, ae86092) violates the statement (Props/C10.v) *)
(* the same input under two script hashes *)
Definition w_stale_ops : list op := [OpCol (InKey w_oc); OpIn (InKey w_of); OpIn (InPlutus [10] w_o1 1); OpIn (InPlutus [11] w_o1 2)].
Definition w_a9 : racct := mkRacct 0 (mkCred true [9]).
Definition w_a2 : racct := mkRacct 0 (mkCred true [2]).
Definition w_reward_ops : list (wop racct) := [WAddPlutus w_a9 9; WAddPlutus w_a2 2].

Definition w_vk : voter := VDRep (mkCred false [5]).
Definition w_vs : voter := VDRep (mkCred true [2]).
Definition w_vote_ops : list (wop voter) := [WAdd w_vk; WAddPlutus w_vs 2].

(* with the repairs the reward and vote sequences are fine (instances of wd_pointers / vote_pointers), and the
   redeemers are the expected ones *)
Example reward_repaired_witness :
  wd_plutus (fold_left wd_apply w_reward_ops []) = [mkR TReward 0 2; mkR TReward 1 9] /\
  wd_body (fold_left wd_apply w_reward_ops []) = [w_a2; w_a9].
Proof. split; vm_compute; reflexivity. Qed.
Example vote_repaired_witness :
  vote_plutus (fold_left vote_apply w_vote_ops []) = [mkR TVote 0 2] /\
  vote_body (fold_left vote_apply w_vote_ops []) = [w_vk; w_vs].
Proof. split; vm_compute; reflexivity. Qed.

(* the premises of the main theorem are satisfiable on a transaction that uses every purpose *)
Definition ex_ops : list op :=
  [ OpIn (InPlutus [7] ([3], 1) 101); OpCol (InKey w_oc); OpIn (InKey w_of); OpIn (InNative [8] ([3], 0)); OpIn (InPlutus [7] ([2], 9) 102);
    OpMint (mkMintOp [9] (MPlutus true 103) 0 1%Z false); OpMint (mkMintOp [4] (MNative true) 1 5%Z true); OpMint (mkMintOp [1] (MPlutus false 104) 0 2%Z false);
    OpCert (WAdd (mkCert 0 true 1)); OpCert (WAddPlutus (mkCert 7 true 1) 105); OpCert (WAdd (mkCert 4 false 2)); OpCert (WAddPlutus (mkCert 17 true 3) 106);
    OpWd (WAdd (mkRacct 0 (mkCred false [1]))); OpWd (WAddPlutus w_a9 107); OpWd (WAddPlutus w_a2 108);
    OpVote (WAdd w_vk); OpVote (WAddPlutus w_vs 109); OpVote (WAdd (VSPO [0])); OpVote (WAddPlutus (VCC (mkCred true [9])) 110);
    OpProp (WAdd (mkProp 6 None 1)); OpProp (WAddPlutus (mkProp 2 (Some [5]) 2) 111); OpProp (WAddPlutus (mkProp 0 (Some [6]) 3) 112) ].

Example c10_premises_satisfiable :
  known_collateral_plutus ex_ops = false /\ known_prop_nonscript ex_ops = false /\
  exists st flags b, run ex_ops = (st, flags) /\ tx_build st = Ok b /\
    b_redeemers b = [ mkR TSpend 2 101; mkR TSpend 0 102; mkR TMint 0 104; mkR TMint 2 103; mkR TCert 1 105; mkR TCert 3 106;
                      mkR TReward 0 108; mkR TReward 1 107; mkR TVote 0 110; mkR TVote 1 109; mkR TPropose 0 112; mkR TPropose 1 111 ].
Proof.
  split; [vm_compute; reflexivity|]. split; [vm_compute; reflexivity|].
  eexists. eexists. eexists. split; [vm_compute; reflexivity|]. split; [vm_compute; reflexivity|]. vm_compute. reflexivity.
Qed.

Example c10_distinct_items_satisfiable : distinct_items ex_ops.
Proof.
  unfold distinct_items. cbn.
  repeat split; repeat (constructor; [cbn; intuition discriminate|]); constructor.
Qed.

(* the judge: each conjunct of the verdict is the boolean form of one conjunct of the statement *)
Section Judge.
  Context {K : Type} {ltb : K -> K -> bool} (ST : strict_total ltb).
  Variables (T : tag) (keys : list K) (final : K -> option (option wit)) (ix : K -> option N)
            (field : list K) (locked : K -> bool) (R : list redeemer).
  Hypothesis support : forall k, final k <> None -> In k keys.

  Lemma existsb_eqb_In k l : existsb (eqb_of ltb k) l = true <-> In k l.
  Proof.
    rewrite existsb_exists. split.
    - intros (x & Hin & E). apply (eqb_of_true _ ST) in E. subst. exact Hin.
    - intros H. exists k. split; [exact H | apply eqb_of_refl, ST].
  Qed.

  Lemma j_field_spec : j_field (eqb_of ltb) keys final field = true <-> spec_field final field.
  Proof.
    unfold j_field, spec_field. rewrite andb_true_iff, !forallb_forall. split.
    - intros [H1 H2].
      assert (X : forall k, In k keys -> (In k field <-> final k <> None)).
      { intros k Hk. specialize (H1 _ Hk). apply eqb_prop in H1. rewrite <- existsb_eqb_In, <- H1.
        destruct (final k); split; congruence. }
      intros k. split; intros H; apply X; try exact H; [apply existsb_eqb_In, H2, H | apply support, H].
    - intros F. split; intros k Hk.
      + apply Bool.eqb_true_iff, eq_true_iff_eq. rewrite existsb_eqb_In, F. destruct (final k); split; congruence.
      + apply existsb_eqb_In, support, F, Hk.
  Qed.

  Lemma attachments_final k rid : In (k, rid) (attachments keys final) <-> final k = Some (Some (WPlutus rid)).
  Proof using support. (* congruence would otherwise make the lemma depend on ix and locked *)
    unfold attachments. rewrite in_flat_map. split.
    - intros (k' & _ & H). destruct (final k') as [[[|r]|]|] eqn:F; cbn in H; try contradiction.
      destruct H as [H|[]]. injection H as <- <-. exact F.
    - intros F. exists k. split; [apply support; congruence|]. rewrite F. cbn. auto.
  Qed.

  Lemma j_pointers_sound : j_present T keys final ix R = true -> j_expected T keys final ix R = true -> spec_pointers T final ix R.
  Proof.
    unfold j_present, j_expected. intros Hp He. rewrite forallb_forall in Hp, He. intros r Ht. split.
    - intros Hin. specialize (He _ Hin). rewrite Ht, N.eqb_refl in He. cbn [negb orb] in He.
      apply existsb_exists in He as ([k rid] & Ha & E). cbn [fst snd] in E. apply attachments_final in Ha.
      destruct (ix k) as [i|] eqn:Ei; [|discriminate]. apply andb_true_iff in E as [E1 E2]. apply N.eqb_eq in E1, E2. subst.
      exists k, (r_data r). auto.
    - intros (k & rid & F & Ei & <-). apply attachments_final in F.
      specialize (Hp _ F). cbn [fst snd] in Hp. rewrite Ei in Hp. apply existsb_exists in Hp as (x & Hin & E).
      apply red_eqb_true in E. subst x. rewrite (redeemer_eta r), Ht. exact Hin.
  Qed.

  Lemma j_present_complete : (forall k, In k field -> exists i, ix k = Some i) ->
    spec_field final field -> spec_pointers T final ix R -> j_present T keys final ix R = true.
  Proof.
    intros ix_total F P. unfold j_present. apply forallb_forall. intros [k rid] Ha. cbn [fst snd].
    apply attachments_final in Ha.
    destruct (ix_total k) as [i Hi]; [apply F; congruence|]. rewrite Hi.
    apply existsb_exists. exists (mkR T i rid). split; [|apply red_eqb_true; reflexivity].
    apply (P (mkR T i rid) eq_refl). exists k, rid. auto.
  Qed.

  Lemma j_expected_complete : spec_pointers T final ix R -> j_expected T keys final ix R = true.
  Proof.
    intros P. unfold j_expected. apply forallb_forall. intros r Hin.
    destruct (tag_code (r_tag r) =? tag_code T) eqn:E; [|reflexivity]. cbn [negb orb].
    apply N.eqb_eq, tag_code_inj in E. apply (P r E) in Hin as (k & rid & Hf & Hi & Hd).
    apply existsb_exists. exists (k, rid). split; [apply attachments_final, Hf|].
    cbn [fst snd]. rewrite Hi, Hd, !N.eqb_refl. reflexivity.
  Qed.

  Lemma j_locked_spec : j_locked keys final locked = true <-> spec_locked final locked.
  Proof.
    unfold j_locked. rewrite forallb_forall. split.
    - intros H k rid F. apply (H (k, rid)), attachments_final, F.
    - intros L [k rid] Ha. apply attachments_final in Ha. apply (L _ _ Ha).
  Qed.
End Judge.

Lemma ptr_eqb_true a b : ptr_eqb a b = true <-> r_tag a = r_tag b /\ r_index a = r_index b.
Proof.
  unfold ptr_eqb. rewrite andb_true_iff, !N.eqb_eq. split; intros [H1 H2]; split; try assumption; [apply tag_code_inj, H1 | rewrite H1; reflexivity].
Qed.
Lemma j_unique_sound R : j_unique R = true -> spec_unique R.
Proof.
  induction R as [|a t IH]; cbn [j_unique]; [intros _ ? ? []|]. intros H. apply andb_true_iff in H as [Hn Ht].
  apply negb_true_iff in Hn. intros r1 r2 H1 H2 Et Ei.
  assert (X : forall r, In r t -> r_tag a = r_tag r -> r_index a = r_index r -> False).
  { intros r Hr E1 E2. assert (Y : existsb (ptr_eqb a) t = true); [|congruence].
    apply existsb_exists. exists r. split; [exact Hr | apply ptr_eqb_true; auto]. }
  destruct H1 as [<-|H1], H2 as [<-|H2]; [reflexivity | exfalso; eapply X; eassumption | exfalso; eapply X; eauto | apply IH; assumption].
Qed.
Lemma j_unique_complete R : NoDup R -> spec_unique R -> j_unique R = true.
Proof.
  induction 1 as [|a t Ha ND IH]; intros U; [reflexivity|]. cbn [j_unique]. apply andb_true_intro. split.
  - apply negb_true_iff. destruct (existsb (ptr_eqb a) t) eqn:E; [|reflexivity]. exfalso.
    apply existsb_exists in E as (r & Hr & Hp). apply ptr_eqb_true in Hp as [Et Ei].
    assert (a = r) by (apply U; cbn; auto). subst. contradiction.
  - apply IH. intros r1 r2 H1 H2. apply U; cbn; auto.
Qed.
(* the judge checks uniqueness on the spend redeemers and on the others separately: two redeemers with the
   same tag are on the same side *)
Lemma j_unique_by_tag_sound R :
  j_unique (filter (fun r => tag_code (r_tag r) =? 0) R) = true ->
  j_unique (filter (fun r => negb (tag_code (r_tag r) =? 0)) R) = true -> spec_unique R.
Proof.
  intros Hs Ho r1 r2 H1 H2 Et Ei. destruct (tag_code (r_tag r1) =? 0) eqn:E0.
  - apply (j_unique_sound _ Hs); try assumption; apply filter_In; split; try assumption. rewrite <- Et. exact E0.
  - apply (j_unique_sound _ Ho); try assumption; apply filter_In; split; try assumption; rewrite <- ?Et, E0; reflexivity.
Qed.
Lemma spec_unique_filter f R : spec_unique R -> spec_unique (filter f R).
Proof. intros U r1 r2 H1 H2. apply filter_In in H1 as [H1 _], H2 as [H2 _]. apply U; assumption. Qed.

Lemma dedup_first_NoDup l : NoDup (dedup_first l).
Proof.
  induction l as [|a t IH]; cbn [dedup_first]; constructor.
  - rewrite filter_In. intros [_ H]. rewrite (proj2 (red_eqb_true a a) eq_refl) in H. discriminate.
  - apply NoDup_filter, IH.
Qed.

(* every item with an attachment is the key of some call *)
Lemma finals_support ops :
  (forall k, spend_wits (spend_final (ops_in ops)) k <> None -> In k (map in_op_key (ops_in ops))) /\
  (forall k, mint_wits (mint_final (ops_mint ops)) k <> None -> In k (map mo_policy (ops_mint ops))) /\
  (forall k, cert_final (ops_cert ops) k <> None -> In k (map wop_key (ops_cert ops))) /\
  (forall k, wd_final (ops_wd ops) k <> None -> In k (map wop_key (ops_wd ops))) /\
  (forall k, vote_final (ops_vote ops) k <> None -> In k (map wop_key (ops_vote ops))) /\
  (forall k, prop_final (ops_prop ops) k <> None -> In k (map wop_key (ops_prop ops))).
Proof.
  split; [|split]; [| |split; [|split; [|split]]].
  - intros k Hk. apply (final_support (final_last_ok outpoint_st (oval := in_op_val) (accept := fun _ => true))). intros E. apply Hk.
    unfold spend_wits, spend_final, final_last. rewrite E. reflexivity.
  - intros k Hk. apply (final_support (final_first_ok bytes_strict_total (oval := mo_wit) (accept := fun o => negb (mo_zero o)))). intros E. apply Hk.
    unfold mint_wits, mint_final, final_first. rewrite E. reflexivity.
  - apply (final_support (final_first_ok cert_st)).
  - apply (final_support (final_last_ok racct_ledger_st)).
  - apply (final_support (final_first_ok voter_ledger_st)).
  - apply (final_support (final_last_ok prop_st)).
Qed.

Lemma verdict_of_holds k1 k2 : verdict_of true true true k1 k2 = Holds.
Proof. reflexivity. Qed.
Lemma verdict_of_holds_inv c s p k1 k2 : verdict_of c s p k1 k2 = Holds -> c = true /\ s = true /\ p = true.
Proof. destruct c, s, p, k1, k2; cbn; intros H; try discriminate H; auto. Qed.
(* a known-finding verdict is only given inside the corresponding class *)
Lemma verdict_of_known a s p k1 k2 c : verdict_of a s p k1 k2 = FailsKnown c ->
  (c = 1 /\ k1 = true) \/ (c = 2 /\ k2 = true).
Proof. unfold verdict_of. destruct a, s, p, k1, k2; cbn; intros H; try discriminate; injection H as <-; auto. Qed.

Theorem judge_sound ops b : judge ops b = Holds -> C10_statement ops b.
Proof.
  unfold judge. cbv zeta. intros H. apply verdict_of_holds_inv in H as (Hc & Hs & Hp).
  repeat match goal with H : _ && _ = true |- _ => apply andb_true_iff in H as [H ?] end.
  destruct (finals_support ops) as (Ss & Sm & Sc & Sw & Sv & Sp).
  unfold C10_statement. cbv zeta. repeat match goal with |- _ /\ _ => split end.
  all: first [eapply j_field_spec | eapply j_pointers_sound | eapply j_locked_spec | eapply j_unique_by_tag_sound];
    eauto using outpoint_st, bytes_strict_total, cert_st, racct_ledger_st, voter_ledger_st, prop_st.
Qed.

(* the judge is complete on transactions that list no redeemer twice (tx_redeemers lists none twice) *)
Theorem judge_complete ops b : NoDup (b_redeemers b) -> C10_statement ops b -> judge ops b = Holds.
Proof.
  intros NDR C. unfold C10_statement in C. cbv zeta in C.
  destruct C as ((A1 & A2 & A3) & (B1 & B2) & (C1 & C2 & C3) & (D1 & D2 & D3) & (E1 & E2 & E3) & (F1 & F2 & F3) & U).
  destruct (finals_support ops) as (Ss & Sm & Sc & Sw & Sv & Sp).
  (* Holds read backwards as verdict_of true true true _ _, so that f_equal leaves the three boolean conjunctions *)
  unfold judge. cbv zeta. rewrite <- (verdict_of_holds (known_collateral_plutus ops) (known_prop_nonscript ops)).
  f_equal; repeat match goal with |- _ && _ = true => apply andb_true_intro; split end.
  all: try (apply j_unique_complete; [apply NoDup_filter, NDR | apply spec_unique_filter, U]).
  all: try (eapply j_present_complete; eauto using (index_of_some cert_ltb cert_st), (index_of_some prop_rust_ltb prop_st),
              (set_index_total _ outpoint_st), (set_index_total _ bytes_strict_total), (set_index_total _ racct_ledger_st), (set_index_total _ voter_ledger_st)).
  all: first [eapply j_field_spec | eapply j_expected_complete | eapply j_locked_spec];
    eauto using outpoint_st, bytes_strict_total, cert_st, racct_ledger_st, voter_ledger_st, prop_st.
Qed.
