(* CBOR heads (Cbor/Head.v): big-endian payloads, the size of the shortest head, decoding what was encoded (for every
   payload width, not only the shortest), and what a decoded head tells about the input: it is the initial byte and a
   payload in front of the rest, whatever the rest, and its argument fits the announced width. *)
From CSL Require Import Base.Prelude Cbor.Head.
Local Open Scope N_scope.

Lemma bytes_ok_app_inv a b : bytes_ok (a ++ b) -> bytes_ok a /\ bytes_ok b.
Proof. intros H. apply Forall_app in H. exact H. Qed.

Lemma Forall_forallb {A} (f : A -> bool) xs : Forall (fun x => f x = true) xs -> forallb f xs = true.
Proof. intros H. apply forallb_forall. apply Forall_forall. exact H. Qed.

Lemma be_length k n : length (be k n) = k.
Proof. revert n; induction k as [|k IH]; intros n; cbn [be]; [reflexivity|]. rewrite app_length, IH. cbn. lia. Qed.

Lemma unbe_app l1 l2 acc : unbe (l1 ++ l2) acc = unbe l2 (unbe l1 acc).
Proof. revert acc; induction l1 as [|b t IH]; intros acc; cbn [unbe app]; [reflexivity|apply IH]. Qed.

Lemma unbe_be k : forall n acc, n < 256 ^ N.of_nat k -> unbe (be k n) acc = acc * 256 ^ N.of_nat k + n.
Proof.
  induction k as [|k IH]; intros n acc Hn.
  - cbn [be unbe]. change (N.of_nat 0) with 0 in *. rewrite N.pow_0_r in *. lia.
  - cbn [be]. rewrite unbe_app. cbn [unbe].
    rewrite Nat2N.inj_succ, N.pow_succ_r' in *.
    rewrite IH by (apply N.div_lt_upper_bound; lia).
    pose proof (N.div_mod n 256 ltac:(lia)). nia.
Qed.

Lemma be_bytes_ok k n : bytes_ok (be k n).
Proof.
  revert n; induction k as [|k IH]; intros n; cbn [be]; [constructor|].
  apply Forall_app; split; [apply IH|]. constructor; [|constructor]. apply N.mod_lt. lia.
Qed.

Lemma head_length m n : N.of_nat (length (encode_head m n)) = head_size n.
Proof.
  unfold encode_head, head_size.
  destruct (n <? 24); [reflexivity|]. destruct (n <? 256); [reflexivity|].
  destruct (n <? 65536); [reflexivity|]. destruct (n <? 4294967296); reflexivity.
Qed.

Lemma head_size_mono a b : a <= b -> head_size a <= head_size b.
Proof.
  intros H. unfold head_size.
  destruct (N.ltb_spec a 24); [destruct (b <? 24), (b <? 256), (b <? 65536), (b <? 4294967296); lia|].
  rewrite (proj2 (N.ltb_ge b 24)) by lia.
  destruct (N.ltb_spec a 256); [destruct (b <? 256), (b <? 65536), (b <? 4294967296); lia|].
  rewrite (proj2 (N.ltb_ge b 256)) by lia.
  destruct (N.ltb_spec a 65536); [destruct (b <? 65536), (b <? 4294967296); lia|].
  rewrite (proj2 (N.ltb_ge b 65536)) by lia.
  destruct (N.ltb_spec a 4294967296); [destruct (b <? 4294967296); lia|].
  rewrite (proj2 (N.ltb_ge b 4294967296)) by lia. lia.
Qed.

Lemma head_size_bounds n : 1 <= head_size n <= 9.
Proof.
  unfold head_size. destruct (n <? 24); [lia|]. destruct (n <? 256); [lia|].
  destruct (n <? 65536); [lia|]. destruct (n <? 4294967296); lia.
Qed.

Lemma split_at_app k p r : length p = k -> split_at k (p ++ r) = Some (p, r).
Proof.
  intros H. unfold split_at. rewrite app_length.
  destruct (k <=? length p + length r)%nat eqn:E; [|lia].
  subst k. rewrite firstn_app, skipn_app, Nat.sub_diag, firstn_all, skipn_all. cbn. rewrite app_nil_r. reflexivity.
Qed.

Lemma split_at_ok k l p r : split_at k l = Some (p, r) -> l = p ++ r /\ length p = k.
Proof.
  unfold split_at. destruct (k <=? length l)%nat eqn:E; [|discriminate].
  intros H; injection H as <- <-. split; [symmetry; apply firstn_skipn|]. rewrite firstn_length. lia.
Qed.

Lemma initial_byte m c : c < 32 -> (m * 32 + c) / 32 = m /\ (m * 32 + c) mod 32 = c.
Proof. intros H. split; [symmetry; apply N.div_unique with c; lia | symmetry; apply N.mod_unique with m; lia]. Qed.

(* [decode_head] with the four payload widths as one case: additional information 24..27 announces 1, 2, 4, 8 bytes *)
Definition payload_len (ai : N) : option nat :=
  if ai =? 24 then Some 1%nat else if ai =? 25 then Some 2%nat
  else if ai =? 26 then Some 4%nat else if ai =? 27 then Some 8%nat else None.

Lemma payload_len_some ai k : payload_len ai = Some k -> 24 <= ai < 28.
Proof.
  unfold payload_len.
  destruct (ai =? 24) eqn:E1; [|destruct (ai =? 25) eqn:E2; [|destruct (ai =? 26) eqn:E3; [|destruct (ai =? 27) eqn:E4]]];
    intros H; try discriminate; lia.
Qed.

Lemma decode_head_cons b r : decode_head (b :: r) =
  if b mod 32 <? 24 then Some (b / 32, Arg (b mod 32), r)
  else match payload_len (b mod 32) with
       | Some k => match split_at k r with Some (p, r') => Some (b / 32, Arg (unbe p 0), r') | None => None end
       | None => if b mod 32 =? 31 then Some (b / 32, Indef, r) else None
       end.
Proof.
  cbn [decode_head]. cbv zeta. unfold payload_len. destruct (b mod 32 <? 24); [reflexivity|].
  destruct (b mod 32 =? 24); [reflexivity|]. destruct (b mod 32 =? 25); [reflexivity|].
  destruct (b mod 32 =? 26); [reflexivity|]. destruct (b mod 32 =? 27); reflexivity.
Qed.

Lemma decode_head_immediate m n rest : n < 24 -> decode_head ((m * 32 + n) :: rest) = Some (m, Arg n, rest).
Proof.
  intros Hn. rewrite decode_head_cons. destruct (initial_byte m n ltac:(lia)) as [-> ->].
  rewrite (proj2 (N.ltb_lt n 24) Hn). reflexivity.
Qed.

Lemma decode_head_payload m ai k n rest : payload_len ai = Some k -> n < 256 ^ N.of_nat k ->
  decode_head ((m * 32 + ai) :: be k n ++ rest) = Some (m, Arg n, rest).
Proof.
  intros Hk Hn. pose proof (payload_len_some _ _ Hk) as Hai.
  rewrite decode_head_cons. destruct (initial_byte m ai ltac:(lia)) as [-> ->].
  rewrite (proj2 (N.ltb_ge ai 24)) by lia. rewrite Hk, split_at_app by apply be_length.
  rewrite unbe_be by exact Hn. reflexivity.
Qed.

(* Round trip of the shortest head, for every major type and every 64-bit argument *)
Theorem decode_encode_head m n rest : n < two64 ->
  decode_head (encode_head m n ++ rest) = Some (m, Arg n, rest).
Proof.
  unfold two64. intros Hn. unfold encode_head.
  destruct (n <? 24) eqn:E1; [apply decode_head_immediate; lia|].
  destruct (n <? 256) eqn:E2; [apply (decode_head_payload m 24 1); [reflexivity|lia]|].
  destruct (n <? 65536) eqn:E3; [apply (decode_head_payload m 25 2); [reflexivity|lia]|].
  destruct (n <? 4294967296) eqn:E4; [apply (decode_head_payload m 26 4); [reflexivity|lia]|].
  apply (decode_head_payload m 27 8); [reflexivity|lia].
Qed.

(* a decoded head is the initial byte and a payload [p] in front of the rest, and does not depend on the rest *)
Lemma decode_head_inv bs m a r : decode_head bs = Some (m, a, r) ->
  exists b p, bs = b :: p ++ r /\ forall r2, decode_head (b :: p ++ r2) = Some (m, a, r2).
Proof.
  destruct bs as [|b t]; [discriminate|]. rewrite decode_head_cons.
  assert (K : forall p, t = p ++ r -> (forall r2, decode_head (b :: p ++ r2) = Some (m, a, r2)) ->
              exists b' p', b :: t = b' :: p' ++ r /\ forall r2, decode_head (b' :: p' ++ r2) = Some (m, a, r2)).
  { intros p -> H. exists b, p. split; [reflexivity|exact H]. }
  destruct (b mod 32 <? 24) eqn:E0.
  - intros H; injection H as <- <- <-. apply (K []); [reflexivity|]. intros r2.
    cbn [app]. rewrite decode_head_cons, E0. reflexivity.
  - destruct (payload_len (b mod 32)) as [k|] eqn:Ek.
    + destruct (split_at k t) as [[p r']|] eqn:Es; [|discriminate]. intros H; injection H as <- <- <-.
      apply split_at_ok in Es as [-> Hl]. apply (K p); [reflexivity|]. intros r2.
      rewrite decode_head_cons, E0, Ek, split_at_app by exact Hl. reflexivity.
    + destruct (b mod 32 =? 31) eqn:E31; [|discriminate]. intros H; injection H as <- <- <-.
      apply (K []); [reflexivity|]. intros r2. cbn [app]. rewrite decode_head_cons, E0, Ek, E31. reflexivity.
Qed.

(* every parser built on decode_head consumes at least one byte *)
Lemma decode_head_shorter bs m a r : decode_head bs = Some (m, a, r) -> (length r < length bs)%nat.
Proof.
  intros H. apply decode_head_inv in H as (b & p & -> & _). cbn [length]. rewrite app_length. lia.
Qed.

(* decode_head returns a suffix of its input *)
Lemma decode_head_suffix bs m a r : decode_head bs = Some (m, a, r) -> exists pre, bs = pre ++ r /\ pre <> [].
Proof.
  intros H. apply decode_head_inv in H as (b & p & -> & _). exists (b :: p). split; [reflexivity|discriminate].
Qed.

(* the argument of a decoded head fits its payload width *)
Lemma unbe_bound l : bytes_ok l -> forall acc k, acc < 256 ^ N.of_nat k -> unbe l acc < 256 ^ N.of_nat (k + length l).
Proof.
  induction 1 as [|b t Hb _ IH]; intros acc k Hacc; cbn [unbe length].
  - rewrite Nat.add_0_r. exact Hacc.
  - replace (k + S (length t))%nat with (S k + length t)%nat by lia. apply IH.
    rewrite Nat2N.inj_succ, N.pow_succ_r'. nia.
Qed.

Definition arg_bound (ai : N) : N :=
  if ai <? 24 then 24 else if ai =? 24 then 256 else if ai =? 25 then 65536
  else if ai =? 26 then 4294967296 else two64.

Lemma arg_bound_le ai : arg_bound ai <= two64.
Proof.
  unfold arg_bound, two64. destruct (ai <? 24); [lia|]. destruct (ai =? 24); [lia|].
  destruct (ai =? 25); [lia|]. destruct (ai =? 26); lia.
Qed.

Lemma arg_bound_payload ai k : payload_len ai = Some k -> arg_bound ai = 256 ^ N.of_nat k.
Proof.
  intros H. pose proof (payload_len_some _ _ H) as Hai. revert H. unfold arg_bound, payload_len.
  rewrite (proj2 (N.ltb_ge ai 24)) by lia.
  destruct (ai =? 24); [|destruct (ai =? 25); [|destruct (ai =? 26); [|destruct (ai =? 27)]]]; intros [= <-]; reflexivity.
Qed.

Lemma decode_head_bound b t m n r : bytes_ok (b :: t) ->
  decode_head (b :: t) = Some (m, Arg n, r) -> n < arg_bound (b mod 32).
Proof.
  intros Hok. rewrite decode_head_cons.
  destruct (b mod 32 <? 24) eqn:E0; [intros H; injection H as _ <- _; unfold arg_bound; rewrite E0; lia|].
  destruct (payload_len (b mod 32)) as [k|] eqn:Ek; [|destruct (b mod 32 =? 31); discriminate].
  destruct (split_at k t) as [[p r']|] eqn:E; [|discriminate]. intros H; injection H as _ <- _.
  apply split_at_ok in E as [-> Hl]. inversion Hok as [|? ? _ Ht]. apply bytes_ok_app_inv in Ht as [Hp _].
  rewrite (arg_bound_payload _ _ Ek), <- Hl. exact (unbe_bound p Hp 0 O ltac:(cbn; lia)).
Qed.

Lemma decode_head_rest_ok bs m a r : bytes_ok bs -> decode_head bs = Some (m, a, r) -> bytes_ok r.
Proof. intros Hok H. apply decode_head_suffix in H as [pre [-> _]]. apply bytes_ok_app_inv in Hok. tauto. Qed.

Lemma decode_head_arg_lt bs m n r : bytes_ok bs -> decode_head bs = Some (m, Arg n, r) -> n < two64.
Proof.
  intros Hok H. destruct bs as [|b t]; [discriminate|].
  pose proof (decode_head_bound _ _ _ _ _ Hok H). pose proof (arg_bound_le (b mod 32)). lia.
Qed.

Lemma encode_head_bytes_ok m n : m < 8 -> bytes_ok (encode_head m n).
Proof.
  intros Hm. unfold encode_head.
  destruct (n <? 24) eqn:E1; [constructor; [lia|constructor]|].
  destruct (n <? 256); [constructor; [lia|apply be_bytes_ok]|].
  destruct (n <? 65536); [constructor; [lia|apply be_bytes_ok]|].
  destruct (n <? 4294967296); constructor; try lia; apply be_bytes_ok.
Qed.
