(* The generic CBOR item layer (Cbor/Item.v): a successful parse consumes a non-empty prefix and does not look past
   it ([pstrong], from which the suffix and prefix-freeness facts follow), never panics, runs out of fuel only on
   nesting deeper than the fuel, inverts the printer on encodable items, and returns encodable items.
   Each property is shown to be preserved by the combinators ([parse_n], [parse_until_break], [parse_pair],
   [parse_chunk], [parse_body]) and then holds of [parse_item] by induction on the fuel; "never panics" and "more fuel
   changes nothing but OutOfFuel" are two readings of one such proof (section Related).
   Not proved here: item_eqb correctness (item_eqb a b = true <-> a = b). *)
From CSL Require Export Base.Facts.
From CSL Require Import Base.Prelude Cbor.Head Cbor.HeadProofs Cbor.Item.
Local Open Scope N_scope.

Lemma bind_ret_ok {A B} (r : result (A * bytes)) (K : A -> B) x rest :
  (let* '(y, r') := r in Ok (K y, r')) = Ok (x, rest) -> exists y, r = Ok (y, rest) /\ x = K y.
Proof. destruct r as [[y r']| | |]; cbn [bind]; try discriminate. intros [= <- <-]. exists y. split; reflexivity. Qed.

Definition psuffix {A} (p : parser A) : Prop :=
  forall bs x r, p bs = Ok (x, r) -> exists pre, bs = pre ++ r /\ pre <> [].

Lemma app_ne_nil {A} (a b : list A) : a <> [] -> a ++ b <> [].
Proof. destruct a; [congruence|discriminate]. Qed.

Lemma take_bytes_ok n bs p r : take_bytes n bs = Ok (p, r) -> bs = p ++ r /\ len p = n.
Proof.
  unfold take_bytes, len. destruct (n <=? N.of_nat (length bs)) eqn:E; [|discriminate].
  intros H; injection H as <- <-. split; [symmetry; apply firstn_skipn|].
  rewrite firstn_length. lia.
Qed.

Lemma take_bytes_app n p r : len p = n -> take_bytes n (p ++ r) = Ok (p, r).
Proof.
  unfold take_bytes, len. intros <-. rewrite app_length.
  destruct (N.of_nat (length p) <=? N.of_nat (length p + length r)) eqn:E; [|lia].
  rewrite Nat2N.id, firstn_app, skipn_app, Nat.sub_diag, firstn_all, skipn_all.
  cbn [firstn skipn app]. rewrite app_nil_r. reflexivity.
Qed.

Lemma parse_body_head p bs m a r :
  decode_head bs = Some (m, a, r) -> parse_body p bs = parse_after p (hd 0 bs) m a r.
Proof. destruct bs as [|b0 t]; [discriminate|]. unfold parse_body. intros ->. reflexivity. Qed.

(* one step of the parser on input that starts with a shortest head *)
Lemma parse_body_enc p m n r : n < two64 ->
  parse_body p (encode_head m n ++ r) = parse_after p (hd 0 (encode_head m n ++ r)) m (Arg n) r.
Proof. intros H. exact (parse_body_head _ _ _ _ _ (decode_encode_head m n r H)). Qed.

(* major type 7: the item depends on the initial byte only *)
Definition simple_item (b0 n : N) : option item :=
  let ai := b0 mod 32 in
  if ai <? 24 then Some (ISimple n)
  else if ai =? 24 then (if n <? 32 then None else Some (ISimple n))
  else if ai =? 25 then Some (IFloat F16 n)
  else if ai =? 26 then Some (IFloat F32 n)
  else Some (IFloat F64 n).

Lemma parse_after_simple p b0 m n r : major_of m = Some MSimple ->
  parse_after p b0 m (Arg n) r = match simple_item b0 n with Some x => Ok (x, r) | None => Err end.
Proof.
  intros Em. unfold parse_after, simple_item. rewrite Em. cbv zeta.
  destruct (b0 mod 32 <? 24); [reflexivity|]. destruct (b0 mod 32 =? 24); [destruct (n <? 32); reflexivity|].
  destruct (b0 mod 32 =? 25); [reflexivity|]. destruct (b0 mod 32 =? 26); reflexivity.
Qed.

Lemma parse_until_break_step {A} (p : parser A) k b t : b <> 255 ->
  parse_until_break p (S k) (b :: t) =
  (let* '(x, r) := p (b :: t) in let* '(xs, r') := parse_until_break p k r in Ok (x :: xs, r')).
Proof. intros H. cbn [parse_until_break]. destruct (b =? 255) eqn:E; [lia|reflexivity]. Qed.

Lemma parse_until_break_nil {A} (p : parser A) k rest : parse_until_break p k (255 :: rest) = Ok ([], rest).
Proof. destruct k; reflexivity. Qed.

(* induction over the successful runs of the two list parsers *)
Lemma parse_n_ind {A} (p : parser A) (P : nat -> bytes -> list A -> bytes -> Prop) :
  (forall bs, P O bs [] bs) ->
  (forall k bs x r1 xs r, p bs = Ok (x, r1) -> P k r1 xs r -> P (S k) bs (x :: xs) r) ->
  forall k bs xs r, parse_n p k bs = Ok (xs, r) -> P k bs xs r.
Proof.
  intros H0 HS. induction k as [|k IH]; intros bs xs r H; cbn [parse_n] in H; [injection H as <- <-; apply H0|].
  apply bind_ok in H as [[x r1] [H1 H]]. apply bind_ok in H as [[xs' r2] [H2 H]]. injection H as <- <-.
  exact (HS _ _ _ _ _ _ H1 (IH _ _ _ H2)).
Qed.

Lemma parse_until_break_ind {A} (p : parser A) (P : bytes -> list A -> bytes -> Prop) :
  (forall t, P (255 :: t) [] t) ->
  (forall b t x r1 xs r, b <> 255 -> p (b :: t) = Ok (x, r1) -> P r1 xs r -> P (b :: t) (x :: xs) r) ->
  forall k bs xs r, parse_until_break p k bs = Ok (xs, r) -> P bs xs r.
Proof.
  intros H0 HS. induction k as [|k IH]; intros [|b t] xs r H; cbn [parse_until_break] in H; try discriminate;
    destruct (N.eqb_spec b 255) as [->|Hb]; try discriminate; try (injection H as <- <-; apply H0).
  apply bind_ok in H as [[x r1] [H1 H]]. apply bind_ok in H as [[xs' r2] [H2 H]]. injection H as <- <-.
  exact (HS _ _ _ _ _ _ Hb H1 (IH _ _ _ H2)).
Qed.

(* a successful parse consumed a non-empty prefix and does not depend on what follows that prefix *)
Definition pstrong {A} (p : parser A) : Prop :=
  forall bs x r, p bs = Ok (x, r) ->
  exists pre, bs = pre ++ r /\ pre <> [] /\ forall r2, p (pre ++ r2) = Ok (x, r2).

Lemma pstrong_suffix {A} (p : parser A) : pstrong p -> psuffix p.
Proof. intros H bs x r E. apply H in E as [pre [E1 [E2 _]]]. exists pre. split; assumption. Qed.

Lemma pstrong_local {A} (p : parser A) : pstrong p ->
  forall pre r1 r2 x, p (pre ++ r1) = Ok (x, r1) -> p (pre ++ r2) = Ok (x, r2).
Proof.
  intros H pre r1 r2 x E. apply H in E as [pre' [E1 [_ E3]]]. apply app_inv_tail in E1. subst pre'. apply E3.
Qed.

Lemma take_bytes_strong n bs s r : take_bytes n bs = Ok (s, r) ->
  bs = s ++ r /\ forall r2, take_bytes n (s ++ r2) = Ok (s, r2).
Proof.
  intros H. apply take_bytes_ok in H as [-> Hl]. split; [reflexivity|]. intros r2. apply take_bytes_app, Hl.
Qed.

Lemma parse_n_strong {A} (p : parser A) : pstrong p ->
  forall k bs xs r, parse_n p k bs = Ok (xs, r) ->
  exists pre, bs = pre ++ r /\ (k <= length pre)%nat /\ forall r2, parse_n p k (pre ++ r2) = Ok (xs, r2).
Proof.
  intros Hp. apply parse_n_ind.
  - intros bs. exists []. split; [reflexivity|]. split; [cbn [length]; lia|]. intros r2. reflexivity.
  - intros k bs x r1 xs r H1 [pre2 [-> [Hk L2]]]. apply Hp in H1 as [pre1 [-> [Hne L1]]].
    exists (pre1 ++ pre2). rewrite app_assoc. split; [reflexivity|]. split.
    + rewrite app_length. destruct pre1; [congruence|]. cbn [length]. lia.
    + intros r3. cbn [parse_n]. rewrite <- app_assoc, L1. cbn [bind]. rewrite L2. reflexivity.
Qed.

Lemma parse_until_break_strong {A} (p : parser A) : pstrong p ->
  forall k bs xs r, parse_until_break p k bs = Ok (xs, r) ->
  exists pre, bs = pre ++ r /\ (length xs < length pre)%nat /\
    forall r2 k', (length xs <= k')%nat -> parse_until_break p k' (pre ++ r2) = Ok (xs, r2).
Proof.
  intros Hp. apply parse_until_break_ind.
  - intros t. exists [255]. split; [reflexivity|]. split; [cbn [length]; lia|]. intros r2 k' _. apply parse_until_break_nil.
  - intros b t x r1 xs r Hb H1 [pre2 [-> [Hk L2]]]. apply Hp in H1 as [pre1 [E [Hne L1]]].
    destruct pre1 as [|b' t']; [congruence|]. injection E as <- ->.
    exists ((b :: t') ++ pre2). rewrite app_assoc. split; [reflexivity|]. split.
    + rewrite app_length. cbn [length]. lia.
    + intros r3 [|k'] Hk'; cbn [length] in Hk'; [lia|]. rewrite <- app_assoc. cbn [app].
      rewrite parse_until_break_step by exact Hb. change (b :: t' ++ pre2 ++ r3) with ((b :: t') ++ pre2 ++ r3).
      rewrite L1. cbn [bind]. rewrite L2 by lia. reflexivity.
Qed.

Lemma parse_pair_strong {A} (p : parser A) : pstrong p -> pstrong (parse_pair p).
Proof.
  intros Hp bs [k v] r H. unfold parse_pair in H.
  apply bind_ok in H as [[k' r1] [H1 H]]. apply bind_ok in H as [[v' r2] [H2 H]]. injection H as <- <- <-.
  apply Hp in H1 as [pre1 [-> [Hne L1]]]. apply Hp in H2 as [pre2 [-> [_ L2]]].
  exists (pre1 ++ pre2). rewrite app_assoc. split; [reflexivity|]. split; [apply app_ne_nil, Hne|].
  intros r3. unfold parse_pair. rewrite <- app_assoc, L1. cbn [bind]. rewrite L2. reflexivity.
Qed.

Lemma parse_chunk_strong m : pstrong (parse_chunk m).
Proof.
  intros bs x r H. unfold parse_chunk in H.
  destruct (decode_head bs) as [[[m' [n|]] r0]|] eqn:Hd; try discriminate.
  destruct (m' =? m) eqn:Em; [|discriminate].
  apply decode_head_inv in Hd as [b0 [t0 [-> L0]]]. apply take_bytes_strong in H as [-> L1].
  exists ((b0 :: t0) ++ x). rewrite app_assoc. split; [reflexivity|]. split; [discriminate|].
  intros r2. unfold parse_chunk. rewrite <- app_assoc. cbn [app]. rewrite L0, Em. apply L1.
Qed.

Lemma guard_local n (pre r2 : bytes) : (N.to_nat n <= length pre)%nat -> (n <=? len (pre ++ r2)) = true.
Proof. intros H. unfold len. rewrite app_length. lia. Qed.

(* what follows a head is consumed up to the rest, whatever comes after it *)
Lemma parse_after_local p b0 m a : pstrong p -> forall r0 x r, parse_after p b0 m a r0 = Ok (x, r) ->
  exists pre, r0 = pre ++ r /\ forall r2, parse_after p b0 m a (pre ++ r2) = Ok (x, r2).
Proof.
  intros Hp r0 x r H. pose proof (parse_after_simple p b0 m) as Hsimple. unfold parse_after in *.
  destruct (major_of m) as [[]|]; destruct a as [n|]; try discriminate.
  (* integers *)
  1, 2: (injection H as <- <-; exists []; split; reflexivity).
  (* definite strings *)
  1, 3: (apply bind_ret_ok in H as (s & H1 & ->); apply take_bytes_strong in H1 as [-> L];
         exists s; split; [reflexivity|]; intros r2; rewrite L; reflexivity).
  (* definite arrays and maps: the elements are parsed by [p], the entries by [parse_pair p] *)
  3, 5: (destruct (n <=? len r0); [|discriminate]; apply bind_ret_ok in H as (s & H1 & ->);
         apply parse_n_strong in H1 as [pre [-> [Hl L]]]; [|auto using parse_pair_strong];
         exists pre; split; [reflexivity|]; intros r2; rewrite (guard_local n pre r2 Hl), L; reflexivity).
  (* chunked strings, indefinite arrays and maps: chunks, elements or entries up to the break *)
  1-4: (apply bind_ret_ok in H as (s & H1 & ->);
        apply parse_until_break_strong in H1 as [pre [-> [Hl L]]]; [|auto using parse_pair_strong, parse_chunk_strong];
        exists pre; split; [reflexivity|]; intros r2; rewrite L by (rewrite app_length; lia); reflexivity).
  - apply bind_ret_ok in H as (y & H1 & ->). apply Hp in H1 as [pre [-> [_ L]]].
    exists pre. split; [reflexivity|]. intros r2. rewrite L. reflexivity.
  - rewrite Hsimple in H by reflexivity. destruct (simple_item b0 n) as [y|] eqn:Es; [|discriminate].
    injection H as <- <-. exists []. split; [reflexivity|]. intros r2. rewrite Hsimple, Es by reflexivity. reflexivity.
Qed.

Lemma parse_body_strong p : pstrong p -> pstrong (parse_body p).
Proof.
  intros Hp bs x r H. unfold parse_body in H. destruct bs as [|b0 t]; [discriminate|].
  destruct (decode_head (b0 :: t)) as [[[m a] r0]|] eqn:Hd; [|discriminate].
  apply decode_head_inv in Hd as (b0' & t0 & E0 & L0). injection E0 as <- ->.
  apply (parse_after_local _ _ _ _ Hp) in H as [pre [-> L]].
  exists ((b0 :: t0) ++ pre). rewrite <- app_assoc. split; [reflexivity|]. split; [discriminate|].
  intros r2. rewrite <- app_assoc. rewrite (parse_body_head _ _ _ _ _ (L0 (pre ++ r2))). apply L.
Qed.

Theorem parse_item_strong f : pstrong (parse_item f).
Proof. induction f as [|f IH]; [discriminate|]. exact (parse_body_strong _ IH). Qed.

(* the parse of an item does not depend on the bytes after it (hence encodings are prefix-free) *)
Theorem parse_item_prefix_free f pre r1 r2 it :
  parse_item f (pre ++ r1) = Ok (it, r1) -> parse_item f (pre ++ r2) = Ok (it, r2).
Proof. apply pstrong_local, parse_item_strong. Qed.

Lemma parse_until_break_suffix {A} (p : parser A) : psuffix p ->
  forall k bs xs r, parse_until_break p k bs = Ok (xs, r) -> exists pre, bs = pre ++ r /\ pre <> [].
Proof.
  intros Hp. apply parse_until_break_ind.
  - intros t. exists [255]. split; [reflexivity|discriminate].
  - intros b t x r1 xs r _ H1 [pre2 [-> _]]. apply Hp in H1 as [pre1 [-> Hne]].
    exists (pre1 ++ pre2). rewrite app_assoc. split; [reflexivity|]. apply app_ne_nil, Hne.
Qed.

Lemma parse_chunk_suffix m : psuffix (parse_chunk m).
Proof. apply pstrong_suffix, parse_chunk_strong. Qed.

Theorem parse_item_suffix f : forall bs it rest,
  parse_item f bs = Ok (it, rest) -> exists pre, bs = pre ++ rest /\ pre <> [].
Proof. exact (pstrong_suffix _ (parse_item_strong f)). Qed.

Lemma parse_one_suffix : psuffix parse_one.
Proof. intros bs it rest. apply parse_item_suffix. Qed.

Lemma firstn_consumed {A} (pre r : list A) : firstn (length (pre ++ r) - length r) (pre ++ r) = pre.
Proof. rewrite app_length, Nat.add_sub, firstn_app, Nat.sub_diag, firstn_all. cbn [firstn]. apply app_nil_r. Qed.

Lemma skip_item_parse bs pre rest :
  skip_item bs = Ok (pre, rest) <-> exists it, parse_one bs = Ok (it, rest) /\ bs = pre ++ rest.
Proof.
  unfold skip_item. split.
  - intros H. apply bind_ok in H as [[it r] [H1 H]]. injection H as <- <-. exists it. split; [exact H1|].
    apply parse_one_suffix in H1 as [p [-> _]]. rewrite firstn_consumed. reflexivity.
  - intros [it [H ->]]. rewrite H. cbn [bind]. rewrite firstn_consumed. reflexivity.
Qed.

Theorem skip_item_exact bs pre rest : skip_item bs = Ok (pre, rest) -> bs = pre ++ rest /\ pre <> [].
Proof.
  intros H. apply skip_item_parse in H as [it [H ->]]. split; [reflexivity|].
  apply parse_one_suffix in H as [p [E Hne]]. apply app_inv_tail in E. subst p. exact Hne.
Qed.

(* The parsers are built from [bind], [Ok], [Err] and the nested parser, which they call on ever shorter input.
   So a relation on results that [bind] respects and that holds between [Ok a] and itself and between [Err] and
   itself holds between [parse_body p bs] and [parse_body q bs] as soon as it holds between [p] and [q] on input
   shorter than [bs].  ([OutOfFuel] in [parse_until_break] does not occur: its fuel is the length of its input.)
   Three readings: [r <> Panic]; "[r'] is [r] unless [r] ran out of fuel"; [r <> OutOfFuel]. *)
Section Related.
  Variable R : forall A, result A -> result A -> Prop.
  Hypothesis R_bind : forall A B (r r' : result A) (f g : A -> result B),
    R A r r' -> (forall a, r = Ok a -> R B (f a) (g a)) -> R B (bind r f) (bind r' g).
  Hypothesis R_ok : forall A (a : A), R A (Ok a) (Ok a).
  Hypothesis R_err : forall A, R A Err Err.

  Definition prel {A} (L : nat) (p q : parser A) : Prop := forall bs, (length bs <= L)%nat -> R _ (p bs) (q bs).

  Lemma parse_n_rel {A} (p q : parser A) L : psuffix p -> prel L p q -> forall k, prel L (parse_n p k) (parse_n q k).
  Proof.
    intros Hp Hpq. induction k as [|k IH]; intros bs Hl; cbn [parse_n]; [apply R_ok|].
    apply R_bind; [apply Hpq, Hl|]. intros [x r] E. apply R_bind; [|intros [xs r'] _; apply R_ok].
    apply IH. apply Hp in E as [pre [-> _]]. rewrite app_length in Hl. lia.
  Qed.

  Lemma parse_until_break_rel {A} (p q : parser A) L : psuffix p -> prel L p q ->
    forall k bs, (length bs <= L)%nat -> (length bs <= k)%nat ->
    R _ (parse_until_break p k bs) (parse_until_break q k bs).
  Proof.
    intros Hp Hpq. induction k as [|k IH]; intros [|b t] Hl Hk; cbn [parse_until_break]; try apply R_err;
      (destruct (b =? 255); [apply R_ok|]); [cbn [length] in Hk; lia|].
    apply R_bind; [apply Hpq, Hl|]. intros [x r] E. apply R_bind; [|intros [xs r'] _; apply R_ok].
    apply Hp in E as [pre [E Hne]].
    assert (length r < length (b :: t))%nat.
    { rewrite E, app_length. destruct pre; [congruence|]. cbn [length]. lia. }
    apply IH; lia.
  Qed.

  Lemma parse_pair_rel {A} (p q : parser A) L : psuffix p -> prel L p q -> prel L (parse_pair p) (parse_pair q).
  Proof.
    intros Hp Hpq bs Hl. unfold parse_pair. apply R_bind; [apply Hpq, Hl|]. intros [k r] E.
    apply R_bind; [|intros [v r'] _; apply R_ok]. apply Hpq. apply Hp in E as [pre [-> _]]. rewrite app_length in Hl. lia.
  Qed.

  Lemma take_bytes_rel n bs : R _ (take_bytes n bs) (take_bytes n bs).
  Proof. unfold take_bytes. destruct (n <=? len bs); [apply R_ok|apply R_err]. Qed.

  Lemma parse_chunk_rel m bs : R _ (parse_chunk m bs) (parse_chunk m bs).
  Proof.
    unfold parse_chunk. destruct (decode_head bs) as [[[m' [n|]] r0]|]; try apply R_err.
    destruct (m' =? m); [apply take_bytes_rel|apply R_err].
  Qed.

  Lemma parse_body_rel p q bs : pstrong p ->
    (forall bs', (length bs' < length bs)%nat -> R _ (p bs') (q bs')) -> R _ (parse_body p bs) (parse_body q bs).
  Proof.
    intros Hs Hpq. pose proof (pstrong_suffix _ Hs) as Hp.
    pose proof (pstrong_suffix _ (parse_pair_strong _ Hs)) as Hpp.
    unfold parse_body. destruct bs as [|b0 t]; [apply R_err|].
    destruct (decode_head (b0 :: t)) as [[[m a] r0]|] eqn:Hd; [|apply R_err].
    apply decode_head_shorter in Hd.
    assert (Hpq' : prel (length r0) p q) by (intros bs' Hl; apply Hpq; lia).
    pose proof (parse_pair_rel p q _ Hp Hpq') as Hpair.
    pose proof (parse_after_simple p b0 m) as Hsimple. unfold parse_after in *.
    destruct (major_of m) as [[]|]; destruct a as [n|]; try apply R_err; try apply R_ok;
      try (destruct (n <=? len r0); [|apply R_err]);
      try (apply R_bind; [|intros [? ?] _; apply R_ok]).
    1, 3: apply take_bytes_rel.
    1, 2: (apply (parse_until_break_rel _ _ (length r0)); try lia;
           [apply parse_chunk_suffix|intros bs' _; apply parse_chunk_rel]).
    - apply (parse_n_rel _ _ (length r0)); try lia; assumption.
    - apply (parse_until_break_rel _ _ (length r0)); try lia; assumption.
    - apply (parse_n_rel _ _ (length r0)); try lia; assumption.
    - apply (parse_until_break_rel _ _ (length r0)); try lia; assumption.
    - apply Hpq'. lia.
    - rewrite Hsimple by reflexivity. destruct (simple_item b0 n); [apply R_ok|apply R_err].
  Qed.
End Related.

Lemma bind_no_panic {A B} (r : result A) (f : A -> result B) :
  r <> Panic -> (forall a, r = Ok a -> f a <> Panic) -> bind r f <> Panic.
Proof. destruct r; cbn [bind]; intros H1 H2; try congruence; apply H2; reflexivity. Qed.

Theorem parse_item_no_panic f bs : parse_item f bs <> Panic.
Proof.
  revert bs. induction f as [|f IH]; intros bs; [discriminate|].
  refine (parse_body_rel (fun A r _ => r <> Panic) _ _ _ _ (parse_item f) bs (parse_item_strong f) _); try discriminate.
  - intros A B r _ g _. apply bind_no_panic.
  - intros bs' _. apply IH.
Qed.

Corollary skip_item_no_panic bs : skip_item bs <> Panic.
Proof.
  unfold skip_item. apply bind_no_panic; [apply parse_item_no_panic|]. intros [? ?] _. discriminate.
Qed.

Lemma bind_ext {A B} (r r' : result A) (f g : A -> result B) :
  (r <> OutOfFuel -> r' = r) -> (forall a, r = Ok a -> f a <> OutOfFuel -> g a = f a) ->
  bind r f <> OutOfFuel -> bind r' g = bind r f.
Proof.
  intros H1 H2 H. destruct r; cbn [bind] in *; try congruence;
    rewrite H1 by discriminate; cbn [bind]; auto.
Qed.

Lemma parse_item_fuel_S f bs : parse_item f bs <> OutOfFuel -> parse_item (S f) bs = parse_item f bs.
Proof.
  revert bs. induction f as [|f IH]; intros bs; [intros H; contradiction H; reflexivity|].
  apply (parse_body_rel (fun A r r' => r <> OutOfFuel -> r' = r)); try reflexivity.
  - intros A B. apply bind_ext.
  - apply parse_item_strong.
  - intros bs' _. apply IH.
Qed.

(* more fuel never changes an Ok / Err result *)
Theorem parse_item_fuel_mono f f' bs : (f <= f')%nat ->
  parse_item f bs <> OutOfFuel -> parse_item f' bs = parse_item f bs.
Proof.
  intros Hle H. induction Hle as [|f' Hle IH]; [reflexivity|].
  rewrite <- IH. apply parse_item_fuel_S. rewrite IH. exact H.
Qed.

Corollary parse_item_fuel_ok f f' bs v : (f <= f')%nat -> parse_item f bs = Ok v -> parse_item f' bs = Ok v.
Proof. intros Hle H. rewrite (parse_item_fuel_mono f f' bs Hle); [exact H|rewrite H; discriminate]. Qed.

Corollary parse_item_fuel_err f f' bs : (f <= f')%nat -> parse_item f bs = Err -> parse_item f' bs = Err.
Proof. intros Hle H. rewrite (parse_item_fuel_mono f f' bs Hle); [exact H|rewrite H; discriminate]. Qed.

Corollary parse_item_fuel_indep f f' bs :
  parse_item f bs <> OutOfFuel -> parse_item f' bs <> OutOfFuel -> parse_item f' bs = parse_item f bs.
Proof.
  intros H H'. destruct (Nat.le_ge_cases f f') as [L|L].
  - apply parse_item_fuel_mono; assumption.
  - symmetry. apply parse_item_fuel_mono; assumption.
Qed.

Lemma bind_no_oof {A B} (r : result A) (f : A -> result B) :
  r <> OutOfFuel -> (forall a, r = Ok a -> f a <> OutOfFuel) -> bind r f <> OutOfFuel.
Proof. destruct r; cbn [bind]; intros H1 H2; try congruence; apply H2; reflexivity. Qed.

Lemma take_bytes_no_oof n bs : take_bytes n bs <> OutOfFuel.
Proof. unfold take_bytes. destruct (n <=? len bs); discriminate. Qed.

Lemma parse_chunk_no_oof m bs : parse_chunk m bs <> OutOfFuel.
Proof.
  unfold parse_chunk. destruct (decode_head bs) as [[[m' [n|]] r0]|]; try discriminate.
  destruct (m' =? m); [apply take_bytes_no_oof|discriminate].
Qed.

Lemma parse_until_break_no_oof {A} (p : parser A) L : psuffix p ->
  (forall bs, (length bs <= L)%nat -> p bs <> OutOfFuel) ->
  forall k bs, (length bs <= L)%nat -> (length bs <= k)%nat -> parse_until_break p k bs <> OutOfFuel.
Proof.
  refine (parse_until_break_rel (fun A r _ => r <> OutOfFuel) _ _ _ p p L); try discriminate.
  intros B C r _ g _. apply bind_no_oof.
Qed.

(* fuel above the input length is always enough: OutOfFuel can only mean "nested deeper than the fuel" *)
Theorem parse_item_fuel_enough f bs : (length bs < f)%nat -> parse_item f bs <> OutOfFuel.
Proof.
  revert bs. induction f as [|f IH]; intros bs Hl; [lia|].
  refine (parse_body_rel (fun A r _ => r <> OutOfFuel) _ _ _ _ (parse_item f) bs (parse_item_strong f) _);
    try discriminate.
  - intros A B r _ g _. apply bind_no_oof.
  - intros bs' Hl'. apply IH. lia.
Qed.

Corollary parse_one_no_oof bs : parse_one bs <> OutOfFuel.
Proof. apply parse_item_fuel_enough. unfold default_fuel. lia. Qed.

Corollary parse_one_total bs : (exists it rest, parse_one bs = Ok (it, rest)) \/ parse_one bs = Err.
Proof.
  pose proof (parse_one_no_oof bs). pose proof (parse_item_no_panic (default_fuel bs) bs).
  unfold parse_one in *. destruct (parse_item (default_fuel bs) bs) as [[it r]| | |]; try congruence; eauto.
Qed.

Corollary skip_item_total bs : (exists pre rest, skip_item bs = Ok (pre, rest)) \/ skip_item bs = Err.
Proof.
  unfold skip_item. destruct (parse_one_total bs) as [[it [r ->]]| ->]; cbn [bind]; eauto.
Qed.

Corollary parse_item_default f bs : parse_item f bs <> OutOfFuel -> parse_item f bs = parse_one bs.
Proof. intros H. symmetry. apply parse_item_fuel_indep; [exact H|apply parse_one_no_oof]. Qed.

Corollary parse_item_one f bs v : parse_item f bs = Ok v -> parse_one bs = Ok v.
Proof. intros H. rewrite <- H. symmetry. apply parse_item_default. rewrite H. discriminate. Qed.

Lemma parse_exact_ok bs it : parse_exact bs = Ok it <-> parse_one bs = Ok (it, []).
Proof.
  unfold parse_exact. destruct (parse_one bs) as [[it' [|b t]]| | |]; split; intros H; try discriminate;
    injection H as ->; reflexivity.
Qed.

Theorem parse_one_local pre r1 r2 it :
  parse_one (pre ++ r1) = Ok (it, r1) -> parse_one (pre ++ r2) = Ok (it, r2).
Proof.
  unfold parse_one at 1. intros H. exact (parse_item_one _ _ _ (parse_item_prefix_free _ _ _ r2 _ H)).
Qed.

Theorem skip_item_local bs pre rest : skip_item bs = Ok (pre, rest) ->
  forall rest', skip_item (pre ++ rest') = Ok (pre, rest').
Proof.
  intros H rest'. apply skip_item_parse in H as [it [H ->]]. apply skip_item_parse.
  exists it. split; [apply (parse_one_local _ _ _ _ H)|reflexivity].
Qed.

(* the slice delimited by skip_item is itself exactly one well-formed item, the same one *)
Theorem skip_item_slice bs pre rest : skip_item bs = Ok (pre, rest) ->
  exists it, parse_one bs = Ok (it, rest) /\ parse_exact pre = Ok it.
Proof.
  intros H. apply skip_item_parse in H as [it [H ->]]. exists it. split; [exact H|].
  apply parse_exact_ok. rewrite <- (app_nil_r pre). apply (parse_one_local _ _ _ _ H).
Qed.

Corollary skip_item_wf bs pre rest : skip_item bs = Ok (pre, rest) -> item_wf pre = true.
Proof. intros H. apply skip_item_slice in H as [it [_ H]]. unfold item_wf. rewrite H. reflexivity. Qed.

(* two parses of byte strings one of which is a prefix of the other agree: no well-formed item is a
   proper prefix of another *)
Corollary item_wf_prefix_free a b : item_wf a = true -> item_wf (a ++ b) = true -> b = [].
Proof.
  unfold item_wf. intros Ha Hab.
  destruct (parse_exact a) as [ia| | |] eqn:Ea; try discriminate.
  destruct (parse_exact (a ++ b)) as [iab| | |] eqn:Eab; try discriminate.
  apply parse_exact_ok in Ea, Eab. rewrite <- (app_nil_r a) in Ea.
  apply (parse_one_local _ _ b) in Ea. rewrite Ea in Eab. injection Eab as _ ->. reflexivity.
Qed.

Lemma item_ind2 (P : item -> Prop)
  (Huint : forall n, P (IUint n)) (Hnint : forall n, P (INint n))
  (Hbytes : forall b, P (IBytes b)) (Hbc : forall cs, P (IBytesChunked cs))
  (Htext : forall b, P (IText b)) (Htc : forall cs, P (ITextChunked cs))
  (Harr : forall d xs, Forall P xs -> P (IArray d xs))
  (Hmap : forall d kvs, Forall (fun kv => P (fst kv) /\ P (snd kv)) kvs -> P (IMap d kvs))
  (Htag : forall t x, P x -> P (ITag t x))
  (Hsimple : forall n, P (ISimple n)) (Hfloat : forall w v, P (IFloat w v)) : forall it, P it.
Proof.
  fix go 1. intros [n|n|b|cs|b|cs|d xs|d kvs|t x|n|w v].
  1-6, 10, 11: clear go; auto.
  - apply Harr. induction xs as [|x xs IH]; constructor; [apply go|exact IH].
  - apply Hmap. induction kvs as [|[k v] kvs IH]; constructor; [split; apply go|exact IH].
  - apply Htag, go.
Qed.

Definition starts_ok (bs : bytes) : Prop := exists b t, bs = b :: t /\ b <> 255.

Lemma encode_head_starts m n rest : m <= 7 -> starts_ok (encode_head m n ++ rest).
Proof.
  intros Hm. unfold encode_head, starts_ok.
  destruct (n <? 24) eqn:E1; [eexists; eexists; split; [reflexivity|lia]|].
  destruct (n <? 256); [eexists; eexists; split; [reflexivity|lia]|].
  destruct (n <? 65536); [eexists; eexists; split; [reflexivity|lia]|].
  destruct (n <? 4294967296); eexists; eexists; (split; [reflexivity|lia]).
Qed.

Lemma encode_item_starts it : starts_ok (encode_item it).
Proof.
  destruct it as [n|n|b|cs|b|cs|d xs|d kvs|t x|n|w v]; cbn [encode_item];
    try (apply encode_head_starts; lia);
    try (rewrite <- (app_nil_r (encode_head _ _)); apply encode_head_starts; lia);
    try (eexists; eexists; split; [reflexivity|lia]).
  - destruct d; [apply encode_head_starts; lia|eexists; eexists; split; [reflexivity|lia]].
  - destruct d; [apply encode_head_starts; lia|eexists; eexists; split; [reflexivity|lia]].
  - destruct w; cbn [fwidth_bytes encode_head_w]; eexists; eexists; (split; [reflexivity|lia]).
Qed.

Lemma flat_map_length_ge {A} (enc : A -> bytes) xs :
  Forall (fun x => enc x <> []) xs -> (length xs <= length (flat_map enc xs))%nat.
Proof.
  induction 1 as [|x xs Hx _ IH]; cbn [flat_map length]; [lia|].
  rewrite app_length. destruct (enc x); [congruence|]. cbn [length]. lia.
Qed.

Lemma guard_true {A} (enc : A -> bytes) xs rest :
  Forall (fun x => enc x <> []) xs -> (len xs <=? len (flat_map enc xs ++ rest)) = true.
Proof.
  intros H. apply flat_map_length_ge in H. unfold len. rewrite app_length. lia.
Qed.

Definition rt_elem {A} (p : parser A) (enc : A -> bytes) (x : A) : Prop :=
  (forall rest, p (enc x ++ rest) = Ok (x, rest)) /\ starts_ok (enc x).

Lemma rt_length {A} (p : parser A) (enc : A -> bytes) xs :
  Forall (rt_elem p enc) xs -> (length xs <= length (flat_map enc xs))%nat.
Proof.
  intros H. apply flat_map_length_ge. eapply Forall_impl; [|exact H]. intros x [_ (b & t & -> & _)]. discriminate.
Qed.

Lemma parse_n_rt {A} (p : parser A) (enc : A -> bytes) xs rest : Forall (rt_elem p enc) xs ->
  parse_n p (length xs) (flat_map enc xs ++ rest) = Ok (xs, rest).
Proof.
  induction 1 as [|x xs [Hx _] _ IH]; cbn [length parse_n flat_map app]; [reflexivity|].
  rewrite <- app_assoc, Hx. cbn [bind]. rewrite IH. reflexivity.
Qed.

Lemma parse_until_break_rt_k {A} (p : parser A) (enc : A -> bytes) xs rest :
  Forall (rt_elem p enc) xs ->
  forall k, (length xs <= k)%nat -> parse_until_break p k (flat_map enc xs ++ 255 :: rest) = Ok (xs, rest).
Proof.
  induction 1 as [|x xs [Hx [b [t [E Hb]]]] _ IH]; intros k Hk.
  - cbn [flat_map app]. apply parse_until_break_nil.
  - destruct k as [|k]; [cbn [length] in Hk; lia|]. cbn [flat_map]. rewrite <- app_assoc.
    specialize (Hx (flat_map enc xs ++ 255 :: rest)). rewrite E in *. cbn [app] in *.
    rewrite parse_until_break_step by exact Hb. rewrite Hx. cbn [bind].
    rewrite IH by (cbn [length] in Hk; lia). reflexivity.
Qed.

Lemma parse_until_break_rt {A} (p : parser A) (enc : A -> bytes) xs rest :
  Forall (rt_elem p enc) xs ->
  parse_until_break p (length (flat_map enc xs ++ 255 :: rest)) (flat_map enc xs ++ 255 :: rest) = Ok (xs, rest).
Proof.
  intros H. apply parse_until_break_rt_k; [exact H|]. rewrite app_length. pose proof (rt_length _ _ _ H). lia.
Qed.

Lemma parse_chunk_rt m c rest : len c < two64 ->
  parse_chunk m ((encode_head m (len c) ++ c) ++ rest) = Ok (c, rest).
Proof.
  intros Hl. unfold parse_chunk. rewrite <- app_assoc, decode_encode_head by exact Hl.
  rewrite N.eqb_refl. apply take_bytes_app. reflexivity.
Qed.

Lemma chunks_rt m cs : m <= 7 -> forallb chunk_ok cs = true ->
  Forall (rt_elem (parse_chunk m) (fun c => encode_head m (len c) ++ c)) cs.
Proof.
  intros Hm H. rewrite forallb_forall in H. apply Forall_forall. intros c Hin. apply H in Hin.
  unfold chunk_ok in Hin. apply andb_true_iff in Hin as [_ Hl]. apply N.ltb_lt in Hl.
  split; [intros rest; apply parse_chunk_rt, Hl|apply encode_head_starts, Hm].
Qed.

Lemma depth_in x xs : In x xs ->
  (item_depth x <= fold_right (fun x acc => Nat.max (item_depth x) acc) O xs)%nat.
Proof.
  induction xs as [|y ys IH]; [intros []|]. cbn [fold_right]. intros [->|Hin]; [lia|].
  specialize (IH Hin). lia.
Qed.

Lemma depth_in_pair kv kvs : In kv kvs ->
  (Nat.max (item_depth (fst kv)) (item_depth (snd kv)) <=
   fold_right (fun kv acc => match kv with (k, v) => Nat.max (Nat.max (item_depth k) (item_depth v)) acc end) O kvs)%nat.
Proof.
  induction kvs as [|[k v] ys IH]; [intros []|]. cbn [fold_right]. intros [<-|Hin]; [cbn [fst snd]; lia|].
  specialize (IH Hin). lia.
Qed.

Lemma decode_float w v rest : item_ok (IFloat w v) = true ->
  decode_head (encode_head_w 7 v (fwidth_bytes w) ++ rest) = Some (7, Arg v, rest).
Proof.
  intros H. destruct w; cbn [item_ok] in H; apply N.ltb_lt in H.
  - apply (decode_head_payload 7 25 2); [reflexivity|exact H].
  - apply (decode_head_payload 7 26 4); [reflexivity|exact H].
  - apply (decode_head_payload 7 27 8); [reflexivity|exact H].
Qed.

(* a definite container: the count never exceeds the bytes that follow, then the elements one by one *)
Lemma parse_counted_rt {A B} (p : parser A) (enc : A -> bytes) (K : list A -> B) xs rest : Forall (rt_elem p enc) xs ->
  (if len xs <=? len (flat_map enc xs ++ rest)
   then let* '(ys, r) := parse_n p (N.to_nat (len xs)) (flat_map enc xs ++ rest) in Ok (K ys, r) else Err)
  = Ok (K xs, rest).
Proof.
  intros HF. pose proof (rt_length _ _ _ HF) as Hl.
  rewrite (proj2 (N.leb_le _ _)) by (unfold len; rewrite app_length; lia).
  unfold len at 1. rewrite Nat2N.id, parse_n_rt by exact HF. reflexivity.
Qed.

Lemma rt_elem_pair p k v :
  rt_elem p encode_item k -> rt_elem p encode_item v -> rt_elem (parse_pair p) encode_pair (k, v).
Proof.
  intros [Hk [b [t [E Hb]]]] [Hv _]. split.
  - intros rest. unfold parse_pair, encode_pair. rewrite <- app_assoc, Hk. cbn [bind]. rewrite Hv. reflexivity.
  - unfold encode_pair. rewrite E. exists b, (t ++ encode_item v). split; [reflexivity|exact Hb].
Qed.

(* parse (print it ++ rest) = (it, rest) for every encodable item, with fuel >= nesting depth *)
Theorem parse_item_encode : forall it, item_ok it = true ->
  forall f rest, (item_depth it <= f)%nat -> parse_item f (encode_item it ++ rest) = Ok (it, rest).
Proof.
  induction it as [n|n|b|cs|b|cs|d xs IH|d kvs IH|t x IH|n|w v] using item_ind2; intros Hok f rest Hd;
    (destruct f as [|f]; [cbn [item_depth] in Hd; lia|]); cbn [parse_item];
    cbn [item_ok] in Hok; cbn [encode_item].
  (* integers *)
  1, 2: (apply N.ltb_lt in Hok; rewrite parse_body_enc by exact Hok; reflexivity).
  (* definite strings *)
  1, 3: (unfold chunk_ok in Hok; apply andb_true_iff in Hok as [_ Hl]; apply N.ltb_lt in Hl;
         rewrite <- app_assoc, parse_body_enc by exact Hl;
         unfold parse_after; cbn [major_of]; rewrite take_bytes_app by reflexivity; reflexivity).
  - cbn [app]. rewrite <- app_assoc. cbn [app].
    rewrite (parse_body_head _ (95 :: _) 2 Indef _ eq_refl). unfold parse_after. cbn [major_of].
    unfold encode_chunks. rewrite parse_until_break_rt by (apply chunks_rt; [lia|exact Hok]). reflexivity.
  - cbn [app]. rewrite <- app_assoc. cbn [app].
    rewrite (parse_body_head _ (127 :: _) 3 Indef _ eq_refl). unfold parse_after. cbn [major_of].
    unfold encode_chunks. rewrite parse_until_break_rt by (apply chunks_rt; [lia|exact Hok]). reflexivity.
  - (* array *)
    apply andb_true_iff in Hok as [Hl Hall]. cbn [item_depth] in Hd.
    assert (HF : Forall (rt_elem (parse_item f) encode_item) xs).
    { rewrite forallb_forall in Hall. rewrite Forall_forall in IH. apply Forall_forall. intros x Hin. split.
      - intros rest'. apply IH; [exact Hin|apply Hall, Hin|]. pose proof (depth_in x xs Hin). lia.
      - apply encode_item_starts. }
    destruct d.
    + apply N.ltb_lt in Hl. rewrite <- app_assoc, parse_body_enc by exact Hl.
      unfold parse_after. cbn [major_of]. apply parse_counted_rt, HF.
    + cbn [app]. rewrite <- app_assoc. cbn [app].
      rewrite (parse_body_head _ (159 :: _) 4 Indef _ eq_refl). unfold parse_after. cbn [major_of].
      rewrite parse_until_break_rt by exact HF. reflexivity.
  - (* map *)
    apply andb_true_iff in Hok as [Hl Hall]. cbn [item_depth] in Hd.
    change (flat_map _ kvs) with (flat_map encode_pair kvs).
    assert (HF : Forall (rt_elem (parse_pair (parse_item f)) encode_pair) kvs).
    { rewrite forallb_forall in Hall. rewrite Forall_forall in IH. apply Forall_forall. intros [k v] Hin.
      pose proof (depth_in_pair _ _ Hin) as Hdp. cbn [fst snd] in Hdp.
      specialize (Hall _ Hin). cbn beta iota in Hall. apply andb_true_iff in Hall as [Hk Hv].
      destruct (IH _ Hin) as [IHk IHv]. cbn [fst snd] in IHk, IHv.
      apply rt_elem_pair; (split; [intros rest'|apply encode_item_starts]).
      + apply IHk; [exact Hk|lia].
      + apply IHv; [exact Hv|lia]. }
    destruct d.
    + apply N.ltb_lt in Hl. rewrite <- app_assoc, parse_body_enc by exact Hl.
      unfold parse_after. cbn [major_of]. apply parse_counted_rt, HF.
    + cbn [app]. rewrite <- app_assoc. cbn [app].
      rewrite (parse_body_head _ (191 :: _) 5 Indef _ eq_refl). unfold parse_after. cbn [major_of].
      rewrite parse_until_break_rt by exact HF. reflexivity.
  - (* tag *)
    apply andb_true_iff in Hok as [Hl Hx]. apply N.ltb_lt in Hl. cbn [item_depth] in Hd.
    rewrite <- app_assoc, parse_body_enc by exact Hl.
    unfold parse_after. cbn [major_of]. rewrite IH by (try exact Hx; lia). reflexivity.
  - (* simple *)
    assert (Hl : n < two64) by (unfold two64; lia).
    rewrite parse_body_enc by exact Hl.
    unfold parse_after. cbn [major_of]. cbv zeta. unfold encode_head.
    destruct (n <? 24) eqn:E1.
    + cbn [app hd]. destruct (initial_byte 7 n ltac:(lia)) as [_ ->]. rewrite E1. reflexivity.
    + destruct (n <? 256) eqn:E2; [|lia]. cbn [app hd].
      change ((7 * 32 + 24) mod 32) with 24. change (24 <? 24) with false. change (24 =? 24) with true. cbv iota.
      destruct (n <? 32) eqn:E3; [lia|reflexivity].
  - (* float *)
    assert (Hf : item_ok (IFloat w v) = true) by exact Hok.
    rewrite (parse_body_head _ _ _ _ _ (decode_float w v rest Hf)). destruct w; reflexivity.
Qed.

Theorem parse_one_encode it rest : item_ok it = true -> parse_one (encode_item it ++ rest) = Ok (it, rest).
Proof.
  intros Hok. exact (parse_item_one _ _ _ (parse_item_encode it Hok (item_depth it) rest (Nat.le_refl _))).
Qed.

Corollary parse_exact_encode it : item_ok it = true -> parse_exact (encode_item it) = Ok it.
Proof.
  intros Hok. unfold parse_exact. rewrite <- (app_nil_r (encode_item it)), parse_one_encode by exact Hok. reflexivity.
Qed.

Corollary item_wf_encode it : item_ok it = true -> item_wf (encode_item it) = true.
Proof. intros Hok. unfold item_wf. rewrite parse_exact_encode by exact Hok. reflexivity. Qed.

Corollary skip_item_encode it rest : item_ok it = true ->
  skip_item (encode_item it ++ rest) = Ok (encode_item it, rest).
Proof. intros Hok. apply skip_item_parse. exists it. split; [apply parse_one_encode, Hok|reflexivity]. Qed.

Lemma list_eqb_cons {A} (eqb : A -> A -> bool) x t1 y t2 :
  list_eqb eqb (x :: t1) (y :: t2) = eqb x y && list_eqb eqb t1 t2.
Proof. reflexivity. Qed.

Lemma list_eqb_eq {A} (eqb : A -> A -> bool) :
  (forall x y, eqb x y = true <-> x = y) -> forall l1 l2, list_eqb eqb l1 l2 = true <-> l1 = l2.
Proof.
  intros He. induction l1 as [|x t1 IH]; intros [|y t2]; try (split; [discriminate|discriminate]).
  - split; reflexivity.
  - rewrite list_eqb_cons, andb_true_iff, He, IH. split; [intros [-> ->]; reflexivity|intros H; injection H; auto].
Qed.

Lemma bytes_eqb_eq a b : bytes_eqb a b = true <-> a = b.
Proof. apply list_eqb_eq. intros x y. apply N.eqb_eq. Qed.

Lemma bytes_eqb_refl a : bytes_eqb a a = true.
Proof. apply bytes_eqb_eq. reflexivity. Qed.

(* heads_shortest: the bytes are exactly the shortest-head printing of the item they parse to *)
Theorem heads_shortest_sound bs : heads_shortest bs = true ->
  exists it, parse_exact bs = Ok it /\ encode_item it = bs.
Proof.
  unfold heads_shortest. destruct (parse_exact bs) as [it| | |]; try discriminate.
  intros H. exists it. split; [reflexivity|apply bytes_eqb_eq, H].
Qed.

Theorem heads_shortest_encode it : item_ok it = true -> heads_shortest (encode_item it) = true.
Proof. intros Hok. unfold heads_shortest. rewrite parse_exact_encode by exact Hok. apply bytes_eqb_refl. Qed.

Theorem canon_bytes3_sound a m c bs : canon_bytes3 a m c bs = true ->
  exists it, parse_exact bs = Ok it /\ encode_item it = bs /\ canon_item3 a m c it = true.
Proof.
  unfold canon_bytes3. destruct (parse_exact bs) as [it| | |]; try discriminate.
  intros H. apply andb_true_iff in H as [H1 H2]. exists it. repeat split; [apply bytes_eqb_eq, H2|exact H1].
Qed.

Theorem canon_bytes3_encode a m c it : item_ok it = true ->
  canon_bytes3 a m c (encode_item it) = canon_item3 a m c it.
Proof.
  intros Hok. unfold canon_bytes3. rewrite parse_exact_encode by exact Hok.
  rewrite bytes_eqb_refl. apply andb_true_r.
Qed.

Corollary canon_bytes_encode a c it : item_ok it = true -> canon_bytes a c (encode_item it) = canon_item a c it.
Proof. apply canon_bytes3_encode. Qed.

Lemma canon_bytes3_wf a m c bs : canon_bytes3 a m c bs = true -> item_wf bs = true.
Proof. intros H. apply canon_bytes3_sound in H as [it [H _]]. unfold item_wf. rewrite H. reflexivity. Qed.

Lemma canon_bytes3_shortest a m c bs : canon_bytes3 a m c bs = true -> heads_shortest bs = true.
Proof.
  unfold canon_bytes3, heads_shortest. destruct (parse_exact bs); try discriminate.
  intros H. apply andb_true_iff in H. tauto.
Qed.

Lemma bytes_okb_ok b : bytes_okb b = true -> bytes_ok b.
Proof.
  unfold bytes_okb, bytes_ok. rewrite forallb_forall, Forall_forall. intros H x Hin. apply N.ltb_lt, H, Hin.
Qed.

Lemma bytes_ok_app a b : bytes_ok a -> bytes_ok b -> bytes_ok (a ++ b).
Proof. intros Ha Hb. apply Forall_app. split; assumption. Qed.

Lemma bytes_ok_flat_map {A} (enc : A -> bytes) xs :
  (forall x, In x xs -> bytes_ok (enc x)) -> bytes_ok (flat_map enc xs).
Proof.
  induction xs as [|x xs IH]; intros H; cbn [flat_map]; [constructor|].
  apply bytes_ok_app; [apply H; left; reflexivity|apply IH; intros y Hy; apply H; right; exact Hy].
Qed.

Lemma bytes_ok_chunks m cs : m < 8 -> forallb chunk_ok cs = true -> bytes_ok (encode_chunks m cs).
Proof.
  intros Hm H. rewrite forallb_forall in H. apply bytes_ok_flat_map. intros c Hin. apply H in Hin.
  unfold chunk_ok in Hin. apply andb_true_iff in Hin as [Hb _].
  apply bytes_ok_app; [apply encode_head_bytes_ok, Hm|apply bytes_okb_ok, Hb].
Qed.

Theorem encode_item_bytes_ok : forall it, item_ok it = true -> bytes_ok (encode_item it).
Proof.
  induction it as [n|n|b|cs|b|cs|d xs IH|d kvs IH|t x IH|n|w v] using item_ind2; intros Hok;
    cbn [item_ok] in Hok; cbn [encode_item].
  (* integers and simple values *)
  1, 2, 10: (apply encode_head_bytes_ok; lia).
  (* definite strings *)
  1, 3: (unfold chunk_ok in Hok; apply andb_true_iff in Hok as [Hb _];
         apply bytes_ok_app; [apply encode_head_bytes_ok; lia|apply bytes_okb_ok, Hb]).
  (* chunked strings *)
  1, 2: (constructor; [lia|]; apply bytes_ok_app; [apply bytes_ok_chunks; [lia|exact Hok]|]; constructor; [lia|constructor]).
  - apply andb_true_iff in Hok as [_ Hall]. rewrite forallb_forall in Hall. rewrite Forall_forall in IH.
    assert (HB : bytes_ok (flat_map encode_item xs)).
    { apply bytes_ok_flat_map. intros x Hin. apply IH; [exact Hin|apply Hall, Hin]. }
    destruct d.
    + apply bytes_ok_app; [apply encode_head_bytes_ok; lia|exact HB].
    + constructor; [lia|]. apply bytes_ok_app; [exact HB|]. constructor; [lia|constructor].
  - apply andb_true_iff in Hok as [_ Hall]. rewrite forallb_forall in Hall. rewrite Forall_forall in IH.
    change (flat_map _ kvs) with (flat_map encode_pair kvs).
    assert (HB : bytes_ok (flat_map encode_pair kvs)).
    { apply bytes_ok_flat_map. intros [k v] Hin. specialize (Hall _ Hin). cbn beta iota in Hall.
      apply andb_true_iff in Hall as [Hk Hv]. destruct (IH _ Hin) as [IHk IHv]. cbn [fst snd] in IHk, IHv.
      unfold encode_pair. apply bytes_ok_app; [apply IHk, Hk|apply IHv, Hv]. }
    destruct d.
    + apply bytes_ok_app; [apply encode_head_bytes_ok; lia|exact HB].
    + constructor; [lia|]. apply bytes_ok_app; [exact HB|]. constructor; [lia|constructor].
  - apply andb_true_iff in Hok as [_ Hx].
    apply bytes_ok_app; [apply encode_head_bytes_ok; lia|apply IH, Hx].
  - destruct w; cbn [fwidth_bytes encode_head_w]; (constructor; [lia|apply be_bytes_ok]).
Qed.

Lemma bytes_ok_okb b : bytes_ok b -> bytes_okb b = true.
Proof.
  unfold bytes_okb, bytes_ok. rewrite forallb_forall, Forall_forall. intros H x Hin. apply N.ltb_lt, H, Hin.
Qed.

Lemma parse_n_length {A} (p : parser A) : forall k bs xs r, parse_n p k bs = Ok (xs, r) -> length xs = k.
Proof. apply parse_n_ind; [reflexivity|]. intros k bs x r1 xs r _ IH. cbn [length]. f_equal. exact IH. Qed.

(* what is parsed from bytes satisfies [Q] *)
Definition pall {A} (Q : A -> Prop) (p : parser A) : Prop :=
  forall bs x r, p bs = Ok (x, r) -> bytes_ok bs -> Q x.

Lemma all_step {A} (Q : A -> Prop) (p : parser A) : psuffix p -> pall Q p ->
  forall bs x r1 xs, p bs = Ok (x, r1) -> (bytes_ok r1 -> Forall Q xs) -> bytes_ok bs -> Forall Q (x :: xs).
Proof.
  intros Hp HQ bs x r1 xs H1 IH Hok. constructor; [exact (HQ _ _ _ H1 Hok)|].
  apply Hp in H1 as [pre [-> _]]. apply bytes_ok_app_inv in Hok as [_ Hok]. exact (IH Hok).
Qed.

Lemma parse_n_all {A} (Q : A -> Prop) (p : parser A) : psuffix p -> pall Q p -> forall k, pall (Forall Q) (parse_n p k).
Proof.
  intros Hp HQ. unfold pall. apply (parse_n_ind p (fun _ bs xs _ => bytes_ok bs -> Forall Q xs)); [constructor|].
  intros k bs x r1 xs r. apply (all_step Q p Hp HQ).
Qed.

Lemma parse_until_break_all {A} (Q : A -> Prop) (p : parser A) : psuffix p -> pall Q p ->
  forall k, pall (Forall Q) (parse_until_break p k).
Proof.
  intros Hp HQ. unfold pall. apply (parse_until_break_ind p (fun bs xs _ => bytes_ok bs -> Forall Q xs)); [constructor|].
  intros b t x r1 xs r _. apply (all_step Q p Hp HQ).
Qed.

Lemma take_bytes_chunk_ok n bs s r : bytes_ok bs -> n < two64 -> take_bytes n bs = Ok (s, r) -> chunk_ok s = true.
Proof.
  intros Hok Hn H. apply take_bytes_ok in H as [-> Hl]. apply bytes_ok_app_inv in Hok as [Hs _].
  unfold chunk_ok. rewrite (bytes_ok_okb _ Hs), Hl. cbn [andb]. apply N.ltb_lt, Hn.
Qed.

Lemma parse_chunk_ok m : pall (fun c => chunk_ok c = true) (parse_chunk m).
Proof.
  intros bs c r H Hok. unfold parse_chunk in H.
  destruct (decode_head bs) as [[[m' [n|]] r0]|] eqn:Hd; try discriminate.
  destruct (m' =? m); [|discriminate].
  exact (take_bytes_chunk_ok n r0 c r (decode_head_rest_ok _ _ _ _ Hok Hd) (decode_head_arg_lt _ _ _ _ Hok Hd) H).
Qed.

Definition pok : parser item -> Prop := pall (fun x => item_ok x = true).

Lemma parse_pair_ok p : psuffix p -> pok p ->
  pall (fun kv => (let '(k, v) := kv in item_ok k && item_ok v) = true) (parse_pair p).
Proof.
  intros Hp Hq bs [k v] r H Hok. unfold parse_pair in H.
  apply bind_ok in H as [[k' r1] [H1 H]]. apply bind_ok in H as [[v' r2] [H2 H]]. injection H as <- <- _.
  rewrite (Hq _ _ _ H1 Hok). apply Hp in H1 as [pre [-> _]]. apply bytes_ok_app_inv in Hok as [_ Hok].
  exact (Hq _ _ _ H2 Hok).
Qed.

Lemma parse_body_ok p : pstrong p -> pok p -> pok (parse_body p).
Proof.
  intros Hs Hq bs x r H Hok. pose proof (pstrong_suffix _ Hs) as Hp.
  pose proof (pstrong_suffix _ (parse_pair_strong _ Hs)) as Hpp. pose proof (parse_pair_ok p Hp Hq) as Hpair.
  unfold parse_body in H. destruct bs as [|b0 t]; [discriminate|].
  destruct (decode_head (b0 :: t)) as [[[m a] r0]|] eqn:Hd; [|discriminate].
  pose proof (decode_head_rest_ok _ _ _ _ Hok Hd) as Hr.
  assert (Hn : forall n, a = Arg n -> n < arg_bound (b0 mod 32) /\ n < two64).
  { intros n ->. pose proof (decode_head_bound _ _ _ _ _ Hok Hd). pose proof (arg_bound_le (b0 mod 32)). lia. }
  pose proof (parse_after_simple p b0 m) as Hsimple. unfold parse_after in H, Hsimple.
  destruct (major_of m) as [[]|]; destruct a as [n|]; try discriminate;
    try (destruct (Hn n eq_refl) as [Hb Hn64]; apply N.ltb_lt in Hn64).
  (* integers *)
  1, 2: (injection H as <- _; exact Hn64).
  (* definite strings *)
  1, 3: (apply bind_ret_ok in H as (s & H1 & ->); apply N.ltb_lt in Hn64; exact (take_bytes_chunk_ok _ _ _ _ Hr Hn64 H1)).
  (* definite arrays and maps: as many elements as the head announced *)
  3, 5: (destruct (n <=? len r0); [|discriminate]; apply bind_ret_ok in H as (s & H1 & ->); cbn [item_ok];
         unfold len; rewrite (parse_n_length _ _ _ _ _ H1), N2Nat.id, Hn64;
         apply Forall_forallb; eapply parse_n_all; [| |exact H1|exact Hr]; assumption).
  (* chunked strings, indefinite arrays and maps *)
  1-4: (apply bind_ret_ok in H as (s & H1 & ->); apply Forall_forallb;
        eapply parse_until_break_all; [| |exact H1|exact Hr]; auto using parse_chunk_suffix, parse_chunk_ok).
  - apply bind_ret_ok in H as (y & H1 & ->). cbn [item_ok]. rewrite Hn64. exact (Hq _ _ _ H1 Hr).
  - rewrite Hsimple in H by reflexivity. clear Hsimple. apply N.ltb_lt in Hn64. unfold simple_item, arg_bound in *.
    destruct (b0 mod 32 <? 24); [injection H as <- _; cbn [item_ok]; lia|].
    destruct (b0 mod 32 =? 24).
    { destruct (n <? 32) eqn:E3; [discriminate|]. injection H as <- _; cbn [item_ok]; lia. }
    destruct (b0 mod 32 =? 25); [injection H as <- _; cbn [item_ok]; lia|].
    destruct (b0 mod 32 =? 26); injection H as <- _; cbn [item_ok]; lia.
Qed.

(* every item parsed from a string of bytes is encodable; with parse_item_encode: parsing the
   shortest-head re-encoding of a parsed item gives the same item back *)
Theorem parse_item_ok f bs it rest : bytes_ok bs -> parse_item f bs = Ok (it, rest) -> item_ok it = true.
Proof.
  intros Hok H. revert bs it rest H Hok. induction f as [|f IH]; [discriminate|].
  exact (parse_body_ok _ (parse_item_strong f) IH).
Qed.

Corollary parse_exact_item_ok bs it : bytes_ok bs -> parse_exact bs = Ok it -> item_ok it = true.
Proof. intros Hok H. apply parse_exact_ok in H. apply (parse_item_ok _ _ _ _ Hok H). Qed.

Corollary parse_exact_reencode bs it : bytes_ok bs -> parse_exact bs = Ok it ->
  parse_exact (encode_item it) = Ok it.
Proof. intros Hok H. apply parse_exact_encode, (parse_exact_item_ok _ _ Hok H). Qed.

(* indefinite array [1, [2, 3]] : 9f 01 82 02 03 ff *)
Example ex_indef_array :
  parse_one [159; 1; 130; 2; 3; 255] = Ok (IArray false [IUint 1; IArray true [IUint 2; IUint 3]], []).
Proof. vm_compute. reflexivity. Qed.

(* chunked byte string 5f 42 01 02 41 03 ff followed by one more byte *)
Example ex_chunked_bytes :
  parse_one [95; 66; 1; 2; 65; 3; 255; 7] = Ok (IBytesChunked [[1; 2]; [3]], [7]).
Proof. vm_compute. reflexivity. Qed.

Example ex_skip_chunked :
  skip_item [95; 66; 1; 2; 65; 3; 255; 7] = Ok ([95; 66; 1; 2; 65; 3; 255], [7]).
Proof. vm_compute. reflexivity. Qed.

(* tag 258 set: d9 01 02 81 01 *)
Example ex_tag_258 : parse_exact [217; 1; 2; 129; 1] = Ok (ITag 258 (IArray true [IUint 1])).
Proof. vm_compute. reflexivity. Qed.

(* nested map {1: {2: 3}, 4: []} *)
Example ex_nested_map :
  parse_exact [162; 1; 161; 2; 3; 4; 128] =
  Ok (IMap true [(IUint 1, IMap true [(IUint 2, IUint 3)]); (IUint 4, IArray true [])]).
Proof. vm_compute. reflexivity. Qed.

Example ex_lookup :
  match parse_exact [162; 1; 161; 2; 3; 4; 128] with
  | Ok m => map_lookup_uint 4 m = Some (IArray true []) /\ uint_keys m = Some [1; 4]
  | _ => False
  end.
Proof. vm_compute. split; reflexivity. Qed.

(* ill-formed inputs: truncated map, lone break, break in value position, indefinite chunk inside a chunked
   string, text chunk inside a chunked byte string, reserved additional info, f8 with a value < 32,
   2^64-1 element array with one byte left, empty input, truncated head, indefinite array without break,
   array with too few elements, tag without content *)
Example ex_ill_formed :
  map item_wf [[162; 1; 161; 2; 3; 4]; [255]; [191; 1; 255]; [95; 95; 255; 255]; [95; 97; 65; 255];
               [28]; [29]; [30]; [248; 31]; [155; 255; 255; 255; 255; 255; 255; 255; 255; 1]; []; [25; 1];
               [159; 1]; [130; 1]; [192]]
  = repeat false 15.
Proof. vm_compute. reflexivity. Qed.

Example ex_err_not_oof : parse_one [162; 1; 161; 2; 3; 4] = Err.
Proof. vm_compute. reflexivity. Qed.

(* well-formed but not shortest / not definite *)
Example ex_canon :
  (heads_shortest [24; 1], heads_shortest [24; 24], item_wf [24; 1],
   canon_bytes false false [159; 1; 255], canon_bytes true false [159; 1; 255],
   canon_bytes true false [95; 65; 1; 255], canon_bytes true true [95; 65; 1; 255],
   canon_bytes true true [191; 1; 2; 255], canon_bytes3 false true false [191; 1; 2; 255])
  = (false, true, true, false, true, false, true, false, true).
Proof. vm_compute. reflexivity. Qed.

(* floats, simple values, negative integers, nesting budget *)
Example ex_misc :
  parse_exact [249; 60; 0] = Ok (IFloat F16 15360) /\ parse_exact [246] = Ok (ISimple 22) /\
  parse_exact [248; 32] = Ok (ISimple 32) /\ parse_exact [56; 99] = Ok (INint 99) /\
  as_int (INint 99) = Some (-100)%Z /\
  parse_item 2 [129; 129; 129; 1] = OutOfFuel /\
  parse_item 4 [129; 129; 129; 1] = Ok (IArray true [IArray true [IArray true [IUint 1]]], []).
Proof. vm_compute. repeat split; reflexivity. Qed.

(* non-vacuity of the round-trip premises on a value using every constructor *)
Definition ex_item : item :=
  ITag 258 (IArray false
    [IMap true [(IUint 1, INint 70000); (IText [97; 98], IBytesChunked [[1; 2]; []; [255]])];
     IMap false [(IBytes [0; 255], ITextChunked [[104]; [105]])];
     ISimple 20; ISimple 255; IFloat F16 15360; IFloat F32 1065353216; IFloat F64 4607182418800017408;
     IUint 18446744073709551615; IArray true []]).
Example ex_item_ok : item_ok ex_item = true /\ canon_item true true ex_item = false /\
  parse_exact (encode_item ex_item) = Ok ex_item /\ heads_shortest (encode_item ex_item) = true /\
  skip_item (encode_item ex_item ++ [1; 2; 3]) = Ok (encode_item ex_item, [1; 2; 3]).
Proof.
  assert (Hok : item_ok ex_item = true) by (vm_compute; reflexivity).
  split; [exact Hok|]. split; [vm_compute; reflexivity|].
  split; [apply parse_exact_encode, Hok|]. split; [apply heads_shortest_encode, Hok|apply skip_item_encode, Hok].
Qed.

Print Assumptions parse_item_suffix.
Print Assumptions skip_item_exact.
Print Assumptions parse_item_no_panic.
Print Assumptions parse_item_fuel_mono.
Print Assumptions parse_item_fuel_enough.
Print Assumptions parse_item_encode.
Print Assumptions parse_item_prefix_free.
Print Assumptions skip_item_slice.
Print Assumptions canon_bytes3_encode.
Print Assumptions encode_item_bytes_ok.
Print Assumptions parse_item_ok.
