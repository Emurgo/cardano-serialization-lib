(* The decoder as the library really behaves on repeated / unordered container entries, and the domain it lands in.

   [Codec/Schema.v]'s [dec] reads the wire shape only.  What the Rust decoders do with the entries of a container
   depends on the container kind (rust/src/serialization/**, C16 proved the behaviour on repeats for the set types):
     * set types (TransactionInputs, Certificates, Ed25519KeyHashes, Credentials, Vkeywitnesses, BootstrapWitnesses,
       VotingProposals, witness-set script / datum sets): `add_move` of every item - a repeated item is dropped
       SILENTLY, the first occurrence stays, order of first occurrences is kept            -> [dedup_first]
     * maps backed by a BTreeMap (MultiAsset, Assets, MintAssets, Costmdls, VotingProcedures, Committee members, ...):
       entries are inserted, a repeated key is a DuplicateKey error, iteration (= re-encoding) is in key order
                                                                                             -> [sort_strict]
     * maps backed by a LinkedHashMap (Withdrawals, metadata maps, ProposedProtocolParameterUpdates, MIR, aux-data set):
       insertion order is kept, a repeated key is a DuplicateKey error                       -> [nodupb] check
     * maps backed by a Vec of pairs (Mint, Redeemers in map form, PlutusMap): everything is kept (KMulti)
     * map-structs: duplicate keys are rejected by the key loop ([dec_kl] already does).
   [canon s v] applies exactly that to a value read by [dec]; [sdec s] = [dec s] followed by [canon s] is the decoder
   C01_dec_sound and its companions (Props/C01.v, from the two halves proved in SchemaSoundProofs.v) speak about:
   sdec s bs = Ok (v, rest) -> wfv s v   (decoder soundness), hence
   sdec s (enc s v ++ rest') = Ok (v, rest')  for every decoded v  (decode-then-encode is idempotent).
   Two checks of [canon] never fire on real input and only spare the proofs a size argument: a .cbor-in-bytes item whose
   re-encoding would be 2^64 bytes long, and an OptNE field that is empty after normalisation (dropping repeats or sorting
   never empties a collection; [dec_kl] has already rejected an empty one).
   Model definitions only. *)
From CSL Require Import Base.Prelude Cbor.Head Codec.Schema.
Local Open Scope N_scope.

Definition beqb (a b : bytes) : bool := if list_eq_dec N.eq_dec a b then true else false.

(* first occurrences, in order (C16: `add_move` keeps the first of equal items) *)
Fixpoint dedup_first {A} (key : A -> bytes) (l : list A) : list A :=
  match l with
  | [] => []
  | x :: t => x :: filter (fun y => negb (beqb (key x) (key y))) (dedup_first key t)
  end.

(* BTreeMap: insertion into the strictly sorted list; an equal key is an error *)
Fixpoint ins_sorted {A} (key : A -> bytes) (x : A) (l : list A) : option (list A) :=
  match l with
  | [] => Some [x]
  | y :: t =>
      if bytes_ltb (key x) (key y) then Some (x :: y :: t)
      else if bytes_ltb (key y) (key x) then
        match ins_sorted key x t with Some t' => Some (y :: t') | None => None end
      else None
  end.
Fixpoint sort_strict {A} (key : A -> bytes) (l : list A) : option (list A) :=
  match l with
  | [] => Some []
  | x :: t => match sort_strict key t with Some t' => ins_sorted key x t' | None => None end
  end.

Fixpoint mapM {A B} (f : A -> option B) (l : list A) : option (list B) :=
  match l with
  | [] => Some []
  | x :: t => match f x, mapM f t with Some y, Some t' => Some (y :: t') | _, _ => None end
  end.
Definition omap {A B} (f : A -> B) (o : option A) : option B := match o with Some a => Some (f a) | None => None end.

Fixpoint canon (s : schema) (v : val) {struct s} : option val :=
  match s, v with
  | SArr fs, VList l => omap VList (canon_sl fs l)
  | SMap fs, VStruct l => omap VStruct (canon_kl fs l)
  | SVar alts, VVar i l => omap (VVar i) (canon_vl alts i l)
  | SArrOf _ s', VList l => omap VList (mapM (canon s') l)
  | SSetOf s', VList l => omap (fun l' => VList (dedup_first (enc s') l')) (mapM (canon s') l)
  | SMapOf _ ord k v', VMap l =>
      match mapM (fun kv => match canon k (fst kv), canon v' (snd kv) with
                            | Some a, Some b => Some (a, b) | _, _ => None end) l with
      | Some l' =>
          match ord with
          | KMulti => Some (VMap l')
          | KInsertion => if nodupb (map (fun kv => enc k (fst kv)) l') then Some (VMap l') else None
          | KBytewise => omap VMap (sort_strict (fun kv => enc k (fst kv)) l')
          | KRewardAddr => omap VMap (sort_strict (fun kv => reward_sort_key (enc k (fst kv))) l')
          end
      | None => None
      end
  | SNullable s', VNull => Some VNull
  | SNullable s', v' => canon s' v'
  | STag _ s', v' => canon s' v'
  | SInBytes s', v' =>
      match canon s' v' with
      | Some w => if N.of_nat (length (enc s' w)) <? two64 then Some w else None
      | None => None
      end
  | SChoice alts, VAlt i v' => omap (VAlt i) (canon_cl alts i v')
  | STagChoice alts, VAlt i v' => omap (VAlt i) (canon_cl alts i v')
  | SArrAny s', VAlt i (VList l) => omap (fun l' => VAlt i (VList l')) (mapM (canon s') l)
  | SNamed _ s', v' => canon s' v'
  | SArrOpt fs o, VAlt O (VList l) => omap (fun l' => VAlt 0 (VList l')) (canon_sl fs l)
  | SArrOpt fs o, VAlt (S O) (VList (x :: l)) =>
      match canon o x, canon_sl fs l with Some x', Some l' => Some (VAlt 1 (VList (x' :: l'))) | _, _ => None end
  | _, v' => Some v'
  end
with canon_sl (fs : slist) (l : list val) {struct fs} : option (list val) :=
  match fs, l with
  | SCons s r, v :: t => match canon s v, canon_sl r t with Some v', Some t' => Some (v' :: t') | _, _ => None end
  | _, l' => Some l'
  end
with canon_kl (fs : klist) (l : list (option val)) {struct fs} : option (list (option val)) :=
  match fs, l with
  | KCons _ p s r, o :: t =>
      match (match o with
             | Some v => match canon s v with
                         | Some w => if (match p with OptNE => is_empty_val w | _ => false end) then None else Some (Some w)
                         | None => None
                         end
             | None => Some None
             end), canon_kl r t with
      | Some o', Some t' => Some (o' :: t')
      | _, _ => None
      end
  | _, l' => Some l'
  end
with canon_vl (alts : vlist) (i : nat) (l : list val) {struct alts} : option (list val) :=
  match alts with
  | ANil => Some l
  | ACons _ fs r => match i with O => canon_sl fs l | S i' => canon_vl r i' l end
  end
with canon_cl (alts : clist) (i : nat) (v : val) {struct alts} : option val :=
  match alts with
  | CNil => Some v
  | CCons _ s r => match i with O => canon s v | S i' => canon_cl r i' v end
  end.

(* the decoder the soundness theorem is about *)
Definition sdec (s : schema) : parser val := fun bs =>
  let* '(v, r) := dec s bs in
  match canon s v with Some v' => Ok (v', r) | None => Err end.

(* what the wire-shape decoder [dec] alone guarantees: [wfv] without the conditions on repeats / order of container
   entries and without the size bound of a .cbor-in-bytes re-encoding *)
Fixpoint wfp (s : schema) (v : val) {struct s} : bool :=
  match s, v with
  | SUint lim, VNat n => n <? lim
  | SNint, VNeg n => n <? two64
  | SBytes lo hi, VBytes b => bytes_okb b && (lo <=? N.of_nat (length b)) && (N.of_nat (length b) <=? hi)
  | SText hi, VText b => bytes_okb b && (N.of_nat (length b) <=? hi)
  | SBool, VBool _ => true
  | SArr fs, VList l => wfp_sl fs l
  | SMap fs, VStruct l => wfp_kl fs l
  | SVar alts, VVar i l => wfp_vl alts i l
  | SArrOf lo s', VList l => forallb (wfp s') l && (lo <=? N.of_nat (length l)) && (N.of_nat (length l) <? two64)
  | SSetOf s', VList l => forallb (wfp s') l && (N.of_nat (length l) <? two64)
  | SMapOf lo ord k v', VMap l =>
      forallb (fun kv => wfp k (fst kv) && wfp v' (snd kv)) l && (lo <=? N.of_nat (length l)) &&
      (N.of_nat (length l) <? two64)
  | SNullable s', VNull => true
  | SNullable s', v' => wfp s' v'
  | STag _ s', v' => wfp s' v'
  | SInBytes s', v' => wfp s' v'
  | SChoice alts, VAlt i v' => wfp_cl alts i v'
  | STagChoice alts, VAlt i v' => wfp_cl alts i v'
  | SArrAny s', VAlt O (VList l) => forallb (wfp s') l && (N.of_nat (length l) <? two64)
  | SArrAny s', VAlt (S O) (VList l) => forallb (wfp s') l
  | SBBytes, VBytes b => bytes_okb b
  | SNamed _ s', v' => wfp s' v'
  | SArrOpt fs o, VAlt O (VList l) => wfp_sl fs l
  | SArrOpt fs o, VAlt (S O) (VList (x :: l)) => wfp_sl fs l && wfp o x
  | _, _ => false
  end
with wfp_sl (fs : slist) (l : list val) {struct fs} : bool :=
  match fs, l with
  | SNil, [] => true
  | SCons s r, v :: t => wfp s v && wfp_sl r t
  | _, _ => false
  end
with wfp_kl (fs : klist) (l : list (option val)) {struct fs} : bool :=
  match fs, l with
  | KNil, [] => true
  | KCons _ p s r, o :: t =>
      (match o with
       | Some v => wfp s v
       | None => match p with Req => false | _ => true end
       end) && wfp_kl r t
  | _, _ => false
  end
with wfp_vl (alts : vlist) (i : nat) (l : list val) {struct alts} : bool :=
  match alts with
  | ANil => false
  | ACons _ fs r => match i with O => wfp_sl fs l | S i' => wfp_vl r i' l end
  end
with wfp_cl (alts : clist) (i : nat) (v : val) {struct alts} : bool :=
  match alts with
  | CNil => false
  | CCons _ s r => match i with O => wfp s v | S i' => wfp_cl r i' v end
  end.

(* the model's side of the implementation -> model direction: the bytes are a complete encoding that the library-faithful
   decoder accepts and that re-encodes to exactly these bytes (by C01_dec_sound the decoded value is in the domain of the
   round-trip theorems, so everything they say applies to it) *)
Definition sdec_accepts (s : schema) (b : bytes) : option bytes :=
  match sdec s b with
  | Ok (v, []) => Some (enc s v)
  | _ => None
  end.
