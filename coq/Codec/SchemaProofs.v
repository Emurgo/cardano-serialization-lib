(* The schema-directed codec: what its parsers do on an encoding and what an accepted run guarantees, lemma by lemma for
   the pieces the decoders are made of (head, byte string, counted run, run until a break, key loop), then the generic
   round-trip theorem: ONE proof for every schema. *)
From CSL Require Import Base.Prelude Cbor.Head Cbor.HeadProofs Codec.Schema.
Local Open Scope N_scope.

Scheme schema_ind' := Induction for schema Sort Prop
  with slist_ind' := Induction for slist Sort Prop
  with klist_ind' := Induction for klist Sort Prop
  with vlist_ind' := Induction for vlist Sort Prop
  with clist_ind' := Induction for clist Sort Prop.
Combined Scheme schema_mutind from schema_ind', slist_ind', klist_ind', vlist_ind', clist_ind'.

Lemma encode_head_first m n : exists c t, encode_head m n = (m * 32 + c) :: t /\ c < 32.
Proof.
  unfold encode_head.
  destruct (n <? 24) eqn:E; [exists n, []; split; [reflexivity|lia]|].
  destruct (n <? 256); [exists 24, (be 1 n); split; [reflexivity|lia]|].
  destruct (n <? 65536); [exists 25, (be 2 n); split; [reflexivity|lia]|].
  destruct (n <? 4294967296); [exists 26, (be 4 n)|exists 27, (be 8 n)]; split; try reflexivity; lia.
Qed.

Lemma encode_head_major m n : exists b t, encode_head m n = b :: t /\ b / 32 = m.
Proof.
  destruct (encode_head_first m n) as (c & t & -> & Hc). exists (m * 32 + c), t. split; [reflexivity|].
  apply (initial_byte m c Hc).
Qed.

Lemma dec_head_m_enc m n rest : n < two64 -> dec_head_m m (encode_head m n ++ rest) = Ok (n, rest).
Proof. intros H. unfold dec_head_m. rewrite decode_encode_head by exact H. rewrite N.eqb_refl. reflexivity. Qed.

Lemma take_bytes_app b rest : take_bytes (N.of_nat (length b)) (b ++ rest) = Ok (b, rest).
Proof.
  unfold take_bytes. rewrite app_length.
  destruct (N.of_nat (length b + length rest) <? N.of_nat (length b)) eqn:E; [lia|].
  rewrite Nat2N.id. rewrite split_at_app by reflexivity. reflexivity.
Qed.

Lemma dec_n_roundtrip {A} (p : parser A) (e : A -> bytes) (l : list A) rest :
  (forall x r, In x l -> p (e x ++ r) = Ok (x, r)) ->
  dec_n p (length l) (concat (map e l) ++ rest) = Ok (l, rest).
Proof.
  induction l as [|x t IH]; intros H; cbn [length dec_n map concat app]; [reflexivity|].
  rewrite <- app_assoc. rewrite H by (left; reflexivity). cbn [bind].
  rewrite IH by (intros y r Hy; apply H; right; exact Hy). reflexivity.
Qed.

Lemma concat_length_ge {A} (e : A -> bytes) (l : list A) :
  (forall x, In x l -> (1 <= length (e x))%nat) -> (length l <= length (concat (map e l)))%nat.
Proof.
  induction l as [|x t IH]; intros H; cbn [map concat length]; [lia|].
  rewrite app_length. specialize (H x (or_introl eq_refl)) as Hx.
  specialize (IH (fun y Hy => H y (or_intror Hy))). lia.
Qed.

Lemma dec_counted_roundtrip {A} (p : parser A) (e : A -> bytes) (l : list A) rest :
  (forall x r, In x l -> p (e x ++ r) = Ok (x, r)) ->
  (forall x, In x l -> (1 <= length (e x))%nat) ->
  dec_counted p (N.of_nat (length l)) (concat (map e l) ++ rest) = Ok (l, rest).
Proof.
  intros H1 H2. unfold dec_counted. rewrite app_length.
  pose proof (concat_length_ge e l H2).
  destruct (N.of_nat (length (concat (map e l)) + length rest) <? N.of_nat (length l)) eqn:E; [lia|].
  rewrite Nat2N.id. apply dec_n_roundtrip. exact H1.
Qed.

Lemma forallb_In {A} (f : A -> bool) l x : forallb f l = true -> In x l -> f x = true.
Proof. intros H Hx. rewrite forallb_forall in H. apply H. exact Hx. Qed.

(* What an accepted run guarantees.
   [psound Inv p P]: on an input that satisfies [Inv], whatever [p] returns satisfies [P], and the rest satisfies [Inv]
   again.  One lemma for each way the decoders are put together (return, sequence, guard, counted run, run until a break),
   so that a decoder is shown sound by the steps by which it is written. *)
Definition psound {A} (Inv : bytes -> Prop) (p : parser A) (P : A -> Prop) : Prop :=
  forall bs x r, Inv bs -> p bs = Ok (x, r) -> P x /\ Inv r.

Section Sound.
Context {Inv : bytes -> Prop}.

Lemma psound_ret {A} (x : A) (P : A -> Prop) : P x -> psound Inv (fun bs => Ok (x, bs)) P.
Proof. intros Px bs y r Hb H. injection H as <- <-. split; assumption. Qed.
Lemma psound_err {A} (P : A -> Prop) : psound Inv (fun _ => Err) P.
Proof. intros bs x r _ H. discriminate. Qed.
Lemma psound_bind {A B} {p : parser A} {f : A -> parser B} {P Q} :
  psound Inv p P -> (forall x, P x -> psound Inv (f x) Q) -> psound Inv (fun bs => let* '(x, r) := p bs in f x r) Q.
Proof.
  intros Hp Hf bs y r Hb H. destruct (p bs) as [[x r1]| | |] eqn:E; try discriminate.
  destruct (Hp _ _ _ Hb E) as [Px Hr]. exact (Hf x Px _ _ _ Hr H).
Qed.
Lemma psound_guard {A} (c : bool) (p : parser A) Q :
  (c = true -> psound Inv p Q) -> psound Inv (fun bs => if c then p bs else Err) Q.
Proof. intros Hp bs y r Hb H. destruct c; [|discriminate]. exact (Hp eq_refl _ _ _ Hb H). Qed.
Lemma psound_weaken {A} {p : parser A} {P Q : A -> Prop} : psound Inv p P -> (forall x, P x -> Q x) -> psound Inv p Q.
Proof. intros Hp HPQ bs x r Hb H. destruct (Hp _ _ _ Hb H) as [Px Hr]. split; [exact (HPQ x Px)|exact Hr]. Qed.

Lemma dec_n_sound {A} {p : parser A} {P} :
  psound Inv p P -> forall n, psound Inv (dec_n p n) (fun l => Forall P l /\ length l = n).
Proof.
  intros Hp. induction n as [|n IH]; cbn [dec_n].
  - apply psound_ret. split; [apply Forall_nil|reflexivity].
  - apply (psound_bind Hp). intros x Px. apply (psound_bind IH). intros xs [Pxs L]. apply psound_ret.
    split; [apply Forall_cons; assumption|cbn [length]; rewrite L; reflexivity].
Qed.
Lemma dec_counted_sound {A} {p : parser A} {P} :
  psound Inv p P -> forall n, psound Inv (dec_counted p n) (fun l => Forall P l /\ N.of_nat (length l) = n).
Proof.
  intros Hp n bs l r Hb. unfold dec_counted. destruct (_ <? _); [discriminate|]. intros H.
  destruct (dec_n_sound Hp _ _ _ _ Hb H) as ([Pl L] & Hr). repeat split; [exact Pl| |exact Hr]. rewrite L. apply N2Nat.id.
Qed.
(* the loop looks at the first byte itself, so the invariant has to survive the loss of one byte *)
Lemma dec_until_break_sound {A} {p : parser A} {P} : (forall b t, Inv (b :: t) -> Inv t) -> psound Inv p P ->
  forall fuel, psound Inv (dec_until_break p fuel) (Forall P).
Proof.
  intros Ht Hp. induction fuel as [|f IH]; intros bs l r Hb; cbn [dec_until_break]; [discriminate|].
  destruct bs as [|b t]; [discriminate|]. destruct (b =? 255).
  - intros H. injection H as <- <-. split; [apply Forall_nil|exact (Ht _ _ Hb)].
  - (* what is left is [psound] of a sequence, taken at the input [b :: t] *)
    revert l r Hb. apply (psound_bind Hp). intros x Px r1 l r Hr H.
    destruct (length r1 <? length (b :: t))%nat; [|discriminate]. revert l r Hr H.
    apply (psound_bind IH). intros xs Pxs. apply psound_ret. apply Forall_cons; assumption.
Qed.
End Sound.

Lemma dec_head_m_decode m bs n r : dec_head_m m bs = Ok (n, r) -> decode_head bs = Some (m, Arg n, r).
Proof.
  unfold dec_head_m. destruct (decode_head bs) as [[[m' [n'|]] r']|]; try discriminate.
  destruct (m' =? m) eqn:E; [|discriminate]. apply N.eqb_eq in E. intros H. injection H as <- <-. rewrite E. reflexivity.
Qed.
Lemma take_bytes_inv n (bs p r : bytes) : take_bytes n bs = Ok (p, r) -> bs = p ++ r /\ N.of_nat (length p) = n.
Proof.
  unfold take_bytes, split_at. destruct (_ <? _); [discriminate|].
  destruct (N.to_nat n <=? length bs)%nat eqn:E; [|discriminate]. apply Nat.leb_le in E.
  intros H. injection H as <- <-. split; [symmetry; apply firstn_skipn|]. rewrite firstn_length. lia.
Qed.

(* The decoders read heads and byte strings under any invariant of the input that is made of bytes and holds of both
   parts of a split. *)
Definition binv (Inv : bytes -> Prop) : Prop :=
  (forall bs, Inv bs -> bytes_ok bs) /\ (forall a b, Inv (a ++ b) -> Inv a /\ Inv b).

Lemma binv_bytes_ok : binv bytes_ok.
Proof. split; [intros bs H; exact H|exact bytes_ok_app_inv]. Qed.

Section Bytes.
Context {Inv : bytes -> Prop} (HI : binv Inv).

Lemma binv_tail b t : Inv (b :: t) -> Inv t.
Proof. intros H. exact (proj2 (proj2 HI [b] t H)). Qed.

(* a parser that starts by reading a head: the argument of the head is below 2^64 *)
Lemma psound_head {A} (f : N -> harg -> parser A) Q :
  (forall m a, (forall n, a = Arg n -> n < two64) -> psound Inv (f m a) Q) ->
  psound Inv (fun bs => match decode_head bs with Some (m, a, r) => f m a r | None => Err end) Q.
Proof.
  intros Hf bs x r Hb H. destruct (decode_head bs) as [[[m a] r0]|] eqn:E; [|discriminate].
  refine (Hf m a _ _ _ _ _ H).
  - intros n ->. exact (decode_head_arg_lt _ _ _ _ (proj1 HI _ Hb) E).
  - destruct (decode_head_suffix _ _ _ _ E) as (pre & -> & _). exact (proj2 (proj2 HI _ _ Hb)).
Qed.
Lemma dec_head_m_sound m : psound Inv (dec_head_m m) (fun n => n < two64).
Proof.
  unfold dec_head_m. apply psound_head. intros m' [n|] Hn; [|apply psound_err].
  apply psound_guard. intros _. apply psound_ret. exact (Hn n eq_refl).
Qed.
Lemma take_bytes_sound n : psound Inv (take_bytes n) (fun p => Inv p /\ N.of_nat (length p) = n).
Proof. intros bs p r Hb H. apply take_bytes_inv in H as [-> L]. apply (proj2 HI) in Hb as [Hp Hr]. repeat split; assumption. Qed.
Lemma dec_chunk_sound : psound Inv dec_chunk Inv.
Proof.
  unfold dec_chunk. apply (psound_bind (dec_head_m_sound 2)). intros n _. apply psound_guard. intros _.
  apply (psound_weaken (take_bytes_sound n)). intros c [Hc _]. exact Hc.
Qed.
(* one step of the key loop of a map structure: the entry under the expected key ([f], after the key, which was read
   out of a head) or none ([g]) *)
Lemma psound_key {A} rem k (f g : parser A) Q : (k < two64 -> psound Inv f Q) -> psound Inv g Q ->
  psound Inv (fun bs =>
    match (if rem =? 0 then None
           else match dec_head_m 0 bs with Ok (k', b1) => if k' =? k then Some b1 else None | _ => None end) with
    | Some b1 => f b1
    | None => g bs
    end) Q.
Proof.
  intros Hf Hg bs x r Hb H. destruct (rem =? 0); [exact (Hg _ _ _ Hb H)|].
  destruct (dec_head_m 0 bs) as [[k' b1]| | |] eqn:E; try exact (Hg _ _ _ Hb H).
  destruct (k' =? k) eqn:Ek; [|exact (Hg _ _ _ Hb H)]. apply N.eqb_eq in Ek. subst k'.
  destruct (dec_head_m_sound 0 _ _ _ Hb E) as [Hk Hr]. exact (Hf Hk _ _ _ Hr H).
Qed.
End Bytes.

(* In the inductions over schemas below and in SchemaSoundProofs.v / SchemaApiProofs.v, the constructors whose case goes
   the same way are treated by one line, selected by goal number among the goals still open at that point (the
   constructors are named above the line); the cases with an argument of their own follow as bullets.
   [case_val wf]: introduce everything and split on the value that the hypothesis [wf s v = true] speaks of. *)
Ltac case_val wf :=
  intros; match goal with H : wf _ ?v = true |- _ => destruct v; try discriminate H end.
(* [case_alt v]: the values of SArrAny and SArrOpt are [VAlt 0 (VList l)] and [VAlt 1 (VList l)]; split [v] down to these two,
   the other forms being excluded by a hypothesis [wf _ v = true]. *)
Ltac case_alt v := destruct v as [| | | | | | | | | |[|[|?]] [| | | | | |l| | | |]]; try discriminate.

Lemma val_eq_null (v : val) : v = VNull \/ v <> VNull.
Proof. destruct v; try (right; discriminate). left; reflexivity. Qed.
Lemma nullable_nn_wfv s w : w <> VNull -> wfv (SNullable s) w = wfv s w.
Proof. destruct w; try reflexivity. congruence. Qed.
Lemma nullable_nn_enc s w : w <> VNull -> enc (SNullable s) w = enc s w.
Proof. destruct w; try reflexivity. congruence. Qed.

(* First byte of an accepted input, hence of an encoding.
   Every decoder begins by looking at the first byte; for most schemas it reads a head of the schema's major type.  So what a
   decoder accepts starts with a byte of that major type, and so does an encoding as soon as the decoder is known to accept it. *)
Definition fm_ok (s : schema) (x : N) : Prop :=
  (forall m, first_major s = Some m -> x = m) /\ (may_start7 s = false -> x <> 7).
Definition fb_ok (s : schema) (bs : bytes) : Prop := exists b t, bs = b :: t /\ fm_ok s (b / 32).

Lemma fm_ok_major s m : first_major s = Some m -> m <> 7 -> fm_ok s m.
Proof. intros E H7. split; [intros m' E'; congruence|intros _; exact H7]. Qed.

Definition pfirst {A} (p : parser A) (M : N -> Prop) : Prop :=
  forall bs x r, p bs = Ok (x, r) -> exists b t, bs = b :: t /\ M (b / 32).

Lemma decode_head_first bs m a r : decode_head bs = Some (m, a, r) -> exists b t, bs = b :: t /\ b / 32 = m.
Proof.
  destruct bs as [|b t]; [discriminate|]. rewrite decode_head_cons. intros H. exists b, t. split; [reflexivity|].
  destruct (b mod 32 <? 24); [injection H as <- _ _; reflexivity|].
  destruct (payload_len (b mod 32)); [destruct (split_at _ t) as [[p r']|]; [injection H as <- _ _; reflexivity|discriminate]|].
  destruct (b mod 32 =? 31); [injection H as <- _ _; reflexivity|discriminate].
Qed.

Lemma pfirst_decode {A} (f : N -> harg -> parser A) (M : N -> Prop) :
  (forall m a bs x r, f m a bs = Ok (x, r) -> M m) ->
  pfirst (fun bs => match decode_head bs with Some (m, a, r) => f m a r | None => Err end) M.
Proof.
  intros Hf bs x r H. destruct (decode_head bs) as [[[m a] r0]|] eqn:E; [|discriminate].
  apply decode_head_first in E as (b & t & -> & <-). exists b, t. split; [reflexivity|exact (Hf _ _ _ _ _ H)].
Qed.
Lemma pfirst_head {A} s m (f : N -> parser A) : first_major s = Some m -> m <> 7 ->
  pfirst (fun bs => let* '(n, r) := dec_head_m m bs in f n r) (fm_ok s).
Proof.
  intros Hm H7 bs x r H. destruct (dec_head_m m bs) as [[n r0]| | |] eqn:E; try discriminate.
  apply dec_head_m_decode, decode_head_first in E as (b & t & -> & <-). exists b, t. split; [reflexivity|].
  apply fm_ok_major; assumption.
Qed.

Definition DF (s : schema) : Prop := pfirst (dec s) (fm_ok s).
Definition DFc (alts : clist) : Prop := forall d pos bs v r, dec_cl alts d pos bs = Ok (v, r) -> has_disc d alts = true.

Lemma dec_first_all :
  (forall s, DF s) /\ (forall fs : slist, True) /\ (forall fs : klist, True) /\ (forall a : vlist, True) /\ (forall a, DFc a).
Proof.
  apply schema_mutind; unfold DF, DFc; try (intros; exact I).
  (* SUint, SNint, SBytes, SText, SArr, SMap, SVar, SArrOf, SSetOf, SMapOf, STag, SInBytes, STagChoice, SArrOpt:
     the decoder starts by reading a head of the schema's major type *)
  1-4, 6-11, 13, 14, 16, 20: (intros; cbn [dec]; apply pfirst_head; [reflexivity|discriminate]).
  - (* SBool *) intros bs v r H. cbn [dec] in H. destruct bs as [|b t]; [discriminate|]. exists b, t. split; [reflexivity|].
    split; [|discriminate]. intros m E. injection E as <-.
    destruct (b =? 244) eqn:E4; [apply N.eqb_eq in E4; subst b; reflexivity|].
    destruct (b =? 245) eqn:E5; [apply N.eqb_eq in E5; subst b; reflexivity|discriminate].
  - (* SNullable *) intros s _ bs v r H. destruct bs as [|b t]; [discriminate|]. exists b, t. split; [reflexivity|].
    split; discriminate.
  - (* SChoice *) intros alts IH bs v r H. destruct bs as [|b t]; [discriminate|]. cbn [dec peek_major] in H.
    exists b, t. split; [reflexivity|]. split; [discriminate|]. cbn [may_start7]. intros H7 E. rewrite E in H.
    rewrite (IH _ _ _ _ _ H) in H7. discriminate.
  - (* SArrAny *) intros s _. cbn [dec]. apply pfirst_decode. intros m a bs v r H.
    destruct (m =? 4) eqn:E; [|destruct a; discriminate]. apply N.eqb_eq in E. subst m. apply fm_ok_major; [reflexivity|discriminate].
  - (* SBBytes *) cbn [dec]. apply pfirst_decode. intros m a bs v r H.
    destruct (m =? 2) eqn:E; [|destruct a; discriminate]. apply N.eqb_eq in E. subst m. apply fm_ok_major; [reflexivity|discriminate].
  - (* SNamed *) intros id s IH. exact IH.
  - (* CNil *) intros d pos bs v r H. discriminate.
  - (* CCons *) intros e s _ r IHr d pos bs v r' H. cbn [dec_cl has_disc] in *. destruct (d =? e); [reflexivity|].
    exact (IHr _ _ _ _ _ H).
Qed.

Lemma dec_first s bs v r : dec s bs = Ok (v, r) -> fb_ok s bs.
Proof. exact (proj1 dec_first_all s bs v r). Qed.

Section Accepted.
Context (s : schema) (v : val) (Hrt : forall rest, dec s (enc s v ++ rest) = Ok (v, rest)).
Lemma first_byte : fb_ok s (enc s v).
Proof. pose proof (Hrt []) as H. rewrite app_nil_r in H. exact (dec_first _ _ _ _ H). Qed.
Lemma enc_nonempty : (1 <= length (enc s v))%nat.
Proof. destruct first_byte as (b & t & -> & _). cbn. lia. Qed.
Lemma enc_not_break : may_start7 s = false -> exists b t, enc s v = b :: t /\ b <> 255.
Proof.
  intros H7. destruct first_byte as (b & t & E & _ & Hn). exists b, t. split; [exact E|].
  intros ->. apply (Hn H7). reflexivity.
Qed.
End Accepted.

Lemma dec_until_break_roundtrip {A} (p : parser A) (e : A -> bytes) (l : list A) :
  forall fuel rest,
  (forall x r, In x l -> p (e x ++ r) = Ok (x, r)) ->
  (forall x, In x l -> exists b t, e x = b :: t /\ b <> 255) ->
  (length (concat (map e l)) < fuel)%nat ->
  dec_until_break p fuel (concat (map e l) ++ 255 :: rest) = Ok (l, rest).
Proof.
  induction l as [|x t IH]; intros fuel rest H1 H2 Hf; (destruct fuel as [|f]; [cbn in Hf; lia|]); [reflexivity|].
  cbn [map concat] in *. rewrite app_length in Hf. rewrite <- app_assoc.
  set (tail := concat (map e t) ++ 255 :: rest).
  pose proof (H1 x tail (or_introl eq_refl)) as Hx.
  destruct (H2 x (or_introl eq_refl)) as (b & tl & Ex & Hb). rewrite Ex in Hx, Hf |- *.
  cbn [app dec_until_break length] in *. rewrite (proj2 (N.eqb_neq _ _) Hb), Hx. cbn [bind].
  rewrite (proj2 (Nat.ltb_lt _ _)) by (rewrite app_length; lia).
  unfold tail. rewrite IH; [reflexivity| | |lia].
  - intros y r Hy. apply H1. right; exact Hy.
  - intros y Hy. apply H2. right; exact Hy.
Qed.

(* fuel = length of the input + 1 is always enough: OutOfFuel is unreachable *)
Lemma dec_until_break_fuel {A} (p : parser A) :
  (forall bs, p bs <> OutOfFuel) ->
  forall fuel bs, (length bs < fuel)%nat -> dec_until_break p fuel bs <> OutOfFuel.
Proof.
  intros Hp. induction fuel as [|f IH]; intros bs Hf; [lia|]. cbn [dec_until_break].
  destruct bs as [|b r]; [discriminate|]. destruct (b =? 255); [discriminate|].
  destruct (p (b :: r)) as [[x r']| | |] eqn:E; cbn [bind]; try discriminate; [|exfalso; exact (Hp _ E)].
  destruct (length r' <? length (b :: r))%nat eqn:El; [|discriminate].
  apply Nat.ltb_lt in El. specialize (IH r' ltac:(lia)).
  destruct (dec_until_break p f r') as [[xs r'']| | |]; cbn [bind]; try discriminate. exact IH.
Qed.

Lemma chunk64_concat fuel : forall b, (length b <= fuel)%nat -> concat (chunk64 fuel b) = b.
Proof.
  induction fuel as [|f IH]; intros b Hb.
  - destruct b; [reflexivity|cbn in Hb; lia].
  - cbn [chunk64]. destruct b as [|x t] eqn:E; [reflexivity|]. rewrite <- E in *.
    cbn [concat]. rewrite IH; [apply firstn_skipn|].
    rewrite skipn_length. subst b. cbn [length] in *. lia.
Qed.

Lemma chunk64_bounds fuel : forall b c, In c (chunk64 fuel b) -> (1 <= length c <= 64)%nat.
Proof.
  induction fuel as [|f IH]; intros b c Hc; [destruct Hc|].
  cbn [chunk64] in Hc. destruct b as [|x t] eqn:E; [destruct Hc|]. rewrite <- E in *.
  destruct Hc as [<-|Hc]; [|exact (IH _ _ Hc)].
  rewrite firstn_length. subst b. cbn [length]. lia.
Qed.

Lemma decode_head_indef_arr r : decode_head (159 :: r) = Some (4, Indef, r).
Proof. reflexivity. Qed.
Lemma decode_head_indef_bytes r : decode_head (95 :: r) = Some (2, Indef, r).
Proof. reflexivity. Qed.

Lemma dec_chunk_enc c r : (length c <= 64)%nat -> dec_chunk (enc_chunk c ++ r) = Ok (c, r).
Proof.
  intros Hc. unfold dec_chunk, enc_chunk. rewrite <- app_assoc.
  rewrite dec_head_m_enc by (unfold two64; lia). cbn [bind].
  destruct (N.of_nat (length c) <=? 64) eqn:E; [|lia]. apply take_bytes_app.
Qed.

Lemma present_wf p s o :
  (match o with
   | Some v => wfv s v && (match p with OptNE => negb (is_empty_val v) | _ => true end)
   | None => match p with Req => false | _ => true end
   end) = true ->
  present p o = match o with Some _ => true | None => false end.
Proof.
  destruct o as [v|]; [|reflexivity]. intros H. apply andb_prop in H as [_ H].
  unfold present. destruct p; try reflexivity. exact H.
Qed.

Lemma count_kl_le fs : forall l, count_kl fs l <= klen fs.
Proof.
  induction fs as [|k p s r IH]; intros l; cbn [count_kl klen]; [lia|].
  destruct l as [|o t]; [lia|]. specialize (IH t). destruct (present p o); lia.
Qed.

Fixpoint key_in (k : N) (fs : klist) : bool :=
  match fs with KNil => false | KCons j _ _ r => (k =? j) || key_in k r end.

Lemma key_fresh_in k j fs : key_fresh k fs = true -> key_in j fs = true -> (j =? k) = false.
Proof.
  induction fs as [|i p s r IH]; cbn [key_fresh key_in]; [discriminate|].
  intros Hf Hi. apply andb_prop in Hf as [Hk Hf]. apply negb_true_iff in Hk.
  apply orb_prop in Hi as [Hi|Hi]; [|exact (IH Hf Hi)].
  destruct (j =? k) eqn:E; [|reflexivity]. lia.
Qed.

Lemma next_key fs : forall l, keys_nodup fs = true -> wfv_kl fs l = true -> count_kl fs l <> 0 ->
  exists k' tail, key_in k' fs = true /\ k' < two64 /\ enc_kl fs l = enc_uint k' ++ tail.
Proof.
  induction fs as [|k p s r IH]; intros l Hk Hv Hc; [cbn in Hc; congruence|].
  destruct l as [|o t]; [cbn in Hv; discriminate|].
  cbn [keys_nodup wfv_kl count_kl enc_kl key_in] in *.
  apply andb_prop in Hk as [Hk Hr]. apply andb_prop in Hk as [Hfr Hk64].
  apply andb_prop in Hv as [Ho Ht].
  rewrite (present_wf p s o Ho) in *.
  destruct o as [v|].
  - exists k, (enc s v ++ enc_kl r t). rewrite N.eqb_refl. repeat split; try lia. rewrite <- app_assoc. reflexivity.
  - destruct (IH t Hr Ht ltac:(lia)) as (k' & tail & Hnk1 & Hnk2 & Hnk3).
    exists k', tail. rewrite Hnk1, orb_true_r. repeat split; try lia. cbn [app]. exact Hnk3.
Qed.

(* The statements of the round trip by mutual induction, one for each sort of the schema syntax.  For the alternatives of a
   variant ([RTv]) and of a choice ([RTc]) the statement carries what the induction over the alternatives needs: alternative [i]
   encodes as head, discriminator, body; the discriminator differs from every one that is fresh for the list ([idx_fresh],
   [disc_fresh]: [wfs] makes the discriminator of an earlier alternative fresh for the later ones, so the decoder passes it by);
   and the decoder started at position [pos] answers [pos + i]. *)
Definition RT (s : schema) : Prop :=
  wfs s = true -> forall v rest, wfv s v = true -> dec s (enc s v ++ rest) = Ok (v, rest).
Definition RTs (fs : slist) : Prop :=
  wfs_sl fs = true -> forall l rest, wfv_sl fs l = true -> dec_sl fs (enc_sl fs l ++ rest) = Ok (l, rest).
Definition RTk (fs : klist) : Prop :=
  wfs_kl fs = true -> keys_nodup fs = true -> forall l rest, wfv_kl fs l = true ->
  dec_kl fs (count_kl fs l) (enc_kl fs l ++ rest) = Ok (l, 0, rest).
Definition RTv (alts : vlist) : Prop :=
  wfs_vl alts = true -> forall i l, wfv_vl alts i l = true ->
  exists idx n body, enc_vl alts i l = encode_head 4 n ++ enc_uint idx ++ body /\ n < two64 /\ idx < two64 /\
    (forall j, idx_fresh j alts = true -> (idx =? j) = false) /\
    forall rest pos, dec_vl alts idx n pos (body ++ rest) = Ok (VVar (pos + i) l, rest).
Definition RTc (alts : clist) : Prop :=
  forall tagged, wfs_cl tagged alts = true -> forall i v, wfv_cl alts i v = true ->
  exists d body, enc_cl tagged alts i v = (if tagged then encode_head 6 d else []) ++ body /\
    (tagged = true -> d < two64) /\
    (tagged = false -> exists b t, body = b :: t /\ b / 32 = d) /\
    (forall e, disc_fresh e alts = true -> (d =? e) = false) /\
    forall rest pos, dec_cl alts d pos (body ++ rest) = Ok (VAlt (pos + i) v, rest).

Ltac split_ands :=
  repeat match goal with
         | H : (_ && _) = true |- _ => apply andb_prop in H; destruct H
         end.
Ltac rw_hyps := repeat match goal with H : ?b = true |- context [?b] => rewrite H end.

Lemma dec_counted_enc s l rest : RT s -> wfs s = true -> forallb (wfv s) l = true ->
  dec_counted (dec s) (N.of_nat (length l)) (concat (map (enc s) l) ++ rest) = Ok (l, rest).
Proof.
  intros IH Hs Hl. assert (H : forall x, In x l -> forall r, dec s (enc s x ++ r) = Ok (x, r)).
  { intros x Hx r. apply IH; [exact Hs|exact (forallb_In _ _ _ Hl Hx)]. }
  apply dec_counted_roundtrip; [intros x r Hx; exact (H x Hx r)|intros x Hx; exact (enc_nonempty s x (H x Hx))].
Qed.

Lemma roundtrip_all : (forall s, RT s) /\ (forall fs, RTs fs) /\ (forall fs, RTk fs) /\ (forall a, RTv a) /\ (forall a, RTc a).
Proof.
  apply schema_mutind; unfold RT, RTs, RTk, RTv, RTc.
  (* SBytes, SText: the head, then the string *)
  3, 4: (case_val wfv; cbn [enc dec wfv wfs] in *; split_ands; rewrite <- app_assoc, dec_head_m_enc by lia; cbn [bind];
         rw_hyps; rewrite take_bytes_app; reflexivity).
  - (* SUint *) intros lim Hs v rest Hv. destruct v; try discriminate. cbn [enc dec wfv wfs] in *.
    assert (n < two64) by lia.
    rewrite dec_head_m_enc by assumption. cbn [bind]. rewrite Hv. reflexivity.
  - (* SNint *) intros _ v rest Hv. destruct v; try discriminate. cbn [enc dec wfv] in *.
    rewrite dec_head_m_enc by lia. reflexivity.
  - (* SBool *) intros _ v rest Hv. destruct v; try discriminate. destruct b; reflexivity.
  - (* SArr *) intros fs IH Hs v rest Hv. destruct v; try discriminate. cbn [enc dec wfv wfs] in *.
    split_ands. rewrite <- app_assoc. rewrite dec_head_m_enc by lia. cbn [bind]. rewrite N.eqb_refl.
    rewrite IH by assumption. reflexivity.
  - (* SMap *) intros fs IH Hs v rest Hv. destruct v; try discriminate. cbn [enc dec wfv wfs] in *.
    split_ands. pose proof (count_kl_le fs l).
    rewrite <- app_assoc. rewrite dec_head_m_enc by lia. cbn [bind].
    rewrite IH by assumption. cbn [bind]. reflexivity.
  - (* SVar *) intros alts IH Hs v rest Hv. destruct v; try discriminate. cbn [enc dec wfv wfs] in *.
    destruct (IH Hs i l Hv) as (idx & n & body & E & Hn & Hi & _ & D). rewrite E.
    rewrite <- !app_assoc. rewrite dec_head_m_enc by assumption. cbn [bind].
    unfold enc_uint. rewrite dec_head_m_enc by assumption. cbn [bind]. rewrite D. reflexivity.
  - (* SArrOf *) intros lo s IH Hs v rest Hv. destruct v; try discriminate. cbn [enc dec wfv wfs] in *.
    split_ands. rewrite <- app_assoc. rewrite dec_head_m_enc by lia. cbn [bind]. rw_hyps.
    rewrite dec_counted_enc by assumption. reflexivity.
  - (* SSetOf *) intros s IH Hs v rest Hv. destruct v; try discriminate. cbn [enc dec wfv wfs] in *.
    split_ands. rewrite <- !app_assoc. rewrite dec_head_m_enc by (unfold two64; lia). cbn [bind].
    change (258 =? 258) with true. cbv iota.
    rewrite dec_head_m_enc by lia. cbn [bind].
    rewrite dec_counted_enc by assumption. reflexivity.
  - (* SMapOf *) intros lo ord k IHk v' IHv Hs v rest Hv. destruct v; try discriminate. cbn [enc dec wfv wfs] in *.
    split_ands. split_ands. rewrite <- app_assoc. rewrite dec_head_m_enc by lia. cbn [bind]. rw_hyps.
    match goal with H : forallb _ l = true |- _ => rename H into Hall end.
    rewrite dec_counted_roundtrip; [reflexivity| |].
    + intros [x y] r Hx. pose proof (forallb_In _ _ _ Hall Hx) as Hxy. cbn [fst snd] in *. split_ands.
      rewrite <- app_assoc. rewrite IHk by assumption. cbn [bind]. rewrite IHv by assumption. reflexivity.
    + intros [x y] Hx. pose proof (forallb_In _ _ _ Hall Hx) as Hxy. cbn [fst snd] in *. split_ands.
      rewrite app_length. assert (1 <= length (enc k x))%nat by (apply enc_nonempty; intros r'; apply IHk; assumption). lia.
  - (* SNullable: an encoding of [s] does not start with the null byte, which has major type 7 *)
    intros s IH Hs v rest Hv. cbn [wfs] in Hs. apply andb_prop in Hs as [Hs H7]. apply negb_true_iff in H7.
    destruct (val_eq_null v) as [->|Hn]; [reflexivity|].
    rewrite nullable_nn_wfv in Hv by exact Hn. rewrite nullable_nn_enc by exact Hn.
    destruct (first_byte s v (fun r => IH Hs v r Hv)) as (b & t & E & _ & Hb). specialize (Hb H7).
    cbn [dec]. rewrite E. cbn [app]. destruct (b =? 246) eqn:E246.
    + exfalso. apply Hb. apply N.eqb_eq in E246. subst b. reflexivity.
    + change (b :: t ++ rest) with ((b :: t) ++ rest). rewrite <- E. apply IH; assumption.
  - (* STag *) intros t s IH Hs v rest Hv. cbn [enc dec wfv wfs] in *. split_ands.
    rewrite <- app_assoc. rewrite dec_head_m_enc by lia. cbn [bind]. rewrite N.eqb_refl. apply IH; assumption.
  - (* SInBytes *) intros s IH Hs v rest Hv. cbn [enc dec wfv wfs] in *. split_ands.
    rewrite <- app_assoc. rewrite dec_head_m_enc by lia. cbn [bind]. rewrite take_bytes_app. cbn [bind].
    rewrite <- (app_nil_r (enc s v)) at 1. rewrite IH by assumption. reflexivity.
  - (* SChoice *) intros alts IH Hs v rest Hv. destruct v; try discriminate. cbn [enc dec wfv wfs] in *.
    destruct (IH false Hs i v Hv) as (d & body & E & _ & Hb & _ & D). rewrite E. cbn [app].
    destruct (Hb eq_refl) as (b & t & -> & Hbd). cbn [app peek_major]. rewrite Hbd.
    change (b :: t ++ rest) with ((b :: t) ++ rest). rewrite D. reflexivity.
  - (* STagChoice *) intros alts IH Hs v rest Hv. destruct v; try discriminate. cbn [enc dec wfv wfs] in *.
    destruct (IH true Hs i v Hv) as (d & body & E & Hd & _ & _ & D). rewrite E.
    rewrite <- app_assoc. rewrite dec_head_m_enc by (apply Hd; reflexivity). cbn [bind]. rewrite D. reflexivity.
  - (* SArrAny *) intros s IH Hs v rest Hv. cbn [wfs] in Hs. apply andb_prop in Hs as [Hs H7]. apply negb_true_iff in H7.
    case_alt v; cbn [enc dec wfv] in *.
    + split_ands. rewrite <- app_assoc. rewrite decode_encode_head by lia. rewrite N.eqb_refl.
      rewrite dec_counted_enc by assumption. reflexivity.
    + cbn [app]. rewrite decode_head_indef_arr. rewrite N.eqb_refl. rewrite <- app_assoc. cbn [app].
      rewrite dec_until_break_roundtrip; [reflexivity| | |].
      * intros x r Hx. apply IH; [assumption|]. eapply forallb_In; eassumption.
      * intros x Hx. apply enc_not_break; [|exact H7]. intros r. apply IH; [assumption|eapply forallb_In; eassumption].
      * rewrite app_length. cbn [length]. lia.
  - (* SBBytes *) intros _ v rest Hv. destruct v; try discriminate. cbn [enc dec].
    destruct (N.of_nat (length b) <=? 64) eqn:E64.
    + rewrite <- app_assoc. rewrite decode_encode_head by (unfold two64; lia). rewrite N.eqb_refl, E64. cbn [andb].
      rewrite take_bytes_app. reflexivity.
    + cbn [app]. rewrite decode_head_indef_bytes. rewrite N.eqb_refl. rewrite <- app_assoc. cbn [app].
      rewrite dec_until_break_roundtrip.
      * cbn [bind]. rewrite chunk64_concat by lia. reflexivity.
      * intros c r Hc. apply dec_chunk_enc. apply (chunk64_bounds _ _ _ Hc).
      * intros c Hc. unfold enc_chunk. destruct (encode_head_major 2 (N.of_nat (length c))) as (b0 & t0 & -> & Hb0).
        exists b0, (t0 ++ c). split; [reflexivity|]. intros ->. discriminate.
      * rewrite app_length. cbn [length]. lia.
  - (* SNamed *) intros id s IH Hs v rest Hv. cbn [enc dec wfs wfv] in *. apply IH; assumption.
  - (* SArrOpt *) intros fs IHfs o IHo Hs v rest Hv. cbn [wfs] in Hs. split_ands.
    case_alt v; cbn [enc dec wfv] in *.
    + rewrite <- app_assoc. rewrite dec_head_m_enc by lia. cbn [bind]. rewrite N.eqb_refl.
      rewrite IHfs by assumption. reflexivity.
    + destruct l as [|x l]; [discriminate|]. split_ands.
      rewrite <- !app_assoc. rewrite dec_head_m_enc by lia. cbn [bind].
      destruct (1 + slen fs =? slen fs) eqn:E; [lia|]. rewrite N.eqb_refl.
      rewrite IHfs by assumption. cbn [bind]. rewrite IHo by assumption. reflexivity.
  - (* SNil *) intros _ l rest Hv. destruct l; [reflexivity|discriminate].
  - (* SCons *) intros s IHs r IHr Hw l rest Hv. cbn [wfs_sl] in Hw. split_ands.
    destruct l as [|v t]; [discriminate|]. cbn [wfv_sl enc_sl dec_sl] in *. split_ands.
    rewrite <- app_assoc. rewrite IHs by assumption. cbn [bind]. rewrite IHr by assumption. reflexivity.
  - (* KNil *) intros _ _ l rest Hv. destruct l; [reflexivity|discriminate].
  - (* KCons *) intros k p s IHs r IHr Hw Hk l rest Hv. cbn [wfs_kl keys_nodup] in *. split_ands. split_ands.
    destruct l as [|o t]; [discriminate|]. cbn [wfv_kl count_kl enc_kl dec_kl] in *. apply andb_prop in Hv as [Ho Ht].
    rewrite (present_wf p s o Ho).
    destruct o as [v|].
    + split_ands.
      destruct (1 + count_kl r t =? 0) eqn:E0; [lia|].
      rewrite <- !app_assoc. unfold enc_uint. rewrite dec_head_m_enc by lia. rewrite N.eqb_refl.
      rewrite IHs by assumption. cbn [bind].
      assert (Hemp : (match p with OptNE => is_empty_val v | _ => false end) = false).
      { destruct p; try reflexivity. apply negb_true_iff. assumption. }
      rewrite Hemp. replace (1 + count_kl r t - 1) with (count_kl r t) by lia.
      rewrite IHr by assumption. reflexivity.
    + cbn [app]. rewrite N.add_0_l.
      assert (Hhere : (if count_kl r t =? 0 then None
                       else match dec_head_m 0 (enc_kl r t ++ rest) with
                            | Ok (k', b1) => if k' =? k then Some b1 else None
                            | _ => None end) = None).
      { destruct (count_kl r t =? 0) eqn:E0; [reflexivity|].
        destruct (next_key r t ltac:(assumption) ltac:(assumption) ltac:(lia)) as (k' & tail & Hnk1 & Hnk2 & Hnk3).
        rewrite Hnk3. rewrite <- app_assoc. unfold enc_uint. rewrite dec_head_m_enc by assumption.
        rewrite (key_fresh_in k k' r) by assumption. reflexivity. }
      rewrite Hhere. destruct p; [discriminate| |];
        rewrite IHr by assumption; reflexivity.
  - (* ANil *) intros _ i l H. discriminate.
  - (* ACons *) intros idx fs IHfs r IHr Hw i l Hv. cbn [wfs_vl] in Hw. split_ands.
    cbn [wfv_vl enc_vl] in *. destruct i as [|i'].
    + exists idx, (1 + slen fs), (enc_sl fs l). repeat split; try lia; try reflexivity.
      * intros j Hj. cbn [idx_fresh] in Hj. apply andb_prop in Hj as [Hj _]. apply negb_true_iff in Hj. rewrite N.eqb_sym. exact Hj.
      * intros rest pos. cbn [dec_vl]. rewrite !N.eqb_refl. rewrite IHfs by assumption.
        cbn [bind]. rewrite Nat.add_0_r. reflexivity.
    + destruct (IHr ltac:(assumption) i' l Hv) as (idx' & n & body & E & Hn & Hi & Hf & D).
      exists idx', n, body. repeat split; try assumption.
      * intros j Hj. cbn [idx_fresh] in Hj. apply andb_prop in Hj as [_ Hj]. apply Hf. assumption.
      * intros rest pos. cbn [dec_vl]. rewrite (Hf idx ltac:(assumption)). rewrite D. rewrite Nat.add_succ_comm. reflexivity.
  - (* CNil *) intros tagged _ i v H. discriminate.
  - (* CCons *) intros d s IHs r IHr tagged Hw i v Hv. cbn [wfs_cl] in Hw. split_ands.
    cbn [wfv_cl enc_cl] in *. destruct i as [|i'].
    + exists d, (enc s v). repeat split.
      * intros ->. lia.
      * intros ->. destruct (first_byte s v (fun r => IHs ltac:(assumption) v r Hv)) as (b & t & E & Hb & _).
        destruct (first_major s) as [m|]; [|discriminate]. specialize (Hb m eq_refl). exists b, t. split; [exact E|]. lia.
      * intros e He. cbn [disc_fresh] in He. apply andb_prop in He as [He _]. apply negb_true_iff in He. rewrite N.eqb_sym. exact He.
      * intros rest pos. cbn [dec_cl]. rewrite N.eqb_refl. rewrite IHs by assumption. cbn [bind].
        rewrite Nat.add_0_r. reflexivity.
    + destruct (IHr tagged ltac:(assumption) i' v Hv) as (d' & body & E & Hd & Hb & Hf & D).
      exists d', body. repeat split; try assumption.
      * intros e He. cbn [disc_fresh] in He. apply andb_prop in He as [_ He]. apply Hf. assumption.
      * intros rest pos. cbn [dec_cl]. rewrite (Hf d ltac:(assumption)). rewrite D. rewrite Nat.add_succ_comm. reflexivity.
Qed.

Theorem schema_roundtrip s v rest :
  wfs s = true -> wfv s v = true -> dec s (enc s v ++ rest) = Ok (v, rest).
Proof. intros Hs Hv. exact (proj1 roundtrip_all s Hs v rest Hv). Qed.

Corollary schema_reencode s v rest v' rest' :
  wfs s = true -> wfv s v = true -> dec s (enc s v ++ rest) = Ok (v', rest') -> enc s v' = enc s v /\ rest' = rest.
Proof. intros Hs Hv H. rewrite schema_roundtrip in H by assumption. injection H as <- <-. split; reflexivity. Qed.
