(* The round trip of API-built values: for every well-formed schema and every API-buildable value
   (an optional collection may be present but empty), decoding the encoding returns the NORMALISED
   value (such fields absent), which re-encodes to the same bytes; the normalisation changes nothing else. *)
From CSL Require Import Base.Prelude Cbor.Head Codec.Schema Codec.SchemaProofs Codec.SchemaApi.
Local Open Scope N_scope.

(* The normalisation keeps the outer shape of a value.  [shape0] is a code of the outer constructor: 1 empty list,
   2 other list, 3 empty map, 4 other map, 8 null, 9 alternative, 0 anything else; [shape] of an alternative is
   10 + the code of its content.  The codes 1, 3, 11, 13 are the values [is_empty_val] accepts. *)
Definition shape0 (v : val) : nat :=
  match v with
  | VList [] => 1 | VList _ => 2 | VMap [] => 3 | VMap _ => 4 | VNull => 8 | VAlt _ _ => 9 | _ => 0
  end%nat.
Definition shape (v : val) : nat :=
  match v with VAlt _ w => (10 + shape0 w)%nat | _ => shape0 v end.

Lemma shape0_of_shape v w : shape v = shape w -> shape0 v = shape0 w.
Proof.
  assert (E : forall x, shape0 x = if (10 <=? shape x)%nat then 9%nat else shape x).
  { intros x. destruct x as [| | | | | |l| | |l|i x]; try reflexivity.
    - destruct l; reflexivity.
    - destruct l; reflexivity. }
  intros H. rewrite !E, H. reflexivity.
Qed.
Lemma is_empty_shape v w : shape v = shape w -> is_empty_val v = is_empty_val w.
Proof.
  intros H.
  assert (E : forall x, is_empty_val x = match shape x with 1 | 3 | 11 | 13 => true | _ => false end%nat).
  { intros x. destruct x as [| | | | | |l| | |l|i x]; try reflexivity.
    - destruct l; reflexivity.
    - destruct l; reflexivity.
    - destruct x as [| | | | | |l| | |l|j y]; try reflexivity; destruct l; reflexivity. }
  rewrite !E, H. reflexivity.
Qed.
Lemma shape_list_len (a b : list val) : length a = length b -> shape (VList a) = shape (VList b).
Proof. destruct a, b; cbn; intros; try reflexivity; discriminate. Qed.
Lemma shape0_list_len (a b : list val) : length a = length b -> shape0 (VList a) = shape0 (VList b).
Proof. destruct a, b; cbn; intros; try reflexivity; discriminate. Qed.
Lemma shape_null v : shape v = shape VNull -> v = VNull.
Proof.
  destruct v as [| | | | | |l| | |l|i x]; cbn; intros H; try discriminate; try reflexivity.
  - destruct l; discriminate.
  - destruct l; discriminate.
Qed.

Definition SH (s : schema) : Prop := forall v, shape (norm s v) = shape v.
Definition SHs (fs : slist) : Prop := forall l, length (norm_sl fs l) = length l.
Definition SHc (alts : clist) : Prop := forall i v, shape (norm_cl alts i v) = shape v.

Lemma norm_shape_all :
  (forall s, SH s) /\ (forall fs, SHs fs) /\ (forall fs : klist, True) /\ (forall a : vlist, True) /\ (forall a, SHc a).
Proof.
  apply schema_mutind; unfold SH, SHs, SHc; try (intros; exact I).
  (* SUint, SNint, SBytes, SText, SBool, SMap, SVar, SBBytes: the value keeps its outer constructor *)
  1-5, 7, 8, 18: (intros until v; destruct v; reflexivity).
  (* STag, SInBytes, SNamed *)
  6, 7, 11: (intros; cbn [norm]; auto).
  - (* SArr *) intros fs IH v. destruct v; try reflexivity. cbn [norm]. apply shape_list_len, IH.
  - (* SArrOf *) intros lo s _ v. destruct v; try reflexivity. cbn [norm]. apply shape_list_len, map_length.
  - (* SSetOf *) intros s _ v. destruct v; try reflexivity. cbn [norm]. apply shape_list_len, map_length.
  - (* SMapOf *) intros lo ord k _ v' _ v. destruct v; try reflexivity. cbn [norm]. destruct l; reflexivity.
  - (* SNullable *) intros s IH v. destruct v; try reflexivity; cbn [norm]; apply IH.
  - (* SChoice *) intros alts IH v. destruct v; try reflexivity. cbn [norm shape]. f_equal. apply shape0_of_shape, IH.
  - (* STagChoice *) intros alts IH v. destruct v; try reflexivity. cbn [norm shape]. f_equal. apply shape0_of_shape, IH.
  - (* SArrAny *) intros s _ v. destruct v as [| | | | | | | | | |i w]; try reflexivity.
    destruct w; try reflexivity. cbn [norm shape]. f_equal. apply shape0_list_len, map_length.
  - (* SArrOpt *) intros fs IHfs o _ v. destruct v as [| | | | | | | | | |i w]; try reflexivity.
    destruct i as [|[|i]]; destruct w as [| | | | | |l| | | |]; try reflexivity; cbn [norm shape].
    + f_equal. apply shape0_list_len, IHfs.
    + destruct l as [|x l]; reflexivity.
  - (* SNil *) intros l. reflexivity.
  - (* SCons *) intros s _ r IHr l. destruct l as [|v t]; [reflexivity|]. cbn [norm_sl length]. f_equal. apply IHr.
  - (* CNil *) intros i v. reflexivity.
  - (* CCons *) intros d s IHs r IHr i v. cbn [norm_cl]. destruct i; [apply IHs|apply IHr].
Qed.

Lemma norm_shape s v : shape (norm s v) = shape v.
Proof. exact (proj1 norm_shape_all s v). Qed.
Lemma norm_is_empty s v : is_empty_val (norm s v) = is_empty_val v.
Proof. apply is_empty_shape, norm_shape. Qed.
Lemma norm_sl_length fs l : length (norm_sl fs l) = length l.
Proof. exact (proj1 (proj2 norm_shape_all) fs l). Qed.

(* Normalised values are in the domain of the round-trip theorem, with the same encoding. *)
Definition NW (s : schema) : Prop :=
  forall v, wfa s v = true -> wfv s (norm s v) = true /\ enc s (norm s v) = enc s v.
Definition NWs (fs : slist) : Prop :=
  forall l, wfa_sl fs l = true -> wfv_sl fs (norm_sl fs l) = true /\ enc_sl fs (norm_sl fs l) = enc_sl fs l.
Definition NWk (fs : klist) : Prop :=
  forall l, wfa_kl fs l = true ->
  wfv_kl fs (norm_kl fs l) = true /\ enc_kl fs (norm_kl fs l) = enc_kl fs l /\ count_kl fs (norm_kl fs l) = count_kl fs l.
Definition NWv (alts : vlist) : Prop :=
  forall i l, wfa_vl alts i l = true ->
  wfv_vl alts i (norm_vl alts i l) = true /\ enc_vl alts i (norm_vl alts i l) = enc_vl alts i l.
Definition NWc (alts : clist) : Prop :=
  forall i v, wfa_cl alts i v = true ->
  wfv_cl alts i (norm_cl alts i v) = true /\ forall tagged, enc_cl tagged alts i (norm_cl alts i v) = enc_cl tagged alts i v.

Lemma nw_list s (IH : NW s) l : forallb (wfa s) l = true ->
  forallb (wfv s) (map (norm s) l) = true /\ map (enc s) (map (norm s) l) = map (enc s) l.
Proof.
  induction l as [|x t IHl]; cbn [forallb map]; [intros _; split; reflexivity|].
  intros H. apply andb_prop in H as [Hx Ht]. destruct (IH x Hx) as [H1 H2]. destruct (IHl Ht) as [H3 H4].
  rewrite H1, H3, H2, H4. split; reflexivity.
Qed.
Lemma nw_pairs k v' (IHk : NW k) (IHv : NW v') l :
  forallb (fun kv => wfa k (fst kv) && wfa v' (snd kv)) l = true ->
  let l' := map (fun kv => (norm k (fst kv), norm v' (snd kv))) l in
  forallb (fun kv => wfv k (fst kv) && wfv v' (snd kv)) l' = true /\
  map (fun kv => enc k (fst kv) ++ enc v' (snd kv)) l' = map (fun kv => enc k (fst kv) ++ enc v' (snd kv)) l /\
  map (fun kv => enc k (fst kv)) l' = map (fun kv => enc k (fst kv)) l.
Proof.
  induction l as [|[x y] t IHl]; cbn [forallb map fst snd]; [intros _; repeat split; reflexivity|].
  intros H. apply andb_prop in H as [Hxy Ht]. apply andb_prop in Hxy as [Hx Hy].
  destruct (IHk x Hx) as [H1 H2]. destruct (IHv y Hy) as [H3 H4]. destruct (IHl Ht) as (H5 & H6 & H7).
  cbn zeta in *. rewrite H1, H3, H2, H4, H5, H6, H7. repeat split; reflexivity.
Qed.

Lemma nullable_nn_wfa s w : w <> VNull -> wfa (SNullable s) w = wfa s w.
Proof. destruct w; try reflexivity. congruence. Qed.
Lemma nullable_nn_norm s w : w <> VNull -> norm (SNullable s) w = norm s w.
Proof. destruct w; try reflexivity. congruence. Qed.

Lemma norm_wf_all : (forall s, NW s) /\ (forall fs, NWs fs) /\ (forall fs, NWk fs) /\ (forall a, NWv a) /\ (forall a, NWc a).
Proof.
  apply schema_mutind; unfold NW, NWs, NWk, NWv, NWc.
  (* SUint, SNint, SBytes, SText, SBool, SBBytes: [norm] is the identity *)
  1-5, 18: (case_val wfa; split; [assumption|reflexivity]).
  (* SChoice, STagChoice *)
  10, 11: (intros ? IH; case_val wfa; cbn [wfa norm wfv enc] in *; edestruct IH as [Q1 Q2]; [eassumption|];
           split; [exact Q1|apply Q2]).
  (* STag, SNamed *)
  8, 11: (intros ? ? IH v Hv; cbn [wfa norm wfv enc] in *; destruct (IH v Hv) as [Q1 Q2]; rewrite Q1, Q2; split; reflexivity).
  - (* SArr *) intros fs IH v Hv. destruct v; try discriminate. cbn [wfa norm wfv enc] in *.
    destruct (IH l Hv) as [Q1 Q2]. rewrite Q1, Q2. split; reflexivity.
  - (* SMap *) intros fs IH v Hv. destruct v; try discriminate. cbn [wfa norm wfv enc] in *.
    destruct (IH l Hv) as (Q1 & Q2 & Q3). rewrite Q1, Q2, Q3. split; reflexivity.
  - (* SVar *) intros alts IH v Hv. destruct v; try discriminate. cbn [wfa norm wfv enc] in *. apply IH. exact Hv.
  - (* SArrOf *) intros lo s IH v Hv. destruct v; try discriminate. cbn [wfa norm wfv enc] in *.
    split_ands. destruct (nw_list s IH l ltac:(assumption)) as [Q1 Q2].
    rewrite Q1, Q2, map_length. rw_hyps. split; reflexivity.
  - (* SSetOf *) intros s IH v Hv. destruct v; try discriminate. cbn [wfa norm wfv enc] in *.
    split_ands. destruct (nw_list s IH l ltac:(assumption)) as [Q1 Q2].
    rewrite Q1, Q2, map_length. rw_hyps. split; reflexivity.
  - (* SMapOf *) intros lo ord k IHk v' IHv v Hv. destruct v; try discriminate. cbn [wfa norm wfv enc] in *.
    split_ands. destruct (nw_pairs k v' IHk IHv l ltac:(assumption)) as (Q1 & Q2 & Q3). cbn zeta in *.
    rewrite Q1, Q2, map_length. rw_hyps. cbn [andb].
    split; [|reflexivity].
    destruct ord; try reflexivity.
    + rewrite Q3. assumption.
    + rewrite Q3. assumption.
    + rewrite <- (map_map (fun kv => enc k (fst kv)) reward_sort_key). rewrite Q3. rewrite map_map. assumption.
  - (* SNullable *) intros s IH v Hv. destruct (val_eq_null v) as [->|Hn]; [split; reflexivity|].
    rewrite nullable_nn_wfa in Hv by exact Hn. rewrite nullable_nn_norm by exact Hn.
    destruct (IH v Hv) as [Q1 Q2].
    assert (Hn' : norm s v <> VNull).
    { intros E. apply Hn. apply shape_null. rewrite <- (norm_shape s v), E. reflexivity. }
    rewrite nullable_nn_wfv by exact Hn'. rewrite !nullable_nn_enc by assumption. split; assumption.
  - (* SInBytes *) intros s IH v Hv. cbn [wfa norm wfv enc] in *. split_ands.
    destruct (IH v ltac:(assumption)) as [Q1 Q2]. rewrite Q1, Q2. rw_hyps. split; reflexivity.
  - (* SArrAny *) intros s IH v Hv. case_alt v; cbn [wfa norm wfv enc] in *.
    + split_ands. destruct (nw_list s IH l ltac:(assumption)) as [Q1 Q2]. rewrite Q1, Q2, map_length. rw_hyps. split; reflexivity.
    + destruct (nw_list s IH l Hv) as [Q1 Q2]. rewrite Q1, Q2. split; reflexivity.
  - (* SArrOpt *) intros fs IHfs o IHo v Hv. case_alt v; cbn [wfa norm wfv enc] in *.
    + destruct (IHfs l Hv) as [Q1 Q2]. rewrite Q1, Q2. split; reflexivity.
    + destruct l as [|x l]; [discriminate|]. split_ands.
      destruct (IHfs l ltac:(assumption)) as [Q1 Q2]. destruct (IHo x ltac:(assumption)) as [Q3 Q4].
      rewrite Q1, Q2, Q3, Q4. split; reflexivity.
  - (* SNil *) intros l Hv. destruct l; [split; reflexivity|discriminate].
  - (* SCons *) intros s IHs r IHr l Hv. destruct l as [|v t]; [discriminate|]. cbn [wfa_sl norm_sl wfv_sl enc_sl] in *.
    split_ands. destruct (IHs v ltac:(assumption)) as [Q1 Q2]. destruct (IHr t ltac:(assumption)) as [Q3 Q4].
    rewrite Q1, Q2, Q3, Q4. split; reflexivity.
  - (* KNil *) intros l Hv. destruct l; [repeat split; reflexivity|discriminate].
  - (* KCons *) intros k p s IHs r IHr l Hv. destruct l as [|o t]; [discriminate|].
    cbn [wfa_kl norm_kl wfv_kl enc_kl count_kl] in *. split_ands.
    destruct (IHr t ltac:(assumption)) as (Q3 & Q4 & Q5). rewrite Q3, Q4, Q5.
    destruct o as [v|].
    + destruct (IHs v ltac:(assumption)) as [Q1 Q2]. cbn zeta.
      pose proof (norm_is_empty s v) as He.
      destruct p; cbn [present]; try (rewrite Q1, Q2; repeat split; reflexivity).
      (* OptNE *)
      rewrite He. destruct (is_empty_val v) eqn:Ev; cbn [negb present].
      * repeat split; reflexivity.
      * rewrite He, Q1, Q2. cbn [negb andb]. repeat split; reflexivity.
    + destruct p; try discriminate; repeat split; reflexivity.
  - (* ANil *) intros i l Hv. discriminate.
  - (* ACons *) intros idx fs IHfs r IHr i l Hv. cbn [wfa_vl norm_vl wfv_vl enc_vl] in *. destruct i as [|i'].
    + destruct (IHfs l Hv) as [Q1 Q2]. rewrite Q2. split; [exact Q1|reflexivity].
    + apply IHr. exact Hv.
  - (* CNil *) intros i v Hv. discriminate.
  - (* CCons *) intros d s IHs r IHr i v Hv. cbn [wfa_cl norm_cl wfv_cl enc_cl] in *. destruct i as [|i'].
    + destruct (IHs v Hv) as [Q1 Q2]. split; [exact Q1|]. intros tagged. rewrite Q2. reflexivity.
    + apply IHr. exact Hv.
Qed.

Theorem norm_wfv s v : wfa s v = true -> wfv s (norm s v) = true.
Proof. intros H. exact (proj1 (proj1 norm_wf_all s v H)). Qed.
Theorem norm_enc s v : wfa s v = true -> enc s (norm s v) = enc s v.
Proof. intros H. exact (proj2 (proj1 norm_wf_all s v H)). Qed.

Theorem api_roundtrip s v rest :
  wfs s = true -> wfa s v = true -> dec s (enc s v ++ rest) = Ok (norm s v, rest).
Proof.
  intros Hs Hv. rewrite <- (norm_enc s v Hv). apply schema_roundtrip; [exact Hs|apply norm_wfv; exact Hv].
Qed.
Theorem api_reencode s v rest v' rest' :
  wfs s = true -> wfa s v = true -> dec s (enc s v ++ rest) = Ok (v', rest') -> enc s v' = enc s v /\ rest' = rest.
Proof.
  intros Hs Hv H. rewrite api_roundtrip in H by assumption. injection H as <- <-. split; [apply norm_enc; exact Hv|reflexivity].
Qed.

(* The normalisation changes nothing else: it is the identity on decoder-image values. *)
Definition IDn (s : schema) : Prop := forall v, wfv s v = true -> norm s v = v /\ wfa s v = true.
Definition IDs (fs : slist) : Prop := forall l, wfv_sl fs l = true -> norm_sl fs l = l /\ wfa_sl fs l = true.
Definition IDk (fs : klist) : Prop := forall l, wfv_kl fs l = true -> norm_kl fs l = l /\ wfa_kl fs l = true.
Definition IDv (alts : vlist) : Prop := forall i l, wfv_vl alts i l = true -> norm_vl alts i l = l /\ wfa_vl alts i l = true.
Definition IDc (alts : clist) : Prop := forall i v, wfv_cl alts i v = true -> norm_cl alts i v = v /\ wfa_cl alts i v = true.

Lemma id_list s (IH : IDn s) l : forallb (wfv s) l = true -> map (norm s) l = l /\ forallb (wfa s) l = true.
Proof.
  induction l as [|x t IHl]; cbn [forallb map]; [intros _; split; reflexivity|].
  intros H. apply andb_prop in H as [Hx Ht]. destruct (IH x Hx) as [E1 E2]. destruct (IHl Ht) as [E3 E4].
  rewrite E1, E2, E3, E4. split; reflexivity.
Qed.
Lemma id_pairs k v' (IHk : IDn k) (IHv : IDn v') l :
  forallb (fun kv => wfv k (fst kv) && wfv v' (snd kv)) l = true ->
  map (fun kv => (norm k (fst kv), norm v' (snd kv))) l = l /\
  forallb (fun kv => wfa k (fst kv) && wfa v' (snd kv)) l = true.
Proof.
  induction l as [|[x y] t IHl]; cbn [forallb map fst snd]; [intros _; split; reflexivity|].
  intros H. apply andb_prop in H as [Hxy Ht]. apply andb_prop in Hxy as [Hx Hy].
  destruct (IHk x Hx) as [E1 E2]. destruct (IHv y Hy) as [E3 E4]. destruct (IHl Ht) as [E5 E6].
  rewrite E1, E2, E3, E4, E5, E6. split; reflexivity.
Qed.

Lemma norm_id_all : (forall s, IDn s) /\ (forall fs, IDs fs) /\ (forall fs, IDk fs) /\ (forall a, IDv a) /\ (forall a, IDc a).
Proof.
  apply schema_mutind; unfold IDn, IDs, IDk, IDv, IDc.
  (* SUint, SNint, SBytes, SText, SBool, SBBytes *)
  1-5, 18: (case_val wfv; split; [reflexivity|assumption]).
  (* SArr, SMap, SVar, SChoice, STagChoice *)
  1-3, 10, 11: (intros ? IH; case_val wfv; cbn [wfa norm wfv] in *; edestruct IH as [E1 E2]; [eassumption|];
                rewrite E1, E2; split; reflexivity).
  (* STag, SNamed *)
  5, 8: (intros; cbn [wfa norm wfv] in *; auto).
  - (* SArrOf *) intros lo s IH v Hv. destruct v; try discriminate. cbn [wfa norm wfv] in *. split_ands.
    destruct (id_list s IH l ltac:(assumption)) as [E1 E2]. rewrite E1, E2. rw_hyps. split; reflexivity.
  - (* SSetOf *) intros s IH v Hv. destruct v; try discriminate. cbn [wfa norm wfv] in *. split_ands.
    destruct (id_list s IH l ltac:(assumption)) as [E1 E2]. rewrite E1, E2. rw_hyps. split; reflexivity.
  - (* SMapOf *) intros lo ord k IHk v' IHv v Hv. destruct v; try discriminate. cbn [wfa norm wfv] in *. split_ands.
    destruct (id_pairs k v' IHk IHv l ltac:(assumption)) as [E1 E2]. rewrite E1, E2. rw_hyps. split; reflexivity.
  - (* SNullable *) intros s IH v Hv. destruct (val_eq_null v) as [->|Hn]; [split; reflexivity|].
    rewrite nullable_nn_wfv in Hv by exact Hn. rewrite nullable_nn_norm, nullable_nn_wfa by exact Hn. apply IH. exact Hv.
  - (* SInBytes *) intros s IH v Hv. cbn [wfa norm wfv] in *. split_ands.
    destruct (IH v ltac:(assumption)) as [E1 E2]. rewrite E1, E2. rw_hyps. split; reflexivity.
  - (* SArrAny *) intros s IH v Hv. case_alt v; cbn [wfa norm wfv] in *.
    + split_ands. destruct (id_list s IH l ltac:(assumption)) as [E1 E2]. rewrite E1, E2. rw_hyps. split; reflexivity.
    + destruct (id_list s IH l Hv) as [E1 E2]. rewrite E1, E2. split; reflexivity.
  - (* SArrOpt *) intros fs IHfs o IHo v Hv. case_alt v; cbn [wfa norm wfv] in *.
    + destruct (IHfs l Hv) as [E1 E2]. rewrite E1, E2. split; reflexivity.
    + destruct l as [|x l]; [discriminate|]. split_ands.
      destruct (IHfs l ltac:(assumption)) as [E1 E2]. destruct (IHo x ltac:(assumption)) as [E3 E4].
      rewrite E1, E2, E3, E4. split; reflexivity.
  - (* SNil *) intros l Hv. destruct l; [split; reflexivity|discriminate].
  - (* SCons *) intros s IHs r IHr l Hv. destruct l as [|v t]; [discriminate|]. cbn [wfa_sl norm_sl wfv_sl] in *.
    split_ands. destruct (IHs v ltac:(assumption)) as [E1 E2]. destruct (IHr t ltac:(assumption)) as [E3 E4].
    rewrite E1, E2, E3, E4. split; reflexivity.
  - (* KNil *) intros l Hv. destruct l; [split; reflexivity|discriminate].
  - (* KCons *) intros k p s IHs r IHr l Hv. destruct l as [|o t]; [discriminate|].
    cbn [wfa_kl norm_kl wfv_kl] in *. split_ands.
    destruct (IHr t ltac:(assumption)) as [E3 E4]. rewrite E3, E4.
    destruct o as [v|].
    + split_ands. destruct (IHs v ltac:(assumption)) as [E1 E2]. cbn zeta. rewrite E1, E2.
      destruct p; try (split; reflexivity).
      match goal with H : negb (is_empty_val v) = true |- _ => apply negb_true_iff in H; rewrite H end.
      split; reflexivity.
    + destruct p; try discriminate; split; reflexivity.
  - (* ANil *) intros i l Hv. discriminate.
  - (* ACons *) intros idx fs IHfs r IHr i l Hv. cbn [wfa_vl norm_vl wfv_vl] in *. destruct i as [|i'].
    + apply IHfs. exact Hv.
    + apply IHr. exact Hv.
  - (* CNil *) intros i v Hv. discriminate.
  - (* CCons *) intros d s IHs r IHr i v Hv. cbn [wfa_cl norm_cl wfv_cl] in *. destruct i as [|i'].
    + apply IHs. exact Hv.
    + apply IHr. exact Hv.
Qed.

Theorem norm_id s v : wfv s v = true -> norm s v = v.
Proof. intros H. exact (proj1 (proj1 norm_id_all s v H)). Qed.
Theorem wfv_wfa s v : wfv s v = true -> wfa s v = true.
Proof. intros H. exact (proj2 (proj1 norm_id_all s v H)). Qed.
Theorem norm_idem s v : wfa s v = true -> norm s (norm s v) = norm s v.
Proof. intros H. apply norm_id, norm_wfv, H. Qed.
