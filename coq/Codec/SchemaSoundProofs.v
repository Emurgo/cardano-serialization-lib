(* The two halves of decoder soundness, generic over schemas: what the wire-shape decoder [dec] returns satisfies [wfp],
   and the normalisation [canon] takes [wfp] into the domain [wfv] of the round-trip theorem, on which it is the identity.
   Props/C01.v puts them together for [sdec]. *)
From CSL Require Import Base.Prelude Cbor.Head Cbor.HeadProofs Codec.Schema Codec.SchemaProofs Codec.SchemaSound.
Local Open Scope N_scope.

Section Lists.
Context {A : Type} (key : A -> bytes).

Lemma beqb_refl a : beqb a a = true.
Proof. unfold beqb. destruct (list_eq_dec N.eq_dec a a); [reflexivity|congruence]. Qed.

Lemma existsb_filter_out a (l : list A) :
  existsb (beqb a) (map key (filter (fun y => negb (beqb a (key y))) l)) = false.
Proof.
  induction l as [|y t IH]; [reflexivity|]. cbn [filter]. destruct (beqb a (key y)) eqn:E; cbn [negb]; [exact IH|].
  cbn [map existsb]. rewrite E, IH. reflexivity.
Qed.
Lemma existsb_filter_sub g p (l : list A) :
  existsb g (map key l) = false -> existsb g (map key (filter p l)) = false.
Proof.
  induction l as [|y t IH]; [reflexivity|]. cbn [map existsb filter]. intros H. apply orb_false_elim in H as [H1 H2].
  destruct (p y); [cbn [map existsb]; rewrite H1, (IH H2); reflexivity|exact (IH H2)].
Qed.
Lemma nodupb_filter p (l : list A) : nodupb (map key l) = true -> nodupb (map key (filter p l)) = true.
Proof.
  induction l as [|y t IH]; [reflexivity|]. cbn [map nodupb filter]. intros H. apply andb_prop in H as [H1 H2].
  destruct (p y); [|exact (IH H2)]. cbn [map nodupb]. rewrite (IH H2), andb_true_r.
  apply negb_true_iff. apply negb_true_iff in H1. apply existsb_filter_sub. exact H1.
Qed.
Lemma dedup_first_nodup (l : list A) : nodupb (map key (dedup_first key l)) = true.
Proof.
  induction l as [|x t IH]; [reflexivity|]. cbn [dedup_first map nodupb].
  rewrite (nodupb_filter _ _ IH), andb_true_r. apply negb_true_iff. apply (existsb_filter_out (key x)).
Qed.
Lemma forallb_filter (P p : A -> bool) (l : list A) : forallb P l = true -> forallb P (filter p l) = true.
Proof.
  induction l as [|y t IH]; [reflexivity|]. cbn [forallb filter]. intros H. apply andb_prop in H as [H1 H2].
  destruct (p y); [cbn [forallb]; rewrite H1, (IH H2); reflexivity|exact (IH H2)].
Qed.
Lemma filter_length_le (p : A -> bool) (l : list A) : (length (filter p l) <= length l)%nat.
Proof. induction l as [|y t IH]; [cbn; lia|]. cbn [filter]. destruct (p y); cbn [length]; lia. Qed.
Lemma dedup_first_forallb (P : A -> bool) (l : list A) : forallb P l = true -> forallb P (dedup_first key l) = true.
Proof.
  induction l as [|x t IH]; [reflexivity|]. cbn [forallb dedup_first]. intros H. apply andb_prop in H as [H1 H2].
  rewrite H1. apply forallb_filter, IH, H2.
Qed.
Lemma dedup_first_length (l : list A) : (length (dedup_first key l) <= length l)%nat.
Proof.
  induction l as [|x t IH]; [cbn; lia|]. cbn [dedup_first length].
  pose proof (filter_length_le (fun y => negb (beqb (key x) (key y))) (dedup_first key t)). lia.
Qed.
Lemma filter_keep_all a (l : list A) :
  existsb (beqb a) (map key l) = false -> filter (fun y => negb (beqb a (key y))) l = l.
Proof.
  induction l as [|y t IH]; [reflexivity|]. cbn [map existsb filter]. intros H. apply orb_false_elim in H as [H1 H2].
  rewrite H1. cbn [negb]. rewrite (IH H2). reflexivity.
Qed.
Lemma dedup_first_id (l : list A) : nodupb (map key l) = true -> dedup_first key l = l.
Proof.
  induction l as [|x t IH]; [reflexivity|]. cbn [map nodupb dedup_first]. intros H. apply andb_prop in H as [H1 H2].
  rewrite (IH H2). apply negb_true_iff in H1. rewrite (filter_keep_all _ _ H1). reflexivity.
Qed.

Definition lbound (y : bytes) (l : list A) : bool := match l with [] => true | z :: _ => bytes_ltb y (key z) end.
Lemma sortedb_cons y (l : list A) : sortedb (y :: map key l) = lbound y l && sortedb (map key l).
Proof. destruct l; reflexivity. Qed.
Lemma ins_sorted_spec x : forall (l l' : list A), sortedb (map key l) = true -> ins_sorted key x l = Some l' ->
  sortedb (map key l') = true /\ length l' = S (length l) /\
  (forall y, lbound y l = true -> bytes_ltb y (key x) = true -> lbound y l' = true) /\
  (forall P : A -> bool, P x = true -> forallb P l = true -> forallb P l' = true).
Proof.
  induction l as [|y t IH]; intros l' Hs H; cbn [ins_sorted] in H.
  - injection H as <-. split; [reflexivity|]. split; [reflexivity|]. split.
    + intros z _ Hz. cbn [lbound]. exact Hz.
    + intros P Hx _. cbn [forallb]. rewrite Hx. reflexivity.
  - destruct (bytes_ltb (key x) (key y)) eqn:E1.
    + injection H as <-. split; [|split; [reflexivity|split]].
      * change (map key (x :: y :: t)) with (key x :: map key (y :: t)). rewrite sortedb_cons. cbn [lbound]. rewrite E1. exact Hs.
      * intros z _ Hz. cbn [lbound]. exact Hz.
      * intros P Hx Hl. cbn [forallb] in *. rewrite Hx. exact Hl.
    + destruct (bytes_ltb (key y) (key x)) eqn:E2; [|discriminate].
      destruct (ins_sorted key x t) as [t'|] eqn:E3; [|discriminate]. injection H as <-.
      cbn [map] in Hs. rewrite sortedb_cons in Hs. apply andb_prop in Hs as [Hb Hst].
      destruct (IH t' Hst eq_refl) as (S1 & S2 & S3 & S4). split; [|split; [|split]].
      * cbn [map]. rewrite sortedb_cons. rewrite S1, (S3 (key y) Hb E2). reflexivity.
      * cbn [length]. lia.
      * intros z Hz _. cbn [lbound] in *. exact Hz.
      * intros P Hx Hl. cbn [forallb] in *. apply andb_prop in Hl as [Hy Ht]. rewrite Hy. apply S4; assumption.
Qed.
Lemma sort_strict_spec : forall (l l' : list A), sort_strict key l = Some l' ->
  sortedb (map key l') = true /\ length l' = length l /\ (forall P : A -> bool, forallb P l = true -> forallb P l' = true).
Proof.
  induction l as [|x t IH]; intros l' H; cbn [sort_strict] in H.
  - injection H as <-. split; [reflexivity|]. split; [reflexivity|]. intros P HP; exact HP.
  - destruct (sort_strict key t) as [t'|] eqn:E; [|discriminate].
    destruct (IH t' eq_refl) as (S1 & S2 & S3).
    destruct (ins_sorted_spec x t' l' S1 H) as (T1 & T2 & _ & T4). split; [exact T1|]. split; [cbn [length]; lia|].
    intros P HP. cbn [forallb] in HP. apply andb_prop in HP as [Hx Ht]. apply T4; [exact Hx|apply S3; exact Ht].
Qed.
Lemma sort_strict_id : forall l : list A, sortedb (map key l) = true -> sort_strict key l = Some l.
Proof.
  induction l as [|x t IH]; [reflexivity|]. cbn [map]. rewrite sortedb_cons. intros H. apply andb_prop in H as [Hb Hs].
  cbn [sort_strict]. rewrite (IH Hs). destruct t as [|y t']; [reflexivity|]. cbn [ins_sorted]. cbn [lbound] in Hb. rewrite Hb. reflexivity.
Qed.
End Lists.

Lemma mapM_sound {A B} (f : A -> option B) (pre : A -> bool) (post : B -> bool) :
  (forall x y, pre x = true -> f x = Some y -> post y = true) ->
  forall l l', forallb pre l = true -> mapM f l = Some l' -> forallb post l' = true /\ length l' = length l.
Proof.
  intros Hf. induction l as [|x t IH]; intros l' Hp H; cbn [mapM] in H.
  - injection H as <-. split; reflexivity.
  - cbn [forallb] in Hp. apply andb_prop in Hp as [Hx Ht].
    destruct (f x) as [y|] eqn:E; [|discriminate]. destruct (mapM f t) as [t'|] eqn:E2; [|discriminate]. injection H as <-.
    destruct (IH t' Ht eq_refl) as [I1 I2]. cbn [forallb length]. rewrite (Hf x y Hx E), I1, I2. split; reflexivity.
Qed.
Lemma mapM_id {A} (f : A -> option A) (pre : A -> bool) :
  (forall x, pre x = true -> f x = Some x) -> forall l, forallb pre l = true -> mapM f l = Some l.
Proof.
  intros Hf. induction l as [|x t IH]; [reflexivity|]. cbn [forallb mapM]. intros H. apply andb_prop in H as [Hx Ht].
  rewrite (Hf x Hx), (IH Ht). reflexivity.
Qed.

Lemma nullable_wfv_up s w : wfv s w = true -> wfv (SNullable s) w = true.
Proof. destruct w; intros H; try exact H. reflexivity. Qed.
Lemma nullable_nn_wfp s w : w <> VNull -> wfp (SNullable s) w = wfp s w.
Proof. destruct w; try reflexivity. congruence. Qed.
Lemma nullable_nn_canon s w : w <> VNull -> canon (SNullable s) w = canon s w.
Proof. destruct w; try reflexivity. congruence. Qed.

(* The normalisation lands in the domain. *)
Definition CS (s : schema) : Prop := forall v w, wfp s v = true -> canon s v = Some w -> wfv s w = true.
Definition CSs (fs : slist) : Prop := forall l l', wfp_sl fs l = true -> canon_sl fs l = Some l' -> wfv_sl fs l' = true.
Definition CSk (fs : klist) : Prop := forall l l', wfp_kl fs l = true -> canon_kl fs l = Some l' -> wfv_kl fs l' = true.
Definition CSv (alts : vlist) : Prop := forall i l l', wfp_vl alts i l = true -> canon_vl alts i l = Some l' -> wfv_vl alts i l' = true.
Definition CSc (alts : clist) : Prop := forall i v w, wfp_cl alts i v = true -> canon_cl alts i v = Some w -> wfv_cl alts i w = true.

Ltac inv_some := repeat match goal with
  | H : Some _ = Some _ |- _ => injection H as H; try subst
  | H : None = Some _ |- _ => discriminate H
  | H : omap _ ?o = Some _ |- _ => let E := fresh "E" in destruct o eqn:E; cbn [omap] in H; [|discriminate H]
  end.

Lemma canon_sound_all : (forall s, CS s) /\ (forall fs, CSs fs) /\ (forall fs, CSk fs) /\ (forall a, CSv a) /\ (forall a, CSc a).
Proof.
  apply schema_mutind; unfold CS, CSs, CSk, CSv, CSc.
  (* SUint, SNint, SBytes, SText, SBool, SBBytes: nothing to normalise *)
  1-5, 18: (case_val wfp; cbn in *; inv_some; assumption).
  (* SArr, SMap, SVar, SChoice, STagChoice: the components, by induction *)
  1-3, 10, 11: (case_val wfp; cbn [wfp canon] in *; inv_some; cbn [wfv]; eauto).
  (* STag, SNamed *)
  5, 8: (intros; cbn [wfp canon wfv] in *; eauto).
  - (* SArrOf *) intros lo s IH v w Hv H. destruct v; try discriminate. cbn [wfp canon] in *. inv_some. cbn [wfv]. split_ands.
    destruct (mapM_sound (canon s) (wfp s) (wfv s) IH l l0 ltac:(assumption) ltac:(assumption)) as [M1 M2].
    rewrite M1, M2. rw_hyps. reflexivity.
  - (* SSetOf *) intros s IH v w Hv H. destruct v; try discriminate. cbn [wfp canon] in *. inv_some. cbn [wfv]. split_ands.
    destruct (mapM_sound (canon s) (wfp s) (wfv s) IH l l0 ltac:(assumption) ltac:(assumption)) as [M1 M2].
    rewrite (dedup_first_forallb (enc s) (wfv s) l0 M1), (dedup_first_nodup (enc s) l0). cbn [andb].
    pose proof (dedup_first_length (enc s) l0). apply N.ltb_lt.
    match goal with H : (N.of_nat (length l) <? two64) = true |- _ => apply N.ltb_lt in H end. lia.
  - (* SMapOf *) intros lo ord k IHk v' IHv v w Hv H. destruct v; try discriminate. cbn [wfp canon] in *. split_ands.
    destruct (mapM _ l) as [l'|] eqn:EM; [|discriminate].
    apply (mapM_sound _ (fun kv => wfp k (fst kv) && wfp v' (snd kv)) (fun kv => wfv k (fst kv) && wfv v' (snd kv))) in EM
      as [M1 M2]; [| |assumption].
    2:{ intros [a b] y Hab Hy. cbn [fst snd] in *. apply andb_prop in Hab as [Ha Hb].
        destruct (canon k a) as [a'|] eqn:Ea; [|discriminate]. destruct (canon v' b) as [b'|] eqn:Eb; [|discriminate].
        injection Hy as <-. cbn [fst snd]. rewrite (IHk a a' Ha Ea), (IHv b b' Hb Eb). reflexivity. }
    destruct ord.
    + (* KInsertion *) destruct (nodupb (map (fun kv => enc k (fst kv)) l')) eqn:En; [|discriminate]. inv_some.
      cbn [wfv]. rewrite M1, M2, En. rw_hyps. reflexivity.
    + (* KBytewise *) inv_some. destruct (sort_strict_spec _ _ _ E) as (S1 & S2 & S3).
      cbn [wfv]. rewrite (S3 _ M1), S2, M2, S1. rw_hyps. reflexivity.
    + (* KRewardAddr *) inv_some. destruct (sort_strict_spec _ _ _ E) as (S1 & S2 & S3).
      cbn [wfv]. rewrite (S3 _ M1), S2, M2, S1. rw_hyps. reflexivity.
    + (* KMulti *) inv_some. cbn [wfv]. rewrite M1, M2. rw_hyps. reflexivity.
  - (* SNullable *) intros s IH v w Hv H. destruct (val_eq_null v) as [->|Hn]; [cbn in H; inv_some; reflexivity|].
    rewrite nullable_nn_wfp in Hv by exact Hn. rewrite nullable_nn_canon in H by exact Hn. apply nullable_wfv_up. eapply IH; eassumption.
  - (* SInBytes *) intros s IH v w Hv H. cbn [wfp canon wfv] in *. destruct (canon s v) as [w'|] eqn:E; [|discriminate].
    destruct (N.of_nat (length (enc s w')) <? two64) eqn:EL; [|discriminate]. inv_some. rewrite (IH v w Hv E), EL. reflexivity.
  - (* SArrAny *) intros s IH v w Hv H. case_alt v; cbn [wfp canon] in *; inv_some; cbn [wfv].
    + split_ands. destruct (mapM_sound (canon s) (wfp s) (wfv s) IH l l0 ltac:(assumption) ltac:(assumption)) as [M1 M2].
      rewrite M1, M2. rw_hyps. reflexivity.
    + destruct (mapM_sound (canon s) (wfp s) (wfv s) IH l l0 Hv ltac:(assumption)) as [M1 M2]. exact M1.
  - (* SArrOpt *) intros fs IHfs o IHo v w Hv H. case_alt v; cbn [wfp canon] in *.
    + inv_some. cbn [wfv]. eapply IHfs; eassumption.
    + destruct l as [|x l]; [discriminate|]. split_ands.
      destruct (canon o x) as [x'|] eqn:Ex; [|discriminate]. destruct (canon_sl fs l) as [l'|] eqn:El; [|discriminate]. inv_some.
      cbn [wfv]. rewrite (IHfs l l' ltac:(assumption) El), (IHo x x' ltac:(assumption) Ex). reflexivity.
  - (* SNil *) intros l l' Hv H. destruct l; [|discriminate]. cbn in H. inv_some. reflexivity.
  - (* SCons *) intros s IHs r IHr l l' Hv H. destruct l as [|v t]; [discriminate|]. cbn [wfp_sl canon_sl] in *. split_ands.
    destruct (canon s v) as [v'|] eqn:Ev; [|discriminate]. destruct (canon_sl r t) as [t'|] eqn:Et; [|discriminate]. inv_some.
    cbn [wfv_sl]. rewrite (IHs v v' ltac:(assumption) Ev), (IHr t t' ltac:(assumption) Et). reflexivity.
  - (* KNil *) intros l l' Hv H. destruct l; [|discriminate]. cbn in H. inv_some. reflexivity.
  - (* KCons *) intros k p s IHs r IHr l l' Hv H. destruct l as [|o t]; [discriminate|]. cbn [wfp_kl canon_kl] in *. split_ands.
    destruct o as [v|].
    + destruct (canon s v) as [w|] eqn:Ev; [|discriminate].
      destruct (match p with OptNE => is_empty_val w | _ => false end) eqn:Ee; [discriminate|].
      destruct (canon_kl r t) as [t'|] eqn:Et; [|discriminate]. inv_some.
      cbn [wfv_kl]. rewrite (IHs v w ltac:(assumption) Ev), (IHr t t' ltac:(assumption) Et).
      destruct p; try reflexivity. rewrite Ee. reflexivity.
    + destruct (canon_kl r t) as [t'|] eqn:Et; [|discriminate]. inv_some.
      cbn [wfv_kl]. rewrite (IHr t t' ltac:(assumption) Et). destruct p; try discriminate; reflexivity.
  - (* ANil *) intros i l l' Hv H. discriminate.
  - (* ACons *) intros idx fs IHfs r IHr i l l' Hv H. cbn [wfp_vl canon_vl wfv_vl] in *. destruct i; [eapply IHfs|eapply IHr]; eassumption.
  - (* CNil *) intros i v w Hv H. discriminate.
  - (* CCons *) intros d s IHs r IHr i v w Hv H. cbn [wfp_cl canon_cl wfv_cl] in *. destruct i; [eapply IHs|eapply IHr]; eassumption.
Qed.

Theorem canon_sound s v w : wfp s v = true -> canon s v = Some w -> wfv s w = true.
Proof. exact (proj1 canon_sound_all s v w). Qed.

(* The normalisation is the identity on the domain. *)
Definition CI (s : schema) : Prop := forall v, wfv s v = true -> canon s v = Some v.
Definition CIs (fs : slist) : Prop := forall l, wfv_sl fs l = true -> canon_sl fs l = Some l.
Definition CIk (fs : klist) : Prop := forall l, wfv_kl fs l = true -> canon_kl fs l = Some l.
Definition CIv (alts : vlist) : Prop := forall i l, wfv_vl alts i l = true -> canon_vl alts i l = Some l.
Definition CIc (alts : clist) : Prop := forall i v, wfv_cl alts i v = true -> canon_cl alts i v = Some v.

Lemma canon_id_all : (forall s, CI s) /\ (forall fs, CIs fs) /\ (forall fs, CIk fs) /\ (forall a, CIv a) /\ (forall a, CIc a).
Proof.
  apply schema_mutind; unfold CI, CIs, CIk, CIv, CIc.
  (* SUint, SNint, SBytes, SText, SBool, SBBytes *)
  1-5, 18: (case_val wfv; reflexivity).
  (* SArr, SMap, SVar, SChoice, STagChoice *)
  1-3, 10, 11: (intros ? IH; case_val wfv; cbn [wfv canon] in *; rewrite IH by assumption; reflexivity).
  (* STag, SNamed *)
  5, 8: (intros; cbn [wfv canon] in *; auto).
  - (* SArrOf *) intros lo s IH v Hv. destruct v; try discriminate. cbn [wfv canon] in *. split_ands.
    rewrite (mapM_id (canon s) (wfv s) IH l ltac:(assumption)). reflexivity.
  - (* SSetOf *) intros s IH v Hv. destruct v; try discriminate. cbn [wfv canon] in *. split_ands.
    rewrite (mapM_id (canon s) (wfv s) IH l ltac:(assumption)). cbn [omap]. rewrite dedup_first_id by assumption. reflexivity.
  - (* SMapOf *) intros lo ord k IHk v' IHv v Hv. destruct v; try discriminate. cbn [wfv canon] in *. split_ands.
    rewrite (mapM_id _ (fun kv => wfv k (fst kv) && wfv v' (snd kv))); [| |assumption].
    2:{ intros [a b] Hab. cbn [fst snd] in *. apply andb_prop in Hab as [Ha Hb]. rewrite (IHk a Ha), (IHv b Hb). reflexivity. }
    destruct ord.
    + rw_hyps. reflexivity.
    + rewrite sort_strict_id by assumption. reflexivity.
    + rewrite sort_strict_id by assumption. reflexivity.
    + reflexivity.
  - (* SNullable *) intros s IH v Hv. destruct (val_eq_null v) as [->|Hn]; [reflexivity|].
    rewrite nullable_nn_wfv in Hv by exact Hn. rewrite nullable_nn_canon by exact Hn. apply IH. exact Hv.
  - (* SInBytes *) intros s IH v Hv. cbn [wfv canon] in *. split_ands. rewrite (IH v ltac:(assumption)). rw_hyps. reflexivity.
  - (* SArrAny *) intros s IH v Hv. case_alt v; cbn [wfv canon] in *.
    + split_ands. rewrite (mapM_id (canon s) (wfv s) IH l ltac:(assumption)). reflexivity.
    + rewrite (mapM_id (canon s) (wfv s) IH l Hv). reflexivity.
  - (* SArrOpt *) intros fs IHfs o IHo v Hv. case_alt v; cbn [wfv canon] in *.
    + rewrite (IHfs l Hv). reflexivity.
    + destruct l as [|x l]; [discriminate|]. split_ands. rewrite (IHo x ltac:(assumption)), (IHfs l ltac:(assumption)). reflexivity.
  - (* SNil *) intros l Hv. destruct l; [reflexivity|discriminate].
  - (* SCons *) intros s IHs r IHr l Hv. destruct l as [|v t]; [discriminate|]. cbn [wfv_sl canon_sl] in *. split_ands.
    rewrite (IHs v ltac:(assumption)), (IHr t ltac:(assumption)). reflexivity.
  - (* KNil *) intros l Hv. destruct l; [reflexivity|discriminate].
  - (* KCons *) intros k p s IHs r IHr l Hv. destruct l as [|o t]; [discriminate|]. cbn [wfv_kl canon_kl] in *. split_ands.
    rewrite (IHr t ltac:(assumption)). destruct o as [v|]; [|reflexivity]. split_ands.
    rewrite (IHs v ltac:(assumption)).
    destruct p; try reflexivity.
    match goal with H : negb (is_empty_val v) = true |- _ => apply negb_true_iff in H; rewrite H end. reflexivity.
  - (* ANil *) intros i l Hv. discriminate.
  - (* ACons *) intros idx fs IHfs r IHr i l Hv. cbn [wfv_vl canon_vl] in *. destruct i; [apply IHfs|apply IHr]; exact Hv.
  - (* CNil *) intros i v Hv. discriminate.
  - (* CCons *) intros d s IHs r IHr i v Hv. cbn [wfv_cl canon_cl] in *. destruct i; [apply IHs|apply IHr]; exact Hv.
Qed.

Theorem canon_id s v : wfv s v = true -> canon s v = Some v.
Proof. exact (proj1 canon_id_all s v). Qed.

(* What the wire-shape decoder guarantees. *)
Lemma bytes_ok_okb b : bytes_ok b -> bytes_okb b = true.
Proof.
  unfold bytes_ok, bytes_okb. intros H. apply forallb_forall. intros x Hx. apply N.ltb_lt.
  exact (proj1 (Forall_forall _ _) H x Hx).
Qed.
Lemma bytes_ok_concat (cs : list bytes) : Forall bytes_ok cs -> bytes_ok (concat cs).
Proof. induction 1 as [|c t Hc _ IH]; [apply Forall_nil|]. cbn [concat]. apply Forall_app. split; assumption. Qed.
Lemma nullable_wfp_up s w : wfp s w = true -> wfp (SNullable s) w = true.
Proof. destruct w; intros H; try exact H. reflexivity. Qed.

Definition DS (s : schema) : Prop := psound bytes_ok (dec s) (fun v => wfp s v = true).
Definition DSs (fs : slist) : Prop := psound bytes_ok (dec_sl fs) (fun l => wfp_sl fs l = true).
Definition DSk (fs : klist) : Prop := forall rem, psound bytes_ok (dec_kl fs rem) (fun lr => wfp_kl fs (fst lr) = true).
Definition DSv (alts : vlist) : Prop := forall idx n pos,
  psound bytes_ok (dec_vl alts idx n pos) (fun v => exists i l, v = VVar (pos + i) l /\ wfp_vl alts i l = true).
Definition DSc (alts : clist) : Prop := forall disc pos,
  psound bytes_ok (dec_cl alts disc pos) (fun v => exists i w, v = VAlt (pos + i) w /\ wfp_cl alts i w = true).

(* each clause of [dec] is read off step by step: a head, a guard, the components (by induction), the value returned *)
Lemma dec_wfp_all : (forall s, DS s) /\ (forall fs, DSs fs) /\ (forall fs, DSk fs) /\ (forall a, DSv a) /\ (forall a, DSc a).
Proof.
  apply schema_mutind; unfold DS, DSs, DSk, DSv, DSc.
  - (* SUint *) intros lim. cbn [dec]. apply (psound_bind (dec_head_m_sound binv_bytes_ok 0)). intros n _. apply psound_guard. intros El.
    apply psound_ret. exact El.
  - (* SNint *) cbn [dec]. apply (psound_bind (dec_head_m_sound binv_bytes_ok 1)). intros n Hn. apply psound_ret. apply N.ltb_lt. exact Hn.
  - (* SBytes *) intros lo hi. cbn [dec]. apply (psound_bind (dec_head_m_sound binv_bytes_ok 2)). intros n _. apply psound_guard. intros El.
    apply (psound_bind (take_bytes_sound binv_bytes_ok n)). intros b [Hb L]. apply psound_ret.
    cbn [wfp]. rewrite (bytes_ok_okb _ Hb), L. exact El.
  - (* SText *) intros hi. cbn [dec]. apply (psound_bind (dec_head_m_sound binv_bytes_ok 3)). intros n _. apply psound_guard. intros El.
    apply (psound_bind (take_bytes_sound binv_bytes_ok n)). intros b [Hb L]. apply psound_ret.
    cbn [wfp]. rewrite (bytes_ok_okb _ Hb), L. exact El.
  - (* SBool *) intros bs v r Hb H. cbn [dec] in H. destruct bs as [|b t]; [discriminate|]. apply (binv_tail binv_bytes_ok) in Hb.
    destruct (b =? 244); [injection H as <- <-; split; [reflexivity|assumption]|].
    destruct (b =? 245); [injection H as <- <-; split; [reflexivity|assumption]|discriminate].
  - (* SArr *) intros fs IH. cbn [dec]. apply (psound_bind (dec_head_m_sound binv_bytes_ok 4)). intros n _. apply psound_guard. intros _.
    apply (psound_bind IH). intros l Hl. apply psound_ret. exact Hl.
  - (* SMap *) intros fs IH. cbn [dec]. apply (psound_bind (dec_head_m_sound binv_bytes_ok 5)). intros n _.
    apply (psound_bind (IH n)). intros [l rem] Hl. apply psound_guard. intros _. apply psound_ret. exact Hl.
  - (* SVar *) intros alts IH. cbn [dec]. apply (psound_bind (dec_head_m_sound binv_bytes_ok 4)). intros n _.
    apply (psound_bind (dec_head_m_sound binv_bytes_ok 0)). intros idx _.
    apply (psound_weaken (IH idx n O)). intros v (i & l & -> & Hw). exact Hw.
  - (* SArrOf *) intros lo s IH. cbn [dec]. apply (psound_bind (dec_head_m_sound binv_bytes_ok 4)). intros n Hn. apply psound_guard. intros El.
    apply (psound_bind (dec_counted_sound IH n)). intros l [Hl L]. apply psound_ret.
    cbn [wfp]. rewrite (Forall_forallb _ _ Hl), L, El. apply N.ltb_lt. exact Hn.
  - (* SSetOf *) intros s IH. cbn [dec]. apply (psound_bind (dec_head_m_sound binv_bytes_ok 6)). intros t _. apply psound_guard. intros _.
    apply (psound_bind (dec_head_m_sound binv_bytes_ok 4)). intros n Hn. apply (psound_bind (dec_counted_sound IH n)). intros l [Hl L].
    apply psound_ret. cbn [wfp]. rewrite (Forall_forallb _ _ Hl), L. apply N.ltb_lt. exact Hn.
  - (* SMapOf *) intros lo ord k IHk v' IHv. cbn [dec]. apply (psound_bind (dec_head_m_sound binv_bytes_ok 5)). intros n Hn.
    apply psound_guard. intros El.
    assert (Hp : psound bytes_ok (fun b => let* '(x, b1) := dec k b in let* '(y, b2) := dec v' b1 in Ok ((x, y), b2))
                        (fun kv => (wfp k (fst kv) && wfp v' (snd kv)) = true)).
    { apply (psound_bind IHk). intros x Hx. apply (psound_bind IHv). intros y Hy. apply psound_ret.
      cbn [fst snd]. rewrite Hx, Hy. reflexivity. }
    apply (psound_bind (dec_counted_sound Hp n)). intros l [Hl L]. apply psound_ret.
    cbn [wfp]. rewrite (Forall_forallb _ _ Hl), L, El. apply N.ltb_lt. exact Hn.
  - (* SNullable *) intros s IH bs v r Hb H. cbn [dec] in H. destruct bs as [|b t]; [discriminate|].
    destruct (b =? 246); [injection H as <- <-; split; [reflexivity|exact (binv_tail binv_bytes_ok _ _ Hb)]|].
    destruct (IH _ _ _ Hb H) as [Hv Hr]. split; [apply nullable_wfp_up; exact Hv|exact Hr].
  - (* STag *) intros t s IH. cbn [dec]. apply (psound_bind (dec_head_m_sound binv_bytes_ok 6)). intros t' _. apply psound_guard. intros _.
    exact IH.
  - (* SInBytes *) intros s IH. cbn [dec]. apply (psound_bind (dec_head_m_sound binv_bytes_ok 2)). intros n _.
    apply (psound_bind (take_bytes_sound binv_bytes_ok n)). intros b [Hb _] r0 v r Hr H.
    destruct (dec s b) as [[w [|? ?]]| | |] eqn:E; try discriminate. injection H as <- <-.
    split; [exact (proj1 (IH _ _ _ Hb E))|exact Hr].
  - (* SChoice *) intros alts IH bs v r Hb H. cbn [dec] in H. destruct (peek_major bs) as [m|]; [|discriminate].
    destruct (IH _ _ _ _ _ Hb H) as [(i & w & -> & Hw) Hr]. split; [exact Hw|exact Hr].
  - (* STagChoice *) intros alts IH. cbn [dec]. apply (psound_bind (dec_head_m_sound binv_bytes_ok 6)). intros t _.
    apply (psound_weaken (IH t O)). intros v (i & w & -> & Hw). exact Hw.
  - (* SArrAny *) intros s IH. cbn [dec]. apply (psound_head binv_bytes_ok). intros m [n|] Hn; apply psound_guard; intros _.
    + apply (psound_bind (dec_counted_sound IH n)). intros l [Hl L]. apply psound_ret.
      cbn [wfp]. rewrite (Forall_forallb _ _ Hl), L. apply N.ltb_lt, Hn. reflexivity.
    + apply (psound_bind (fun bs => dec_until_break_sound (binv_tail binv_bytes_ok) IH _ bs)). intros l Hl. apply psound_ret.
      exact (Forall_forallb _ _ Hl).
  - (* SBBytes *) cbn [dec]. apply (psound_head binv_bytes_ok). intros m [n|] _; apply psound_guard; intros _.
    + apply (psound_bind (take_bytes_sound binv_bytes_ok n)). intros b [Hb _]. apply psound_ret. exact (bytes_ok_okb _ Hb).
    + apply (psound_bind (fun bs => dec_until_break_sound (binv_tail binv_bytes_ok) (dec_chunk_sound binv_bytes_ok) _ bs)). intros cs Hcs.
      apply psound_ret. apply bytes_ok_okb, bytes_ok_concat, Hcs.
  - (* SNamed *) intros id s IH. exact IH.
  - (* SArrOpt *) intros fs IHfs o IHo. cbn [dec]. apply (psound_bind (dec_head_m_sound binv_bytes_ok 4)). intros n _.
    destruct (n =? slen fs); [|apply psound_guard; intros _]; apply (psound_bind IHfs); intros l Hl.
    + apply psound_ret. exact Hl.
    + apply (psound_bind IHo). intros x Hx. apply psound_ret. cbn [wfp]. rewrite Hl, Hx. reflexivity.
  - (* SNil *) apply psound_ret. reflexivity.
  - (* SCons *) intros s IHs r IHr. cbn [dec_sl]. apply (psound_bind IHs). intros v Hv. apply (psound_bind IHr). intros l Hl.
    apply psound_ret. cbn [wfp_sl]. rewrite Hv, Hl. reflexivity.
  - (* KNil *) intros rem. apply psound_ret. reflexivity.
  - (* KCons *) intros k p s IHs r IHr rem. cbn [dec_kl]. apply (psound_key binv_bytes_ok).
    + intros _. apply (psound_bind IHs). intros v Hv.
      destruct (match p with OptNE => is_empty_val v | _ => false end); [apply psound_err|].
      apply (psound_bind (IHr (rem - 1))). intros [l rem'] Hl. apply psound_ret.
      cbn [wfp_kl fst] in *. rewrite Hv, Hl. reflexivity.
    + destruct p; [apply psound_err| |]; apply (psound_bind (IHr rem)); intros [l rem'] Hl; apply psound_ret; exact Hl.
  - (* ANil *) intros idx n pos. apply psound_err.
  - (* ACons *) intros i fs IHfs r IHr idx n pos. cbn [dec_vl]. destruct (idx =? i).
    + apply psound_guard. intros _. apply (psound_bind IHfs). intros l Hl. apply psound_ret.
      exists O, l. rewrite Nat.add_0_r. split; [reflexivity|exact Hl].
    + apply (psound_weaken (IHr idx n (S pos))). intros v (j & l & -> & Hw).
      exists (S j), l. rewrite Nat.add_succ_r. split; [reflexivity|exact Hw].
  - (* CNil *) intros d pos. apply psound_err.
  - (* CCons *) intros d s IHs r IHr disc pos. cbn [dec_cl]. destruct (disc =? d).
    + apply (psound_bind IHs). intros w Hw. apply psound_ret. exists O, w. rewrite Nat.add_0_r. split; [reflexivity|exact Hw].
    + apply (psound_weaken (IHr disc (S pos))). intros v (j & w & -> & Hw).
      exists (S j), w. rewrite Nat.add_succ_r. split; [reflexivity|exact Hw].
Qed.

Theorem dec_wfp s bs v r : bytes_ok bs -> dec s bs = Ok (v, r) -> wfp s v = true /\ bytes_ok r.
Proof. exact (proj1 dec_wfp_all s bs v r). Qed.
