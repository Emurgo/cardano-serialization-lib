(* Tie between the hand-written size model (OutputSize.v) and the schema-directed encoder of check C01
   (Codec/Schema.v [enc], Ledger/Schemas.v [TransactionOutput]), which C01 proves to round-trip and ties
   to the Rust serializer by its own differential run:

     out_size (shape of o) = length (enc (TransactionOutput d) (value of o))

   for every concrete output o (address bytes, coin, bundle with 28-byte policy ids and arbitrary names,
   no datum / 32-byte datum hash / inline datum given as any value of the PlutusData schema, no script /
   native script given as any value of the NativeScript schema / Plutus script bytes of the three
   languages).  The lone-datum-hash form is the schema TransactionOutputLegacyDH, as in the Rust writer. *)
From CSL Require Import Base.Prelude Cbor.Head Cbor.HeadProofs Codec.Schema Ledger.Schemas MinAda.OutputSize.
Local Open Scope N_scope.

Definition cassets := list (bytes * N).                 (* asset name, quantity *)
Definition cma := list (bytes * cassets).               (* policy id, assets *)
Inductive cdatum := CDNone | CDHash (h : bytes) | CDInline (v : val).
Inductive csref := CSNative (v : val) | CSPlutus (lang : nat) (b : bytes).   (* lang 0,1,2 = Plutus V1,V2,V3 *)
Record coutput := mkCOut { co_addr : bytes; co_coin : N; co_ma : cma; co_datum : cdatum; co_sref : option csref }.

Definition len (b : bytes) : N := N.of_nat (length b).

Section Tie.
Variable d : nat.    (* unrolling depth of the recursive schemas; the tie holds for every depth *)

(* the size-only view of a concrete output *)
Definition shape_ma (ma : cma) : multiasset := map (fun p => map (fun a => (len (fst a), snd a)) (snd p)) ma.
Definition shape_datum (x : cdatum) : datum :=
  match x with CDNone => DNone | CDHash _ => DHash | CDInline v => DInline (len (enc (PlutusData d) v)) end.
Definition shape_sref (x : csref) : sref :=
  match x with
  | CSNative v => SRNative (len (enc (NativeScript d) v))
  | CSPlutus _ b => SRPlutus (len b)
  end.
Definition shape (o : coutput) : output :=
  mkOut (len (co_addr o)) (co_coin o) (shape_ma (co_ma o)) (shape_datum (co_datum o)) (option_map shape_sref (co_sref o)).

(* the value universe of the schema interpreter *)
Definition val_assets (a : cassets) : val := VMap (map (fun x => (VBytes (fst x), VNat (snd x))) a).
Definition val_ma (ma : cma) : val := VMap (map (fun p => (VBytes (fst p), val_assets (snd p))) ma).
Definition val_value (coin : N) (ma : cma) : val :=
  if ma_present (shape_ma ma) then VAlt 1 (VList [VNat coin; val_ma ma]) else VAlt 0 (VNat coin).
Definition val_datum (x : cdatum) : option val :=
  match x with CDNone => None | CDHash h => Some (VVar 0 [VBytes h]) | CDInline v => Some (VVar 1 [v]) end.
Definition val_sref (x : csref) : val :=
  match x with CSNative v => VVar 0 [v] | CSPlutus lang b => VVar (S lang) [VBytes b] end.

(* the value of the TransactionOutput schema: map form, or the array form (SArrOpt) without / with the
   trailing data hash (the optional item comes first in the value list of the second alternative) *)
Definition val_output (o : coutput) : val :=
  if map_form (shape o) then
    VAlt 1 (VStruct [Some (VBytes (co_addr o)); Some (val_value (co_coin o) (co_ma o));
                     val_datum (co_datum o); option_map val_sref (co_sref o)])
  else
    match co_datum o with
    | CDHash h => VAlt 0 (VAlt 1 (VList [VBytes h; VBytes (co_addr o); val_value (co_coin o) (co_ma o)]))
    | _ => VAlt 0 (VAlt 0 (VList [VBytes (co_addr o); val_value (co_coin o) (co_ma o)]))
    end.
Definition enc_output (o : coutput) : bytes := enc (TransactionOutput d) (val_output o).

(* the same bytes through the stand-alone schemas of the two array forms *)
Definition enc_output_standalone (o : coutput) : bytes :=
  if map_form (shape o) then enc_output o
  else
    match co_datum o with
    | CDHash h => enc TransactionOutputLegacyDH (VList [VBytes (co_addr o); val_value (co_coin o) (co_ma o); VBytes h])
    | _ => enc TransactionOutputLegacy (VList [VBytes (co_addr o); val_value (co_coin o) (co_ma o)])
    end.

Lemma len_app a b : len (a ++ b) = len a + len b.
Proof. unfold len. rewrite app_length. lia. Qed.
Lemma len_head m n : len (encode_head m n) = head_size n.
Proof. apply head_length. Qed.
Lemma len_concat_map {A} (f : A -> bytes) (l : list A) :
  len (concat (map f l)) = sumN (map (fun x => len (f x)) l).
Proof.
  induction l as [|x l IH]; [reflexivity|]. cbn [map concat sumN fold_right]. rewrite len_app, IH. reflexivity.
Qed.
Lemma lenN_map {A B} (f : A -> B) (l : list A) : lenN (map f l) = lenN l.
Proof. unfold lenN. rewrite map_length. reflexivity. Qed.
Lemma sumN_map_in {A} (f g : A -> N) (l : list A) :
  Forall (fun x => f x = g x) l -> sumN (map f l) = sumN (map g l).
Proof.
  induction 1 as [|x l H _ IH]; [reflexivity|]. cbn [map sumN fold_right]. rewrite H. unfold sumN in IH. rewrite IH. reflexivity.
Qed.

(* the encoder on the schema constructors an output is made of *)
Lemma len_enc_uint lim n : len (enc (SUint lim) (VNat n)) = head_size n.
Proof. apply len_head. Qed.
Lemma len_enc_bytes lo hi b : len (enc (SBytes lo hi) (VBytes b)) = bytes_size (len b).
Proof. cbn [enc]. rewrite len_app, len_head. reflexivity. Qed.
Lemma len_enc_mapof lo ord k v l :
  len (enc (SMapOf lo ord k v) (VMap l)) =
  head_size (lenN l) + sumN (map (fun kv => len (enc k (fst kv)) + len (enc v (snd kv))) l).
Proof.
  cbn [enc]. rewrite len_app, len_head, len_concat_map. f_equal.
  apply sumN_map_in, Forall_forall. intros kv _. apply len_app.
Qed.
(* #6.24(bytes .cbor s): the tag is the two bytes d8 18 *)
Lemma len_enc_cbor_in_bytes s v : len (enc (STag 24 (SInBytes s)) v) = 2 + bytes_size (len (enc s v)).
Proof. cbn [enc]. rewrite !len_app, !len_head. reflexivity. Qed.

Lemma len_assets (a : cassets) :
  len (enc Assets (val_assets a)) = assets_size (map (fun x => (len (fst x), snd x)) a).
Proof.
  unfold Assets, val_assets, assets_size, AssetNameS, Coin, U64. rewrite len_enc_mapof, !lenN_map, !map_map. f_equal.
  apply sumN_map_in, Forall_forall. intros [n q] _. cbn [fst snd]. rewrite len_enc_bytes, len_enc_uint. reflexivity.
Qed.

Definition ids28 (ma : cma) : Prop := Forall (fun p => len (fst p) = 28) ma.

Lemma len_ma (ma : cma) : ids28 ma ->
  len (enc MultiAsset (val_ma ma)) = ma_size (shape_ma ma).
Proof.
  intros I. unfold MultiAsset, val_ma, ma_size, shape_ma, H28. rewrite len_enc_mapof, !lenN_map, !map_map. f_equal.
  apply sumN_map_in. eapply Forall_impl; [|exact I]. intros [pid a] Hp. cbn [fst snd] in *.
  rewrite len_enc_bytes, Hp, len_assets. reflexivity.
Qed.

(* closed arguments of head_size (array / map lengths, keys, tags): literals and sums of literals are evaluated *)
Ltac is_lit n := lazymatch n with N0 => idtac | Npos _ => idtac | ?a + ?b => is_lit a; is_lit b end.
Ltac closed_heads :=
  repeat match goal with |- context [head_size ?n] =>
    is_lit n; let r := eval vm_compute in (head_size n) in change (head_size n) with r
  end.
(* the length of a concatenation of heads and encodings, as a sum *)
Ltac lens := unfold enc_uint; rewrite ?len_app, ?len_head; change (len []) with 0; closed_heads.

Lemma len_value coin ma : ids28 ma ->
  len (enc Value (val_value coin ma)) = value_size coin (shape_ma ma).
Proof.
  intros I. unfold val_value, value_size, Value, choice, arr, Coin, U64.
  destruct (ma_present (shape_ma ma)); cbn [cl sl enc enc_cl enc_sl slen app]; lens; [|reflexivity].
  rewrite (len_ma ma I). lia.
Qed.

Definition hash_ok (x : cdatum) : Prop := match x with CDHash h => len h = 32 | _ => True end.
Definition lang_ok (x : option csref) : Prop := match x with Some (CSPlutus l _) => (l < 3)%nat | _ => True end.

Lemma len_address addr : len (enc AddressS (VBytes addr)) = bytes_size (len addr).
Proof. exact (len_enc_bytes 29 59 addr). Qed.
Lemma len_hash32 h : len h = 32 -> len (enc H32 (VBytes h)) = bytes_size 32.
Proof. intros H. unfold H32. rewrite len_enc_bytes, H. reflexivity. Qed.

(* an optional field of a map-struct: its one-byte key and its encoding, or nothing *)
Definition field_len (s : schema) (o : option val) : N := match o with Some v => 1 + len (enc s v) | None => 0 end.

Lemma len_datum_field x : hash_ok x ->
  field_len (DataOption d) (val_datum x) = match shape_datum x with DNone => 0 | dd => 1 + data_option_size dd end.
Proof.
  intros H. destruct x as [|h|v]; [reflexivity| |];
    unfold DataOption, var; cbn [field_len val_datum shape_datum data_option_size al sl enc enc_vl enc_sl slen]; lens.
  - rewrite (len_hash32 h H). lia.
  - fold (len (enc (PlutusData d) v)). unfold bytes_size. lia.
Qed.

Lemma len_sref_field x : lang_ok x ->
  field_len (ScriptRef d) (option_map val_sref x) = match option_map shape_sref x with None => 0 | Some s => 1 + sref_size s end.
Proof.
  intros L. destruct x as [x|]; [|reflexivity]. cbn [field_len option_map]. f_equal.
  unfold ScriptRef, sref_size. rewrite len_enc_cbor_in_bytes. do 2 f_equal.
  destruct x as [v | lang b]; [|destruct lang as [|[|[|lang]]]; [| | |cbn in L; lia]];
    unfold var, PlutusScriptBytes; cbn [val_sref shape_sref sref_inner al sl enc enc_vl enc_sl slen]; lens;
    unfold bytes_size, len; lia.
Qed.

Lemma len_output_map addr value od os :
  len (enc (TransactionOutputMap d) (VStruct [Some (VBytes addr); Some value; od; os])) =
  1 + (1 + bytes_size (len addr)) + (1 + len (enc Value value)) + field_len (DataOption d) od + field_len (ScriptRef d) os.
Proof.
  unfold TransactionOutputMap, mapS.
  destruct od, os; cbn [kl enc enc_kl count_kl present field_len app]; lens; rewrite len_address; lia.
Qed.

Theorem out_size_is_schema_length (o : coutput) :
  ids28 (co_ma o) -> hash_ok (co_datum o) -> lang_ok (co_sref o) ->
  len (enc_output o) = out_size (shape o).
Proof.
  intros I Hh Hl. unfold enc_output, val_output, out_size, out_value_size, TransactionOutput, choice.
  destruct (map_form (shape o)) eqn:F; cbn [cl enc enc_cl app shape o_addr o_coin o_ma o_datum o_sref].
  - rewrite len_output_map, (len_value _ _ I), (len_datum_field _ Hh), (len_sref_field _ Hl). reflexivity.
  - (* array form: no script reference, and the datum is absent or a hash *)
    unfold map_form in F. cbn [shape o_datum o_sref] in F.
    destruct (co_sref o); [rewrite orb_true_r in F; discriminate|].
    destruct (co_datum o) as [|h|v]; [| |discriminate];
      unfold TransactionOutputArr; cbn [sl enc enc_sl slen shape_datum]; lens;
      rewrite len_address, (len_value _ _ I), ?(len_hash32 h Hh); lia.
Qed.

(* the array forms inside TransactionOutput (SArrOpt) are byte for byte the stand-alone schemas
   TransactionOutputLegacy / TransactionOutputLegacyDH *)
Theorem enc_output_standalone_eq (o : coutput) : enc_output o = enc_output_standalone o.
Proof.
  unfold enc_output_standalone, enc_output, val_output.
  destruct (map_form (shape o)); [reflexivity|].
  destruct (co_datum o) as [|h|v];
    unfold TransactionOutput, TransactionOutputArr, TransactionOutputLegacy, TransactionOutputLegacyDH, choice, arr;
    cbn [cl sl enc enc_cl enc_sl slen app]; rewrite ?app_nil_r, <- ?app_assoc; reflexivity.
Qed.
End Tie.
