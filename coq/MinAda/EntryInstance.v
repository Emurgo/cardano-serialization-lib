(* C07 on the one-call helper add_inputs_from_and_change_with_collateral_return (C05/C19's joint model
   Builder/MoreEntry.v percent_entry): with the concrete size answers, a successful call leaves every output of the
   builder within the limits AND a collateral return that meets min ADA and max_value_size -- because the entry point
   stores the return through set_total_collateral_and_return, whose admission test is [ask_col].  (A variant that
   computes the return itself and stores it through the raw setters has no such test: that is what the correspondence
   run's judge catches.) *)
From CSL Require Import Base.Prelude Base.U64 Cbor.Head Num.Value Deposits.Deposits Builder.Totals Builder.Change
  Builder.ChangeProofs.
From CSL Require Collateral.Collateral Builder.Scenario Builder.MoreEntry MinAda.OutputSize MinAda.MinAda MinAda.MinAdaProofs.
From CSL Require Import MinAda.ChangeInstance MinAda.BuildScenario.
Local Open Scope N_scope.

Definition col_exact {O : Type} (e : cenv) (ask_col : Collateral.Collateral.output -> O -> result N * O) : Prop :=
  forall out o, fst (ask_col out o) = fst (ask_col_c e out tt).

Definition col_return_ok (e : cenv) (c : MoreEntry.colstate) : Prop :=
  match MoreEntry.cs_return c with
  | Some out => MinAda.output_ok (ce_cfg e) (col_shape out) = true
  | None => True
  end.

Lemma ask_col_c_exact e : col_exact e (ask_col_c e).
Proof. intros out []. reflexivity. Qed.

(* the concrete admission test of a collateral return: a coin at or above its answer is within both limits *)
Lemma ask_col_c_ok e out m :
  fst (ask_col_c e out tt) = Ok m -> m <= OutputSize.o_coin (col_shape out) ->
  MinAda.output_ok (ce_cfg e) (col_shape out) = true.
Proof.
  unfold ask_col_c. cbn [fst].
  destruct (N.ltb_spec (MinAda.c_max_value_size (ce_cfg e)) (OutputSize.out_value_size (col_shape out))) as [V|V];
    [discriminate|].
  intros M L. apply MinAdaProofs.output_ok_iff. split; [exact (MinAdaProofs.admitted_meets_min _ _ _ M L) | exact V].
Qed.

Section Entry.
  Context {O : Type}.
  Variable orc : @oracle O.
  Variable ask_col : Collateral.Collateral.output -> O -> result N * O.
  Variable e : cenv.
  Hypothesis SE : sizes_exact e orc.
  Hypothesis CE : col_exact e ask_col.

  (* set_total_collateral_and_return: a stored return passed the value-size and min-ADA tests *)
  Lemma col_set_total_and_return_ok total addr c o c' o' :
    MoreEntry.col_set_total_and_return ask_col total addr c o = (Ok tt, c', o') -> col_return_ok e c'.
  Proof.
    unfold MoreEntry.col_set_total_and_return.
    destruct (MoreEntry.is_nilb _); [discriminate|].
    destruct (Collateral.Collateral.total_value _) as [inp| | |]; try discriminate.
    destruct (coin inp <? total); [discriminate|].
    destruct (value_checked_sub inp (value_new total)) as [ret| | |]; try discriminate.
    destruct (MoreEntry.is_someb (multiasset_of ret) || (0 <? coin ret)); [|intros H; inversion H; subst; exact I].
    pose proof (CE (Collateral.Collateral.output_new addr ret) o) as X.
    destruct (ask_col (Collateral.Collateral.output_new addr ret) o) as [[m| | |] o1]; try discriminate.
    destruct (N.ltb_spec (coin ret) m) as [L|L]; [discriminate|]. intros H; inversion H; subst.
    exact (ask_col_c_ok e _ m (eq_sym X) L).
  Qed.

  Theorem percent_entry_ok fuel utxos addr extra addr_b pct s c o :
    ChangeInstance.J0 e s ->
    MoreEntry.jo_res (MoreEntry.percent_entry orc ask_col fuel utxos addr extra addr_b pct s c o) = Ok tt ->
    all_ok e (MoreEntry.jo_st (MoreEntry.percent_entry orc ask_col fuel utxos addr extra addr_b pct s c o)) /\
    col_return_ok e (MoreEntry.jo_col (MoreEntry.percent_entry orc ask_col fuel utxos addr extra addr_b pct s c o)).
  Proof.
    intros Js. unfold MoreEntry.percent_entry.
    destruct (Collateral.Collateral.total_value _) as [tc| | |]; cbn [MoreEntry.jo_res]; try discriminate.
    destruct (add_inputs_from_and_change_ok orc e SE fuel utxos addr extra s o Js I) as [_ Q].
    destruct (out_res (add_inputs_from_and_change orc fuel utxos addr extra s o)) as [b| | |];
      cbn [MoreEntry.jo_res]; try discriminate.
    destruct (get_fee_if_set _) as [fee|]; cbn [MoreEntry.jo_res]; [|discriminate].
    destruct (let* x := checked_mul fee pct in checked_add (x / 100) 1) as [required| | |]; cbn [MoreEntry.jo_res]; try discriminate.
    destruct (MoreEntry.col_set_total_and_return ask_col required addr_b _ _) as [[[[]| | |] c''] o''] eqn:K;
      cbn [MoreEntry.jo_res MoreEntry.jo_st MoreEntry.jo_col]; try discriminate.
    intros _. split; [exact Q | exact (col_set_total_and_return_ok _ _ _ _ _ _ K)].
  Qed.
End Entry.
