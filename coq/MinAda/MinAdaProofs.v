(* Proofs about the min-ADA calculator and the builder guards (models in OutputSize.v / MinAda.v). *)
From CSL Require Import Base.Prelude Base.Facts Base.U64 Cbor.Head Cbor.HeadProofs MinAda.OutputSize MinAda.MinAda.
Local Open Scope N_scope.

(* [H : (let* x := r in k x) = Ok b] becomes [E : r = Ok x] and [H : k x = Ok b] *)
Ltac bind_ok H x E := apply bind_ok in H; destruct H as (x & E & H).

Lemma checked_add_ok a b c : checked_add a b = Ok c -> c = a + b.
Proof. unfold checked_add. destruct (a + b <? two64); congruence. Qed.

Lemma checked_sub_ok a b c : checked_sub a b = Ok c -> b <= a /\ c = a - b.
Proof. unfold checked_sub. destruct (N.leb_spec b a); [split; congruence | discriminate]. Qed.

(* size algebra: the coin enters the size of an output only through the head of its own encoding *)

Lemma head_size_u64_max : head_size u64_max = 9.
Proof. reflexivity. Qed.

Lemma map_form_set_coin o c : map_form (set_coin o c) = map_form o.
Proof. reflexivity. Qed.

Lemma value_size_decomp c ma : value_size c ma = value_base ma + head_size c.
Proof.
  unfold value_base, value_size. change (head_size 0) with 1.
  pose proof (head_size_bounds c). destruct (ma_present ma); lia.
Qed.

Theorem out_size_decomp o : out_size o = out_base o + head_size (o_coin o).
Proof.
  unfold out_base, out_size, out_value_size. rewrite map_form_set_coin.
  cbn [set_coin o_coin o_ma o_addr o_datum o_sref].
  rewrite (value_size_decomp (o_coin o)), (value_size_decomp 0). change (head_size 0) with 1.
  destruct (map_form o); lia.
Qed.

Lemma out_size_set_coin o c : out_size (set_coin o c) = out_base o + head_size c.
Proof. apply out_size_decomp. Qed.

Lemma out_value_size_decomp o : out_value_size o = value_base (o_ma o) + head_size (o_coin o).
Proof. apply value_size_decomp. Qed.

(* the size grows (weakly) with the coin, by at most 8 bytes over all coins *)
Lemma out_size_mono o c1 c2 : c1 <= c2 -> out_size (set_coin o c1) <= out_size (set_coin o c2).
Proof. intros H. rewrite !out_size_set_coin. pose proof (head_size_mono _ _ H). lia. Qed.

Lemma out_size_widest o : out_size o <= out_base o + 9.
Proof. rewrite out_size_decomp. pose proof (head_size_bounds (o_coin o)). lia. Qed.

Definition cost (cpb size : N) : N := (size + 160) * cpb.

Lemma calc_size_cost_cases cpb size :
  (calc_size_cost cpb size = Ok (cost cpb size) /\ size + 160 < two64 /\ cost cpb size < two64) \/
  (calc_size_cost cpb size = Err /\ (two64 <= size + 160 \/ two64 <= cost cpb size)).
Proof.
  unfold calc_size_cost, checked_add, checked_mul, cost, bind.
  destruct (size + 160 <? two64) eqn:A.
  - destruct ((size + 160) * cpb <? two64) eqn:B; [left | right]; repeat split; try reflexivity; lia.
  - right. split; [reflexivity | lia].
Qed.

Lemma required_ok cpb base coin r :
  required cpb base coin = Ok r ->
  r = cost cpb (base + head_size coin) /\ base + head_size coin + 160 < two64 /\ r < two64.
Proof.
  unfold required. destruct (calc_size_cost_cases cpb (base + head_size coin)) as [(E & L) | [E _]];
    rewrite E; intros H; inversion H; subst. auto.
Qed.

Lemma cost_mono cpb s1 s2 : s1 <= s2 -> cost cpb s1 <= cost cpb s2.
Proof. intros H. unfold cost. apply N.mul_le_mono_r. lia. Qed.

(* the price of an output as a function of its coin: monotone, and at most the price at the widest coin *)
Lemma price_mono cpb base c1 c2 : c1 <= c2 -> cost cpb (base + head_size c1) <= cost cpb (base + head_size c2).
Proof. intros H. apply cost_mono. pose proof (head_size_mono _ _ H). lia. Qed.

Lemma price_le9 cpb base c : cost cpb (base + head_size c) <= cost cpb (base + 9).
Proof. apply cost_mono. pose proof (head_size_bounds c). lia. Qed.

Lemma cost_meets cpb base coin : meets_min_abs cpb base coin = true <-> cost cpb (base + head_size coin) <= coin.
Proof. unfold meets_min_abs, cost. rewrite N.leb_le. lia. Qed.

(* a coin that covers the price of a larger output at a wider coin is admissible *)
Lemma meets_min_abs_mono cpb b1 b2 w coin :
  b1 <= b2 -> head_size coin <= w -> cost cpb (b2 + w) <= coin -> meets_min_abs cpb b1 coin = true.
Proof. intros B W C. apply cost_meets. pose proof (cost_mono cpb (b1 + head_size coin) (b2 + w)). lia. Qed.

(* the fixed-point iteration, for ANY number of rounds (the code uses 3) *)

(* A round either stops at the price r of the current coin (r <= coin) or goes on from r (coin < r); after the
   last round the price of the widest coin is returned.  Every fact about a returned value is proved by this
   case analysis. *)
Lemma rounds_ind cpb base (P : N -> N -> Prop) :
  (forall coin, base + 9 + 160 < two64 /\ cost cpb (base + 9) < two64 -> P coin (cost cpb (base + 9))) ->
  (forall coin r, r = cost cpb (base + head_size coin) -> base + head_size coin + 160 < two64 /\ r < two64 ->
                  r <= coin -> P coin r) ->
  (forall coin r c, r = cost cpb (base + head_size coin) -> coin < r -> P r c -> P coin c) ->
  forall n coin c, rounds n cpb base coin = Ok c -> P coin c.
Proof.
  intros Last Stop Step. induction n as [|n IH]; intros coin c H; cbn [rounds] in H.
  - apply required_ok in H. rewrite head_size_u64_max in H. destruct H as [-> L]. apply Last, L.
  - bind_ok H r R. apply required_ok in R. destruct R as [R L].
    destruct (N.ltb_spec coin r) as [C|C].
    + eapply Step; eauto.
    + inversion H; subst c. apply Stop; assumption.
Qed.

Lemma rounds_ge n cpb base coin c :
  rounds n cpb base coin = Ok c -> cost cpb (base + head_size coin) <= c.
Proof.
  revert n coin c. apply rounds_ind.
  - intros coin _. apply price_le9.
  - intros coin r -> _ _. reflexivity.
  - intros coin r c E L IH. pose proof (price_mono cpb base coin r). lia.
Qed.

Lemma rounds_fixed n cpb base coin c :
  rounds n cpb base coin = Ok c -> meets_min_abs cpb base c = true.
Proof.
  revert n coin c. apply rounds_ind.
  - intros coin _. apply cost_meets, price_le9.
  - intros coin r E _ L. apply cost_meets. pose proof (price_mono cpb base r coin L). lia.
  - intros coin r c _ _ IH. exact IH.
Qed.

Theorem rounds_sound n cpb base coin c :
  rounds n cpb base coin = Ok c -> meets_min_abs cpb base (N.max c coin) = true.
Proof.
  intros H. pose proof (rounds_ge _ _ _ _ _ H) as G.
  destruct (N.max_spec c coin) as [[L ->] | [L ->]]; [apply cost_meets; lia | eapply rounds_fixed; eauto].
Qed.

Lemma rounds_range n cpb base coin c :
  rounds n cpb base coin = Ok c -> base + head_size c + 160 < two64 /\ c < two64.
Proof.
  revert n coin c. apply rounds_ind; auto.
  - intros _ [S L]. pose proof (head_size_bounds (cost cpb (base + 9))). lia.
  - intros coin r _ [S L] C. pose proof (head_size_mono _ _ C). lia.
Qed.

(* it is the price at one of the five widths (1, 2, 3, 5, 9) *)
Lemma rounds_is_price n cpb base coin c :
  rounds n cpb base coin = Ok c -> exists w, 1 <= w <= 9 /\ c = cost cpb (base + w).
Proof.
  revert n coin c. apply rounds_ind; auto.
  - exists 9. lia.
  - intros coin r E _ _. exists (head_size coin). split; [apply head_size_bounds | exact E].
Qed.

Theorem rounds_upper n cpb base coin c :
  rounds n cpb base coin = Ok c -> c <= cost cpb (base + 9).
Proof. intros H. destruct (rounds_is_price _ _ _ _ _ H) as (w & W & ->). apply cost_mono. lia. Qed.

(* the result is the LEAST admissible coin at or above the starting coin, unless the fallback price is returned *)
Theorem rounds_least n cpb base coin c :
  rounds n cpb base coin = Ok c ->
  c = cost cpb (base + 9) \/
  (forall x, coin <= x -> meets_min_abs cpb base x = true -> c <= x).
Proof.
  (* no admissible coin lies between a coin and its price *)
  assert (K : forall y x, y <= x -> meets_min_abs cpb base x = true -> cost cpb (base + head_size y) <= x).
  { intros y x L M. apply cost_meets in M. pose proof (price_mono cpb base y x L). lia. }
  revert n coin c. apply rounds_ind; auto.
  - intros coin r -> _ _. right. apply K.
  - intros coin r c -> _ [E | Lst]; [left; exact E | right]. intros x L M. apply Lst; auto.
Qed.

(* a result that does not exceed the starting coin is the price at that coin: the first round has stopped *)
Lemma rounds_stops n cpb base coin c :
  rounds (S n) cpb base coin = Ok c -> c <= coin -> c = cost cpb (base + head_size coin).
Proof.
  intros H L. pose proof (rounds_ge _ _ _ _ _ H) as G. cbn [rounds] in H.
  bind_ok H r R. apply required_ok in R. destruct R as [-> _].
  destruct (N.ltb_spec coin (cost cpb (base + head_size coin))); [lia | congruence].
Qed.

(* errors: never a panic, never out of fuel; an error is reported only when the widest price does not
   fit in 64 bits (or the size itself does not), and then the result can indeed not be represented *)
Lemma rounds_cases n : forall cpb base coin,
  (exists c, rounds n cpb base coin = Ok c) \/
  (rounds n cpb base coin = Err /\ (two64 <= base + 9 + 160 \/ two64 <= cost cpb (base + 9))).
Proof.
  induction n as [|n IH]; intros cpb base coin; cbn [rounds]; unfold required.
  - rewrite head_size_u64_max. destruct (calc_size_cost_cases cpb (base + 9)) as [[E _] | [E B]]; rewrite E; eauto.
  - destruct (calc_size_cost_cases cpb (base + head_size coin)) as [[E _] | [E B]]; rewrite E; cbn [bind].
    + destruct (coin <? _); eauto.
    + right. split; [reflexivity|]. pose proof (head_size_bounds coin). pose proof (price_le9 cpb base coin). lia.
Qed.

Lemma rounds_total n cpb base coin : rounds n cpb base coin <> Panic /\ rounds n cpb base coin <> OutOfFuel.
Proof. destruct (rounds_cases n cpb base coin) as [[c E] | [E _]]; rewrite E; split; discriminate. Qed.

Lemma calc_required_coin_abs cpb o : calc_required_coin cpb o = required cpb (out_base o) (o_coin o).
Proof. unfold calc_required_coin, required. rewrite out_size_decomp. reflexivity. Qed.

Lemma calc_rounds_abs n : forall cpb o, calc_rounds n cpb o = rounds n cpb (out_base o) (o_coin o).
Proof.
  induction n as [|n IH]; intros cpb o; cbn [calc_rounds rounds]; rewrite calc_required_coin_abs; [reflexivity|].
  destruct (required cpb (out_base o) (o_coin o)) as [r| | |]; cbn [bind]; try reflexivity.
  destruct (o_coin o <? r); [apply IH | reflexivity].
Qed.

Lemma calculate_ada_abs_eq cpb o : calculate_ada cpb o = calculate_ada_abs cpb (out_base o) (o_coin o).
Proof. apply calc_rounds_abs. Qed.

Lemma meets_min_abs_eq cpb o : meets_min cpb o = meets_min_abs cpb (out_base o) (o_coin o).
Proof. unfold meets_min, meets_min_abs. rewrite out_size_decomp. reflexivity. Qed.

Lemma min_ada_total cpb o : min_ada_for_output cpb o <> Panic /\ min_ada_for_output cpb o <> OutOfFuel.
Proof. unfold min_ada_for_output. rewrite calculate_ada_abs_eq. apply rounds_total. Qed.

Theorem min_ada_sound cpb o c :
  min_ada_for_output cpb o = Ok c -> meets_min cpb (set_coin o (N.max c (o_coin o))) = true.
Proof.
  unfold min_ada_for_output. rewrite calculate_ada_abs_eq, meets_min_abs_eq. apply rounds_sound.
Qed.

Lemma min_ada_fixed cpb o c : calculate_ada cpb o = Ok c -> meets_min cpb (set_coin o c) = true.
Proof. rewrite calculate_ada_abs_eq, meets_min_abs_eq. apply rounds_fixed. Qed.

(* a minimum that does not exceed the coin it was computed with is the price at that coin *)
Lemma min_ada_stops cpb o m :
  calculate_ada cpb o = Ok m -> m <= o_coin o -> m = cost cpb (out_base o + head_size (o_coin o)).
Proof. rewrite calculate_ada_abs_eq. apply rounds_stops. Qed.

Lemma admitted_meets_min cpb o m :
  min_ada_for_output cpb o = Ok m -> m <= o_coin o -> meets_min cpb o = true.
Proof.
  unfold min_ada_for_output. rewrite calculate_ada_abs_eq, meets_min_abs_eq, cost_meets. intros H L.
  apply rounds_ge in H. lia.
Qed.

(* conversely the admission test is complete: an output that meets the bound, with a u64 coin and a size whose
   price can be computed, is answered by that price in the first round *)
Lemma min_ada_of_admissible cpb o :
  meets_min cpb o = true -> out_size o + 160 < two64 /\ o_coin o < two64 ->
  min_ada_for_output cpb o = Ok (cost cpb (out_size o)).
Proof.
  rewrite meets_min_abs_eq, cost_meets, out_size_decomp. intros M [S L].
  unfold min_ada_for_output. rewrite calculate_ada_abs_eq. unfold calculate_ada_abs. cbn [rounds]. unfold required.
  destruct (calc_size_cost_cases cpb (out_base o + head_size (o_coin o))) as [[E _] | [_ B]]; [|lia].
  rewrite E. cbn [bind]. destruct (N.ltb_spec (o_coin o) (cost cpb (out_base o + head_size (o_coin o)))); [lia | reflexivity].
Qed.

Lemma output_ok_iff cfg o :
  output_ok cfg o = true <-> meets_min (c_cpb cfg) o = true /\ out_value_size o <= c_max_value_size cfg.
Proof. unfold output_ok. rewrite andb_true_iff, N.leb_le. reflexivity. Qed.

(* a larger coin of the same width changes no size, so both limits keep holding *)
Lemma output_ok_same_width cfg o c :
  o_coin o <= c -> head_size c = head_size (o_coin o) -> output_ok cfg o = true -> output_ok cfg (set_coin o c) = true.
Proof.
  intros L W. rewrite !output_ok_iff. unfold meets_min. rewrite !N.leb_le.
  rewrite out_size_set_coin, (out_size_decomp o), !out_value_size_decomp. cbn [set_coin o_coin o_ma]. rewrite W. lia.
Qed.

(* the min-ADA test that ends add_output and the collateral-return setters *)
Lemma min_ada_test_ok cpb o :
  (let* m := min_ada_for_output cpb o in if o_coin o <? m then Err else Ok tt) = Ok tt -> meets_min cpb o = true.
Proof.
  intros H. bind_ok H m M. destruct (N.ltb_spec (o_coin o) m) as [L|L]; [discriminate|].
  exact (admitted_meets_min _ _ _ M L).
Qed.

Lemma check_output_limits_ok cfg o :
  check_output_limits cfg o = Ok tt -> output_ok cfg o = true.
Proof.
  unfold check_output_limits, check_max_value_size. rewrite output_ok_iff.
  destruct (N.ltb_spec (c_max_value_size cfg) (out_value_size o)) as [V|V]; [discriminate|]. cbn [bind].
  intros H. split; [exact (min_ada_test_ok _ _ H) | exact V].
Qed.

Theorem add_output_admission cfg outs o outs' :
  add_output cfg outs o = Ok outs' -> outs' = outs ++ [o] /\ output_ok cfg o = true.
Proof.
  unfold add_output. destruct (ma_has_empty_entries (o_ma o)); [discriminate|].
  intros H. bind_ok H u C. destruct u. split; [congruence | exact (check_output_limits_ok _ _ C)].
Qed.

Theorem add_output_invariant cfg outs o outs' :
  forallb (output_ok cfg) outs = true -> add_output cfg outs o = Ok outs' ->
  forallb (output_ok cfg) outs' = true.
Proof.
  intros I H. apply add_output_admission in H. destruct H as [-> K].
  rewrite forallb_app, I. cbn [forallb]. rewrite K. reflexivity.
Qed.

Lemma add_output_never_panics cfg outs o : add_output cfg outs o <> Panic /\ add_output cfg outs o <> OutOfFuel.
Proof.
  unfold add_output, check_output_limits, check_max_value_size.
  destruct (ma_has_empty_entries (o_ma o)); [split; discriminate|].
  destruct (c_max_value_size cfg <? out_value_size o); cbn [bind]; [split; discriminate|].
  pose proof (min_ada_total (c_cpb cfg) o) as [P F].
  destruct (min_ada_for_output (c_cpb cfg) o) as [m| | |]; cbn [bind]; try (split; discriminate); try tauto.
  destruct (o_coin o <? m); cbn [bind]; split; discriminate.
Qed.

Lemma calc_output_base_le a ma d s c c' :
  a <= fake_addr_len ->
  out_base (mkOut a c ma d s) <= out_base (calc_output None (Some (c', ma)) d s).
Proof.
  intros H. unfold out_base, out_size, out_value_size, calc_output, map_form, set_coin.
  cbn [o_addr o_coin o_ma o_datum o_sref].
  assert (B : bytes_size a <= bytes_size fake_addr_len).
  { unfold bytes_size. pose proof (head_size_mono _ _ H). lia. }
  destruct (is_inline d || is_some s); lia.
Qed.

(* a coin computed on the fake 57-byte address is admissible on any address that is not longer *)
Lemma fake_address_covers cpb addr ma d s c' c :
  addr <= fake_addr_len ->
  calculate_ada cpb (calc_output None (Some (c', ma)) d s) = Ok c -> meets_min cpb (mkOut addr c ma d s) = true.
Proof.
  intros A C. apply min_ada_fixed in C. rewrite meets_min_abs_eq in C |- *. apply cost_meets in C.
  exact (meets_min_abs_mono _ _ _ _ _ (calc_output_base_le addr ma d s c c' A) (N.le_refl _) C).
Qed.

Theorem helper_output_meets_min_repaired cpb addr ma d s o :
  helper_output_gen true cpb addr ma d s = Ok o -> meets_min cpb o = true.
Proof.
  unfold helper_output_gen, helper_required_coin_gen. intros H.
  bind_ok H c C. bind_ok C c1 C1. bind_ok C c2 C2. bind_ok C m M. inversion C; subst c. inversion H; subst o.
  rewrite N.max_comm. exact (min_ada_sound _ _ _ M).
Qed.

Theorem helper_repair_equal cpb addr ma d s :
  addr <= fake_addr_len -> helper_output_gen true cpb addr ma d s = helper_output_gen false cpb addr ma d s.
Proof.
  intros A. unfold helper_output_gen, helper_required_coin_gen.
  destruct (calculate_ada cpb (calc_output None None d s)) as [c1| | |]; cbn [bind]; auto.
  destruct (calculate_ada cpb (calc_output None (Some (c1, ma)) d s)) as [c2| | |] eqn:C2; cbn [bind]; auto.
  pose proof (fake_address_covers _ _ _ _ _ _ _ A C2) as M.
  (* the real output is no larger than the fake one, whose size and coin are in range *)
  rewrite calculate_ada_abs_eq in C2. apply rounds_range in C2. cbn [calc_output o_coin] in C2.
  pose proof (calc_output_base_le addr ma d s c2 c1 A) as B.
  rewrite (min_ada_of_admissible _ _ M); [|rewrite out_size_decomp; cbn [o_coin]; lia]. cbn [bind].
  rewrite meets_min_abs_eq, cost_meets, <- out_size_decomp in M. cbn [o_coin] in M.
  rewrite (N.max_l c2 _ M). reflexivity.
Qed.
