(* Size algebra of the whole (fake full) transaction that TransactionBuilder::build() measures against
   max_tx_size, for the bodies the C07 scenarios build: inputs, outputs, fee (body keys 0, 1, 2), a witness
   set of vkey witnesses and bootstrap witnesses, is_valid = true, no auxiliary data.

     full_tx_size t = 3 (array(4) head, true, null) + 7 (body map head, keys 0 1 2, set tag 258)
                      + witness set + array head(#outputs) + SUM out_size + head(fee)
                      + array head(#inputs) + SUM input sizes

   and the proof that it is the length of the C01 schema encoding of that transaction
   ([enc (Transaction d)] of Codec/Schema.v on Ledger/Schemas.v), by composing C13's exact sizes of the transaction
   skeleton, the witness set, a vkey witness and an input (Batch/EncProofs.v) with the size of every output form
   (legacy, data hash, map form: MinAda/SchemaTie.v).
   The mock witnesses of fake_full_tx take exactly the room of real ones (Witnesses/FakeSize.v, C18), so the
   same figure bounds the signed transaction. *)
From CSL Require Import Base.Prelude Cbor.Head Cbor.HeadProofs Codec.Schema Ledger.Schemas.
From CSL Require Batch.Calc Batch.CalcProofs Batch.Denote Batch.EncProofs.
From CSL Require Import MinAda.OutputSize MinAda.MinAda MinAda.SchemaTie.
Local Open Scope N_scope.

(* the shape of a transaction: everything its size depends on *)
Record tx_shape := mkTx {
  t_inputs : list N;          (* output index of every input (the 32-byte transaction id has a fixed size) *)
  t_outputs : list output;
  t_fee : N;
  t_vkeys : N;                (* number of vkey witnesses (mock or real: 32-byte key, 64-byte signature) *)
  t_boots : list N;           (* encoded size of every bootstrap witness *)
  (* optional parts (absent in the transactions of theorem full_tx_size_is_encoding; tied by the correspondence run only) *)
  t_col_inputs : list N;      (* collateral inputs (body key 13, a set): output indices *)
  t_col_return : option output;   (* collateral return (key 16) *)
  t_col_total : option N;     (* total collateral (key 17) *)
  t_aux : option N            (* encoded size of the auxiliary data (4th item of the transaction; its hash is body key 7) *)
}.
Definition mkTx0 (ins : list N) (outs : list output) (fee vkeys : N) (boots : list N) : tx_shape :=
  mkTx ins outs fee vkeys boots [] None None None.

Definition input_size (ix : N) : N := 1 + 34 + head_size ix.
Definition vkey_witness_size : N := 101.
Definition set_head (n : N) : N := 3 + head_size n.       (* #6.258([...]) *)

(* map head, then per non-empty field: key, set tag, array head, items *)
Definition witness_set_size (v : N) (boots : list N) : N :=
  1 + (if 0 <? v then 1 + set_head v + vkey_witness_size * v else 0)
    + (if 0 <? lenN boots then 1 + set_head (lenN boots) + sumN boots else 0).

Definition outputs_size (outs : list output) : N := head_size (lenN outs) + sumN (map out_size outs).
Definition inputs_size (ins : list N) : N := head_size (lenN ins) + sumN (map input_size ins).

(* body keys 13 / 16 / 17 / 7 and the auxiliary data replacing the null; every key and the map head stay one byte *)
Definition extras_size (t : tx_shape) : N :=
  (match t_col_inputs t with [] => 0 | l => 1 + 3 + inputs_size l end)
  + (match t_col_return t with Some o => 1 + out_size o | None => 0 end)
  + (match t_col_total t with Some c => 1 + head_size c | None => 0 end)
  + (match t_aux t with Some n => (1 + 34) + n - 1 | None => 0 end).

Definition full_tx_size (t : tx_shape) : N :=
  3 + 7 + witness_set_size (t_vkeys t) (t_boots t) + outputs_size (t_outputs t) + head_size (t_fee t)
  + inputs_size (t_inputs t) + extras_size t.

(* build(): the guard on the modelled size *)
Definition build_tx_guard (cfg : config) (t : tx_shape) : result unit := build_guard cfg (full_tx_size t).

(* the concrete transaction *)
Record ctx := mkCTx {
  x_inputs : list (bytes * N);           (* transaction id, index *)
  x_outputs : list coutput;
  x_fee : N;
  x_vkeys : list (bytes * bytes);        (* vkey, signature *)
  x_boots : list val                     (* bootstrap witnesses as values of the BootstrapWitness schema *)
}.

Section TxTie.
Variable d : nat.

Definition ctx_shape (x : ctx) : tx_shape :=
  mkTx0 (map snd (x_inputs x)) (map (shape d) (x_outputs x)) (x_fee x) (lenN (x_vkeys x))
        (map (fun b => len (enc BootstrapWitness b)) (x_boots x)).

Definition ctx_val (x : ctx) : val :=
  Batch.Denote.tx_val
    (Batch.Denote.body_val (map (fun i => Batch.Denote.input_val (fst i) (snd i)) (x_inputs x))
                           (map (val_output d) (x_outputs x)) (x_fee x))
    (Batch.Denote.ws_val (map (fun w => Batch.Denote.vkeywit_val (fst w) (snd w)) (x_vkeys x)) (x_boots x)).

Definition enc_tx (x : ctx) : bytes := enc (Transaction d) (ctx_val x).

Definition ctx_ok (x : ctx) : Prop :=
  Forall (fun i => len (fst i) = 32) (x_inputs x) /\
  Forall (fun o => ids28 (co_ma o) /\ hash_ok (co_datum o) /\ lang_ok (co_sref o)) (x_outputs x) /\
  Forall (fun w => len (fst w) = 32 /\ len (snd w) = 64) (x_vkeys x).

Lemma sumN_eq l : Batch.Calc.sumN l = sumN l.
Proof. reflexivity. Qed.

Lemma empty_ws_size : len (enc (TransactionWitnessSet d) (Batch.Denote.ws_val [] [])) = 1.
Proof. reflexivity. Qed.

(* C13's closed form of the witness-set size, for a witness set that is not empty *)
Lemma wit_closed_nonempty v boots :
  (v =? 0) && (lenN boots =? 0) = false -> Batch.EncProofs.wit_closed v boots = witness_set_size v boots.
Proof.
  intros E. unfold Batch.EncProofs.wit_closed, Batch.Calc.lenN. fold (lenN boots). rewrite E.
  unfold Batch.Calc.get_wrapped_struct_size, Batch.Calc.get_tag_size. rewrite !Batch.CalcProofs.struct_size_head_size.
  reflexivity.
Qed.

Lemma witness_set_size_is_encoding (vks boots : list val) :
  (forall v, In v vks -> len (enc Vkeywitness v) = vkey_witness_size) ->
  len (enc (TransactionWitnessSet d) (Batch.Denote.ws_val vks boots)) =
  witness_set_size (lenN vks) (map (fun b => len (enc BootstrapWitness b)) boots).
Proof.
  intros VK. destruct vks as [|w ws], boots as [|b bs]; [apply empty_ws_size| | |];
    (etransitivity;
     [apply Batch.EncProofs.witness_set_exact; [exact VK | first [left; discriminate | right; discriminate]]
     |apply wit_closed_nonempty; reflexivity]).
Qed.

Theorem full_tx_size_is_encoding (x : ctx) :
  ctx_ok x -> len (enc_tx x) = full_tx_size (ctx_shape x).
Proof.
  intros (Hi & Ho & Hv). unfold enc_tx, ctx_val.
  etransitivity; [apply Batch.EncProofs.tx_size_exact|].
  unfold full_tx_size, extras_size, ctx_shape, mkTx0, outputs_size, inputs_size.
  cbn [t_inputs t_outputs t_fee t_vkeys t_boots t_col_inputs t_col_return t_col_total t_aux].
  change (Batch.Calc.get_bare_tx_size false) with 3.
  change (Batch.Calc.get_bare_tx_body_size [0; 1; 2]) with 7.
  change (@Batch.Calc.lenN N) with len. change (@Batch.Calc.lenN val) with (@lenN val).
  unfold Batch.Calc.get_coin_size. rewrite !Batch.CalcProofs.struct_size_head_size, !sumN_eq, !map_map, !lenN_map.
  rewrite witness_set_size_is_encoding, lenN_map.
  - (* outputs: SchemaTie; inputs: C13 *)
    rewrite (sumN_map_in _ (fun o => out_size (shape d o)) (x_outputs x)),
            (sumN_map_in _ (fun i => input_size (snd i)) (x_inputs x)); [lia | |].
    + eapply Forall_impl; [|exact Hi]. intros [txid ix] H. cbn [fst snd] in *.
      etransitivity; [apply Batch.EncProofs.input_size; exact H|].
      rewrite Batch.CalcProofs.struct_size_head_size. reflexivity.
    + eapply Forall_impl; [|exact Ho]. intros o (A & B & C). exact (out_size_is_schema_length d o A B C).
  - intros v Hin. apply in_map_iff in Hin. destruct Hin as ([vk sg] & <- & Hin).
    rewrite Forall_forall in Hv. apply Batch.EncProofs.vkey_witness_size; apply (Hv _ Hin).
Qed.

(* build() on the modelled size: a transaction is only released when its encoding fits *)
Theorem build_tx_guard_encoding (cfg : config) (x : ctx) :
  ctx_ok x -> build_tx_guard cfg (ctx_shape x) = Ok tt -> len (enc_tx x) <= c_max_tx_size cfg.
Proof.
  intros H G. rewrite (full_tx_size_is_encoding x H). unfold build_tx_guard, build_guard in G.
  destruct (c_max_tx_size cfg <? full_tx_size (ctx_shape x)) eqn:E; [discriminate | lia].
Qed.
End TxTie.
