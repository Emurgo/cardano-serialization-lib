(* C07 on C05's full model of add_change_if_needed (Builder/Change.v).

   C05's model leaves sizes, minimum ADA and fees to an ORACLE.  Here the size / min-ADA answers are the concrete
   MinAda model (OutputSize.v out_size, MinAda.v calculate_ada), the transaction-size and fee answers the concrete
   transaction size algebra (TxSize.v full_tx_size, linear fee), and we prove on C05's OWN add_change:

     sizes_exact e orc  ->  every output of the builder is within the limits before add_change
                        ->  add_change ... = Ok _  ->  every output is within the limits afterwards,
                            measured on the REAL change address (address table of the environment).

   for ANY oracle whose min-ADA and value-size answers are the concrete ones (its fee / tx-size / selection answers
   and its own state are arbitrary), hence in particular for the fully concrete oracle [c07_oracle], which also meets
   C05's typing premise [oracle_u64] -- so C05's conservation theorem and this one hold together on it.
   The proof supplies what add_output, set_final_fee and the top-up do to the property; the walk through add_change
   is Builder/ChangeProofs.v [add_change_keeps]. *)
From CSL Require Import Base.Prelude Base.U64 Cbor.Head Cbor.HeadProofs Num.Value Deposits.Deposits
  Builder.Totals Builder.Change Builder.ChangePure Builder.ChangeProofs.
From CSL Require MinAda.OutputSize MinAda.MinAda MinAda.MinAdaProofs MinAda.TxSize.
Local Open Scope N_scope.

(* environment: what the identifiers of C05's model stand for *)
Record cenv := mkCEnv {
  ce_cfg : MinAda.config;                          (* coins per byte, max value size, max tx size *)
  ce_addr : N -> N;                            (* address id -> byte length of the address *)
  ce_extra : N -> OutputSize.datum * option OutputSize.sref;   (* datum / script-ref id -> their shapes *)
  ce_a : N; ce_b : N;                          (* LinearFee *)
  ce_vkeys : N;                                (* mock vkey witnesses of fake_full_tx *)
  (* what else the builder carries while the fee is estimated: collateral inputs / return / total, auxiliary data *)
  ce_col_inputs : list N;
  ce_col_return : option OutputSize.output;
  ce_col_total : option N;
  ce_aux : option N
}.

(* the size-only view of C05's values and outputs *)
Definition shape_assets (a : assets) : OutputSize.policy := map (fun nq => (N.of_nat (length (fst nq)), snd nq)) a.
Definition shape_ma (m : option multiasset) : OutputSize.multiasset :=
  match m with Some m => map (fun pa => shape_assets (snd pa)) m | None => [] end.
Definition shape_output (e : cenv) (x : output) : OutputSize.output :=
  OutputSize.mkOut (ce_addr e (o_addr x)) (coin (o_amount x)) (shape_ma (multiasset_of (o_amount x)))
           (fst (ce_extra e (o_extra x))) (snd (ce_extra e (o_extra x))).

(* the concrete answers *)
Definition min_ada_c (e : cenv) (x : output) : result N :=
  MinAda.min_ada_for_output (MinAda.c_cpb (ce_cfg e)) (shape_output e x).
Definition value_too_big_c (e : cenv) (v : value) : bool :=
  MinAda.c_max_value_size (ce_cfg e) <? OutputSize.value_size (coin v) (shape_ma (multiasset_of v)).

(* the transaction build() measures, for builder states that only carry inputs, outputs and a fee *)
Definition tx_shape_of (e : cenv) (s : state) (fee : N) : TxSize.tx_shape :=
  TxSize.mkTx (map fst (s_inputs s)) (map (shape_output e) (s_outputs s)) fee (ce_vkeys e) []
            (ce_col_inputs e) (ce_col_return e) (ce_col_total e) (ce_aux e).
Definition tx_too_big_c (e : cenv) (s : state) : bool :=
  match get_fee_if_set s with
  | Some f => MinAda.c_max_tx_size (ce_cfg e) <? TxSize.full_tx_size (tx_shape_of e s f)
  | None => false
  end.
(* the private min_fee: build() (fee must be set, size guard), then the linear fee of the size *)
Definition min_fee_c (e : cenv) (s : state) : result N :=
  match get_fee_if_set s with
  | None => Err
  | Some f =>
      let size := TxSize.full_tx_size (tx_shape_of e s f) in
      if MinAda.c_max_tx_size (ce_cfg e) <? size then Err
      else let* m := checked_mul size (ce_a e) in checked_add m (ce_b e)
  end.

Definition c07_oracle (e : cenv) : @oracle unit :=
  mkOracle (fun st o => (min_fee_c e st, o))
           (fun x o => (min_ada_c e x, o))
           (fun v o => (value_too_big_c e v, o))
           (fun st o => (tx_too_big_c e st, o))
           (fun _ _ o => (([], true), o)).

(* what the theorems need of an oracle *)
Definition sizes_exact {O : Type} (e : cenv) (orc : @oracle O) : Prop :=
  (forall x o, fst (ask_min_ada orc x o) = min_ada_c e x) /\
  (forall v o, fst (ask_value_too_big orc v o) = value_too_big_c e v).

(* the property on C05's outputs *)
Definition out_ok (e : cenv) (x : output) : bool := MinAda.output_ok (ce_cfg e) (shape_output e x).
Definition all_ok (e : cenv) (s : state) : Prop := forallb (out_ok e) (s_outputs s) = true.

Lemma c07_oracle_sizes_exact e : sizes_exact e (c07_oracle e).
Proof. split; reflexivity. Qed.

(* C05's typing premise holds for the concrete oracle *)
Lemma c07_oracle_u64 e : oracle_u64 (c07_oracle e).
Proof.
  repeat split.
  - intros st o v. cbn [c07_oracle ask_fee fst]. unfold min_fee_c.
    destruct (get_fee_if_set st); [|discriminate].
    destruct (_ <? _); [discriminate|]. unfold checked_mul, checked_add, bind.
    destruct (_ * _ <? two64); [|discriminate]. destruct (_ + _ <? two64) eqn:L; [|discriminate].
    intros H; inversion H; subst. lia.
  - intros x o v. cbn [c07_oracle ask_min_ada fst]. unfold min_ada_c, MinAda.min_ada_for_output.
    rewrite MinAdaProofs.calculate_ada_abs_eq. intros H. apply (MinAdaProofs.rounds_range _ _ _ _ _ H).
  - intros st utxos o _. cbn. constructor.
Qed.

Section Instance.
  Context {O : Type}.
  Variable orc : @oracle O.
  Variable e : cenv.
  Hypothesis SE : sizes_exact e orc.

  Notation M := (@M O).

  Lemma add_output_frame x s o :
    match out_res (add_output orc x s o) with
    | Ok _ => out_st (add_output orc x s o) = set_s_outputs (s_outputs s ++ [x]) s
    | _ => out_st (add_output orc x s o) = s
    end.
  Proof. pose proof (add_output_effect orc x s o) as E. destruct (out_res (add_output orc x s o)); [exact (proj2 E) | exact E..]. Qed.

  (* the two questions whose answers are the concrete ones *)
  Lemma returns_askS v : returns (askS orc v) (fun b => b = value_too_big_c e v).
  Proof. intros s o b E. inversion E. apply (proj2 SE). Qed.
  Lemma returns_askA x : returns (askA orc x) (fun m => min_ada_c e x = Ok m).
  Proof. intros s o m E. rewrite <- (proj1 SE x o). exact E. Qed.

  (* the invariant that survives FAILING runs (the Rust code mutates before it fails, and add_inputs_from_and_change retries
     on the state a failed add_change left): either every output is within the limits, or the fee has been fixed already --
     the only step that can put an inadmissible output into the builder is the top-up, which comes after set_final_fee, and a
     builder whose fee is set refuses every further add_change *)
  Definition J0 : state -> Prop := fun s => all_ok e s \/ s_fee s <> None.

  (* the admission test with the concrete answers: success means the output is within the limits *)
  Lemma output_admissible_ok x : returns (output_admissible orc x) (fun _ => out_ok e x = true).
  Proof.
    unfold output_admissible. eapply returns_bind; [apply returns_askS|]. intros big ->.
    destruct (value_too_big_c e (o_amount x)) eqn:V; [intros s o a; discriminate|]. apply N.ltb_ge in V.
    eapply returns_bind; [apply returns_askA|]. intros m Min.
    destruct (N.ltb_spec (coin (o_amount x)) m) as [L|L]; [intros s o a; discriminate|]. apply returns_ret.
    apply MinAdaProofs.output_ok_iff. split; [exact (MinAdaProofs.admitted_meets_min _ _ _ Min L) | exact V].
  Qed.

  Lemma output_acceptable_ok x : returns (output_acceptable orc x) (fun _ => out_ok e x = true).
  Proof.
    unfold output_acceptable. destruct (Num.ValueNorm.value_has_empty_entries (o_amount x));
      [intros s o a; discriminate | apply output_admissible_ok].
  Qed.

  (* add_output only appends what has passed the admission tests *)
  Lemma add_output_ok x : hoare J0 (all_ok e) (add_output orc x) (fun _ s => all_ok e s).
  Proof.
    apply hoare_add_output. intros s o Js A Acc.
    pose proof (output_acceptable_ok x s o tt Acc) as B.
    assert (K : all_ok e (set_s_outputs (s_outputs s ++ [x]) s)).
    { unfold all_ok in *. cbn [set_s_outputs s_outputs]. rewrite forallb_app, A. cbn [forallb]. rewrite B. reflexivity. }
    split; [left; exact K | exact K].
  Qed.

  Lemma forallb_rev {A} (f : A -> bool) l : forallb f (rev l) = forallb f l.
  Proof.
    induction l as [|x l IH]; [reflexivity|]. cbn [rev forallb]. rewrite forallb_app, IH. cbn [forallb].
    rewrite andb_true_r. apply andb_comm.
  Qed.

  (* the top-up: the grown output is put back and then has to pass the admission test again; in between the builder
     may hold an inadmissible output, but its fee is fixed by then *)
  Lemma top_up_last_ok cl : hoare J0 (fun s => all_ok e s /\ s_fee s <> None) (top_up_last orc cl) (fun _ s => all_ok e s).
  Proof.
    apply hoare_top_up_last. intros s before last amount _ [A F] Eo _ last' s'. split; [right; exact F|]. intros o Acc.
    pose proof (output_admissible_ok last' s' o tt Acc) as K.
    unfold all_ok in *. rewrite Eo, forallb_app in A. apply andb_prop in A. destruct A as [B _].
    cbn [s' s_outputs set_s_outputs]. rewrite forallb_app, B. cbn [forallb]. rewrite K. reflexivity.
  Qed.

  (* add_change_if_needed on C05's model with the concrete size answers: add_output, set_final_fee and the top-up keep
     "every output within the limits" (ChangeProofs.add_change_keeps) *)
  Theorem add_change_ok fuel addr extra : hoare J0 (all_ok e) (add_change orc fuel addr extra) (fun _ s => all_ok e s).
  Proof.
    apply hoare_pre. intros s0 _ A.
    apply add_change_keeps with (C := fun _ => True); auto.
    - apply add_output_ok.
    - intros v s _ A'. split; [right; apply set_final_fee_some | exact A'].
    - intros cl _. apply top_up_last_ok.
  Qed.

  Corollary add_change_all_ok fuel addr extra s o b :
    all_ok e s -> out_res (add_change orc fuel addr extra s o) = Ok b ->
    all_ok e (out_st (add_change orc fuel addr extra s o)).
  Proof.
    intros A R. destruct (add_change_ok fuel addr extra s o (or_introl A) A) as [_ Q]. rewrite R in Q. exact Q.
  Qed.
  (* from ANY state that satisfies the invariant (in particular the state a failed attempt left behind) *)
  Lemma add_change_ok_any fuel addr extra :
    hoare J0 (fun _ => True) (add_change orc fuel addr extra) (fun _ s => all_ok e s).
  Proof.
    intros s o Js _. destruct (s_fee s) eqn:F.
    - unfold add_change, bindM, get, lift. cbn [out_res out_st out_orc]. rewrite F. cbn [out_res out_st]. split; [exact Js | exact I].
    - destruct Js as [A | B]; [|congruence]. apply add_change_ok; [left; exact A | exact A].
  Qed.

  (* add_inputs_from_and_change: the selection (an oracle answer), add_change, and the retries on further inputs;
     add_inputs touches the inputs only (ChangeProofs.select_and_change_keeps) *)
  Theorem add_inputs_from_and_change_ok fuel utxos addr extra :
    hoare J0 (fun _ => True) (add_inputs_from_and_change orc fuel utxos addr extra) (fun _ s => all_ok e s).
  Proof.
    apply select_and_change_keeps with (U := fun _ => True); auto.
    - intros l _. apply hoare_modify. intros s Js _. split; [exact Js | exact I].
    - intros. apply add_change_ok_any.
  Qed.

  (* pack_nfts_for_change: which bundles it returns.
     A value FITS when its serialised size is within max_value_size at some coin (the packer tests every candidate
     at the min ADA of a fake one-policy output, a coin that is later replaced; a different coin moves the size by
     at most 8 bytes, lemma fits_any_coin).  Every bundle the packer returns is
       - empty, or
       - the bundle of a value that was TESTED and fits, or
       - the re-normalisation v + {policy: {}} of such a value / of the empty output (a policy whose very first asset
         overflowed: the output is closed as it stood),
     PROVIDED every single asset of the change fits an output of its own -- the asset that caused a split is put into
     the fresh output without a test (C07_pack_single_asset_premise_needed shows that the premise is needed). *)
  Definition fits (v : value) : Prop := exists c, value_too_big_c e (value_set_coin c v) = false.
  Definition out_inv (v : value) : Prop := multiasset_of v = Some ma_new \/ fits v.
  Definition empty_policy_value (p : bytes) : value :=
    value_set_multiasset (ma_insert p assets_new ma_new) (value_new 0).
  Definition bundle_ok (b : multiasset) : Prop :=
    b = ma_new \/
    (exists v, fits v /\ multiasset_of v = Some b) \/
    (exists v p v', out_inv v /\ value_checked_add v (empty_policy_value p) = Ok v' /\ multiasset_of v' = Some b).
  Definition single_fits (policy : bytes) (a : assets) : Prop :=
    forall name q, In (name, q) a ->
      value_too_big_c e (mkValue 0 (Some [(policy, [(name, q)])])) = false.

  Definition policy_value (policy : bytes) (a : assets) : value :=
    value_set_multiasset (ma_insert policy a ma_new) (value_new 0).

  Lemma will_overflow_exact out cur policy name q :
    returns (will_adding_asset_make_output_overflow orc out cur policy name q)
      (fun ov => exists ac m,
         value_checked_add out (policy_value policy (assets_insert name q cur)) = Ok ac /\
         ov = value_too_big_c e (value_set_coin m ac)).
  Proof.
    unfold will_adding_asset_make_output_overflow. apply returns_lift_bind. intros ac Eac.
    apply returns_skip. intros m s o ov E. exists ac, m. split; [exact Eac | exact (returns_askS _ _ _ _ E)].
  Qed.

  (* the packer's accumulator while the assets [reb] of the current policy are collected: the open output and the one
     remembered for a `break` are fine, nothing is pending, the closed bundles are fine, and the open output with
     [reb] added has been tested and fits (or nothing was added yet) *)
  Definition acc_ok (policy : bytes) (reb : assets) (a : pack_acc) : Prop :=
    out_inv (pa_output a) /\ out_inv (pa_old a) /\ pa_next a = ma_new /\ Forall bundle_ok (pa_changes a) /\
    (reb = assets_new \/ exists v', value_checked_add (pa_output a) (policy_value policy reb) = Ok v' /\ fits v').

  Lemma pack_policy_assets_fits policy l : forall a,
    single_fits policy l -> acc_ok policy (pa_rebuilt a) a ->
    returns (pack_policy_assets orc policy l a) (fun a' => acc_ok policy (pa_rebuilt a') a').
  Proof.
    induction l as [|[name q] r IH]; intros a SF AI; cbn [pack_policy_assets]; [apply returns_ret, AI|].
    destruct AI as (AO & AL & AN & AC & AR).
    eapply returns_bind; [apply will_overflow_exact|]. intros ov (ac & m & Eac & Eov).
    (* after the optional split, the open output with this asset added fits *)
    apply returns_bind with (Q := fun a' => acc_ok policy (assets_insert name q (pa_rebuilt a')) a').
    - destruct ov.
      + (* split: the output is closed as it stands, a fresh one starts with this asset, untested *)
        apply returns_lift_bind. intros out_amount Eout. apply returns_unwrap_bind. intros mm Emm.
        apply returns_ret. assert (E0 : out_inv (@empty_output_amount)) by (left; reflexivity).
        repeat split; [exact E0 | exact E0 | | right].
        * apply Forall_app. split; [exact AC|]. constructor; [|constructor]. rewrite AN in Eout.
          destruct AR as [Er | (v' & Ev' & Fv')].
          -- right. right. exists (pa_output a), policy, out_amount. rewrite Er in Eout. auto.
          -- right. left. exists out_amount. unfold policy_value in Ev'. rewrite Eout in Ev'. inversion Ev'; subst v'. auto.
        * exists (mkValue 0 (Some [(policy, [(name, q)])])). split; [reflexivity|].
          exists 0. apply SF. left. reflexivity.
      + (* no overflow: the tested value is the new candidate *)
        apply returns_ret. repeat (split; [assumption|]). right. exists ac. split; [exact Eac|]. exists m. symmetry. exact Eov.
    - intros a' M. apply IH; [intros n' q' Hin; apply SF; right; exact Hin | exact M].
  Qed.

  Definition all_single_fit (m : multiasset) : Prop := Forall (fun pa => single_fits (fst pa) (snd pa)) m.

  Lemma pack_policies_fits l : forall out changes,
    all_single_fit l -> out_inv out -> Forall bundle_ok changes ->
    returns (pack_policies orc l out changes) (fun r => out_inv (fst r) /\ Forall bundle_ok (snd r)).
  Proof.
    induction l as [|[policy a] r IH]; intros out changes SF OI CH; cbn [pack_policies].
    - apply returns_ret. auto.
    - inversion SF as [|x y SF1 SF2]; subst. cbn [fst snd] in SF1.
      eapply returns_bind.
      { apply (pack_policy_assets_fits policy a (mkPack out out ma_new assets_new changes) SF1). repeat split; auto. }
      intros acc (AO & AL & AN & AC & AR).
      apply returns_lift_bind. intros out_amount Eout. apply returns_skip. intros m.
      eapply returns_bind; [apply returns_askS|]. intros big Ebig.
      destruct big; [apply returns_ret; auto|].
      apply IH; [exact SF2 | right; exists m; symmetry; exact Ebig | exact AC].
  Qed.

  Theorem pack_nfts_fits ce ma :
    multiasset_of ce = Some ma -> all_single_fit ma -> returns (pack_nfts_for_change orc ce) (Forall bundle_ok).
  Proof.
    intros Ema SF. unfold pack_nfts_for_change. apply returns_unwrap_bind. intros ma' E. rewrite Ema in E. inversion E; subst ma'.
    eapply returns_bind; [apply (pack_policies_fits ma); [exact SF | left; reflexivity | constructor]|].
    intros r [OI CH]. apply returns_unwrap_bind. intros last El. apply returns_ret.
    apply Forall_app. split; [exact CH|]. constructor; [|constructor].
    destruct OI as [E0 | F]; [left; congruence | right; left; exists (fst r); auto].
  Qed.

  (* a different coin moves the size of a value by at most 8 bytes *)
  Lemma fits_any_coin v c : fits v ->
    OutputSize.value_size c (shape_ma (multiasset_of v)) <= MinAda.c_max_value_size (ce_cfg e) + 8.
  Proof.
    intros [c0 H]. unfold value_too_big_c in H. cbn [value_set_coin coin multiasset_of] in H. apply N.ltb_ge in H.
    rewrite !MinAdaProofs.value_size_decomp in *.
    pose proof (head_size_bounds c). pose proof (head_size_bounds c0). lia.
  Qed.
End Instance.
