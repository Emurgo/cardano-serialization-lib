(* The change paths (model in Change.v), stage by stage: what each does to the list of outputs.  Every output
   they create goes through add_output; the top-up of the last output is the one step that does not, and is
   where the limits can break (witnesses: C07_topup_refuted, for the code before the repair; the repaired top-up
   re-checks).  Last, why the unrepaired top-up keeps the minimum ADA for change addresses of at most 57 bytes. *)
From CSL Require Import Base.Prelude Base.U64 Cbor.Head Cbor.HeadProofs
  MinAda.OutputSize MinAda.MinAda MinAda.MinAdaProofs MinAda.Change.
Local Open Scope N_scope.

Definition all_ok (cfg : config) (outs : list output) : bool := forallb (output_ok cfg) outs.

Lemma all_ok_app cfg a b : all_ok cfg (a ++ b) = all_ok cfg a && all_ok cfg b.
Proof. apply forallb_app. Qed.

Lemma all_ok_rev cfg l : all_ok cfg (rev l) = all_ok cfg l.
Proof.
  induction l as [|x l IH]; [reflexivity|]. cbn [rev]. rewrite all_ok_app, IH. cbn [all_ok forallb].
  rewrite andb_true_r. apply andb_comm.
Qed.

Lemma all_ok_snoc cfg outs o : all_ok cfg (outs ++ [o]) = all_ok cfg outs && output_ok cfg o.
Proof. rewrite all_ok_app. cbn [all_ok forallb]. rewrite andb_true_r. reflexivity. Qed.

Lemma all_ok_meets_min cfg outs : all_ok cfg outs = true -> forallb (meets_min (c_cpb cfg)) outs = true.
Proof.
  unfold all_ok. rewrite !forallb_forall. intros H x Hx. apply (output_ok_iff cfg x), H, Hx.
Qed.

(* the change output of the ADA-only branch, when one is made, is the last one and went through add_output *)
Theorem change_ada_only_shape cfg rq outs l0 fee f b outs' :
  change_ada_only cfg rq outs l0 fee f b = Ok outs' ->
  outs' = outs \/ exists c, outs' = outs ++ [change_output rq c []] /\ output_ok cfg (change_output rq c []) = true.
Proof.
  unfold change_ada_only. intros H. bind_ok H m C.
  assert (B : (if b then Ok outs else Err) = Ok outs' -> outs' = outs) by (destruct b; congruence).
  destruct (l0 <? m); [auto|].
  bind_ok H ffc F. bind_ok H nf A1. bind_ok H need A2. destruct (l0 <? need); [auto|].
  bind_ok H c Sc. right. exists c. exact (add_output_admission _ _ _ _ H).
Qed.

(* every bundle's output goes through add_output; and the last output of the builder is then the last bundle's
   output, whose coin m was priced at the width of the ADA that was left (l' + m) on the fake address, with
   l' + m >= m + nf' *)
Lemma change_packs_spec cfg rq packs : forall outs l nf outs' l' nf',
  change_packs cfg rq outs l nf packs = Ok (outs', l', nf') ->
  (all_ok cfg outs = true -> all_ok cfg outs' = true) /\
  (packs <> [] ->
   exists before ma m,
     outs' = before ++ [change_output rq m ma] /\
     m = cost (c_cpb cfg) (out_base (change_calc rq (Some (0, ma))) + head_size (l' + m)) /\
     nf' <= l').
Proof.
  induction packs as [|[ma f] rest IH]; intros outs l nf outs' l' nf' H; cbn [change_packs] in H.
  - inversion H; subst. split; [auto | congruence].
  - bind_ok H m C. bind_ok H ffc F. bind_ok H nf1 A1. bind_ok H need A2.
    destruct (N.ltb_spec l need) as [G|G]; [discriminate|].
    bind_ok H l1 Sl. bind_ok H outs1 AO.
    apply checked_add_ok in A2. apply checked_sub_ok in Sl. destruct Sl as [ML ->]. subst need.
    destruct (IH _ _ _ _ _ _ H) as [Inv Last]. split.
    + intros I. apply Inv. eapply add_output_invariant; eauto.
    + intros _. destruct rest as [|p rest']; [|apply Last; discriminate].
      cbn [change_packs] in H. inversion H; subst outs' l' nf'.
      apply add_output_admission in AO. destruct AO as [-> _].
      exists outs, ma, m. split; [reflexivity|]. split; [|lia].
      apply min_ada_stops in C; [|exact ML]. replace (l - m + m) with l by lia. exact C.
Qed.

Lemma rev_split {A} (l : list A) x r : rev l = x :: r -> l = rev r ++ [x].
Proof. intros H. rewrite <- (rev_involutive l), H. reflexivity. Qed.

(* the top-up touches nothing but the last output, and the repaired one checks the result *)
Lemma topup_shape b cfg outs l res merged outs' :
  topup b cfg outs l res merged = Ok outs' ->
  exists before last,
    let last' := mkOut (o_addr last) (o_coin last + l) (match res with [] => o_ma last | _ => merged end)
                       (o_datum last) (o_sref last) in
    outs = before ++ [last] /\ outs' = before ++ [last'] /\ (b = true -> output_ok cfg last' = true).
Proof.
  unfold topup. destruct (rev outs) as [|last br] eqn:R; [discriminate|]. apply rev_split in R.
  intros H. bind_ok H c A. bind_ok H u C. apply checked_add_ok in A. subst c.
  exists (rev br), last. split; [exact R|]. split; [congruence|].
  intros ->. destruct u. exact (check_output_limits_ok _ _ C).
Qed.

Theorem topup_repaired_invariant cfg outs l res merged outs' :
  all_ok cfg outs = true -> topup true cfg outs l res merged = Ok outs' -> all_ok cfg outs' = true.
Proof.
  intros I H. destruct (topup_shape _ _ _ _ _ _ _ H) as (before & last & -> & -> & K).
  rewrite all_ok_snoc in I |- *. apply andb_prop in I. rewrite (proj1 I), K; reflexivity.
Qed.

(* the stages of change_assets_gen: the packs; the optional pure-ADA output, which goes through add_output and
   leaves nothing to top up; the top-up of the last output with what is left *)
Lemma change_assets_gen_stages reval cfg rq outs l0 fee packs pf res merged outs' :
  change_assets_gen reval cfg rq outs l0 fee packs pf res merged = Ok outs' ->
  exists outs1 l1 nf outs2 l3 r3,
    change_packs cfg rq outs l0 fee packs = Ok (outs1, l1, nf) /\ nf <= l1 /\
    ((outs2, l3, r3) = (outs1, l1 - nf, res) \/ (exists x, add_output cfg outs1 x = Ok outs2) /\ l3 = 0 /\ r3 = []) /\
    match l3, r3 with 0, [] => outs' = outs2 | _, _ => topup reval cfg outs2 l3 r3 merged = Ok outs' end.
Proof.
  unfold change_assets_gen. intros H. bind_ok H minimum C. bind_ok H p1 P. destruct p1 as [[outs1 l1] nf].
  bind_ok H l2 Sl. apply checked_sub_ok in Sl. destruct Sl as [L ->]. bind_ok H p2 Q. destruct p2 as [[outs2 l3] r3].
  exists outs1, l1, nf, outs2, l3, r3. split; [exact P|]. split; [exact L|]. split.
  - destruct (r_prefer_pure rq && (minimum <? l1 - nf)); [|left; congruence].
    bind_ok Q pf' F. bind_ok Q pot Sp. destruct (minimum <? pot); [|left; congruence].
    bind_ok Q o' A. inversion Q; subst. right. eauto.
  - destruct l3, r3; first [congruence | exact H].
Qed.

(* Where the top-up is safe for the minimum ADA whether or not its result is re-checked (the code before the repair
   did not).  For a change address of at most 57 bytes the top-up cannot break the MINIMUM (it can still break the
   value size, first witness of C07_topup_refuted): the last bundle was priced on the fake address with the whole remaining
   ADA as its coin, the final coin is at most that amount, so it is never wider than what was priced. *)
Theorem topup_min_ada_safe_short_addr reval cfg rq outs l0 fee packs pf outs' :
  r_addr rq <= fake_addr_len -> packs <> [] ->
  all_ok cfg outs = true ->
  change_assets_gen reval cfg rq outs l0 fee packs pf [] [] = Ok outs' ->
  forallb (meets_min (c_cpb cfg)) outs' = true.
Proof.
  intros A NE I H. destruct (change_assets_gen_stages _ _ _ _ _ _ _ _ _ _ _ H) as (outs1 & l1 & nf & outs2 & l3 & r3 & P & L & D & T).
  destruct (change_packs_spec _ _ _ _ _ _ _ _ _ P) as [I1 Last]. specialize (I1 I).
  destruct (Last NE) as (before & ma & m & E1 & Em & Lnf).
  destruct D as [E | [[x AO] [-> ->]]].
  - inversion E; subst outs2 l3 r3. destruct (l1 - nf) as [|p] eqn:Z; [subst; apply all_ok_meets_min, I1|].
    rewrite <- Z in T. destruct (topup_shape _ _ _ _ _ _ _ T) as (b' & last & E2 & -> & _).
    rewrite E1 in E2. apply app_inj_tail in E2. destruct E2 as [<- <-].
    rewrite E1, all_ok_snoc in I1. apply andb_prop in I1. destruct I1 as [Ib _].
    rewrite forallb_app, (all_ok_meets_min _ _ Ib). cbn [forallb andb change_output o_addr o_coin o_ma o_datum o_sref].
    rewrite andb_true_r, meets_min_abs_eq. cbn [o_coin].
    (* the final coin m + (l1 - nf) <= l1 + m is priced no wider than l1 + m, on an address no longer than the fake one *)
    apply meets_min_abs_mono with (b2 := out_base (change_calc rq (Some (0, ma)))) (w := head_size (l1 + m));
      [apply calc_output_base_le, A | apply head_size_mono; lia | lia].
  - subst outs'. apply all_ok_meets_min. eapply add_output_invariant; eauto.
Qed.
