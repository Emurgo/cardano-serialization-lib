(* C18 — the two signature fields of the witness set at byte level (Vkeywitness / Vkeywitnesses /
   BootstrapWitness / BootstrapWitnesses serializers, rust/src/serialization/witnesses/*.rs; the field keys
   0 and 2 of serialization/witnesses/transaction_witnesses_set.rs): the encoded length depends only on the
   number of witnesses and on the lengths of their byte strings, never on their content.  Hence the mock
   witnesses that fake_full_tx (builders/tx_builder.rs) builds with builders/fakes.rs (32-byte keys, 64-byte
   signatures, 32-byte chain code, the address's own attributes) take exactly the room of real ones, and [vkeys_field_size] /
   [boots_field_size] of WitnessSpec.v are the lengths of these encodings. *)
From CSL Require Import Base.Prelude Cbor.Head Cbor.HeadProofs Witnesses.Witnesses Witnesses.WitnessSpec.
Local Open Scope N_scope.

Definition lenN {A} (l : list A) : N := N.of_nat (length l).
Lemma lenN_app {A} (a b : list A) : lenN (a ++ b) = lenN a + lenN b.
Proof. unfold lenN. rewrite app_length. lia. Qed.
Lemma lenN_head m n : lenN (encode_head m n) = head_size n.
Proof. apply head_length. Qed.

Definition enc_bytes (b : bytes) : bytes := encode_head 2 (lenN b) ++ b.
Lemma lenN_enc_bytes b : lenN (enc_bytes b) = head_size (lenN b) + lenN b.
Proof. unfold enc_bytes. rewrite lenN_app, lenN_head. reflexivity. Qed.

(* vkey witnesses: key 0, tag 258, array(n) of array(2) [bytes vkey, bytes signature] *)
Definition vkw := (bytes * bytes)%type.
Definition enc_vkeywitness (w : vkw) : bytes := encode_head 4 2 ++ enc_bytes (fst w) ++ enc_bytes (snd w).
Definition enc_vkeys_field (ws : list vkw) : bytes :=
  match ws with
  | [] => []
  | _ => encode_head 0 0 ++ encode_head 6 258 ++ encode_head 4 (lenN ws) ++ concat (map enc_vkeywitness ws)
  end.
Definition vkw_ok (w : vkw) : Prop := lenN (fst w) = 32 /\ lenN (snd w) = 64.

Lemma enc_vkeywitness_length w : vkw_ok w -> lenN (enc_vkeywitness w) = vkey_witness_size.
Proof.
  intros [H1 H2]. unfold enc_vkeywitness. rewrite !lenN_app, lenN_head, !lenN_enc_bytes, H1, H2. reflexivity.
Qed.
Lemma lenN_concat_const {A} (f : A -> bytes) c l :
  Forall (fun x => lenN (f x) = c) l -> lenN (concat (map f l)) = lenN l * c.
Proof.
  induction 1 as [| x t Hx Ht IH]; cbn [map concat]; [reflexivity |].
  rewrite lenN_app, IH, Hx. unfold lenN. cbn [length]. lia.
Qed.
Lemma lenN_zero {A} (l : list A) : (lenN l =? 0) = match l with [] => true | _ => false end.
Proof. destruct l; reflexivity. Qed.

Theorem enc_vkeys_field_length ws : Forall vkw_ok ws -> lenN (enc_vkeys_field ws) = vkeys_field_size (lenN ws).
Proof.
  intros H. unfold vkeys_field_size. rewrite lenN_zero. destruct ws as [| w r]; [reflexivity |].
  unfold enc_vkeys_field. rewrite !lenN_app, !lenN_head.
  rewrite (lenN_concat_const enc_vkeywitness vkey_witness_size).
  - change (head_size 0) with 1. lia.
  - eapply Forall_impl; [| exact H]. intros a Ha. apply enc_vkeywitness_length, Ha.
Qed.

Theorem fake_vkeys_same_size fake real : Forall vkw_ok fake -> Forall vkw_ok real ->
  length fake = length real -> length (enc_vkeys_field fake) = length (enc_vkeys_field real).
Proof.
  intros Hf Hr L. apply Nat2N.inj. change (lenN (enc_vkeys_field fake) = lenN (enc_vkeys_field real)).
  rewrite (enc_vkeys_field_length _ Hf), (enc_vkeys_field_length _ Hr). unfold lenN. rewrite L. reflexivity.
Qed.

(* bootstrap witnesses: key 2, tag 258, array(n) of array(4) [vkey, signature, chain code, attributes] *)
Record bootw : Type := { bw_vkey : bytes; bw_sig : bytes; bw_cc : bytes; bw_attr : bytes }.
Definition enc_bootw (w : bootw) : bytes :=
  encode_head 4 4 ++ enc_bytes (bw_vkey w) ++ enc_bytes (bw_sig w) ++ enc_bytes (bw_cc w) ++ enc_bytes (bw_attr w).
Definition enc_boots_field (ws : list bootw) : bytes :=
  match ws with
  | [] => []
  | _ => encode_head 0 2 ++ encode_head 6 258 ++ encode_head 4 (lenN ws) ++ concat (map enc_bootw ws)
  end.
Definition bootw_ok (w : bootw) : Prop := lenN (bw_vkey w) = 32 /\ lenN (bw_sig w) = 64 /\ lenN (bw_cc w) = 32.

Lemma enc_bootw_length w : bootw_ok w -> lenN (enc_bootw w) = boot_witness_size (lenN (bw_attr w)).
Proof.
  intros [H1 [H2 H3]]. unfold enc_bootw, boot_witness_size.
  rewrite !lenN_app, lenN_head, !lenN_enc_bytes, H1, H2, H3. change (head_size 4) with 1. lia.
Qed.
Lemma lenN_concat_map {A} (f : A -> bytes) (g : A -> N) l :
  Forall (fun x => lenN (f x) = g x) l -> lenN (concat (map f l)) = sumN (map g l).
Proof.
  induction 1 as [| x t Hx Ht IH]; cbn [map concat]; [reflexivity |].
  rewrite lenN_app, IH, Hx. reflexivity.
Qed.
Theorem enc_boots_field_length ws : Forall bootw_ok ws ->
  lenN (enc_boots_field ws) = boots_field_size (map (fun w => lenN (bw_attr w)) ws).
Proof.
  intros H. destruct ws as [| w r]; [reflexivity |].
  set (g := fun w : bootw => lenN (bw_attr w)).
  (* unfolded by hand: the matches reduce on w :: r, and map _ (w :: r) must stay folded for lenN_concat_map *)
  change (enc_boots_field (w :: r)) with
    (encode_head 0 2 ++ encode_head 6 258 ++ encode_head 4 (lenN (w :: r)) ++ concat (map enc_bootw (w :: r))).
  change (boots_field_size (map g (w :: r))) with
    (1 + head_size 258 + head_size (N.of_nat (length (map g (w :: r)))) + sumN (map boot_witness_size (map g (w :: r)))).
  rewrite !lenN_app, !lenN_head.
  rewrite (lenN_concat_map enc_bootw (fun w => boot_witness_size (g w))).
  - rewrite map_map, map_length. change (head_size 2) with 1. unfold lenN. lia.
  - eapply Forall_impl; [| exact H]. intros a Ha. apply enc_bootw_length, Ha.
Qed.
(* a mock bootstrap witness carries the address's own attributes: same room as the real one *)
Theorem fake_boots_same_size fake real : Forall bootw_ok fake -> Forall bootw_ok real ->
  map (fun w => lenN (bw_attr w)) fake = map (fun w => lenN (bw_attr w)) real ->
  length (enc_boots_field fake) = length (enc_boots_field real).
Proof.
  intros Hf Hr L. apply Nat2N.inj. change (lenN (enc_boots_field fake) = lenN (enc_boots_field real)).
  rewrite (enc_boots_field_length _ Hf), (enc_boots_field_length _ Hr), L. reflexivity.
Qed.

(* non-vacuity of vkw_ok *)
Example vkw_ok_example : Forall vkw_ok [(repeat 7 32, repeat 9 64); (repeat 0 32, repeat 1 64)].
Proof. repeat constructor. Qed.
Example fake_vkeys_example :
  lenN (enc_vkeys_field [(repeat 7 32, repeat 9 64); (repeat 0 32, repeat 1 64)]) = 207.
Proof. reflexivity. Qed.
