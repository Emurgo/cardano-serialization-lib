(* C18 — proofs about Witnesses.v / WitnessSpec.v: the key hashes the builder counts are those the ledger asks
   for, every script-locked item has its script at hand exactly once, and the size prediction is exact. *)
From CSL Require Import Base.Prelude Base.Facts Cbor.Head Cbor.HeadProofs Sets.DedupVec Sets.DedupVecProofs Witnesses.Witnesses Witnesses.WitnessSpec.
From Coq Require Import Permutation.
Local Open Scope N_scope.

Lemma in_flat_map_iff {A B} (f : A -> list B) l y : In y (flat_map f l) <-> exists x, In x l /\ In y (f x).
Proof. apply in_flat_map. Qed.

Lemma flat_map_flat_map {A B C} (f : B -> list C) (g : A -> list B) l :
  flat_map f (flat_map g l) = flat_map (fun x => flat_map f (g x)) l.
Proof. induction l as [| a t IH]; cbn; [reflexivity | now rewrite flat_map_app, IH]. Qed.
Lemma map_flat_map {A B C} (f : B -> C) (g : A -> list B) l :
  map f (flat_map g l) = flat_map (fun x => map f (g x)) l.
Proof. induction l as [| a t IH]; cbn; [reflexivity | now rewrite map_app, IH]. Qed.
Lemma in_flat_map_app {A B} (f g : A -> list B) l y :
  In y (flat_map (fun x => f x ++ g x) l) <-> In y (flat_map f l) \/ In y (flat_map g l).
Proof.
  induction l as [| a t IH]; cbn; [tauto |]. rewrite !in_app_iff, IH.
  split; [intros [[H | H] | [H | H]] | intros [[H | H] | [H | H]]]; auto.
Qed.
Lemma in_app_l {A} (x : A) l r : In x l -> In x (l ++ r).
Proof. intros H. apply in_or_app. now left. Qed.
Lemma in_app_r {A} (x : A) l r : In x r -> In x (l ++ r).
Proof. intros H. apply in_or_app. now right. Qed.
Lemma in_app_congr {A} (x : A) a a' b b' :
  (In x a <-> In x a') -> (In x b <-> In x b') -> (In x (a ++ b) <-> In x (a' ++ b')).
Proof. intros Ha Hb. rewrite !in_app_iff, Ha, Hb. reflexivity. Qed.
Lemma flat_map_ext_In {A B} (f g : A -> list B) l : (forall x, In x l -> f x = g x) -> flat_map f l = flat_map g l.
Proof.
  induction l as [| a t IH]; intros H; cbn; [reflexivity |].
  rewrite (H a (or_introl eq_refl)), IH; [reflexivity | intros x Hx; apply H; right; exact Hx].
Qed.

(* the sets of this model are the vector of a de-duplicating vector (DedupVec) over N *)
Lemma memN_in x l : memN x l = true <-> In x l.
Proof. exact (mem_In N.eqb N.eqb_eq x l). Qed.
Lemma memN_false x l : memN x l = false <-> ~ In x l.
Proof. exact (mem_false N.eqb N.eqb_eq x l). Qed.
Lemma set_of_from_vec l : set_of l = items (from_vec N.eqb l).
Proof.
  apply (fold_left_sim (fun acc s => acc = items s /\ wf s) set_add (add_move N.eqb)); [| split; [reflexivity | apply wf_empty]].
  intros acc s x [-> W]. split; [symmetry; now apply (items_add_move N.eqb N.eqb_eq) | now apply (wf_add_move N.eqb N.eqb_eq)].
Qed.
Lemma set_of_in l x : In x (set_of l) <-> In x l.
Proof. rewrite set_of_from_vec, (items_from_vec N.eqb N.eqb_eq). apply (In_first_occ N.eqb N.eqb_eq). Qed.
Lemma set_of_nodup l : NoDup (set_of l).
Proof. rewrite set_of_from_vec. apply (wf_from_vec N.eqb N.eqb_eq). Qed.

Lemma nodupb_true l : NoDup l -> nodupb l = true.
Proof.
  induction 1 as [| x l Hx Hn IH]; cbn; [reflexivity |].
  rewrite IH, andb_true_r. apply negb_true_iff, memN_false, Hx.
Qed.
Lemma countN_nodup x l : NoDup l -> In x l -> countN x l = 1.
Proof. intros Hn Hi. unfold countN. now rewrite (proj1 (NoDup_count_occ' N.eq_dec l) Hn x Hi). Qed.

Section MapLemmas.
  Context {K V : Type} (eqb : K -> K -> bool).
  Hypothesis eqb_spec : forall a b, eqb a b = true <-> a = b.

  Lemma has_key_in k (l : list (K * V)) : has_key eqb k l = true <-> exists v, In (k, v) l.
  Proof.
    unfold has_key. rewrite existsb_exists. split.
    - intros [[k' v] [Hi E]]. apply eqb_spec in E. cbn in E. subst. now exists v.
    - intros [v Hi]. exists (k, v). split; [exact Hi | now apply eqb_spec].
  Qed.
  Lemma has_key_false k (l : list (K * V)) : has_key eqb k l = false <-> forall v, ~ In (k, v) l.
  Proof.
    rewrite <- not_true_iff_false, has_key_in. split; [intros H v Hi; apply H; now exists v | intros H [v Hi]; exact (H v Hi)].
  Qed.

  Lemma last_wins_in_orig (l : list (K * V)) e : In e (last_wins eqb l) -> In e l.
  Proof.
    induction l as [| kv t IH]; cbn; [tauto |].
    destruct (has_key eqb (fst kv) t); cbn; tauto.
  Qed.
  (* every bound key keeps a binding, and (last_wins_keys_unique) only one *)
  Lemma last_wins_has (l : list (K * V)) k : forall v, In (k, v) l -> exists v', In (k, v') (last_wins eqb l).
  Proof.
    induction l as [| kv t IH]; cbn; [tauto |].
    destruct (has_key eqb (fst kv) t) eqn:Hk; intros v [E | Hi]; subst; cbn in *; eauto.
    - apply has_key_in in Hk. destruct Hk as [v2 H2]. eauto.
    - destruct (IH _ Hi) as [v' H']. eauto.
  Qed.
  Lemma last_wins_keys_unique (l : list (K * V)) k v1 v2 :
    In (k, v1) (last_wins eqb l) -> In (k, v2) (last_wins eqb l) -> v1 = v2.
  Proof.
    induction l as [| kv t IH]; cbn; [tauto |].
    destruct (has_key eqb (fst kv) t) eqn:Hk; [exact IH |].
    pose proof (proj1 (has_key_false _ _) Hk) as Hn.
    intros [-> | H1] [E2 | H2]; [congruence | | | exact (IH H1 H2)].
    - now apply last_wins_in_orig, Hn in H2.
    - subst kv. now apply last_wins_in_orig, Hn in H1.
  Qed.
End MapLemmas.

Lemma last_wins_map_snd {K V W} (eqb : K -> K -> bool) (f : V -> W) (l : list (K * V)) :
  last_wins eqb (map (fun e => (fst e, f (snd e))) l) = map (fun e => (fst e, f (snd e))) (last_wins eqb l).
Proof.
  assert (HK : forall k t, has_key eqb k (map (fun e => (fst e, f (snd e))) t) = has_key eqb k t).
  { intros k t. unfold has_key. induction t as [| a t IH]; cbn; [reflexivity | now rewrite IH]. }
  induction l as [| a t IH]; cbn; [reflexivity |].
  rewrite HK. destruct (has_key eqb (fst a) t); cbn; now rewrite IH.
Qed.

Lemma pair_eqb_spec a b : pair_eqb a b = true <-> a = b.
Proof.
  unfold pair_eqb. destruct a as [a1 a2], b as [b1 b2]. cbn.
  rewrite andb_true_iff, !N.eqb_eq. split; [intros [-> ->]; reflexivity | intros [= -> ->]; auto].
Qed.

(* everything the inputs builder keeps is a function of the (outpoint, owner) pairs it was given *)
Definition bindings (ops : list in_op) : list (oref * owner) :=
  flat_map (fun op => match op with InAdd o w => [(o, w)] | _ => [] end) ops.
Definition g_script (e : oref * owner) : list ((sid * oref) * swit) :=
  match owner_swit (snd e) with Some sw => [((sw_hash sw, fst e), sw)] | None => [] end.

Lemma ib_scripts_eq ops : ib_scripts ops = last_wins pair_eqb (flat_map g_script (bindings ops)).
Proof.
  unfold ib_scripts, bindings. rewrite flat_map_flat_map. f_equal. apply flat_map_ext.
  intros [o w |]; [| reflexivity]. unfold g_script. cbn. now destruct (owner_swit w).
Qed.
Lemma ib_inputs_eq ops :
  ib_inputs ops = map (fun e => (fst e, owner_hash (snd e))) (final_owners ops).
Proof.
  unfold ib_inputs, final_owners. rewrite <- last_wins_map_snd, map_flat_map. f_equal. apply flat_map_ext.
  now intros [o w |].
Qed.
Lemma ib_body_inputs_eq ops : ib_body_inputs ops = map fst (final_owners ops).
Proof. unfold ib_body_inputs. rewrite ib_inputs_eq, map_map. reflexivity. Qed.

(* an outpoint that is added again keeps its owner (up to the script witness given with it) *)
Definition consistent_P (b : list (oref * owner)) : Prop :=
  forall o w w', In (o, w) b -> In (o, w') b -> owner_id w = owner_id w'.

Lemma consistent_bindings_P l : consistent_bindings l = true ->
  forall o a b, In (o, a) l -> In (o, b) l -> a = b.
Proof.
  induction l as [| [o0 w0] t IH]; cbn; [tauto |].
  rewrite andb_true_iff, forallb_forall. intros [Hh Ht].
  assert (Hd : forall b, In (o0, b) t -> w0 = b).
  { intros b Hb. specialize (Hh _ Hb). cbn in Hh. rewrite N.eqb_refl in Hh. now apply pair_eqb_spec in Hh. }
  intros o a b [E1 | H1] [E2 | H2]; [congruence | | | exact (IH Ht _ _ _ H1 H2)].
  - injection E1 as <- <-. auto.
  - injection E2 as <- <-. symmetry. auto.
Qed.
Lemma consistent_owners_P ops : consistent_owners ops = true -> consistent_P (bindings ops).
Proof.
  unfold consistent_owners.
  replace (flat_map op_binding ops) with (map (fun e => (fst e, owner_id (snd e))) (bindings ops)).
  - intros H o w w' H1 H2. apply (consistent_bindings_P _ H o); [exact (in_map _ _ _ H1) | exact (in_map _ _ _ H2)].
  - unfold bindings. rewrite map_flat_map. apply flat_map_ext. now intros [o w |].
Qed.

Lemma in_SB t h o sw :
  In ((h, o), sw) (flat_map g_script t) <->
  exists w, In (o, w) t /\ owner_swit w = Some sw /\ h = sw_hash sw.
Proof.
  rewrite in_flat_map. unfold g_script. split.
  - intros [[o' w] [Hi Hg]]. cbn in Hg. destruct (owner_swit w) eqn:E; [| destruct Hg].
    destruct Hg as [[= <- <- <-] | []]. eauto.
  - intros [w [Hi [E ->]]]. exists (o, w). cbn. rewrite E. auto using in_eq.
Qed.
Lemma owner_id_script w0 w' sw0 :
  owner_swit w0 = Some sw0 -> owner_id w0 = owner_id w' ->
  exists sw', owner_swit w' = Some sw' /\ sw_hash sw' = sw_hash sw0.
Proof. destruct w0, w'; cbn; intros [= <-] [=]; eauto. Qed.

(* for a consistent history the script map, keyed by (hash, outpoint), is the list of script entries of the final owners *)
Lemma scripts_final b : consistent_P b ->
  last_wins pair_eqb (flat_map g_script b) = flat_map g_script (last_wins N.eqb b).
Proof.
  induction b as [| [o0 w0] t IH]; intros HC; [reflexivity |].
  specialize (IH (fun o w w' H1 H2 => HC o w w' (or_intror H1) (or_intror H2))).
  (* the script entry of (o0, w0) is overwritten exactly when the binding of o0 is *)
  assert (HK : forall sw0, owner_swit w0 = Some sw0 ->
               has_key pair_eqb (sw_hash sw0, o0) (flat_map g_script t) = has_key N.eqb o0 t).
  { intros sw0 E0. apply eq_true_iff_eq. rewrite (has_key_in _ pair_eqb_spec), (has_key_in _ N.eqb_eq). split.
    - intros [sw' Hi]. apply in_SB in Hi. destruct Hi as [w [Hi _]]. eauto.
    - intros [w' Hi]. destruct (owner_id_script _ _ _ E0 (HC o0 w0 w' (or_introl eq_refl) (or_intror Hi))) as [sw' [E' Hh]].
      exists sw'. apply in_SB. eauto. }
  cbn [flat_map last_wins fst]. destruct (has_key N.eqb o0 t) eqn:HO; cbn [flat_map].
  all: change (g_script (o0, w0)) with (match owner_swit w0 with Some sw => [((sw_hash sw, o0), sw)] | None => [] end).
  all: destruct (owner_swit w0) as [sw0 |] eqn:E0; cbn [app last_wins fst].
  all: now rewrite ?(HK _ eq_refl), ?HO, IH.
Qed.
Lemma ib_scripts_final ops : consistent_owners ops = true -> forall h o sw,
  In ((h, o), sw) (ib_scripts ops) <-> exists w, In (o, w) (final_owners ops) /\ owner_swit w = Some sw /\ h = sw_hash sw.
Proof. intros HC h o sw. rewrite ib_scripts_eq, scripts_final by apply consistent_owners_P, HC. apply in_SB. Qed.

(* under consistency, what depends on an owner only through [owner_id] is the same over all bindings and over the final ones *)
Lemma final_same {X} (f : owner -> list X) b :
  (forall w w', owner_id w = owner_id w' -> f w = f w') -> consistent_P b ->
  forall x, In x (flat_map (fun e => f (snd e)) b) <-> In x (flat_map (fun e => f (snd e)) (last_wins N.eqb b)).
Proof.
  intros Hf HC x. rewrite !in_flat_map. split; intros [[o w] [Hi Hx]].
  - destruct (last_wins_has N.eqb N.eqb_eq _ _ _ Hi) as [w' Hw']. exists (o, w'). split; [exact Hw' |].
    cbn [snd] in *. rewrite <- (Hf w w'); [exact Hx |]. apply (HC o); [exact Hi | now apply last_wins_in_orig in Hw'].
  - exists (o, w). split; [now apply last_wins_in_orig in Hi | exact Hx].
Qed.

(* what an owner contributes besides the signers its script source declares: its payment key, its Byron address *)
Definition owner_vkey (w : owner) : list key := match w with OKey k => [k] | _ => [] end.
Definition owner_boot (w : owner) : list baddr := match w with OByron a => [a] | _ => [] end.

Lemma inputs_boots_spec ops : consistent_owners ops = true ->
  forall a, In a (ib_boots ops) <-> In a (spec_input_boots ops).
Proof.
  intros HC a. unfold ib_boots. rewrite set_of_in.
  replace (flat_map _ ops) with (flat_map (fun e => owner_boot (snd e)) (bindings ops)).
  - apply (final_same owner_boot); [| apply consistent_owners_P, HC]. destruct w, w'; cbn; congruence.
  - unfold bindings. rewrite flat_map_flat_map. apply flat_map_ext. now intros [o [] |].
Qed.

Lemma ib_vkeys_in ops k : In k (ib_vkeys ops) <->
  In k (flat_map (fun e => owner_vkey (snd e)) (bindings ops)) \/ In k (explicit_input_signers ops).
Proof.
  unfold ib_vkeys, bindings, explicit_input_signers. rewrite set_of_in, flat_map_flat_map, <- in_flat_map_app.
  erewrite flat_map_ext; [reflexivity |]. now intros [o [] |].
Qed.
Lemma spec_input_keys_in ops k : In k (spec_input_keys ops) <->
  (In k (flat_map (fun e => owner_vkey (snd e)) (last_wins N.eqb (bindings ops))) \/
   In k (flat_map (fun e => olist (sw_required_signers (snd e))) (flat_map g_script (last_wins N.eqb (bindings ops))))) \/
  In k (explicit_input_signers ops).
Proof.
  unfold spec_input_keys, final_owners. fold (bindings ops). rewrite in_app_iff, flat_map_flat_map, <- in_flat_map_app.
  erewrite flat_map_ext; [reflexivity |]. intros [o []]; cbn; now rewrite ?app_nil_r.
Qed.

Lemma inputs_signers_spec ops : consistent_owners ops = true ->
  forall k, In k (ib_required_signers ops) <-> In k (spec_input_keys ops).
Proof.
  intros HC k. apply consistent_owners_P in HC.
  unfold ib_required_signers. rewrite set_of_in, in_app_iff, ib_vkeys_in, spec_input_keys_in.
  rewrite (final_same owner_vkey) by (try assumption; destruct w, w'; cbn; congruence).
  rewrite ib_scripts_eq, scripts_final by assumption. tauto.
Qed.

(* the ledger table read as the builder reads the kind: a cascade of tests *)
Lemma cert_witness_creds_eq c : cert_witness_creds c =
  let k := c_kind c in
  if k =? 0 then []
  else if k =? 3 then map CK (cred_key (c_cred c) ++ c_keys c)
  else if k =? 4 then map CK (cred_key (c_cred c))
  else if k =? 5 then map CK (firstn 1 (c_keys c))
  else if k =? 6 then []
  else if k <? 19 then [c_cred c]
  else [].
Proof.
  unfold cert_witness_creds. destruct (c_kind c) as [| p]; [reflexivity |].
  do 5 (destruct p as [p | p |]; try reflexivity).
Qed.
Lemma creds_keys_CK ks : creds_keys (map CK ks) = ks.
Proof. unfold creds_keys. induction ks as [| k t IH]; cbn; [reflexivity | now rewrite IH]. Qed.

(* the key hashes the (repaired) builder counts for a certificate are exactly the key credentials of the
   ledger table, for every certificate kind and every credential / owner list *)
Lemma cert_table_keys c k :
  In k (witness_keys_for_cert_gen true c) <-> In k (creds_keys (cert_witness_creds c)).
Proof.
  rewrite cert_witness_creds_eq. unfold witness_keys_for_cert_gen. cbn zeta.
  destruct (c_kind c =? 0); [reflexivity |].
  destruct (c_kind c =? 3); [rewrite creds_keys_CK, !in_app_iff; tauto |].
  destruct (c_kind c =? 4); [now rewrite creds_keys_CK |].
  destruct (c_kind c =? 5); [now rewrite creds_keys_CK |].
  destruct (c_kind c =? 6); [reflexivity |].
  destruct (c_kind c <? 19); [| reflexivity]. cbn. now rewrite app_nil_r.
Qed.

(* the builder asks for a script witness exactly when the ledger table names a script credential *)
Lemma cert_table_scripts c :
  cert_has_required_script_witness c = existsb cred_is_script (cert_witness_creds c).
Proof.
  assert (HK : forall ks, existsb cred_is_script (map CK ks) = false) by (induction ks; auto).
  rewrite cert_witness_creds_eq. unfold cert_has_required_script_witness. cbn zeta.
  destruct (c_kind c =? 0); [reflexivity |].
  destruct (c_kind c =? 3); [now rewrite HK |].
  destruct (c_kind c =? 4); [now rewrite HK |].
  destruct (c_kind c =? 5); [now rewrite HK |].
  destruct (c_kind c =? 6); [reflexivity |].
  destruct (c_kind c <? 19); [| reflexivity]. cbn. now rewrite orb_false_r.
Qed.

(* without a genesis key delegation the code as it is counts what the repaired code counts *)
Lemma witness_keys_not_genesis f c : c_kind c <> 5 -> witness_keys_for_cert_gen f c = witness_keys_for_cert_gen true c.
Proof. intros H. unfold witness_keys_for_cert_gen. apply N.eqb_neq in H. now rewrite H. Qed.

Definition all_consistent (t : tx_ops) : bool :=
  consistent_owners (t_inputs t) && consistent_owners (t_collateral t).

Lemma certs_signers_spec st k :
  In k (certs_required_signers_gen true st) <->
  In k (flat_map (fun e : cert_op => creds_keys (cert_witness_creds (fst e)) ++ wit_signers (snd e)) st).
Proof.
  unfold certs_required_signers_gen. rewrite set_of_in, !in_flat_map.
  split; intros [e [Hi Hk]]; exists e; rewrite in_app_iff, cert_table_keys in *; auto.
Qed.
Lemma votes_signers_spec st k :
  In k (votes_required_signers_gen true st) <->
  In k (flat_map (fun e : vote_op => cred_key (v_cred (fst e)) ++ wit_signers (snd e)) st).
Proof.
  unfold votes_required_signers_gen. rewrite set_of_in.
  erewrite flat_map_ext; [reflexivity |]. now intros [v [[n | p] |]].
Qed.

(* the (repaired) union is, as a set, the required key set of the specification *)
Lemma needed_vkeys_spec t : all_consistent t = true ->
  forall k, In k (needed_vkeys_gen true true true true t) <-> In k (required_keys_list t).
Proof.
  unfold all_consistent. rewrite andb_true_iff. intros [HI HC] k.
  unfold needed_vkeys_gen, required_keys_list. rewrite set_of_in.
  (* inputs, collateral and explicit signers stand at the same places; the five sub-builders come in another order *)
  apply in_app_congr; [exact (inputs_signers_spec _ HI k) |].
  apply in_app_congr; [exact (inputs_signers_spec _ HC k) |].
  apply in_app_congr; [apply set_of_in |].
  rewrite !in_app_iff, certs_signers_spec, votes_signers_spec.
  unfold mint_required_signers_gen, wd_required_signers, props_required_signers_gen. rewrite !set_of_in.
  unfold declared_signers. tauto.
Qed.

Lemma signers_union_gen t : all_consistent t = true ->
  N.of_nat (length (needed_vkeys_gen true true true true t)) = N.of_nat (length (required_keys_spec t)).
Proof.
  intros H. f_equal. apply Permutation_length, NoDup_Permutation; [apply set_of_nodup | apply NoDup_nodup |].
  intros k. rewrite (needed_vkeys_spec t H). symmetry. apply nodup_In.
Qed.

(* count_needed_vkeys = number of distinct keys that have to sign, for every overlap between the sources
   and every insertion order; premises: an outpoint added again keeps its owner; outside the narrow
   genesis-delegation class.  In the tree the check runs on the vote, mint and proposal parts are repaired
   and the genesis-delegation part is as in the original. *)
Theorem signers_union t : all_consistent t = true -> known_genesis t = false ->
  count_needed_vkeys t = N.of_nat (length (required_keys_spec t)).
Proof.
  intros HC HG. unfold known_genesis in HG. apply negb_false_iff, Nat.eqb_eq in HG.
  unfold count_needed_vkeys. change (needed_vkeys t) with (needed_vkeys_gen true true true false t).
  rewrite HG. apply signers_union_gen, HC.
Qed.

(* without a genesis key delegation the class is empty *)
Definition no_genesis_delegation (t : tx_ops) : bool := forallb (fun e => negb (c_kind (fst e) =? 5)) (t_certs t).
Lemma certs_run_sub ops e : In e (certs_run ops) -> In e ops.
Proof.
  unfold certs_run. induction ops as [| op t IH] using rev_ind; [tauto |].
  rewrite fold_left_app, in_app_iff. cbn. destruct (certs_accepts _ op); [rewrite in_app_iff |]; tauto.
Qed.
Lemma no_genesis_not_known t : no_genesis_delegation t = true -> known_genesis t = false.
Proof.
  intros H. unfold known_genesis. apply negb_false_iff, Nat.eqb_eq. f_equal.
  unfold needed_vkeys_gen, certs_required_signers_gen.
  rewrite (flat_map_ext_In (fun e : cert_op => witness_keys_for_cert_gen false (fst e) ++ wit_signers (snd e))
                           (fun e => witness_keys_for_cert_gen true (fst e) ++ wit_signers (snd e))); [reflexivity |].
  intros e He. f_equal. apply witness_keys_not_genesis.
  apply certs_run_sub in He. unfold no_genesis_delegation in H. rewrite forallb_forall in H.
  now apply H, negb_true_iff, N.eqb_neq in He.
Qed.

(* witnesses against the code as it was before the repairs *)
(* a builder given inputs, collateral, certificates, votes, proposals and mint calls, and nothing else *)
Definition tx_with (i c : list in_op) (ce : list cert_op) (vo : list vote_op) (pr : list prop_op) (mi : list mint_op) : tx_ops :=
  {| t_inputs := i; t_collateral := c; t_certs := ce; t_withdrawals := []; t_votes := vo; t_proposals := pr;
     t_mint := mi; t_required_signers := []; t_reference_inputs := []; t_extra_datums := [];
     t_dedup_explicit_refs := false |}.
Definition mk1 (w : mint_wit) : mint_op := {| mo_wit := w; mo_asset := 0; mo_amount := 1 |}.
Definition pw0 (s : psource) : pwit := {| pw_script := s; pw_datum := None; pw_red := 0 |}.

(* a DRep script voter with a Plutus witness whose source declares signer 7, next to a key input of key 1 *)
Definition w_vote : tx_ops :=
  tx_with [InAdd 0 (OKey 1)] [] [] [({| v_kind := 1; v_cred := CS 1000 |}, Some (SWPlutus (pw0 (PSInline 1000 (Some [7])))))] [] [].
Lemma votes_original_refuted : exists t, all_consistent t = true /\
  (length (needed_vkeys_gen false true true true t) < length (required_keys_spec t))%nat.
Proof. exists w_vote. split; vm_compute; [reflexivity | lia]. Qed.

(* a native minting policy supplied by reference input with declared signer 7: nothing was counted *)
Definition w_mint_ref : tx_ops := tx_with [InAdd 0 (OKey 1)] [] [] [] [] [mk1 (MNative (NSRef 101 1 (Some [7])))].
(* an inline native policy over keys 5,6,7 of which the caller declared 7 as the signer: all three were counted *)
Definition w_mint_inline : tx_ops := tx_with [InAdd 0 (OKey 1)] [] [] [] [] [mk1 (MNative (NSInline 2 [5; 6; 7] (Some [7])))].
Lemma mint_original_refuted :
  (exists t, all_consistent t = true /\
     (length (needed_vkeys_gen true false true true t) < length (required_keys_spec t))%nat) /\
  (exists t, all_consistent t = true /\
     (length (required_keys_spec t) + 2 <= length (needed_vkeys_gen true false true true t))%nat).
Proof.
  split; [exists w_mint_ref | exists w_mint_inline]; split; vm_compute; try reflexivity; lia.
Qed.

Definition w_prop : tx_ops :=
  tx_with [InAdd 0 (OKey 1)] [] [] [] [{| p_id := 0; p_scripted := true; p_wit := Some (pw0 (PSInline 1000 (Some [7]))) |}] [].
Lemma proposals_original_refuted : exists t, all_consistent t = true /\
  (length (needed_vkeys_gen true true false true t) < length (required_keys_spec t))%nat.
Proof. exists w_prop. split; vm_compute; [reflexivity | lia]. Qed.

(* a Byron address among the collateral inputs: its bootstrap witness was not counted *)
Definition w_byron_collateral : tx_ops := tx_with [InAdd 0 (OKey 1)] [InAdd 30 (OByron 1)] [] [] [] [].
Lemma collateral_boots_original_refuted : exists t, all_consistent t = true /\
  (length (needed_bootstraps_gen false t) < length (required_boots_spec t))%nat.
Proof. exists w_byron_collateral. split; vm_compute; [reflexivity | lia]. Qed.

(* the tree as it is: genesis delegation 2 -> delegate 0 next to an input of key 0: the delegate hash is
   counted (where it coincides with the input key 0), the genesis key 2 that must sign is not *)
Definition w_genesis : tx_ops :=
  tx_with [InAdd 0 (OKey 0)] [] [({| c_kind := 5; c_cred := CK 0; c_keys := [2; 0]; c_aux := 0 |}, None)] [] [] [].
Lemma signers_union_refuted_genesis : exists t, all_consistent t = true /\ known_genesis t = true /\
  count_needed_vkeys t < N.of_nat (length (required_keys_spec t)).
Proof. exists w_genesis. repeat split; vm_compute; reflexivity. Qed.

(* an outpoint added with key 1 and again with key 2: both keys stay counted, one signs *)
Definition w_reown : tx_ops := tx_with [InAdd 0 (OKey 1); InAdd 0 (OKey 2)] [] [] [] [] [].
Lemma signers_union_refuted_readded : exists t, all_consistent t = false /\ known_genesis t = false /\
  N.of_nat (length (required_keys_spec t)) < count_needed_vkeys t.
Proof. exists w_reown. repeat split; vm_compute; reflexivity. Qed.

Lemma vkey_witness_size_101 : vkey_witness_size = 101.
Proof. reflexivity. Qed.

(* one more signer makes the field at least one witness longer *)
Lemma vkeys_field_size_step n m : n < m -> vkeys_field_size n + vkey_witness_size <= vkeys_field_size m.
Proof.
  intros H. unfold vkeys_field_size. rewrite vkey_witness_size_101. change (head_size 258) with 3.
  destruct (N.eqb_spec m 0); [lia |]. destruct (N.eqb_spec n 0).
  - pose proof (head_size_bounds m). lia.
  - pose proof (head_size_mono n m ltac:(lia)). lia.
Qed.

(* with the same bootstrap part b on both sides, the size clause of the property holds exactly when the
   builder counted as many keys as sign: nobody forgotten, nobody counted twice *)
Lemma size_clause_iff_count n m b :
  (vkeys_field_size m + b <= vkeys_field_size n + b /\
   vkeys_field_size n + b < vkeys_field_size m + b + vkey_witness_size) <-> n = m.
Proof.
  split; [| intros ->; rewrite vkey_witness_size_101; lia].
  intros [H1 H2]. destruct (N.lt_trichotomy n m) as [L | [E | L]]; [| exact E |];
    pose proof (vkeys_field_size_step _ _ L); lia.
Qed.

Lemma boots_field_size_perm l l' : Permutation l l' -> boots_field_size l = boots_field_size l'.
Proof.
  intros P. assert (S : sumN (map boot_witness_size l) = sumN (map boot_witness_size l')).
  { apply (Permutation_map boot_witness_size) in P. unfold sumN. induction P; cbn [fold_right] in *; lia. }
  pose proof (Permutation_length P) as L.
  destruct l, l'; try discriminate; [reflexivity |]. unfold boots_field_size. now rewrite L, S.
Qed.

Lemma boots_spec t : all_consistent t = true ->
  Permutation (needed_bootstraps_gen true t) (required_boots_spec t).
Proof.
  unfold all_consistent. rewrite andb_true_iff. intros [HI HC].
  apply NoDup_Permutation; [apply set_of_nodup | apply NoDup_nodup |].
  intros a. unfold needed_bootstraps_gen, required_boots_spec.
  rewrite set_of_in, nodup_In. apply in_app_congr; [exact (inputs_boots_spec _ HI a) | exact (inputs_boots_spec _ HC a)].
Qed.

(* the bytes the builder reserves for signatures = the bytes the real signatures take *)
Theorem size_exact tb t : all_consistent t = true -> known_genesis t = false ->
  predicted_sig_bytes tb t = signed_sig_bytes tb t.
Proof.
  intros HC HG. unfold predicted_sig_bytes, signed_sig_bytes.
  rewrite (signers_union t HC HG). f_equal.
  apply boots_field_size_perm, Permutation_map. exact (boots_spec t HC).
Qed.

Lemma triple_eqb_spec a b : triple_eqb a b = true <-> a = b.
Proof.
  destruct a as [a1 [a2 a3]], b as [b1 [b2 b3]]. unfold triple_eqb. cbn.
  rewrite !andb_true_iff, !N.eqb_eq. split; [intros [[-> ->] ->]; reflexivity | intros [= -> -> ->]; auto].
Qed.
(* de-duplication against a growing list of what was seen = first occurrences, minus what was seen at the start *)
Lemma dedup_by_first_occ {A} (eqb : A -> A -> bool) (spec : forall a b, eqb a b = true <-> a = b) l : forall seen,
  dedup_by eqb seen l = filter (fun y => negb (mem eqb y seen)) (first_occ eqb l).
Proof.
  induction l as [| x t IH]; intros seen; cbn [dedup_by first_occ filter]; [reflexivity |].
  change (existsb (eqb x) seen) with (mem eqb x seen). rewrite !IH, filter_filter.
  destruct (mem eqb x seen) eqn:M; cbn [negb].
  - apply filter_ext. intros y. destruct (eqb x y) eqn:E; [| reflexivity]. apply spec in E. subst. now rewrite M.
  - f_equal. apply filter_ext. intros y. cbn [mem existsb]. now rewrite negb_orb, (eqb_sym eqb spec y x).
Qed.
Lemma dedup_by_nil {A} (eqb : A -> A -> bool) (spec : forall a b, eqb a b = true <-> a = b) l :
  dedup_by eqb [] l = first_occ eqb l.
Proof. rewrite dedup_by_first_occ by assumption. now apply filter_all. Qed.

Lemma ref_avail_model t r : In r (source_ref_inputs t) -> ref_available (model_emitted t) r = true.
Proof.
  intros H. unfold ref_available, model_emitted, model_emitted_hr. cbn [e_refs e_inputs].
  destruct (memN r (body_inputs t)) eqn:E; [apply orb_true_r |].
  rewrite orb_false_r. apply memN_in. unfold body_reference_inputs. rewrite set_of_in, in_app_iff. left.
  apply filter_In. now rewrite E.
Qed.

(* the body's reference inputs are the script and datum references of every source that the transaction does not
   spend itself, and the explicit reference inputs (filtered the same way only under
   config.deduplicate_explicit_ref_inputs_with_regular_inputs) *)
Theorem refs_declared t r :
  In r (body_reference_inputs t) <->
  (In r (source_ref_inputs t) /\ ~ In r (body_inputs t)) \/
  (In r (t_reference_inputs t) /\ (t_dedup_explicit_refs t = true -> ~ In r (body_inputs t))).
Proof.
  unfold body_reference_inputs. rewrite set_of_in, in_app_iff, filter_In, negb_true_iff, memN_false.
  destruct (t_dedup_explicit_refs t).
  - rewrite filter_In, negb_true_iff, memN_false. intuition.
  - intuition discriminate.
Qed.
Lemma refs_disjoint_inputs t r : t_dedup_explicit_refs t = true ->
  In r (body_reference_inputs t) -> ~ In r (body_inputs t).
Proof. intros HD H. apply refs_declared in H. destruct H as [[_ H] | [_ H]]; auto. Qed.

(* the script witnesses the builder holds: the redeemer tag of the item a witness was given for, the script hash
   the item is locked by (None: taken from the witness), the witness *)
Inductive held (t : tx_ops) : N -> option sid -> swit -> Prop :=
| held_input o w sw : In (o, w) (final_owners (t_inputs t)) -> owner_swit w = Some sw -> held t TAG_SPEND None sw
| held_mint m : In m (mint_run (mint_wits t)) -> held t TAG_MINT None (mint_swit m)
| held_cert c sw : In (c, Some sw) (certs_run (t_certs t)) -> held t TAG_CERT (cred_script (c_cred c)) sw
| held_wd c sw : In (c, Some sw) (wd_run (t_withdrawals t)) -> held t TAG_REWARD (cred_script c) sw
| held_vote v sw : In (v, Some sw) (votes_run (t_votes t)) -> held t TAG_VOTE (cred_script (v_cred v)) sw
| held_prop i sw : In (i, Some sw) (props_run (t_proposals t)) -> held t TAG_PROPOSE None sw.

(* they are the script-locked items of the specification *)
Lemma script_items_held t i : In i (script_items t) <-> held t (si_tag i) (si_locked i) (si_wit i).
Proof.
  unfold script_items. rewrite !in_app_iff. split.
  - intros [H | [H | [H | [H | [H | H]]]]].
    2: { apply in_map_iff in H. destruct H as [m [<- Hm]]. now constructor. }
    all: apply in_flat_map in H; destruct H as [[x w] [Hx H]]; cbn [fst snd] in H.
    1: destruct (owner_swit w) eqn:E; [| destruct H].
    2-5: destruct w; [| destruct H].
    all: destruct H as [<- | []]; econstructor; eassumption.
  - destruct i as [tag lk sw]. cbn. intros [o w sw' Hi E | m Hm | c sw' Hi | c sw' Hi | v sw' Hi | n sw' Hi].
    + left. apply in_flat_map. exists (o, w). cbn. rewrite E. split; [assumption | now left].
    + right. left. now apply (in_map (fun m => {| si_tag := TAG_MINT; si_locked := None; si_wit := mint_swit m |})).
    + do 2 right. left. apply in_flat_map. exists (c, Some sw'). split; [assumption | now left].
    + do 3 right. left. apply in_flat_map. exists (c, Some sw'). split; [assumption | now left].
    + do 4 right. left. apply in_flat_map. exists (v, Some sw'). split; [assumption | now left].
    + do 5 right. apply in_flat_map. exists (n, Some sw'). split; [assumption | now left].
Qed.

(* what the transaction builder collects for a witness it holds *)
Definition covered (t : tx_ops) (tag : N) (sw : swit) : Prop :=
  (forall s, In s (sw_inline_native sw) -> In s (ws_native_scripts t)) /\
  (forall r, In r (sw_ref_inputs sw) -> In r (source_ref_inputs t)) /\
  (forall p, sw = SWPlutus p -> exists it, In {| pt_tag := tag; pt_item := it; pt_wit := p |} (combined_plutus t)).

Lemma in_enum_from {A} (l : list A) x : In x l -> forall n, exists i, In (i, x) (enum_from n l).
Proof.
  induction l as [| a t IH]; cbn; [tauto |]. intros [-> | H] n; [now eauto |].
  destruct (IH H (n + 1)) as [i Hi]. eauto.
Qed.
Lemma in_enum_from_inv {A} (l : list A) : forall n i x, In (i, x) (enum_from n l) -> In x l.
Proof. induction l as [| a t IH]; cbn; [tauto |]. intros n i x [[= _ ->] | H]; eauto. Qed.

Lemma props_run_plutus t i sw : In (i, Some sw) (props_run (t_proposals t)) -> exists p, sw = SWPlutus p.
Proof.
  unfold props_run. intros H. apply (last_wins_in_orig N.eqb), in_map_iff in H.
  destruct H as [op [[= _ E] _]]. destruct (p_wit op); [injection E as <- | discriminate]. eauto.
Qed.

Lemma held_covered t tag lk sw : consistent_owners (t_inputs t) = true -> held t tag lk sw -> covered t tag sw.
Proof.
  intros HC H. unfold covered, ws_native_scripts, source_ref_inputs, combined_plutus.
  destruct H as [o w sw Hi E | m Hm | c sw Hi | c sw Hi | v sw Hi | n sw Hi].
  1: assert (HS : In ((sw_hash sw, o), sw) (ib_scripts (t_inputs t))) by (apply (ib_scripts_final _ HC); eauto).
  all: repeat split.
  - (* inputs: through the script map *)
    intros s Hs. apply set_of_in. apply in_app_l. apply in_flat_map. eauto.
  - intros r Hr. apply in_app_l. apply in_flat_map. eexists. split; [exact HS |]. cbn [snd].
    unfold sw_ref_inputs in Hr. destruct sw; [now rewrite app_nil_r in Hr | rewrite in_app_iff in *; tauto].
  - intros p ->. exists (rank o (ib_body_inputs (t_inputs t))). apply in_app_l.
    apply in_flat_map. eexists. split; [exact HS |]. cbn [snd fst].
    replace (registered_under _ _ _) with true; [now left |]. symmetry. apply existsb_exists.
    exists (o, owner_hash w). rewrite ib_inputs_eq. split; [exact (in_map _ _ _ Hi) |].
    unfold owner_hash. rewrite E. cbn. now rewrite !N.eqb_refl.
  - (* mint *)
    intros s Hs. apply set_of_in. do 2 apply in_app_r. apply in_app_l. apply in_flat_map. eauto.
  - intros r Hr. apply in_app_r, in_app_l. apply in_flat_map. exists m. split; [exact Hm |].
    unfold sw_ref_inputs in Hr. now destruct m; cbn in *; rewrite app_nil_r in Hr.
  - intros p Hp. destruct m as [n | ps rd]; [discriminate | injection Hp as <-].
    exists (ps_hash ps). do 2 apply in_app_r. apply in_app_l. apply in_flat_map. eexists. split; [exact Hm | now left].
  - (* certificates *)
    intros s Hs. apply set_of_in. do 3 apply in_app_r. apply in_app_l. apply in_flat_map. eauto.
  - intros r Hr. do 3 apply in_app_r. apply in_app_l. apply in_flat_map. eauto.
  - intros p ->. destruct (in_enum_from _ _ Hi 0) as [i Hie]. exists i.
    do 3 apply in_app_r. apply in_app_l. apply in_flat_map. eexists. split; [exact Hie | now left].
  - (* withdrawals *)
    intros s Hs. apply set_of_in. do 4 apply in_app_r. apply in_app_l. apply in_flat_map. eauto.
  - intros r Hr. do 2 apply in_app_r. apply in_app_l. apply in_flat_map. eauto.
  - intros p ->. exists (cred_item c). do 4 apply in_app_r. apply in_app_l.
    apply in_flat_map. eexists. split; [exact Hi | now left].
  - (* votes *)
    intros s Hs. apply set_of_in. do 5 apply in_app_r. apply in_flat_map. eauto.
  - intros r Hr. do 4 apply in_app_r. apply in_app_l. apply in_flat_map. eauto.
  - intros p ->. exists (voter_item v). do 5 apply in_app_r. apply in_app_l.
    apply in_flat_map. eexists. split; [exact Hi | now left].
  - (* proposals: Plutus witnesses only *)
    destruct (props_run_plutus _ _ _ Hi) as [p0 ->]. intros s [].
  - intros r Hr. do 5 apply in_app_r. apply in_flat_map. eauto.
  - intros p ->. exists n. do 6 apply in_app_r. apply in_flat_map. eexists. split; [exact Hi | now left].
Qed.

Lemma covered_available t i : covered t (si_tag i) (si_wit i) ->
  item_script_available (model_emitted t) i && item_plutus_data (model_emitted t) i = true.
Proof.
  intros [HN [HR HP]]. unfold item_script_available, item_plutus_data.
  destruct (si_wit i) as [[s ks d | r s d] | p].
  - rewrite andb_true_r. apply N.eqb_eq, countN_nodup; [apply set_of_nodup | apply HN; now left].
  - rewrite andb_true_r. apply ref_avail_model, HR. now left.
  - destruct (HP p eq_refl) as [it Hit]. unfold sw_ref_inputs, sw_script_ref, sw_datum_ref in HR.
    rewrite !andb_true_iff. repeat split.
    + destruct (pw_script p) as [s d | r s d] eqn:Es; [| apply ref_avail_model, HR; now left].
      apply N.eqb_eq, countN_nodup; [apply set_of_nodup |]. apply set_of_in, in_flat_map.
      eexists. split; [exact Hit |]. cbn [pt_wit]. rewrite Es. now left.
    + destruct (pw_datum p) as [[d | r] |] eqn:Ed; [| apply ref_avail_model, HR, in_app_iff; right; now left | reflexivity].
      apply N.eqb_eq, countN_nodup; [apply set_of_nodup |]. apply set_of_in, in_app_iff. left. apply in_flat_map.
      eexists. split; [exact Hit |]. cbn [pt_wit]. rewrite Ed. now left.
    + apply existsb_exists. exists (si_tag i, pw_red p). split; [| cbn; now rewrite !N.eqb_refl].
      apply in_map_iff. exists (si_tag i, (it, pw_red p)). split; [reflexivity |].
      unfold ws_redeemers. rewrite (dedup_by_nil _ triple_eqb_spec). apply (In_first_occ _ triple_eqb_spec), in_map_iff.
      eexists. split; [| exact Hit]. reflexivity.
Qed.

(* every script-locked item of the built transaction has its script at hand (exactly one copy in the witness
   set, or the declared reference input in the body), its datum when it carries one and its redeemer; the
   emitted sets are duplicate-free *)
Theorem scripts_available_model t : consistent_owners (t_inputs t) = true ->
  scripts_available t (model_emitted t) = true.
Proof.
  intros HC. unfold scripts_available. rewrite !andb_true_iff. repeat split;
    try (apply nodupb_true, set_of_nodup).
  - apply forallb_forall. intros i Hi. apply script_items_held in Hi. eapply covered_available, held_covered; eassumption.
  - apply forallb_forall. intros d Hd. apply N.eqb_eq, countN_nodup; [apply set_of_nodup |].
    apply set_of_in, in_app_iff. now right.
Qed.

(* nothing extraneous: every emitted script belongs to an item that carries it inline *)
Lemma held_inline t tag lk sw : held t tag lk sw -> sw_is_inline sw = true -> In (sw_hash sw) (inline_hashes t).
Proof.
  intros H E. apply in_flat_map. exists {| si_tag := tag; si_locked := lk; si_wit := sw |}.
  split; [now apply script_items_held | cbn; rewrite E; now left].
Qed.
Lemma inline_native_hash sw s : In s (sw_inline_native sw) -> sw_is_inline sw = true /\ sw_hash sw = s.
Proof. destruct sw as [[s' ks d | r s' d] | p]; cbn; [intros [<- | []]; auto | intros [] | intros []]. Qed.

Lemma collateral_plain_scripts t : collateral_plain t = true -> ib_scripts (t_collateral t) = [].
Proof.
  unfold collateral_plain. rewrite forallb_forall. intros H. rewrite ib_scripts_eq.
  replace (flat_map g_script _) with (@nil (sid * oref * swit)); [reflexivity |]. symmetry.
  unfold bindings. induction (t_collateral t) as [| op l IH]; cbn; [reflexivity |].
  rewrite flat_map_app, IH by (intros x Hx; apply H; now right). rewrite app_nil_r.
  specialize (H op (or_introl eq_refl)). now destruct op as [o [] |].
Qed.

Lemma native_emitted_inline t s : consistent_owners (t_inputs t) = true -> collateral_plain t = true ->
  In s (ws_native_scripts t) -> In s (inline_hashes t).
Proof.
  intros HC HP H.
  assert (G : forall tag lk sw, held t tag lk sw -> In s (sw_inline_native sw) -> In s (inline_hashes t)).
  { intros tag lk sw Hh Hs. destruct (inline_native_hash _ _ Hs) as [E <-]. eapply held_inline; eassumption. }
  unfold ws_native_scripts, ib_native_scripts, mint_native_scripts in H.
  rewrite set_of_in, !in_app_iff, (collateral_plain_scripts t HP) in H.
  destruct H as [H | [[] | [H | [H | [H | H]]]]]; apply in_flat_map in H.
  1: destruct H as [[[h o] sw] [He Hs]]; apply (ib_scripts_final _ HC) in He; destruct He as [w [Hi [E _]]].
  2: destruct H as [m [Hm Hs]].
  3-5: destruct H as [[c [sw |]] [Hc Hs]]; [| destruct Hs].
  all: eapply G; [econstructor; eassumption | exact Hs].
Qed.

Lemma wit_plutus_in tag it w x : In x (wit_plutus tag it w) -> exists p, w = Some (SWPlutus p) /\ pt_wit x = p.
Proof. destruct w as [[n | p] |]; cbn; [intros [] | intros [<- | []]; eauto | intros []]. Qed.

(* every Plutus witness handed to the transaction builder is one of the witnesses held for an item *)
Lemma plutus_held t x : consistent_owners (t_inputs t) = true -> collateral_plain t = true ->
  In x (combined_plutus t) -> exists tag lk, held t tag lk (SWPlutus (pt_wit x)).
Proof.
  intros HC HP H. unfold combined_plutus, ib_plutus in H. rewrite !in_app_iff, (collateral_plain_scripts t HP) in H.
  destruct H as [H | [[] | [H | [H | [H | [H | H]]]]]]; apply in_flat_map in H.
  1: { destruct H as [[[h o] sw] [He Hx]]. cbn [snd fst] in Hx. destruct sw as [n | p]; [destruct Hx |].
       destruct (registered_under _ o h); [| destruct Hx]. destruct Hx as [<- | []].
       apply (ib_scripts_final _ HC) in He. destruct He as [w [Hi [E _]]]. do 2 eexists. econstructor; eassumption. }
  1: { destruct H as [m [Hm Hx]]. destruct m as [n | p r]; [destruct Hx |]. destruct Hx as [<- | []].
       do 2 eexists. exact (held_mint t _ Hm). }
  1: destruct H as [[i [c w]] [He Hx]]; apply in_enum_from_inv in He.
  2-4: destruct H as [[c w] [He Hx]].
  all: cbn [snd fst] in Hx; destruct (wit_plutus_in _ _ _ _ Hx) as [p [-> <-]]; do 2 eexists; econstructor; eassumption.
Qed.
Lemma plutus_emitted_inline t s : consistent_owners (t_inputs t) = true -> collateral_plain t = true ->
  In s (ws_plutus_scripts t) -> In s (inline_hashes t).
Proof.
  intros HC HP H. apply set_of_in, in_flat_map in H. destruct H as [x [Hx Hs]].
  destruct (plutus_held t x HC HP Hx) as [tag [lk Hh]]. apply held_inline in Hh; cbn in *.
  all: destruct (pw_script (pt_wit x)) as [s' d | r s' d]; [| destruct Hs].
  - now destruct Hs as [<- | []].
  - reflexivity.
Qed.

(* ... and not a second time: when no script is handed over both inline and by reference, a script taken
   from a reference input is not in the witness set as well *)
Theorem scripts_not_twice_model t : consistent_owners (t_inputs t) = true -> collateral_plain t = true ->
  no_mixed_supply t = true -> scripts_not_twice t (model_emitted t) = true.
Proof.
  intros HC HP HM. unfold scripts_not_twice. apply forallb_forall. intros i Hi.
  unfold no_mixed_supply in HM. rewrite forallb_forall in HM.
  assert (G : sw_is_inline (si_wit i) = false -> ~ In (sw_hash (si_wit i)) (inline_hashes t)).
  { intros E Hin. specialize (HM _ Hin). apply negb_true_iff, memN_false in HM. apply HM.
    apply in_flat_map. exists i. rewrite E. split; [exact Hi | now left]. }
  unfold item_script_not_twice. destruct (si_wit i) as [[s ks d | r s d] | p]; [reflexivity | |].
  - apply negb_true_iff, memN_false. intros Hn. apply (G eq_refl). exact (native_emitted_inline t s HC HP Hn).
  - cbn in G. destruct (pw_script p) as [s d | r s d]; [reflexivity |].
    apply negb_true_iff, memN_false. intros Hn. apply (G eq_refl). exact (plutus_emitted_inline t s HC HP Hn).
Qed.

(* the extracted judge accepts what the model builds, inside the premises and outside the known classes, whatever
   the byte order of the credential hashes *)
Theorem judge_accepts_model hr tb t :
  wits_match t = true -> all_consistent t = true -> collateral_plain t = true -> no_mixed_supply t = true ->
  known_genesis t = false ->
  judge_hr hr t {| o_predicted := predicted_sig_bytes tb t; o_signed := signed_sig_bytes tb t; o_emitted := model_emitted_hr hr t |} = Holds.
Proof.
  intros HW HC HP HM HG. unfold judge_hr. rewrite HW. cbn [negb].
  assert (HI : consistent_owners (t_inputs t) = true) by (unfold all_consistent in HC; apply andb_true_iff in HC; tauto).
  replace (size_clause _) with true.
  2: { unfold size_clause. cbn [o_predicted o_signed]. rewrite (size_exact tb t HC HG), vkey_witness_size_101.
       symmetry. apply andb_true_iff. split; [apply N.leb_le | apply N.ltb_lt]; lia. }
  cbn [o_emitted].
  (* the clauses about scripts do not look at the vote redeemers and the mint policies *)
  change (scripts_available t (model_emitted_hr hr t)) with (scripts_available t (model_emitted t)).
  change (scripts_not_twice t (model_emitted_hr hr t)) with (scripts_not_twice t (model_emitted t)).
  rewrite (scripts_available_model t HI), (scripts_not_twice_model t HI HP HM).
  replace (vote_redeemers_ok _ _ _) with true; [replace (mint_policies_ok _ _) with true; [reflexivity |] |]; symmetry.
  - apply forallb_forall. intros m Hm. apply memN_in. exact (in_map mw_hash _ _ Hm).
  - apply forallb_forall. intros x Hx. apply existsb_exists. exists x. now rewrite !N.eqb_refl.
Qed.
