(* Builder/TerminationProofs.v — C05 phase 2: the repaired change loop terminates.
   [change_while_loop] is the model of `while let Some(Greater) = change_left.multiasset…` in add_change_if_needed; the
   model gives it fuel and returns OutOfFuel beyond.  Since /repo f596a0b every pass must pack an asset with a positive
   quantity, and what is packed is subtracted from change_left by an exact subtraction: the total asset quantity of
   change_left (summed over the keys it starts with) strictly decreases.  Hence with fuel above that total the loop
   never returns OutOfFuel — for ANY oracle whose answers are themselves not OutOfFuel ([oracle_answers]; the
   recorded-answer oracle is one), any packing, any prices.
   Before the fix no such measure existed: a pass that packed only empty multiassets (an asset larger than max_value_size
   on its own) left change_left's assets unchanged (corpus/C05/change-loop-progress.case). *)
From CSL Require Import Base.Prelude Base.U64 Num.Value Num.ValueProofs Deposits.Deposits Deposits.DepositsProofs
  Builder.Totals Builder.TotalsProofs Builder.Change Builder.ChangePure Builder.ChangeProofs Builder.Scenario.
Local Open Scope N_scope.

Definition fine {A} (r : result A) : Prop := r <> OutOfFuel.

Lemma ma_add_entries_fine es : forall acc, fine (ma_add_entries acc es).
Proof.
  induction es as [|[[p n] q] es IH]; intros acc; cbn [ma_add_entries]; [discriminate|].
  unfold ma_add_entry. destruct (ma_get p acc) as [a|]; cbn [bind]; [|apply IH].
  destruct (assets_get n a) as [cur|]; cbn [bind]; [|apply IH].
  unfold u64_add. destruct (cur + q <? two64); cbn [bind]; [apply IH | discriminate].
Qed.

Lemma value_checked_add_fine a b : fine (value_checked_add a b).
Proof.
  unfold value_checked_add, u64_add. destruct (coin a + coin b <? two64); cbn [bind]; [|discriminate].
  destruct (multiasset_of a) as [l|], (multiasset_of b) as [r|]; cbn [bind]; try discriminate.
  unfold ma_checked_add. pose proof (ma_add_entries_fine (ma_entries l ++ ma_entries r) ma_new) as F.
  destruct (ma_add_entries ma_new (ma_entries l ++ ma_entries r)); cbn [bind]; try discriminate. exfalso. apply F. reflexivity.
Qed.

Lemma value_checked_sub_fine a b : fine (value_checked_sub a b).
Proof.
  unfold value_checked_sub, u64_sub. destruct (coin b <=? coin a); cbn [bind]; [|discriminate].
  destruct (match multiasset_of b with Some r => _ | None => true end); discriminate.
Qed.

Lemma checked_add_fine a b : fine (checked_add a b).
Proof. unfold checked_add. destruct (a + b <? two64); discriminate. Qed.
Lemma checked_sub_fine a b : fine (checked_sub a b).
Proof. unfold checked_sub. destruct (b <=? a); discriminate. Qed.

Section Termination.
  Context {O : Type}.
  Variable orc : @oracle O.
  Hypothesis OU : oracle_u64 orc.
  (* the oracle's own answers are results of terminating computations *)
  Definition oracle_answers : Prop :=
    (forall st o, fine (fst (ask_fee orc st o))) /\ (forall x o, fine (fst (ask_min_ada orc x o))).
  Hypothesis OA : oracle_answers.

  Notation M := (@M O).
  Definition noof {A} (m : M A) : Prop := forall s o, fine (out_res (m s o)).

  Lemma noof_ret {A} (a : A) : noof (ret a).
  Proof. intros s o. discriminate. Qed.
  Lemma noof_lift {A} (r : result A) : fine r -> noof (lift r).
  Proof. intros F s o. exact F. Qed.
  Lemma noof_bind {A B} (m : M A) (f : A -> M B) : noof m -> (forall a, noof (f a)) -> noof (bindM m f).
  Proof.
    intros Hm Hf s o. unfold bindM. specialize (Hm s o). destruct (out_res (m s o)) as [a| | |]; cbn; try discriminate.
    - apply Hf.
    - exfalso. apply Hm. reflexivity.
  Qed.
  Lemma noof_get : noof get.
  Proof. intros s o. discriminate. Qed.
  Lemma noof_put s' : noof (put s').
  Proof. intros s o. discriminate. Qed.
  Lemma noof_modify g : noof (modify g).
  Proof. intros s o. discriminate. Qed.
  Lemma noof_askF st : noof (askF orc st).
  Proof. intros s o. apply (proj1 OA). Qed.
  Lemma noof_askA x : noof (askA orc x).
  Proof. intros s o. apply (proj2 OA). Qed.
  Lemma noof_askS v : noof (askS orc v).
  Proof. intros s o. discriminate. Qed.
  Lemma noof_if {A} (b : bool) (m1 m2 : M A) : noof m1 -> noof m2 -> noof (if b then m1 else m2).
  Proof. destruct b; auto. Qed.
  Lemma noof_unwrap m : noof (unwrap_ma m).
  Proof. destruct m; [apply noof_ret | apply noof_lift; discriminate]. Qed.

  (* [noof] follows the syntax of a computation: these rules, applied top-down, settle every function below *)
  Local Hint Resolve noof_ret noof_lift noof_bind noof_get noof_put noof_modify noof_askF noof_askA noof_askS noof_if
    noof_unwrap value_checked_add_fine value_checked_sub_fine checked_add_fine checked_sub_fine : noof.
  Local Hint Extern 1 (fine _) => discriminate : noof.

  Lemma noof_output_acceptable x : noof (output_acceptable orc x).
  Proof. unfold output_acceptable, output_admissible. auto 8 with noof. Qed.
  Local Hint Resolve noof_output_acceptable : noof.

  Lemma noof_add_output x : noof (add_output orc x).
  Proof. unfold add_output. auto with noof. Qed.
  Lemma noof_fee_for_output x : noof (fee_for_output orc x).
  Proof. unfold fee_for_output. auto 8 with noof. Qed.
  Local Hint Resolve noof_add_output noof_fee_for_output : noof.

  Lemma noof_pack_policy_assets policy l : forall a, noof (pack_policy_assets orc policy l a).
  Proof.
    induction l as [|[name q] l IH]; intros a; cbn [pack_policy_assets]; unfold will_adding_asset_make_output_overflow;
      auto 10 with noof.
  Qed.
  Local Hint Resolve noof_pack_policy_assets : noof.

  Lemma noof_pack_policies l : forall out changes, noof (pack_policies orc l out changes).
  Proof. induction l as [|[policy assets] l IH]; intros out changes; cbn [pack_policies]; cbv zeta; auto 10 with noof. Qed.
  Local Hint Resolve noof_pack_policies : noof.

  Lemma noof_pack_nfts ce : noof (pack_nfts_for_change orc ce).
  Proof. unfold pack_nfts_for_change. auto 8 with noof. Qed.

  Lemma noof_change_outputs_loop addr extra l : forall cl nf, noof (change_outputs_loop orc addr extra l cl nf).
  Proof. induction l as [|nft l IH]; intros cl nf; cbn [change_outputs_loop]; cbv zeta; auto 12 with noof. Qed.

  (* what one pass takes out of change_left: ChangeProofs.change_outputs_loop_spec says it is [msum] of what was packed *)

  Variable cfg0 : config.
  Notation WF := (WF cfg0).

  Lemma msum_positive l : mas_wf l -> existsb ma_positive l = true -> exists p n, 0 < msum l p n.
  Proof.
    induction l as [|m l IH]; intros W H; [discriminate|]. inversion W as [|? ? Wm Wl]. subst.
    cbn [existsb] in H. apply orb_true_iff in H. destruct H as [H|H].
    - apply (ma_positive_iff m Wm) in H. destruct H as [p [n L]]. exists p, n. cbn [msum]. lia.
    - destruct (IH Wl H) as [p [n L]]. exists p, n. cbn [msum]. lia.
  Qed.

  (* the measure: total quantity over a fixed key list that covers every asset of change_left *)

  Definition ksum (K : list (bytes * bytes)) (v : value) : N := sumN (map (fun k => qty v (fst k) (snd k)) K).
  Definition covers (K : list (bytes * bytes)) (v : value) : Prop := forall p n, 0 < qty v p n -> In (p, n) K.

  Lemma ksum_cons k K v : ksum (k :: K) v = qty v (fst k) (snd k) + ksum K v.
  Proof. reflexivity. Qed.

  Lemma ksum_le K v v' : (forall p n, qty v' p n <= qty v p n) -> ksum K v' <= ksum K v.
  Proof. intros H. induction K as [|k K IH]; [reflexivity|]. rewrite !ksum_cons. specialize (H (fst k) (snd k)). lia. Qed.

  Lemma ksum_decreases K v v' : (forall p n, qty v' p n <= qty v p n) ->
    (exists p n, In (p, n) K /\ qty v' p n < qty v p n) -> ksum K v' < ksum K v.
  Proof.
    intros Hle (p & n & I & L). induction K as [|k K IH]; [destruct I|]. rewrite !ksum_cons.
    pose proof (Hle (fst k) (snd k)). destruct I as [->|I]; [|specialize (IH I); lia].
    pose proof (ksum_le K v v' Hle). cbn [fst snd]. lia.
  Qed.

  Lemma fine_bind {A B} (m : M A) (f : A -> M B) s o : fine (out_res (m s o)) ->
    (forall a, out_res (m s o) = Ok a -> fine (out_res (f a (out_st (m s o)) (out_orc (m s o))))) ->
    fine (out_res (bindM m f s o)).
  Proof. intros Hm Hf. unfold bindM. destruct (out_res (m s o)); cbn; try discriminate; [auto | contradiction]. Qed.

  Theorem change_while_loop_terminates K addr extra fuel : forall cl nf s o,
    WF s -> value_wf cl -> covers K cl -> ksum K cl < N.of_nat fuel ->
    fine (out_res (change_while_loop orc fuel addr extra cl nf s o)).
  Proof.
    induction fuel as [|fuel IH]; intros cl nf s o W Wcl Cov Hm; [lia|].
    cbn [change_while_loop]. destruct (change_has_assets_left cl); [|discriminate].
    apply fine_bind; [apply noof_pack_nfts|]. intros l El.
    pose proof (pack_nfts_spec orc cl Wcl s o l El) as Wl. rewrite (pure_pack_nfts orc cl s o).
    destruct (existsb ma_positive l) eqn:Pos; [|discriminate].
    apply fine_bind; [apply noof_change_outputs_loop|]. intros r Er.
    destruct (change_outputs_loop_spec orc OU cfg0 addr extra l s cl nf Wl Wcl s (out_orc (pack_nfts_for_change orc cl s o)) W eq_refl)
      as [W2 Hq].
    rewrite Er in Hq. destruct Hq as (outs & (_ & _ & Wr & _ & Q & _) & _ & Ms).
    (* the pass has taken msum l out of change_left, and msum l is positive somewhere *)
    assert (Q' : forall p n, qty cl p n = qty (fst r) p n + msum l p n) by (intros p n; rewrite <- Ms; apply Q).
    destruct (msum_positive l Wl Pos) as (p & n & Lp).
    apply IH; [exact W2 | exact Wr | |].
    - intros p' n' L'. apply Cov. specialize (Q' p' n'). lia.
    - assert (D : ksum K (fst r) < ksum K cl); [|lia].
      apply ksum_decreases; [intros p' n'; specialize (Q' p' n'); lia|].
      exists p, n. specialize (Q' p n). split; [apply Cov|]; lia.
  Qed.

  (* every asset of a value is among its own keys *)
  Lemma covers_keys v : covers (value_keys v) v.
  Proof.
    intros p n L. unfold value_keys. rewrite opt_ma_qty_unfold in L.
    assert (E : ma_qty (opt_ma (multiasset_of v)) p n <> 0) by lia.
    apply qty_in_entries in E. apply in_map_iff. exists (p, n, ma_qty (opt_ma (multiasset_of v)) p n). split; [reflexivity | exact E].
  Qed.

  (* the total asset quantity of change_left bounds the number of passes *)
  Corollary change_loop_fuel_bound addr extra fuel cl nf s o :
    WF s -> value_wf cl -> ksum (value_keys cl) cl < N.of_nat fuel ->
    fine (out_res (change_while_loop orc fuel addr extra cl nf s o)).
  Proof. intros W Wcl H. eapply change_while_loop_terminates; [exact W | exact Wcl | apply covers_keys | exact H]. Qed.

End Termination.

Lemma pop_num_fine site o : fine (fst (pop_num site o)).
Proof.
  unfold pop_num. destruct (pop site o) as [[[x|]|] o']; cbn; try discriminate.
  destruct (x <? two64); cbn; discriminate.
Qed.

Lemma tape_oracle_answers : oracle_answers tape_oracle.
Proof. split; intros; apply pop_num_fine. Qed.
