(* Builder/TotalsProofs.v — C05: the builder's totals are the ledger's consumed / produced sums.
   get_total_input and get_total_output are chains of checked additions over values; read as (coin, quantities) each
   addition is a sum, the two mint values are the positive and the negative part of the mint (for quantities in
   -(2^64-1) .. 2^64-1, which is what state_wf asks; mint_min_truncated shows why -2^64 is excluded), and the final
   equality test of validate_balance is then the UTXO rule on the body (accounting).  Also: the judge's executable
   test decides the rule, and the sums do not depend on the order of the builder's collections. *)
From CSL Require Import Base.Prelude Base.Facts Base.U64 Num.Value Num.ValueProofs Deposits.Deposits Deposits.DepositsProofs Builder.Totals.
From Coq Require Import Permutation.
Local Open Scope N_scope.

Lemma value_wf_zero : value_wf value_zero.
Proof. reflexivity. Qed.

Lemma value_wf_new c : c < two64 -> value_wf (value_new c).
Proof. intros H. apply value_wf_iff. cbn. split; [exact H | exact I]. Qed.

Lemma qty_new c p n : qty (value_new c) p n = 0.
Proof. reflexivity. Qed.

Lemma qty_set_coin c v p n : qty (value_set_coin c v) p n = qty v p n.
Proof. reflexivity. Qed.

(* adding or subtracting a plain coin amount: the u64 test on the coins is the only way to fail *)
Lemma value_add_new_ok a c r : value_wf a -> value_checked_add a (value_new c) = Ok r ->
  c < two64 /\ value_wf r /\ coin r = coin a + c /\ forall p n, qty r p n = qty a p n.
Proof.
  intros W E. assert (L : c < two64).
  { unfold value_checked_add, u64_add in E. cbn [coin value_new] in E.
    destruct (N.ltb_spec (coin a + c) two64); [lia | discriminate]. }
  destruct (value_checked_add_ok _ _ _ W (value_wf_new c L) E) as (C & Q & Wr).
  split; [exact L|]. split; [exact Wr|]. split; [exact C|]. intros p n. rewrite Q, qty_new. apply N.add_0_r.
Qed.

Lemma value_sub_new_ok a c r : value_wf a -> value_checked_sub a (value_new c) = Ok r ->
  c <= coin a /\ value_wf r /\ coin r = coin a - c /\ forall p n, qty r p n = qty a p n.
Proof.
  intros W E. assert (L : c <= coin a).
  { unfold value_checked_sub, u64_sub in E. cbn [coin value_new] in E.
    destruct (N.leb_spec c (coin a)); [assumption | discriminate]. }
  pose proof (value_wf_coin a W) as La.
  destruct (value_checked_sub_ok _ _ _ W (value_wf_new c ltac:(lia)) E) as (_ & C & Q & Wr).
  split; [exact L|]. split; [exact Wr|]. split; [exact C|].
  intros p n. destruct (Q p n) as [_ ->]. rewrite qty_new. apply N.sub_0_r.
Qed.

Lemma sum_coin_cons v l : sum_coin (v :: l) = coin v + sum_coin l.
Proof. reflexivity. Qed.
Lemma sum_qty_cons v l p n : sum_qty (v :: l) p n = qty v p n + sum_qty l p n.
Proof. reflexivity. Qed.
Lemma sum_coin_one v : sum_coin [v] = coin v.
Proof. apply N.add_0_r. Qed.
Lemma sum_qty_one v p n : sum_qty [v] p n = qty v p n.
Proof. apply N.add_0_r. Qed.
Lemma sum_coin_app l1 l2 : sum_coin (l1 ++ l2) = sum_coin l1 + sum_coin l2.
Proof. induction l1 as [|v l IH]; [reflexivity|]. cbn [app]. rewrite !sum_coin_cons, IH. lia. Qed.
Lemma sum_qty_app l1 l2 p n : sum_qty (l1 ++ l2) p n = sum_qty l1 p n + sum_qty l2 p n.
Proof. induction l1 as [|v l IH]; [reflexivity|]. cbn [app]. rewrite !sum_qty_cons, IH. lia. Qed.

Lemma state_wf_iff s : state_wf s <->
  Forall (fun e : N * value => value_wf (snd e)) (s_inputs s) /\ Forall (fun o => value_wf (o_amount o)) (s_outputs s) /\
  mint_wfb (opt_mint (s_mint s)) = true.
Proof.
  unfold state_wf, state_wfb, value_wf. rewrite !andb_true_iff, !Forall_forall, !forallb_forall.
  destruct (s_mint s); cbn [opt_mint]; tauto.
Qed.

(* A well-formed value read as a coin amount and a table of quantities.  Every total of the builder is a chain of
   checked additions, and each of them adds in both components. *)

Definition denotes (v : value) (c : N) (q : bytes -> bytes -> N) : Prop :=
  value_wf v /\ coin v = c /\ forall p n, qty v p n = q p n.

Lemma denotes_self v : value_wf v -> denotes v (coin v) (qty v).
Proof. intros W. split; [exact W|]. split; reflexivity. Qed.

Lemma denotes_zero : denotes value_zero 0 (fun _ _ => 0).
Proof. exact (denotes_self value_zero value_wf_zero). Qed.

Lemma denotes_ext v c q c' q' : denotes v c q -> c = c' -> (forall p n, q p n = q' p n) -> denotes v c' q'.
Proof. intros (W & C & Q) <- E. split; [exact W|]. split; [exact C|]. intros p n. rewrite Q. apply E. Qed.

Lemma denotes_add a b r ca qa cb qb : denotes a ca qa -> denotes b cb qb -> value_checked_add a b = Ok r ->
  denotes r (ca + cb) (fun p n => qa p n + qb p n).
Proof.
  intros (Wa & <- & Qa) (Wb & <- & Qb) E. destruct (value_checked_add_ok a b r Wa Wb E) as (C & Q & W).
  split; [exact W|]. split; [exact C|]. intros p n. rewrite Q, Qa, Qb. reflexivity.
Qed.

Lemma denotes_add_coin a c r ca qa : denotes a ca qa -> value_checked_add a (value_new c) = Ok r -> denotes r (ca + c) qa.
Proof.
  intros (Wa & <- & Qa) E. destruct (value_add_new_ok a c r Wa E) as (_ & W & C & Q).
  split; [exact W|]. split; [exact C|]. intros p n. rewrite Q. apply Qa.
Qed.

(* try_fold(checked_add) is the component-wise sum *)
Lemma value_sum_spec l : forall acc r c q, denotes acc c q -> Forall value_wf l -> value_sum acc l = Ok r ->
  denotes r (c + sum_coin l) (fun p n => q p n + sum_qty l p n).
Proof.
  induction l as [|v l IH]; intros acc r c q D Wl H; cbn [value_sum] in H.
  - injection H as <-. apply (denotes_ext _ _ _ _ _ D); [symmetry; apply N.add_0_r | intros p n; symmetry; apply N.add_0_r].
  - apply bind_ok in H as (a & E & H).
    pose proof (denotes_add _ _ _ _ _ _ _ D (denotes_self v (Forall_inv Wl)) E) as Da.
    apply (denotes_ext _ _ _ _ _ (IH a r _ _ Da (Forall_inv_tail Wl) H)).
    + rewrite sum_coin_cons. lia.
    + intros p n. rewrite sum_qty_cons. lia.
Qed.

(* the mint: the two sides of Mint::as_multiasset are its positive and its negative part *)

Lemma name_cmp_eq_iff a b : name_cmp a b = Eq <-> a = b.
Proof. split; [apply name_cmp_eq | intros ->; apply name_cmp_refl]. Qed.
Lemma bytes_cmp_eq_iff a b : bytes_cmp a b = Eq <-> a = b.
Proof. split; [apply bytes_cmp_eq | intros ->; apply bytes_cmp_refl]. Qed.

Lemma aq_nil n : aq [] n = 0.
Proof. reflexivity. Qed.

(* A left fold over a sorted association list whose step only touches what is looked up under the step's own key:
   looked up at [n], the result is the start value, changed by the one entry stored under [n] if there is one.
   Both levels of Mint::as_multiasset (policies, then asset names) are folds of this kind. *)
Lemma fold_sorted_lookup {V A R} cmp (KO : key_order cmp) (step : A -> bytes * V -> A) (look : A -> bytes -> R)
    (g : V -> R -> R) :
  (forall acc k x n, look (step acc (k, x)) n = if bytes_eqb n k then g x (look acc n) else look acc n) ->
  forall l, am_sorted cmp l = true -> forall acc n,
  look (fold_left step l acc) n = match am_get cmp n l with Some x => g x (look acc n) | None => look acc n end.
Proof.
  intros Hstep. induction l as [|[k x] l IH]; intros S acc n; [reflexivity|].
  apply (am_sorted_cons cmp KO) in S. destruct S as [Ab S].
  cbn [fold_left am_get]. rewrite (IH S), Hstep, <- (keq_bytes_eqb cmp KO). unfold keq.
  destruct (cmp n k) eqn:C; try reflexivity.
  apply (ko_eq _ KO) in C. subst n. rewrite (above_get cmp _ _ Ab). reflexivity.
Qed.

Definition sign_amount (positive : bool) (z : Z) : N :=
  if positive then int_as_positive z else int_as_negative z.

Definition side_step (positive : bool) (acc : assets) (nq : bytes * Z) : assets :=
  if Bool.eqb (int_is_positive (snd nq)) positive
  then assets_insert (fst nq) (if positive then int_as_positive (snd nq) else int_as_negative (snd nq)) acc
  else acc.

Definition mside_step (positive : bool) (res : multiasset) (e : bytes * mint_assets) : multiasset :=
  match mint_side_assets positive (snd e) with
  | [] => res
  | a => ma_insert (fst e) a res
  end.

Lemma side_step_aq positive acc k z n :
  aq (side_step positive acc (k, z)) n =
    if bytes_eqb n k then (if Bool.eqb (int_is_positive z) positive then sign_amount positive z else aq acc n) else aq acc n.
Proof.
  unfold side_step, sign_amount. cbn [fst snd]. destruct (Bool.eqb (int_is_positive z) positive); [apply aq_insert|].
  destruct (bytes_eqb n k); reflexivity.
Qed.

Lemma mside_step_qty positive n acc p a p' :
  ma_qty (mside_step positive acc (p, a)) p' n =
    if bytes_eqb p' p then (match mint_side_assets positive a with [] => ma_qty acc p' n | x => aq x n end)
    else ma_qty acc p' n.
Proof.
  unfold mside_step. cbn [fst snd]. destruct (mint_side_assets positive a) as [|x l] eqn:E; [|apply ma_qty_insert].
  destruct (bytes_eqb p' p); reflexivity.
Qed.

Lemma mint_side_assets_aq positive a n : am_sorted name_cmp a = true ->
  aq (mint_side_assets positive a) n =
    match am_get name_cmp n a with
    | Some z => if Bool.eqb (int_is_positive z) positive then sign_amount positive z else 0
    | None => 0
    end.
Proof.
  intros S.
  exact (fold_sorted_lookup name_cmp name_key_order (side_step positive) aq
           (fun z r => if Bool.eqb (int_is_positive z) positive then sign_amount positive z else r)
           (side_step_aq positive) a S assets_new n).
Qed.

Lemma int_amount_bound positive z : sign_amount positive z < two64.
Proof.
  unfold sign_amount, int_as_positive, int_as_negative, two64, two64Z.
  destruct positive.
  - pose proof (Z.mod_pos_bound z 18446744073709551616 ltac:(lia)). lia.
  - pose proof (Z.mod_pos_bound (- z) 18446744073709551616 ltac:(lia)). lia.
Qed.

(* within the range that MintBuilder admits, the side chosen by the sign carries the absolute quantity, the other nothing *)
Lemma sign_amount_sem positive z : (mint_amount_min <= z <= int_max)%Z ->
  (if Bool.eqb (int_is_positive z) positive then sign_amount positive z else 0) = Z.to_N (if positive then z else - z).
Proof.
  unfold mint_amount_min, int_max, int_is_positive, sign_amount, int_as_positive, int_as_negative, two64Z. intros R.
  destruct positive, (Z.leb_spec 0 z); cbn [Bool.eqb]; rewrite ?Z.mod_small by lia; lia.
Qed.

Lemma mint_wfb_entry m p a : mint_wfb m = true -> am_get bytes_cmp p m = Some a -> mint_assets_wfb a = true.
Proof.
  intros [_ F]%andb_true_iff G. apply (am_get_in bytes_cmp bytes_key_order) in G.
  exact (proj1 (forallb_forall _ _) F _ G).
Qed.

Lemma mint_wfb_get m p a : mint_wfb m = true -> am_get bytes_cmp p m = Some a ->
  am_sorted name_cmp a = true /\
  forall n z, am_get name_cmp n a = Some z -> (mint_amount_min <= z <= int_max)%Z.
Proof.
  intros W G. pose proof (mint_wfb_entry m p a W G) as [S Fa]%andb_true_iff.
  split; [exact S|]. intros n z G2. apply (am_get_in name_cmp name_key_order) in G2.
  rewrite forallb_forall in Fa. apply Fa in G2. cbn [snd] in G2. lia.
Qed.

(* the positive side is the minted quantity, the negative side the burnt one *)
Lemma mint_side_sem positive m p n : mint_wfb m = true ->
  ma_qty (mint_side positive m) p n = Z.to_N (if positive then mint_get m p n else - mint_get m p n).
Proof.
  intros W. pose proof W as [S _]%andb_true_iff.
  refine (eq_trans (fold_sorted_lookup bytes_cmp bytes_key_order (mside_step positive) (fun acc p => ma_qty acc p n)
                      (fun a r => match mint_side_assets positive a with [] => r | x => aq x n end)
                      (mside_step_qty positive n) m S ma_new p) _).
  cbn beta. rewrite ma_qty_nil. unfold mint_get.
  destruct (am_get bytes_cmp p m) as [a|] eqn:G; [|destruct positive; reflexivity].
  destruct (mint_wfb_get m p a W G) as [Sa Ra].
  transitivity (aq (mint_side_assets positive a) n); [destruct (mint_side_assets positive a); reflexivity|].
  rewrite (mint_side_assets_aq positive a n Sa).
  destruct (am_get name_cmp n a) as [z|] eqn:G2; [|destruct positive; reflexivity].
  apply sign_amount_sem. exact (Ra n z G2).
Qed.

(* why -2^64 is outside state_wf: its burn side is truncated to 0 (the defect fixed by /repo 0175f0b) *)
Lemma mint_min_truncated : int_as_negative int_min = 0 /\ Z.to_N (- int_min) = two64.
Proof. split; reflexivity. Qed.

Lemma mint_side_assets_wf positive a : assets_wfb (mint_side_assets positive a) = true.
Proof.
  unfold mint_side_assets. apply (fold_left_inv (fun acc => assets_wfb acc = true)); [|apply assets_wfb_nil].
  intros acc [k z] _ W. cbn [fst snd].
  destruct (Bool.eqb (int_is_positive z) positive); [|exact W].
  apply assets_wfb_insert; [exact W|]. apply (int_amount_bound positive z).
Qed.

Lemma mint_side_wf positive m : ma_wfb (mint_side positive m) = true.
Proof.
  unfold mint_side. apply (fold_left_inv (fun acc => ma_wfb acc = true)); [|apply ma_wfb_nil].
  intros acc [p a] _ W. cbn [fst snd].
  pose proof (mint_side_assets_wf positive a) as Wa.
  destruct (mint_side_assets positive a); [exact W|]. apply ma_wfb_insert; [exact W | exact Wa].
Qed.

Lemma value_new_from_assets_qty m p n : qty (value_new_from_assets m) p n = ma_qty m p n.
Proof. destruct m; reflexivity. Qed.

Lemma value_new_from_assets_wf m : ma_wfb m = true -> value_wf (value_new_from_assets m).
Proof. intros W. apply value_wf_iff. destruct m; cbn; (split; [reflexivity | assumption || exact I]). Qed.

Lemma value_new_from_assets_coin m : coin (value_new_from_assets m) = 0.
Proof. destruct m; reflexivity. Qed.

Definition mint_of (s : state) : mint_map := opt_mint (s_mint s).

Lemma mint_values_spec s : state_wf s ->
  denotes (fst (get_mint_as_values s)) 0 (mint_pos (mint_of s)) /\
  denotes (snd (get_mint_as_values s)) 0 (mint_neg (mint_of s)).
Proof.
  intros (_ & _ & Wm)%state_wf_iff. unfold get_mint_as_values, mint_of in *. destruct (s_mint s) as [m|]; cbn [fst snd opt_mint] in *.
  - split; (split; [apply value_new_from_assets_wf, mint_side_wf | split; [apply value_new_from_assets_coin|]]);
      intros p n; rewrite value_new_from_assets_qty; [exact (mint_side_sem true m p n Wm) | exact (mint_side_sem false m p n Wm)].
  - split; exact denotes_zero.
Qed.

Definition consumed_coin (s : state) : N :=
  sum_coin (map snd (s_inputs s)) + sumN (map snd (opt_list (s_withdrawals s)))
  + spec_cert_refunds (c_key_deposit (s_cfg s)) (opt_list (s_certs s)).

Definition produced_coin_no_fee (s : state) : N :=
  sum_coin (map o_amount (s_outputs s))
  + spec_cert_deposits (c_pool_deposit (s_cfg s)) (c_key_deposit (s_cfg s)) (opt_list (s_certs s))
  + sumN (opt_list (s_proposals s)) + opt_n (s_donation s).

Lemma implicit_input_spec s i : get_implicit_input s = Ok i ->
  denotes i (sumN (map snd (opt_list (s_withdrawals s))) + spec_cert_refunds (c_key_deposit (s_cfg s)) (opt_list (s_certs s)))
          (fun _ _ => 0).
Proof.
  unfold get_implicit_input. intros (a & Ha & H)%bind_ok.
  assert (A : denotes a (sumN (map snd (opt_list (s_withdrawals s)))) (fun _ _ => 0)).
  { destruct (s_withdrawals s) as [w|]; [|injection Ha as <-; exact denotes_zero].
    rewrite total_withdrawals_exact in Ha. apply bind_ok in Ha as (tw & [-> _]%exact_or_error_ok_iff & Ha).
    exact (denotes_add_coin _ _ _ _ _ denotes_zero Ha). }
  destruct (s_certs s) as [cs|]; cbn [opt_list].
  - rewrite certificates_refund_exact in H. apply bind_ok in H as (r & [-> _]%exact_or_error_ok_iff & H).
    exact (denotes_add_coin _ _ _ _ _ A H).
  - injection H as <-. apply (denotes_ext _ _ _ _ _ A); [symmetry; apply N.add_0_r | reflexivity].
Qed.

Theorem total_input_spec s ti : state_wf s -> get_total_input s = Ok ti ->
  value_wf ti /\ coin ti = consumed_coin s /\
  forall p n, qty ti p n = sum_qty (map snd (s_inputs s)) p n + mint_pos (mint_of s) p n.
Proof.
  intros W (e & Ee & (i & Ei & (x & Ex & H)%bind_ok)%bind_ok)%bind_ok.
  pose proof (proj1 (proj1 (state_wf_iff s) W)) as Wins. rewrite <- (Forall_map snd value_wf) in Wins.
  pose proof (value_sum_spec _ _ _ _ _ denotes_zero Wins Ee) as De.
  pose proof (denotes_add _ _ _ _ _ _ _ De (implicit_input_spec s i Ei) Ex) as Dx.
  pose proof (denotes_add _ _ _ _ _ _ _ Dx (proj1 (mint_values_spec s W)) H) as Dt.
  apply (denotes_ext _ _ _ _ _ Dt); [unfold consumed_coin; lia | intros p n; lia].
Qed.

Lemma deposit_exact s : get_deposit s =
  exact_or_error (spec_cert_deposits (c_pool_deposit (s_cfg s)) (c_key_deposit (s_cfg s)) (opt_list (s_certs s))
                  + sumN (opt_list (s_proposals s))).
Proof.
  unfold get_deposit.
  destruct (s_certs s) as [cs|], (s_proposals s) as [ps|]; cbn [opt_list sumN fold_right map spec_cert_deposits];
    rewrite ?certificates_deposit_exact, ?total_deposit_exact.
  - rewrite bind_exact_add0. apply bind_exact_add.
  - rewrite bind_exact_add0, N.add_0_r. apply bind_exact_id.
  - cbn [bind]. rewrite N.add_0_l. apply bind_exact_add0.
  - reflexivity.
Qed.

Theorem total_output_spec s to : state_wf s -> get_total_output s = Ok to ->
  value_wf to /\ coin to = produced_coin_no_fee s /\
  forall p n, qty to p n = sum_qty (map o_amount (s_outputs s)) p n + mint_neg (mint_of s) p n.
Proof.
  intros W (e & Ee & (d & Ed & (x & Ex & (t & Et & H)%bind_ok)%bind_ok)%bind_ok)%bind_ok.
  pose proof (proj1 (proj2 (proj1 (state_wf_iff s) W))) as Wouts. rewrite <- (Forall_map o_amount value_wf) in Wouts.
  pose proof (value_sum_spec _ _ _ _ _ denotes_zero Wouts Ee) as De.
  rewrite deposit_exact in Ed. apply exact_or_error_ok_iff in Ed as [-> _].
  pose proof (denotes_add_coin _ _ _ _ _ De Ex) as Dx.
  pose proof (denotes_add _ _ _ _ _ _ _ Dx (proj2 (mint_values_spec s W)) Et) as Dt.
  unfold produced_coin_no_fee. destruct (s_donation s) as [dn|]; cbn [opt_n].
  - apply (denotes_ext _ _ _ _ _ (denotes_add_coin _ _ _ _ _ Dt H)); [lia | intros p n; lia].
  - injection H as <-. apply (denotes_ext _ _ _ _ _ Dt); [lia | intros p n; lia].
Qed.

(* C05_accounting *)

Definition params_balanced (s : state) (b : tx_body) : Prop :=
  ledger_balanced (c_pool_deposit (s_cfg s)) (c_key_deposit (s_cfg s)) b.

(* the semantic statement of "total input = total output + fee" *)
Definition balanced_sem (s : state) (fee : N) : Prop :=
  consumed_coin s = produced_coin_no_fee s + fee /\
  forall p n, sum_qty (map snd (s_inputs s)) p n + mint_pos (mint_of s) p n
              = sum_qty (map o_amount (s_outputs s)) p n + mint_neg (mint_of s) p n.

Lemma balanced_sem_ledger s : balanced_sem s (opt_n (get_fee_if_set s)) -> params_balanced s (body_of s).
Proof.
  intros [C Q]. unfold params_balanced, ledger_balanced, body_of. cbn [b_inputs b_outputs b_fee b_certs b_withdrawals b_mint b_proposals b_donation].
  split; [|exact Q]. unfold consumed_coin, produced_coin_no_fee in C. lia.
Qed.

Theorem accounting s : state_wf s -> validate_balance s = Ok tt -> params_balanced s (body_of s).
Proof.
  intros W (ti & Ei & (to & Eo & (to' & Et & H)%bind_ok)%bind_ok)%bind_ok. apply balanced_sem_ledger.
  destruct (total_input_spec s ti W Ei) as (_ & Ci & Qi).
  destruct (total_output_spec s to W Eo) as (_ & Co & Qo).
  destruct (value_eqb ti to') eqn:E; [|discriminate]. apply value_eqb_sound in E. destruct E as [Ec Eq].
  (* the fee, if there is one, goes on the coin of the output side only *)
  assert (T : coin to' = coin to + opt_n (get_fee_if_set s) /\ forall p n, qty to' p n = qty to p n).
  { destruct (get_fee_if_set s) as [fee|]; cbn [opt_n]; [|injection Et as <-; split; [symmetry; apply N.add_0_r | reflexivity]].
    apply bind_ok in Et as (c & Ec' & [= <-]). unfold u64_add in Ec'. destruct (coin to + fee <? two64); [|discriminate].
    injection Ec' as <-. split; reflexivity. }
  destruct T as [Ct Qt]. split.
  - rewrite <- Ci, <- Co, <- Ct. exact Ec.
  - intros p n. rewrite <- Qi, <- Qo, <- Qt. apply Eq.
Qed.

(* the judge's executable test decides the rule *)

Lemma key_eq_dec (a b : bytes * bytes) : {a = b} + {a <> b}.
Proof. decide equality; apply (list_eq_dec N.eq_dec). Qed.

Lemma sum_qty_zero vs p n : ~ In (p, n) (flat_map value_keys vs) -> sum_qty vs p n = 0.
Proof.
  induction vs as [|v vs IH]; intros H; [reflexivity|].
  rewrite sum_qty_cons. cbn [flat_map] in H. rewrite in_app_iff in H.
  rewrite IH by tauto.
  destruct (N.eq_dec (qty v p n) 0) as [E|E]; [lia|].
  exfalso. apply H. left. unfold value_keys. rewrite opt_ma_qty_unfold in E.
  apply qty_in_entries in E. apply in_map_iff. exists (p, n, ma_qty (opt_ma (multiasset_of v)) p n). split; [reflexivity | exact E].
Qed.

Lemma mint_get_zero m p n : ~ In (p, n) (map (fun e : bytes * bytes * Z => (fst (fst e), snd (fst e))) (mint_entries m)) ->
  mint_get m p n = 0%Z.
Proof.
  intros H. unfold mint_get.
  destruct (am_get bytes_cmp p m) as [a|] eqn:G; [|reflexivity].
  destruct (am_get name_cmp n a) as [z|] eqn:G2; [|reflexivity].
  exfalso. apply H. apply in_map_iff. exists (p, n, z). split; [reflexivity|].
  apply (am_get_in bytes_cmp bytes_key_order) in G. apply (am_get_in name_cmp name_key_order) in G2.
  unfold mint_entries. apply in_flat_map. exists (p, a). split; [exact G|]. cbn [fst snd].
  apply in_map_iff. exists (n, z). split; [reflexivity | exact G2].
Qed.

Theorem ledger_balancedb_iff pd kd b : ledger_balancedb pd kd b = true <-> ledger_balanced pd kd b.
Proof.
  unfold ledger_balancedb, ledger_balanced. rewrite andb_true_iff, N.eqb_eq, forallb_forall. split.
  - intros [C Q]. split; [exact C|]. intros p n.
    destruct (in_dec key_eq_dec (p, n) (body_keys b)) as [I|I].
    + specialize (Q _ I). cbn [fst snd] in Q. apply N.eqb_eq in Q. exact Q.
    + unfold body_keys in I. rewrite !in_app_iff in I.
      rewrite (sum_qty_zero (map snd (b_inputs b)) p n) by tauto.
      rewrite (sum_qty_zero (map o_amount (b_outputs b)) p n) by tauto.
      unfold mint_pos, mint_neg. rewrite (mint_get_zero (b_mint b) p n) by tauto. reflexivity.
  - intros [C Q]. split; [exact C|]. intros [p n] _. cbn [fst snd]. apply N.eqb_eq. apply Q.
Qed.

(* operation order (C05_order): the two sides of the rule are sums, so they do not depend on the order in which inputs,
   outputs, certificates, withdrawals and proposals were entered *)

Lemma sum_coin_perm l l' : Permutation l l' -> sum_coin l = sum_coin l'.
Proof. intros P. unfold sum_coin. apply sumN_perm. apply Permutation_map. exact P. Qed.

Lemma sum_qty_perm l l' p n : Permutation l l' -> sum_qty l p n = sum_qty l' p n.
Proof. intros P. unfold sum_qty. apply sumN_perm. apply Permutation_map. exact P. Qed.

