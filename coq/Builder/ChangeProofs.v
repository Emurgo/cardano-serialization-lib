(* Builder/ChangeProofs.v — C05: every successful balancing operation leaves a ledger-balanced builder.
   For an ARBITRARY oracle (type of its state, answers) subject only to the typing premise [oracle_u64]
   (fee and min-ADA answers are u64; what the coin selection adds are well-formed values when the offered UTxOs are).

   [hoare J P m Q] is a partial-correctness triple over the model's monad that also carries an invariant J through
   failing runs, because the Rust code mutates before it fails; its rules serve every proof about Builder/Change.v
   (balance here; no zero quantities in Cddl/ChangeNoZero.v; output limits in MinAda/ChangeInstance.v).
   Straight-line code is followed with the precondition [eq s]: the current state is an explicit term and what is
   known about it stands in the context (hoare_pre, hoare_seq).  [add_change_spec] is the one walk through add_change
   for balance and for the direction of the change (DirectionProofs.v); its part about one pass of the packing loop,
   [change_outputs_loop_spec], also says how much the pass takes out of change_left, which is the measure of
   TerminationProofs.v. *)
From CSL Require Import Base.Prelude Base.U64 Num.Value Num.ValueProofs Num.ValueNorm Num.ValueNormProofs Deposits.Deposits Deposits.DepositsProofs
  Builder.Totals Builder.TotalsProofs Builder.Change Builder.ChangePure Base.Facts.
Local Open Scope N_scope.

(* balanced: the state's body satisfies the ledger rule with the fee that build() will write *)

Definition balanced (s : state) : Prop :=
  exists fee, get_fee_if_set s = Some fee /\ balanced_sem s fee.

Lemma balanced_ledger s : balanced s -> params_balanced s (body_of s).
Proof. intros [fee [F B]]. apply balanced_sem_ledger. rewrite F. exact B. Qed.

(* what is left to distribute: consumed = produced (without fee) + change_left, component-wise *)
Definition open_balance (s : state) (cl : value) : Prop :=
  consumed_coin s = produced_coin_no_fee s + coin cl /\
  forall p n, sum_qty (map snd (s_inputs s)) p n + mint_pos (mint_of s) p n
              = sum_qty (map o_amount (s_outputs s)) p n + mint_neg (mint_of s) p n + qty cl p n.

Definition aligned (rq : fee_request) (v : N) : Prop :=
  match rq with
  | FeeExactly e => v = e
  | FeeNotLess f => f <= v
  | FeeUnspecified => True
  end.

Lemma get_new_fee_aligned rq f : aligned rq (get_new_fee rq f).
Proof.
  destruct rq as [|old|old]; cbn; [exact I | | reflexivity].
  destruct (N.ltb_spec f old); lia.
Qed.

Lemma aligned_add rq nf v : aligned rq nf -> (forall e, rq = FeeExactly e -> v = 0) -> aligned rq (nf + v).
Proof.
  destruct rq as [|f|e]; cbn; intros A Z; [exact I | lia |].
  rewrite (Z e eq_refl). lia.
Qed.

Lemma set_final_fee_aligned s v : aligned (s_fee_request s) v -> s_fee (set_final_fee v s) = Some v.
Proof.
  unfold set_final_fee, aligned. destruct (s_fee_request s) as [|nl|e]; cbn; intros H.
  - reflexivity.
  - destruct (N.leb_spec nl v); [reflexivity | lia].
  - subst. reflexivity.
Qed.

Lemma set_final_fee_some v s : s_fee (set_final_fee v s) <> None.
Proof.
  unfold set_final_fee, set_s_fee. cbn [s_fee]. destruct (s_fee_request s) as [|nl|x]; try discriminate.
  destruct (nl <=? v); discriminate.
Qed.

Lemma get_fee_if_set_some s v : s_fee s = Some v -> get_fee_if_set s = Some v.
Proof. unfold get_fee_if_set. intros ->. reflexivity. Qed.

(* set_final_fee touches the fee field only; the setters commute with the projections by computation *)
Lemma set_final_fee_frame v s :
  s_cfg (set_final_fee v s) = s_cfg s /\ s_inputs (set_final_fee v s) = s_inputs s /\
  s_outputs (set_final_fee v s) = s_outputs s /\ s_fee_request (set_final_fee v s) = s_fee_request s /\
  s_certs (set_final_fee v s) = s_certs s /\ s_withdrawals (set_final_fee v s) = s_withdrawals s /\
  s_mint (set_final_fee v s) = s_mint s /\ s_proposals (set_final_fee v s) = s_proposals s /\
  s_donation (set_final_fee v s) = s_donation s.
Proof. repeat split. Qed.

Lemma open_balance_set_final_fee v s cl : open_balance s cl -> open_balance (set_final_fee v s) cl.
Proof. intros H. exact H. Qed.

(* the builder after [l] has been appended to its outputs *)
Definition grow (l : list output) (s : state) : state := set_s_outputs (s_outputs s ++ l) s.

Lemma grow_nil s : grow [] s = s.
Proof. destruct s. unfold grow. cbn. rewrite app_nil_r. reflexivity. Qed.

Lemma grow_app l1 l2 s : grow l2 (grow l1 s) = grow (l1 ++ l2) s.
Proof. unfold grow. cbn. rewrite app_assoc. reflexivity. Qed.

(* moving what the new outputs hold out of change_left keeps the open balance *)
Lemma open_balance_grow s cl cl' l :
  open_balance s cl -> coin cl = coin cl' + sum_coin (map o_amount l) ->
  (forall p n, qty cl p n = qty cl' p n + sum_qty (map o_amount l) p n) -> open_balance (grow l s) cl'.
Proof.
  intros [C Q] Hc Hq. split.
  - unfold consumed_coin, produced_coin_no_fee, grow in *.
    cbn [s_cfg s_inputs s_outputs s_certs s_withdrawals s_proposals s_donation set_s_outputs]. rewrite map_app, sum_coin_app. lia.
  - intros p n. specialize (Q p n). specialize (Hq p n). unfold mint_of, grow in *.
    cbn [s_inputs s_outputs s_mint set_s_outputs]. rewrite map_app, sum_qty_app. lia.
Qed.

Lemma open_balance_closed s fee cl :
  open_balance s cl -> coin cl = fee -> (forall p n, qty cl p n = 0) -> balanced_sem s fee.
Proof.
  intros [C Q] Hc Hq. split; [lia|]. intros p n. rewrite Q, Hq. lia.
Qed.

Definition utxos_wf (l : list (N * value)) : Prop := Forall (fun e : N * value => value_wf (snd e)) l.

Section Proofs.
  Context {O : Type}.
  Variable orc : @oracle O.

  (* typing premise: the implementation's answers are u64 (BigNum) and Values; nothing is assumed about WHICH *)
  Definition oracle_u64 : Prop :=
    (forall st o v, fst (ask_fee orc st o) = Ok v -> v < two64) /\
    (forall x o v, fst (ask_min_ada orc x o) = Ok v -> v < two64) /\
    (forall st utxos o, utxos_wf utxos -> utxos_wf (fst (fst (ask_select orc st utxos o)))).
  Hypothesis OU : oracle_u64.

  Notation M := (@M O).
  Implicit Types J P : state -> Prop.

  (* partial correctness + an invariant J that survives failures *)
  Definition hoare {A} (J P : state -> Prop) (m : M A) (Q : A -> state -> Prop) : Prop :=
    forall s o, J s -> P s ->
      J (out_st (m s o)) /\ match out_res (m s o) with Ok a => Q a (out_st (m s o)) | _ => True end.

  Lemma hoare_conseq {A} J (P P' : state -> Prop) (m : M A) (Q Q' : A -> state -> Prop) :
    hoare J P m Q -> (forall s, J s -> P' s -> P s) -> (forall a s, J s -> Q a s -> Q' a s) -> hoare J P' m Q'.
  Proof.
    intros H HP HQ s o Js Ps. destruct (H s o Js (HP s Js Ps)) as [J' R]. split; [exact J'|].
    destruct (out_res (m s o)); auto.
  Qed.

  Lemma hoare_weaken {A} J P P' (m : M A) Q :
    (forall s, J s -> P' s -> P s) -> hoare J P m Q -> hoare J P' m Q.
  Proof. intros H1 H2 s o Js Ps. apply H2; auto. Qed.

  (* what is known of the state before goes into the context *)
  Lemma hoare_pre {A} J P (m : M A) Q : (forall s0, J s0 -> P s0 -> hoare J (eq s0) m Q) -> hoare J P m Q.
  Proof. intros H s o Js Ps. apply (H s); auto. Qed.

  Lemma hoare_pre_false {A} J (P : state -> Prop) (m : M A) Q : (forall s, J s -> P s -> False) -> (forall s o, J s -> J (out_st (m s o))) -> hoare J P m Q.
  Proof. intros H HJ s o Js Ps. exfalso. eauto. Qed.

  Lemma hoare_ret {A} J (Q : A -> state -> Prop) (a : A) : hoare J (Q a) (ret a) Q.
  Proof. intros s o Js Ps. cbn. auto. Qed.

  Lemma hoare_ret' {A} J (P : state -> Prop) (Q : A -> state -> Prop) (a : A) :
    (forall s, J s -> P s -> Q a s) -> hoare J P (ret a) Q.
  Proof. intros H s o Js Ps. cbn. auto. Qed.

  Lemma hoare_fail {A} J P (e : result A) (Q : A -> state -> Prop) :
    (forall a, e <> Ok a) -> hoare J P (lift e) Q.
  Proof. intros H s o Js Ps. cbn. split; [exact Js|]. destruct e; auto. exfalso. eapply H. reflexivity. Qed.

  Lemma hoare_bind {A B} J P (m : M A) (f : A -> M B) Q R :
    hoare J P m Q -> (forall a, hoare J (Q a) (f a) R) -> hoare J P (bindM m f) R.
  Proof.
    intros Hm Hf s o Js Ps. unfold bindM. destruct (Hm s o Js Ps) as [J' Qa].
    destruct (out_res (m s o)) as [a| | |] eqn:E; cbn; auto.
    apply (Hf a); assumption.
  Qed.

  (* the continuation starts in a state [s1] of which the postcondition is known *)
  Lemma hoare_seq {A B} J P (m : M A) (f : A -> M B) Q R :
    hoare J P m Q -> (forall a s1, J s1 -> Q a s1 -> hoare J (eq s1) (f a) R) -> hoare J P (bindM m f) R.
  Proof. intros Hm Hf. apply (hoare_bind J P m f Q R Hm). intros a. apply hoare_pre. apply Hf. Qed.

  (* a computation that leaves every precondition alone and whose result satisfies [phi] *)
  Lemma hoare_bind_pure {A B} J P (m : M A) (phi : A -> Prop) (f : A -> M B) R :
    hoare J P m (fun a s => P s /\ phi a) -> (forall a, phi a -> hoare J P (f a) R) -> hoare J P (bindM m f) R.
  Proof. intros Hm Hf. apply (hoare_bind J P m f _ R Hm). intros a s o Js [Ps Ha]. apply (Hf a Ha); assumption. Qed.

  Lemma hoare_lift_bind {A B} J P (r : result A) (f : A -> M B) R :
    (forall a, r = Ok a -> hoare J P (f a) R) -> hoare J P (bindM (lift r) f) R.
  Proof.
    intros H s o Js Ps. unfold bindM, lift. cbn. destruct r as [a| | |]; cbn; auto.
    apply (H a eq_refl); assumption.
  Qed.

  Lemma hoare_get_bind {B} J P (f : state -> M B) R :
    (forall s0, hoare J (fun s => s = s0 /\ P s) (f s0) R) -> hoare J P (bindM get f) R.
  Proof. intros H s o Js Ps. unfold bindM, get. cbn. apply (H s); auto. Qed.

  Lemma hoare_get_eq {B} J s0 (f : state -> M B) R : hoare J (eq s0) (f s0) R -> hoare J (eq s0) (bindM get f) R.
  Proof. intros H s o Js <-. unfold bindM, get. cbn. apply H; auto. Qed.

  Lemma hoare_get_any {B} J P (f : state -> M B) R : (forall s0, hoare J P (f s0) R) -> hoare J P (bindM get f) R.
  Proof. intros H s o Js Ps. unfold bindM, get. cbn. apply (H s); assumption. Qed.

  Lemma hoare_modify J P (g : state -> state) (Q : unit -> state -> Prop) :
    (forall s, J s -> P s -> J (g s) /\ Q tt (g s)) -> hoare J P (modify g) Q.
  Proof. intros H s o Js Ps. cbn. apply (H s); assumption. Qed.

  Lemma hoare_modify_bind {B} J P (g : state -> state) (k : unit -> M B) P' R :
    (forall s, J s -> P s -> J (g s) /\ P' (g s)) -> hoare J P' (k tt) R -> hoare J P (bindM (modify g) k) R.
  Proof.
    intros Hg Hk s o Js Ps. unfold bindM, modify. cbn. destruct (Hg s Js Ps) as [J' P'']. apply Hk; assumption.
  Qed.

  Lemma hoare_modify_eq {B} J s0 (g : state -> state) (k : unit -> M B) R :
    (J s0 -> J (g s0)) -> hoare J (eq (g s0)) (k tt) R -> hoare J (eq s0) (bindM (modify g) k) R.
  Proof. intros Hg. apply hoare_modify_bind. intros s Js <-. auto. Qed.

  Lemma hoare_put J P (s' : state) (Q : unit -> state -> Prop) :
    (forall s, J s -> P s -> J s' /\ Q tt s') -> hoare J P (put s') Q.
  Proof. intros H s o Js Ps. cbn. apply (H s); assumption. Qed.

  Lemma hoare_askF_bind {B} J P st (f : N -> M B) R :
    (forall v, v < two64 -> hoare J P (f v) R) -> hoare J P (bindM (askF orc st) f) R.
  Proof.
    intros H s o Js Ps. unfold bindM, askF. cbn.
    destruct (fst (ask_fee orc st o)) as [v| | |] eqn:E; cbn; auto.
    apply H; auto. destruct OU as [U _]. eapply U. exact E.
  Qed.

  Lemma hoare_askA_bind {B} J P x (f : N -> M B) R :
    (forall v, v < two64 -> hoare J P (f v) R) -> hoare J P (bindM (askA orc x) f) R.
  Proof.
    intros H s o Js Ps. unfold bindM, askA. cbn.
    destruct (fst (ask_min_ada orc x o)) as [v| | |] eqn:E; cbn; auto.
    apply H; auto. destruct OU as [_ [U _]]. eapply U. exact E.
  Qed.

  Lemma hoare_askSel_bind {B} J P st utxos (f : list (N * value) * bool -> M B) R :
    (forall o, hoare J P (f (fst (ask_select orc st utxos o))) R) -> hoare J P (bindM (askSel orc st utxos) f) R.
  Proof. intros H s o Js Ps. unfold bindM, askSel. cbn. apply H; assumption. Qed.

  Lemma hoare_if {A} J P (b : bool) (m1 m2 : M A) Q :
    (b = true -> hoare J P m1 Q) -> (b = false -> hoare J P m2 Q) -> hoare J P (if b then m1 else m2) Q.
  Proof. destruct b; auto. Qed.

  Lemma hoare_catch {A} J P (m : M A) Q :
    hoare J P m Q -> hoare J P (catch m) (fun r s => match r with Some a => Q a s | None => True end).
  Proof.
    intros H s o Js Ps. unfold catch. destruct (H s o Js Ps) as [J' R].
    destruct (out_res (m s o)); cbn; auto.
  Qed.

  (* the triple for a property of the result alone, written without [match] *)
  Lemma hoare_result {A} J (m : M A) (Q : A -> Prop) :
    hoare J (fun _ => True) m (fun a _ => Q a) <->
    (forall s o, J s -> J (out_st (m s o)) /\ (forall a, out_res (m s o) = Ok a -> Q a)).
  Proof.
    split; intros H s o Js.
    - destruct (H s o Js I) as [J' R]. split; [exact J'|]. intros a E. rewrite E in R. exact R.
    - intros _. destruct (H s o Js) as [J' R]. split; [exact J'|]. destruct (out_res (m s o)); auto.
  Qed.

  (* a computation that leaves the state alone keeps whatever is known of it *)
  Lemma hoare_pure {A} J P (m : M A) : pure_st m -> hoare J P m (fun _ s => P s).
  Proof. intros Hm s o Js Ps. rewrite (Hm s o). split; [exact Js|]. destruct (out_res (m s o)); auto. Qed.

  Lemma hoare_pure_returns {A} J P (m : M A) Q : pure_st m -> returns m Q -> hoare J P m (fun a s => P s /\ Q a).
  Proof.
    intros Hp Hr s o Js Ps. rewrite (Hp s o). split; [exact Js|].
    destruct (out_res (m s o)) eqn:E; auto. split; [exact Ps | exact (Hr _ _ _ E)].
  Qed.

  Lemma hoare_pure_bind {A B} J P (m : M A) (f : A -> M B) R :
    pure_st m -> (forall a, hoare J P (f a) R) -> hoare J P (bindM m f) R.
  Proof. intros Hm Hf. exact (hoare_bind J P m f _ R (hoare_pure J P m Hm) Hf). Qed.

  (* the two writes of the change code that are not a plain [modify] *)

  (* add_output for an arbitrary invariant: nothing is written unless the admission tests pass, and then [x] is appended *)
  Lemma hoare_add_output J P x (Q : unit -> state -> Prop) :
    (forall s o, J s -> P s -> out_res (output_acceptable orc x s o) = Ok tt -> J (grow [x] s) /\ Q tt (grow [x] s)) ->
    hoare J P (add_output orc x) Q.
  Proof.
    intros H s o Js Ps. pose proof (add_output_effect orc x s o) as E.
    destruct (out_res (add_output orc x s o)) as [[]| | |]; [|rewrite E; auto..].
    destruct E as [Acc ->]. exact (H s o Js Ps Acc).
  Qed.

  (* the top-up for an arbitrary invariant: the last output gets [cl] added and is put back; success means that it has
     passed the admission tests again *)
  Lemma hoare_top_up_last J P cl (Q : unit -> state -> Prop) :
    (forall s before last amount, J s -> P s -> s_outputs s = before ++ [last] ->
       value_checked_add (o_amount last) cl = Ok amount ->
       let last' := mkOutput (o_addr last) amount (o_extra last) in
       let s' := set_s_outputs (before ++ [last']) s in
       J s' /\ (forall o, out_res (output_admissible orc last' s' o) = Ok tt -> Q tt s')) ->
    hoare J P (top_up_last orc cl) Q.
  Proof.
    intros H. apply hoare_pre. intros s0 Js0 Ps0. unfold top_up_last. apply hoare_get_eq.
    destruct (rev (s_outputs s0)) as [|last rb] eqn:Er; [apply hoare_fail; discriminate|].
    assert (Eo : s_outputs s0 = rev rb ++ [last]) by (rewrite <- (rev_involutive (s_outputs s0)), Er; reflexivity).
    apply hoare_lift_bind. intros amount E. destruct (H s0 (rev rb) last amount Js0 Ps0 Eo E) as [J' Q'].
    eapply hoare_seq with (Q := fun _ s => s = set_s_outputs (rev rb ++ [mkOutput (o_addr last) amount (o_extra last)]) s0).
    - apply hoare_put. intros s _ _. split; [exact J' | reflexivity].
    - intros u s1 _ ->. intros s o Js <-. rewrite (pure_output_admissible orc _ _ o). split; [exact Js|].
      destruct (out_res (output_admissible orc _ _ o)) as [[]| | |] eqn:Acc; [exact (Q' o Acc) | exact I..].
  Qed.

  (* add_change for an arbitrary invariant.  The change code writes the state in three ways only: add_output,
     set_final_fee and the top-up of the last output.  Successful runs keep [P] (and all runs [J]) as soon as these
     three do; the top-up comes after the fee has been stored, and may rely on a property [C] of the value it adds,
     which has to survive the exact subtractions that lead from the total input to that value. *)
  Section Invariant.
    Variables (J P : state -> Prop) (C : value -> Prop).
    Hypothesis Hadd : forall x, hoare J P (add_output orc x) (fun _ s => P s).
    Hypothesis Hfee : forall v s, J s -> P s -> J (set_final_fee v s) /\ P (set_final_fee v s).
    Hypothesis Htop : forall cl, C cl -> hoare J (fun s => P s /\ s_fee s <> None) (top_up_last orc cl) (fun _ s => P s).
    Hypothesis Csub : forall a b c, C a -> value_checked_sub a b = Ok c -> C c.
    Hypothesis Czero : C value_zero.

    Lemma change_outputs_loop_keeps addr extra l : forall cl nf, C cl ->
      hoare J P (change_outputs_loop orc addr extra l cl nf) (fun r s => P s /\ C (fst r)).
    Proof.
      induction l as [|nft l IH]; intros cl nf Hcl; cbn [change_outputs_loop]; [apply hoare_ret'; auto|].
      apply hoare_pure_bind; [auto with pure|]. intros min_ada.
      apply hoare_pure_bind; [apply pure_fee_for_output|]. intros ffc.
      apply hoare_lift_bind. intros nf' _. apply hoare_lift_bind. intros need _.
      apply hoare_if; intros _; [apply hoare_fail; discriminate|].
      apply hoare_lift_bind. intros cl' E. eapply hoare_bind; [apply Hadd|]. intros ?.
      apply IH. exact (Csub _ _ _ Hcl E).
    Qed.

    Lemma change_while_loop_keeps fuel addr extra : forall cl nf, C cl ->
      hoare J P (change_while_loop orc fuel addr extra cl nf) (fun r s => P s /\ C (fst r)).
    Proof.
      induction fuel as [|fuel IH]; intros cl nf Hcl; cbn [change_while_loop];
        (apply hoare_if; intros _; [|apply hoare_ret'; auto]); [apply hoare_fail; discriminate|].
      apply hoare_pure_bind; [apply pure_pack_nfts|]. intros nfts.
      apply hoare_if; intros _; [|apply hoare_fail; discriminate].
      eapply hoare_bind_pure; [apply change_outputs_loop_keeps; exact Hcl|]. intros r Hr. apply IH. exact Hr.
    Qed.

    Lemma asset_branch_keeps fuel addr extra it ot fee : C it ->
      hoare J P (asset_branch orc fuel addr extra it ot fee) (fun _ s => P s).
    Proof.
      intros Hit. unfold asset_branch. apply hoare_lift_bind. intros cl0 E0.
      apply hoare_pure_bind; [auto with pure|]. intros mu.
      eapply hoare_bind_pure; [apply change_while_loop_keeps; exact (Csub _ _ _ Hit E0)|]. intros r Hr.
      apply hoare_lift_bind. intros cl1 E1. pose proof (Csub _ _ _ Hr E1) as H1.
      apply hoare_get_any. intros s. eapply hoare_bind_pure with (phi := fun r2 => C (fst r2)).
      - apply hoare_if; intros _; [|apply hoare_ret'; auto].
        apply hoare_pure_bind; [apply pure_fee_for_output|]. intros af. apply hoare_lift_bind. intros ppv _.
        apply hoare_if; intros _; [|apply hoare_ret'; auto].
        apply hoare_lift_bind. intros nf' _. eapply hoare_bind; [apply Hadd|]. intros ?. apply hoare_ret'. auto.
      - intros r2 H2. apply hoare_modify_bind with (P' := fun s => P s /\ s_fee s <> None).
        { intros s0 Js Ps. destruct (Hfee (snd r2) s0 Js Ps) as [J' P']. auto using set_final_fee_some. }
        eapply hoare_bind with (Q := fun _ s => P s);
          [apply hoare_if; intros _; [apply hoare_ret'; tauto | apply Htop; exact H2]|].
        intros ?. apply hoare_pure_bind; [apply pure_check_fee|]. intros ?. apply hoare_ret'. auto.
    Qed.

    Lemma burn_extra_keeps b : hoare J P (@burn_extra O b) (fun _ s => P s).
    Proof.
      unfold burn_extra. apply hoare_get_any. intros s. apply hoare_if; intros _; [apply hoare_fail; discriminate|].
      assert (Fin : hoare J P (bindM (modify (set_final_fee b)) (fun _ => @ret O _ false)) (fun _ s => P s)).
      { apply hoare_modify_bind with (P' := P); [intros ?; apply Hfee|]. apply hoare_ret'. auto. }
      destruct (s_fee_request s) as [| |f]; try exact Fin. apply hoare_if; intros _; [apply hoare_fail; discriminate | exact Fin].
    Qed.

    Lemma pure_branch_keeps addr extra ce fee : hoare J P (pure_branch orc addr extra ce fee) (fun _ s => P s).
    Proof.
      unfold pure_branch. apply hoare_pure_bind; [auto with pure|]. intros ma. apply hoare_if; intros _; [apply burn_extra_keeps|].
      apply hoare_pure_bind; [apply pure_fee_for_output|]. intros ffc. apply hoare_lift_bind. intros nf _.
      apply hoare_lift_bind. intros need _. apply hoare_if; intros _; [apply burn_extra_keeps|].
      apply hoare_modify_bind with (P' := P); [intros ?; apply Hfee|].
      apply hoare_lift_bind. intros amount _. eapply hoare_bind; [apply Hadd|]. intros ?.
      apply hoare_pure_bind; [apply pure_check_fee|]. intros ?. apply hoare_ret'. auto.
    Qed.

    Theorem add_change_keeps fuel addr extra s0 : P s0 -> (forall it, get_total_input s0 = Ok it -> C it) ->
      hoare J (eq s0) (add_change orc fuel addr extra) (fun _ s => P s).
    Proof.
      intros Ps Hin. unfold add_change. apply hoare_get_eq. destruct (s_fee s0); [apply hoare_fail; discriminate|].
      apply hoare_weaken with (P := P); [intros ? _ <-; exact Ps|].
      apply hoare_pure_bind; [apply pure_min_fee_pub|]. intros fee. apply hoare_lift_bind. intros it Eit.
      apply hoare_lift_bind. intros ot _. apply hoare_lift_bind. intros sh _.
      apply hoare_if; intros _; [apply hoare_fail; discriminate|]. apply hoare_lift_bind. intros opf _.
      destruct (value_partial_cmp it opf) as [[| |]|]; try (apply hoare_fail; discriminate).
      - apply hoare_lift_bind. intros d _. apply hoare_modify_bind with (P' := P); [intros ?; apply Hfee|].
        apply hoare_ret'. auto.
      - apply hoare_lift_bind. intros ce _.
        apply hoare_if; intros _; [apply asset_branch_keeps; exact (Hin it Eit) | apply pure_branch_keeps].
    Qed.
  End Invariant.

  (* add_inputs_from_and_change for an arbitrary invariant: it only adds inputs (lists of which [U] holds: what the
     selection returns, then the unused UTxOs one by one) and calls add_change, whose failures are caught; [Q] is what
     a successful add_change establishes from any state that satisfies [J] *)
  Section Select.
    Variables (J Q : state -> Prop) (U : list (N * value) -> Prop).
    Hypothesis Hin : forall l, U l -> hoare J (fun _ => True) (add_inputs l) (fun _ _ => True).
    Hypothesis Hchange : forall fuel addr extra, hoare J (fun _ => True) (add_change orc fuel addr extra) (fun _ s => Q s).

    Lemma retry_loop_keeps fuel addr extra l : (forall x, In x l -> U [x]) ->
      hoare J (fun _ => True) (retry_loop orc fuel addr extra l) (fun r s => match r with Some _ => Q s | None => True end).
    Proof.
      induction l as [|x l IH]; intros Hl; cbn [retry_loop]; [apply hoare_ret'; auto|].
      eapply hoare_bind; [apply Hin, Hl; left; reflexivity|]. intros ?.
      eapply hoare_bind; [apply hoare_catch, Hchange|]. intros res. destruct res as [v|]; [apply hoare_ret'; auto|].
      apply hoare_weaken with (P := fun _ => True); [auto|]. apply IH. intros y Hy. apply Hl. right. exact Hy.
    Qed.

    Theorem select_and_change_keeps fuel utxos addr extra :
      (forall st o, U (fst (fst (ask_select orc st utxos o)))) -> (forall used x, In x (sort_unused used utxos) -> U [x]) ->
      hoare J (fun _ => True) (add_inputs_from_and_change orc fuel utxos addr extra) (fun _ s => Q s).
    Proof.
      intros Hsel Hun. unfold add_inputs_from_and_change. apply hoare_get_any. intros s0.
      apply hoare_askSel_bind. intros o. eapply hoare_bind; [apply Hin, Hsel|]. intros ?.
      apply hoare_if; intros _; [apply hoare_fail; discriminate|].
      apply hoare_get_any. intros s1. destruct (s_fee s1); [apply hoare_fail; discriminate|].
      eapply hoare_bind; [apply hoare_catch, Hchange|]. intros res. destruct res as [v|]; [apply hoare_ret'; auto|].
      apply hoare_get_any. intros s2.
      eapply hoare_bind; [apply hoare_weaken with (P := fun _ => True); [auto|]; apply retry_loop_keeps, Hun|]. intros r.
      destruct r as [v|]; [apply hoare_ret'; auto | apply hoare_fail; discriminate].
    Qed.
  End Select.

  (* the invariant carried through every run, failing or not: the state stays well-formed and its configuration
     (protocol parameters, flags) is never touched *)
  Variable cfg0 : config.
  Definition WF (s : state) : Prop := state_wf s /\ s_cfg s = cfg0.

  Lemma WF_wf s : WF s -> state_wf s.
  Proof. intros [H _]. exact H. Qed.
  Lemma WF_set_final_fee v s : WF s -> WF (set_final_fee v s).
  Proof. intros H. exact H. Qed.
  Lemma WF_set_outputs l s : WF s -> Forall (fun o => value_wf (o_amount o)) l -> WF (set_s_outputs l s).
  Proof. intros [(Wi & _ & Wm)%state_wf_iff C] W. split; [apply state_wf_iff; auto | exact C]. Qed.
  Lemma WF_outputs s : WF s -> Forall (fun o => value_wf (o_amount o)) (s_outputs s).
  Proof. intros [W _]. apply state_wf_iff in W. apply W. Qed.
  Lemma WF_grow l s : WF s -> Forall (fun o => value_wf (o_amount o)) l -> WF (grow l s).
  Proof. intros W Wl. apply WF_set_outputs; [exact W|]. apply Forall_app. split; [apply WF_outputs; exact W | exact Wl]. Qed.

  Lemma min_fee_pub_spec P :
    hoare WF P (min_fee_pub orc) (fun v s => P s /\ aligned (s_fee_request s) v).
  Proof.
    unfold min_fee_pub. apply hoare_get_bind. intros s0. apply hoare_askF_bind. intros f Lf.
    apply hoare_ret'. intros s _ [E Ps]. subst s. split; [exact Ps|]. apply get_new_fee_aligned.
  Qed.

  Lemma output_acceptable_spec P x : hoare WF P (output_acceptable orc x) (fun _ s => P s).
  Proof. apply hoare_pure, pure_output_acceptable. Qed.

  (* fee_for_output leaves the builder untouched; under an Exactly request the increment is 0 *)
  Lemma fee_for_output_spec P x :
    hoare WF P (fee_for_output orc x)
      (fun v s => P s /\ v < two64 /\ (forall e, s_fee_request s = FeeExactly e -> v = 0)).
  Proof.
    unfold fee_for_output. apply hoare_get_bind. intros s0. apply hoare_askF_bind. intros fb Lb.
    eapply hoare_bind; [apply output_acceptable_spec|]. intros u.
    apply hoare_askF_bind. intros fa La. cbn beta.
    intros s o Js [E Ps]. subst s. cbn. split; [exact Js|].
    unfold checked_sub.
    destruct (get_new_fee (s_fee_request s0) fb <=? get_new_fee (s_fee_request s0) fa) eqn:L; cbn; [|exact I].
    split; [exact Ps|]. split.
    - destruct (s_fee_request s0) as [|old|old]; cbn in *; [lia | | lia].
      destruct (N.ltb_spec fa old), (N.ltb_spec fb old); lia.
    - intros e E. rewrite E. cbn. lia.
  Qed.

  Lemma add_output_spec s0 x : value_wf (o_amount x) ->
    hoare WF (eq s0) (add_output orc x) (fun _ s => s = grow [x] s0).
  Proof using OU.
    intros Wx. apply hoare_add_output. intros s o Js <- _. split; [|reflexivity].
    apply WF_grow; [exact Js|]. constructor; [exact Wx | constructor].
  Qed.

  Lemma check_fee_after_change_spec P : hoare WF P (check_fee_after_change orc) (fun _ s => P s).
  Proof. apply hoare_pure, pure_check_fee. Qed.

  (* pack_nfts_for_change only returns well-formed multiassets (what it packs is irrelevant for the balance:
     every multiasset it returns is subtracted from change_left by an exact, checked subtraction) *)

  Definition mas_wf (l : list multiasset) : Prop := Forall (fun m => ma_wfb m = true) l.

  Definition pack_wf (a : pack_acc) : Prop :=
    value_wf (pa_output a) /\ value_wf (pa_old a) /\ ma_wfb (pa_next a) = true /\
    assets_wfb (pa_rebuilt a) = true /\ mas_wf (pa_changes a).

  Lemma value_wf_set_multiasset m c : c < two64 -> ma_wfb m = true -> value_wf (value_set_multiasset m (value_new c)).
  Proof. intros L W. apply value_wf_iff. cbn. split; assumption. Qed.

  Lemma value_wf_multiasset v m : value_wf v -> multiasset_of v = Some m -> ma_wfb m = true.
  Proof. intros W E. apply value_wf_iff in W. destruct W as [_ W]. rewrite E in W. exact W. Qed.

  Lemma value_wf_set_coin c v : c < two64 -> value_wf v -> value_wf (value_set_coin c v).
  Proof. intros L W. apply value_wf_iff in W. apply value_wf_iff. cbn. destruct W as [_ W]. split; assumption. Qed.

  Lemma two64_pos' : 0 < two64.
  Proof. reflexivity. Qed.

  Lemma mas_wf_snoc l v m : mas_wf l -> value_wf v -> multiasset_of v = Some m -> mas_wf (l ++ [m]).
  Proof.
    intros Wl Wv E. apply Forall_app. split; [exact Wl|]. constructor; [|constructor]. exact (value_wf_multiasset v m Wv E).
  Qed.

  (* output.amount + (next_nft with the rebuilt assets of the current policy), as both loops compute it *)
  Lemma pack_next_sum_wf policy a oa : pack_wf a ->
    value_checked_add (pa_output a) (value_set_multiasset (ma_insert policy (pa_rebuilt a) (pa_next a)) (value_new 0)) = Ok oa ->
    value_wf oa.
  Proof.
    intros (Wo & _ & Wn & Wr & _) E.
    assert (Wval : value_wf (value_set_multiasset (ma_insert policy (pa_rebuilt a) (pa_next a)) (value_new 0))).
    { apply value_wf_set_multiasset; [reflexivity|]. apply ma_wfb_insert; assumption. }
    apply (value_checked_add_ok _ _ _ Wo Wval E).
  Qed.

  Lemma pack_policy_assets_spec policy l : forall a,
    pack_wf a -> Forall (fun nq : bytes * N => snd nq < two64) l -> returns (pack_policy_assets orc policy l a) pack_wf.
  Proof.
    induction l as [|[name q] l IH]; intros a Wa Wl; cbn [pack_policy_assets]; [apply returns_ret; exact Wa|].
    inversion Wl as [|? ? Lq Wl']. subst. cbn [snd] in Lq.
    apply returns_skip. intros ov. apply returns_bind with (Q := pack_wf).
    - destruct ov; [|apply returns_ret; exact Wa].
      apply returns_lift_bind. intros oa Eoa. apply returns_unwrap_bind. intros m Em.
      apply returns_ret. repeat split.
      apply (mas_wf_snoc _ oa m); [apply Wa | exact (pack_next_sum_wf policy a oa Wa Eoa) | exact Em].
    - intros a' (Wo' & Wold' & Wn' & Wr' & Wc'). apply IH; [|exact Wl'].
      repeat split; try assumption. apply assets_wfb_insert; assumption.
  Qed.

  Lemma ma_wfb_cons p a m : ma_wfb ((p, a) :: m) = true -> assets_wfb a = true /\ ma_wfb m = true.
  Proof.
    intros W. apply ma_wfb_iff in W. destruct W as [S F].
    apply (am_sorted_cons bytes_cmp bytes_key_order) in S. destruct S as [_ S].
    split; [apply (F p a); left; reflexivity|]. apply ma_wfb_iff. split; [exact S|]. intros p0 a0 I. apply (F p0 a0). right. exact I.
  Qed.

  Lemma assets_wfb_bound a : assets_wfb a = true -> Forall (fun nq : bytes * N => snd nq < two64) a.
  Proof.
    intros W. unfold assets_wfb in W. apply andb_true_iff in W. destruct W as [_ F].
    rewrite forallb_forall in F. apply Forall_forall. intros x I. specialize (F x I). lia.
  Qed.

  Lemma pack_policies_spec l : forall out changes,
    ma_wfb l = true -> value_wf out -> mas_wf changes ->
    returns (pack_policies orc l out changes) (fun r => value_wf (fst r) /\ mas_wf (snd r)).
  Proof.
    induction l as [|[policy assets] l IH]; intros out changes Wl Wo Wc; cbn [pack_policies]; [apply returns_ret; auto|].
    destruct (ma_wfb_cons _ _ _ Wl) as [Wa Wl'].
    eapply returns_bind.
    - apply (pack_policy_assets_spec policy assets); [|apply assets_wfb_bound; exact Wa].
      repeat split; assumption.
    - intros a Wpa. cbv zeta. apply returns_lift_bind. intros oa Eoa.
      apply returns_skip. intros ma. apply returns_skip. intros big.
      destruct big; [apply returns_ret; split; apply Wpa|].
      apply IH; [exact Wl' | exact (pack_next_sum_wf policy a oa Wpa Eoa) | apply Wpa].
  Qed.

  Lemma pack_nfts_spec ce : value_wf ce -> returns (pack_nfts_for_change orc ce) mas_wf.
  Proof.
    intros W. unfold pack_nfts_for_change. apply returns_unwrap_bind. intros ma Ema. cbv zeta.
    eapply returns_bind.
    - apply (pack_policies_spec ma); [exact (value_wf_multiasset ce ma W Ema) | | constructor].
      apply value_wf_set_multiasset; [apply value_wf_coin; exact W | reflexivity].
    - intros r [Wr Wc]. apply returns_unwrap_bind. intros last El. apply returns_ret. exact (mas_wf_snoc _ _ _ Wc Wr El).
  Qed.

  Definition change_outs (addr extra : N) (l : list output) : Prop :=
    Forall (fun x => o_addr x = addr /\ o_extra x = extra) l.

  Definition fee_grown (rq : fee_request) (nf nf' : N) : Prop :=
    nf <= nf' /\ forall e, rq = FeeExactly e -> nf' = nf.

  (* what a stretch of the change computation has done, from state [s0], change_left [cl] and fee estimate [nf] to
     state [s] and the pair [r] of the two: [outs], all at the change address, have been appended, what they hold has
     been taken out of change_left, and the estimate has grown (not at all under an Exactly request) *)
  Definition moved (addr extra : N) (s0 : state) (cl : value) (nf : N) (outs : list output) (r : value * N) (s : state) : Prop :=
    s = grow outs s0 /\ change_outs addr extra outs /\ value_wf (fst r) /\
    coin cl = coin (fst r) + sum_coin (map o_amount outs) /\
    (forall p n, qty cl p n = qty (fst r) p n + sum_qty (map o_amount outs) p n) /\
    fee_grown (s_fee_request s0) nf (snd r).

  Lemma aligned_grown rq nf nf' : aligned rq nf -> fee_grown rq nf nf' -> aligned rq nf'.
  Proof. destruct rq as [|f|e]; cbn; intros A [L E]; [exact I | lia | rewrite (E e eq_refl); exact A]. Qed.

  Lemma moved_refl addr extra s cl nf : value_wf cl -> moved addr extra s cl nf [] (cl, nf) s.
  Proof.
    intros W. split; [symmetry; apply grow_nil|]. split; [constructor|]. split; [exact W|].
    split; [symmetry; apply N.add_0_r|]. split; [intros; symmetry; apply N.add_0_r|]. split; [reflexivity | reflexivity].
  Qed.

  Lemma moved_one addr extra s0 cl nf amount cl' v :
    value_wf cl' -> coin cl = coin cl' + coin amount -> (forall p n, qty cl p n = qty cl' p n + qty amount p n) ->
    (forall e, s_fee_request s0 = FeeExactly e -> v = 0) ->
    moved addr extra s0 cl nf [mkOutput addr amount extra] (cl', nf + v) (grow [mkOutput addr amount extra] s0).
  Proof.
    intros W C Q Ex. split; [reflexivity|]. split; [constructor; [split; reflexivity | constructor]|]. split; [exact W|].
    cbn [fst snd map o_amount]. rewrite sum_coin_one. split; [exact C|]. split; [intros p n; rewrite sum_qty_one; apply Q|].
    split; [lia|]. intros e Ee. rewrite (Ex e Ee). apply N.add_0_r.
  Qed.

  Lemma moved_trans addr extra s0 cl nf outs1 r1 s1 outs2 r2 s2 :
    moved addr extra s0 cl nf outs1 r1 s1 -> moved addr extra s1 (fst r1) (snd r1) outs2 r2 s2 ->
    moved addr extra s0 cl nf (outs1 ++ outs2) r2 s2.
  Proof.
    intros (-> & O1 & _ & C1 & Q1 & [F1 E1]) (-> & O2 & W2 & C2 & Q2 & [F2 E2]).
    split; [apply grow_app|]. split; [apply Forall_app; split; assumption|]. split; [exact W2|].
    split; [rewrite map_app, sum_coin_app; lia|]. split; [intros p n; rewrite map_app, sum_qty_app, Q1, Q2; lia|].
    split; [lia|]. intros e Ee. rewrite (E2 e Ee). exact (E1 e Ee).
  Qed.

  Lemma checked_add_ok a b c : checked_add a b = Ok c -> c = a + b /\ c < two64.
  Proof. rewrite checked_add_exact. intros H. apply exact_or_error_ok_iff in H. destruct H as [-> H]. auto. Qed.

  (* the total quantity of an asset in a list of packed multiassets *)
  Fixpoint msum (l : list multiasset) (p n : bytes) : N :=
    match l with [] => 0 | m :: r => ma_qty m p n + msum r p n end.

  (* one change output per packed multiasset, holding exactly its assets *)
  Lemma change_outputs_loop_spec addr extra l : forall s0 cl nf, mas_wf l -> value_wf cl ->
    hoare WF (eq s0) (change_outputs_loop orc addr extra l cl nf)
      (fun r s => exists outs, moved addr extra s0 cl nf outs r s /\ length outs = length l /\
                               forall p n, sum_qty (map o_amount outs) p n = msum l p n).
  Proof.
    induction l as [|nft l IH]; intros s0 cl nf Wl Wcl; cbn [change_outputs_loop].
    - apply hoare_ret'. intros s _ <-. exists []. split; [apply moved_refl; exact Wcl|]. split; reflexivity.
    - inversion Wl as [|? ? Wn Wl']. subst.
      apply hoare_askA_bind. intros min_ada Lm.
      set (cv := value_set_coin min_ada (value_set_multiasset nft (value_new 0))).
      assert (Wcv : value_wf cv).
      { apply value_wf_set_coin; [exact Lm|]. apply value_wf_set_multiasset; [reflexivity | exact Wn]. }
      eapply hoare_seq; [apply fee_for_output_spec|]. intros ffc s1 _ (<- & _ & Ex).
      apply hoare_lift_bind. intros nf' [-> _]%checked_add_ok.
      apply hoare_lift_bind. intros need _.
      apply hoare_if; intros _; [apply hoare_fail; discriminate|].
      apply hoare_lift_bind. intros cl' Ecl.
      destruct (value_checked_sub_ok _ _ _ Wcl Wcv Ecl) as (Hle & Hc & Hq & Wcl').
      eapply hoare_seq; [apply add_output_spec; exact Wcv|]. intros u s1 _ ->.
      eapply hoare_conseq; [apply (IH (grow [mkOutput addr cv extra] s0) cl' (nf + ffc) Wl' Wcl') | auto |].
      intros r s _ (outs & Mv & Len & Ms). exists (mkOutput addr cv extra :: outs). split; [|split].
      + refine (moved_trans _ _ _ _ _ _ _ _ _ _ _ (moved_one addr extra s0 cl nf cv cl' ffc Wcl' _ _ Ex) Mv); [lia|].
        intros p n. destruct (Hq p n). lia.
      + cbn [length]. rewrite Len. reflexivity.
      + intros p n. cbn [map msum]. rewrite sum_qty_cons, Ms. reflexivity.
  Qed.

  Lemma change_while_loop_spec addr extra fuel : forall s0 cl nf, value_wf cl ->
    hoare WF (eq s0) (change_while_loop orc fuel addr extra cl nf)
      (fun r s => exists outs, moved addr extra s0 cl nf outs r s /\ (change_has_assets_left cl = true -> outs <> [])).
  Proof.
    (* without assets left the loop is over and nothing has moved *)
    induction fuel as [|fuel IH]; intros s0 cl nf Wcl; cbn [change_while_loop];
      (destruct (change_has_assets_left cl);
       [|apply hoare_ret'; intros s _ <-; exists []; split; [apply moved_refl; exact Wcl | discriminate]]).
    - apply hoare_fail. discriminate.
    - eapply hoare_bind_pure; [apply hoare_pure_returns; [apply pure_pack_nfts | apply pack_nfts_spec; exact Wcl]|]. intros l Wl.
      apply hoare_if; intros Pos; [|apply hoare_fail; discriminate].
      eapply hoare_seq; [apply change_outputs_loop_spec; assumption|]. intros r s1 _ (outs1 & Mv1 & Len & _).
      pose proof Mv1 as (_ & _ & Wr & _).
      eapply hoare_conseq; [apply (IH s1 (fst r) (snd r) Wr) | auto |].
      intros r2 s _ (outs2 & Mv2 & _). exists (outs1 ++ outs2). split; [exact (moved_trans _ _ _ _ _ _ _ _ _ _ _ Mv1 Mv2)|].
      (* the pass has packed a positive quantity, so at least one multiasset, so one output *)
      intros _ [-> _]%app_eq_nil. destruct l; discriminate.
  Qed.

  (* what add_change establishes: the builder is balanced, the outputs it had are untouched, and whatever has been
     appended stands at the change address with the requested datum / script reference *)
  Definition changed (addr extra : N) (s0 s : state) : Prop :=
    balanced s /\ exists l, s_outputs s = s_outputs s0 ++ l /\ change_outs addr extra l.

  (* after the fee has been taken out of change_left: the fee is part of what is still open *)
  Definition open_balance_fee (s : state) (cl : value) (nf : N) : Prop :=
    open_balance s (value_set_coin (coin cl + nf) cl).

  (* the asset branch before the fee is stored: a non-empty [outs] has been appended; [fst r] is left over once the fee
     [snd r] is set aside *)
  Definition settled (addr extra : N) (s0 : state) (ce : value) (fee : N) (r : value * N) (s : state) : Prop :=
    exists outs cl, moved addr extra s0 ce fee outs (cl, snd r) s /\ outs <> [] /\
                    value_wf (fst r) /\ coin cl = coin (fst r) + snd r /\ forall p n, qty (fst r) p n = qty cl p n.

  Lemma value_is_zero_sem v : value_is_zero v = true -> coin v = 0 /\ forall p n, qty v p n = 0.
  Proof.
    unfold value_is_zero. rewrite andb_true_iff, N.eqb_eq. intros [C M]. split; [exact C|].
    intros p n. rewrite qty_unfold. destruct (multiasset_of v) as [m|]; [|reflexivity].
    unfold ma_len in M. destruct m; [reflexivity|]. cbn in M. lia.
  Qed.

  (* has_assets / the loop guard: some quantity is above zero *)
  Lemma ma_positive_iff m : ma_wfb m = true -> (ma_positive m = true <-> exists p n, 0 < ma_qty m p n).
  Proof.
    intros W. unfold ma_positive, ma_partial_cmp. rewrite !ma_is_all_zeros_leb. change (ma_leb_sem ma_new m) with true.
    destruct (ma_leb_sem m ma_new) eqn:L; split; try discriminate; try reflexivity.
    - intros (p & n & H). pose proof (proj1 (ma_leb_sem_iff m ma_new W) L p n) as L'. rewrite ma_qty_nil in L'. lia.
    - intros _. unfold ma_leb_sem in L. apply forallb_false in L. destruct L as [[[p n] q] [I F]].
      exists p, n. rewrite (entries_in_qty m p n q W I). unfold ma_qty in F. cbn in F. lia.
  Qed.

  Lemma has_assets_false_qty v : value_wf v -> has_assets (multiasset_of v) = false -> forall p n, qty v p n = 0.
  Proof.
    unfold has_assets. intros W H p n. rewrite qty_unfold. destruct (multiasset_of v) as [m|] eqn:E; [|reflexivity].
    destruct (N.eq_dec (ma_qty m p n) 0) as [Z|Z]; [exact Z|].
    assert (T : ma_positive m = true) by (apply ma_positive_iff; [exact (value_wf_multiasset v m W E) | exists p, n; lia]).
    congruence.
  Qed.

  Lemma balanced_of_fee s nf cl :
    s_fee s = Some nf -> open_balance_fee s cl nf -> coin cl = 0 -> (forall p n, qty cl p n = 0) -> balanced s.
  Proof.
    intros F OBF Hc Hq. exists nf. split; [apply get_fee_if_set_some; exact F|].
    apply (open_balance_closed s nf _ OBF); [cbn; lia | exact Hq].
  Qed.

  (* adding change_left to the last output closes the balance *)
  Lemma topped_up_balanced s before last amount cl nf :
    s_outputs s = before ++ [last] -> s_fee s = Some nf -> open_balance_fee s cl nf ->
    coin amount = coin (o_amount last) + coin cl -> (forall p n, qty amount p n = qty (o_amount last) p n + qty cl p n) ->
    balanced (set_s_outputs (before ++ [mkOutput (o_addr last) amount (o_extra last)]) s).
  Proof.
    intros Eo F [C Q] Ca Qa. cbn [coin value_set_coin] in C. exists nf. split; [apply get_fee_if_set_some; exact F|]. split.
    - unfold consumed_coin, produced_coin_no_fee in *.
      cbn [s_cfg s_inputs s_outputs s_certs s_withdrawals s_proposals s_donation set_s_outputs]. rewrite Eo in C.
      rewrite map_app, sum_coin_app in C |- *. cbn [map o_amount] in C |- *. rewrite sum_coin_one in C |- *. lia.
    - intros p n. specialize (Q p n). rewrite qty_set_coin in Q. unfold mint_of in *.
      cbn [s_inputs s_outputs s_mint set_s_outputs]. rewrite Eo in Q.
      rewrite map_app, sum_qty_app in Q |- *. cbn [map o_amount] in Q |- *. rewrite sum_qty_one in Q |- *. rewrite Qa. lia.
  Qed.

  Lemma top_up_last_spec s0 before last cl : s_outputs s0 = before ++ [last] -> value_wf cl ->
    hoare WF (eq s0) (top_up_last orc cl)
      (fun _ s => exists amount, s = set_s_outputs (before ++ [mkOutput (o_addr last) amount (o_extra last)]) s0 /\
                  coin amount = coin (o_amount last) + coin cl /\
                  forall p n, qty amount p n = qty (o_amount last) p n + qty cl p n).
  Proof.
    intros Eo Wcl. apply hoare_top_up_last. intros s b l amount Js <- Eo' Ea. rewrite Eo in Eo'. apply app_inj_tail in Eo' as [<- <-].
    pose proof (WF_outputs s0 Js) as Fo. rewrite Eo in Fo. apply Forall_app in Fo. destruct Fo as [Fb Fl].
    destruct (value_checked_add_ok _ _ _ (Forall_inv Fl) Wcl Ea) as (Ca & Qa & Wa). split.
    - apply WF_set_outputs; [exact Js|]. apply Forall_app. split; [exact Fb|]. constructor; [exact Wa | constructor].
    - intros _ _. exists amount. auto.
  Qed.

  Lemma asset_branch_spec fuel addr extra s0 ti to fee ce :
    value_wf ti -> value_wf to -> value_checked_sub ti to = Ok ce -> has_assets (multiasset_of ce) = true ->
    open_balance s0 ce -> aligned (s_fee_request s0) fee ->
    hoare WF (eq s0) (asset_branch orc fuel addr extra ti to fee) (fun _ s => changed addr extra s0 s).
  Proof.
    intros Wti Wto Ece HA OB Al. unfold asset_branch.
    apply hoare_lift_bind. intros cl0 Ecl0. rewrite Ece in Ecl0. injection Ecl0 as <-.
    destruct (value_checked_sub_ok _ _ _ Wti Wto Ece) as (_ & _ & _ & Wce).
    apply hoare_askA_bind. intros minimum _.
    eapply hoare_seq; [apply change_while_loop_spec; exact Wce|].
    intros [cl nf] s1 _ (outs & Mv & Ne). specialize (Ne HA). pose proof Mv as (-> & _ & Wr & _). cbn [fst snd] in *.
    apply hoare_lift_bind. intros cl1 Ecl1. destruct (value_sub_new_ok _ _ _ Wr Ecl1) as (Hle & Wcl1 & Hc & Hq).
    apply hoare_get_eq. cbn [s_cfg grow set_s_outputs].
    eapply hoare_seq with (Q := settled addr extra s0 ce fee).
    - assert (Keep : hoare WF (eq (grow outs s0)) (ret (cl1, nf)) (settled addr extra s0 ce fee)).
      { apply hoare_ret'. intros s _ <-. exists outs, cl. split; [exact Mv|]. split; [exact Ne|]. split; [exact Wcl1|].
        split; [cbn [fst snd]; lia | exact Hq]. }
      apply hoare_if; intros _; [|exact Keep].
      eapply hoare_seq; [apply fee_for_output_spec|]. intros af s1 _ (<- & _ & Ex).
      apply hoare_lift_bind. intros pot Epot. destruct (value_sub_new_ok _ _ _ Wcl1 Epot) as (Hle2 & Wpot & Hc2 & Hq2).
      apply hoare_if; intros _; [|exact Keep].
      apply hoare_lift_bind. intros nf' [-> Lnf]%checked_add_ok.
      eapply hoare_seq; [apply add_output_spec; exact Wpot|]. intros u s1 _ ->.
      (* the pure-ADA output takes everything but the fee *)
      apply hoare_ret'. intros s _ <-. exists (outs ++ [mkOutput addr pot extra]), (value_new (nf + af)).
      split; [|split; [intros [-> _]%app_eq_nil; exact (Ne eq_refl) | split; [reflexivity | split; [reflexivity | reflexivity]]]].
      refine (moved_trans _ _ _ _ _ _ _ _ _ _ _ Mv (moved_one addr extra _ cl nf pot _ af (value_wf_new _ Lnf) _ _ Ex)).
      + cbn [coin value_new]. lia.
      + intros p n. rewrite Hq2, Hq, qty_new. reflexivity.
    - intros r2 s1 _ (outs' & cl' & Mv' & Ne' & Wr2 & Cr2 & Qr2).
      pose proof Mv' as (-> & Ho' & _ & Cm & Qm & Fg').
      pose proof (set_final_fee_aligned (grow outs' s0) (snd r2) (aligned_grown _ _ _ Al Fg')) as F.
      assert (OBF : open_balance_fee (grow outs' s0) (fst r2) (snd r2)).
      { destruct (open_balance_grow s0 ce cl' outs' OB Cm Qm) as [C Q]. split; [cbn [coin value_set_coin]; lia|].
        intros p n. rewrite qty_set_coin, Qr2. apply Q. }
      apply hoare_modify_eq; [apply WF_set_final_fee|].
      eapply hoare_seq with (Q := fun _ s => changed addr extra s0 s).
      + apply hoare_if; intros Z.
        * apply hoare_ret'. intros s _ <-. destruct (value_is_zero_sem _ Z) as [Zc Zq]. split.
          -- exact (balanced_of_fee _ _ _ F OBF Zc Zq).
          -- exists outs'. split; [reflexivity | exact Ho'].
        * destruct (exists_last Ne') as (outs0 & last & ->).
          assert (Eo : s_outputs (set_final_fee (snd r2) (grow (outs0 ++ [last]) s0)) = (s_outputs s0 ++ outs0) ++ [last])
            by (cbn; apply app_assoc).
          eapply hoare_conseq; [exact (top_up_last_spec _ _ last (fst r2) Eo Wr2) | auto |].
          intros _ s _ (amount & -> & Ca & Qa). split.
          -- exact (topped_up_balanced _ _ last amount (fst r2) (snd r2) Eo F OBF Ca Qa).
          -- exists (outs0 ++ [mkOutput (o_addr last) amount (o_extra last)]). split; [cbn; symmetry; apply app_assoc|].
             apply Forall_app in Ho'. destruct Ho' as [H0 Hl]. apply Forall_app. split; [exact H0|].
             constructor; [exact (Forall_inv Hl) | constructor].
      + intros u s1 _ H. eapply hoare_seq; [apply check_fee_after_change_spec|]. intros u2 s2 _ <-.
        apply hoare_ret'. intros s _ <-. exact H.
  Qed.

  Lemma burn_extra_spec addr extra s0 fee ce :
    open_balance s0 ce -> aligned (s_fee_request s0) fee -> fee <= coin ce -> (forall p n, qty ce p n = 0) ->
    hoare WF (eq s0) (burn_extra (coin ce)) (fun _ s => changed addr extra s0 s).
  Proof.
    intros OB Al Hle Hq. unfold burn_extra. apply hoare_get_eq.
    apply hoare_if; intros _; [apply hoare_fail; discriminate|].
    assert (Fin : aligned (s_fee_request s0) (coin ce) ->
              hoare WF (eq s0) (bindM (modify (set_final_fee (coin ce))) (fun _ => ret false)) (fun _ s => changed addr extra s0 s)).
    { intros Al'. apply hoare_modify_eq; [apply WF_set_final_fee|]. apply hoare_ret'. intros s _ <-. split.
      - exists (coin ce). split; [apply get_fee_if_set_some, set_final_fee_aligned; exact Al'|].
        exact (open_balance_closed s0 (coin ce) ce OB eq_refl Hq).
      - exists []. split; [symmetry; apply app_nil_r | constructor]. }
    unfold aligned in Al, Fin. destruct (s_fee_request s0) as [|nl|e]; [apply Fin; exact I | apply Fin; lia|].
    apply hoare_if; intros L; [apply hoare_fail; discriminate|]. apply N.ltb_ge in L. apply Fin. lia.
  Qed.

  Lemma pure_branch_spec addr extra s0 fee ce :
    value_wf ce -> open_balance s0 ce -> aligned (s_fee_request s0) fee -> fee <= coin ce -> (forall p n, qty ce p n = 0) ->
    hoare WF (eq s0) (pure_branch orc addr extra ce fee) (fun _ s => changed addr extra s0 s).
  Proof.
    intros Wce OB Al Hle Hq. unfold pure_branch.
    apply hoare_askA_bind. intros min_ada _.
    apply hoare_if; intros _; [apply (burn_extra_spec addr extra s0 fee); assumption|].
    eapply hoare_seq; [apply fee_for_output_spec|]. intros ffc s1 _ (<- & _ & Ex).
    apply hoare_lift_bind. intros nf [-> _]%checked_add_ok.
    apply hoare_lift_bind. intros need _.
    apply hoare_if; intros _; [apply (burn_extra_spec addr extra s0 fee); assumption|].
    apply hoare_modify_eq; [apply WF_set_final_fee|].
    apply hoare_lift_bind. intros amount Ea. destruct (value_sub_new_ok _ _ _ Wce Ea) as (Hle2 & Wa & Hc2 & Hq2).
    eapply hoare_seq; [apply add_output_spec; exact Wa|]. intros u s1 _ ->.
    eapply hoare_seq; [apply check_fee_after_change_spec|]. intros u2 s1 _ <-.
    apply hoare_ret'. intros s _ <-. split.
    - exists (fee + ffc). split; [apply get_fee_if_set_some; exact (set_final_fee_aligned s0 _ (aligned_add _ _ _ Al Ex))|].
      apply (open_balance_closed _ _ (value_new (fee + ffc))); [|reflexivity | intros; apply qty_new].
      apply (open_balance_grow (set_final_fee (fee + ffc) s0) ce _ [mkOutput addr amount extra] OB); cbn [map o_amount coin value_new].
      + rewrite sum_coin_one. lia.
      + intros p n. rewrite sum_qty_one, Hq2, qty_new. reflexivity.
    - exists [mkOutput addr amount extra]. split; [reflexivity | constructor; [split; reflexivity | constructor]].
  Qed.

  Theorem add_change_spec fuel addr extra s0 :
    hoare WF (eq s0) (add_change orc fuel addr extra) (fun _ s => changed addr extra s0 s).
  Proof.
    apply hoare_pre. intros ? [W0 _] <-. unfold add_change. apply hoare_get_eq.
    destruct (s_fee s0); [apply hoare_fail; discriminate|].
    eapply hoare_seq; [apply min_fee_pub_spec|]. intros fee s1 _ [<- Al].
    apply hoare_lift_bind. intros ti Eti. apply hoare_lift_bind. intros to Eto.
    apply hoare_lift_bind. intros shortage _. apply hoare_if; intros _; [apply hoare_fail; discriminate|].
    apply hoare_lift_bind. intros opf Eopf.
    destruct (total_input_spec s0 ti W0 Eti) as (Wti & Ci & Qi).
    destruct (total_output_spec s0 to W0 Eto) as (Wto & Co & Qo).
    destruct (value_add_new_ok _ _ _ Wto Eopf) as (_ & Wopf & Copf & Qopf).
    destruct (value_partial_cmp_spec ti opf Wti Wopf) as (SEq & _ & SGt & _).
    (* in both remaining cases input_total - output_total = d is what is still to be distributed *)
    assert (Open : forall d, value_checked_sub ti to = Ok d ->
              open_balance s0 d /\ value_wf d /\ coin d = coin ti - coin to /\ forall p n, qty d p n = qty ti p n - qty to p n).
    { intros d Ed. destruct (value_checked_sub_ok _ _ _ Wti Wto Ed) as (Hle & Hc & Hq & Wd).
      split; [|split; [exact Wd | split; [exact Hc | intros p n; apply Hq]]]. split.
      - rewrite <- Ci, <- Co. lia.
      - intros p n. rewrite <- Qi, <- Qo. destruct (Hq p n). lia. }
    destruct (value_partial_cmp ti opf) as [[| |]|] eqn:Cmp; try (apply hoare_fail; discriminate).
    - (* exact *)
      apply hoare_lift_bind. intros d (OB & _ & Cd & Qd)%Open. destruct (proj1 SEq eq_refl) as [Ec Eq].
      apply hoare_modify_eq; [apply WF_set_final_fee|]. apply hoare_ret'. intros s _ <-. split.
      + exists fee. split.
        * apply get_fee_if_set_some. replace (coin d) with fee by lia. exact (set_final_fee_aligned s0 fee Al).
        * apply (open_balance_closed s0 fee d OB); [lia|]. intros p n. rewrite Qd, Eq, Qopf. lia.
      + exists []. split; [symmetry; apply app_nil_r | constructor].
    - (* change *)
      apply hoare_lift_bind. intros ce Ece. destruct (Open ce Ece) as (OB & Wce & Cce & _).
      destruct (proj1 SGt eq_refl) as [[Lc _] _].
      apply hoare_if; intros HA; [apply (asset_branch_spec fuel addr extra s0 ti to fee ce); assumption|].
      apply pure_branch_spec; try assumption; [lia|]. apply has_assets_false_qty; assumption.
  Qed.

  Theorem add_change_balances fuel addr extra :
    hoare WF (fun _ => True) (add_change orc fuel addr extra) (fun _ s => balanced s).
  Proof.
    apply hoare_pre. intros s0 _ _. eapply hoare_conseq; [apply (add_change_spec fuel addr extra s0) | auto |]. intros _ s _ [B _]. exact B.
  Qed.

  (* add_inputs_from_and_change: whatever the selection added (an arbitrary extension of the input set) *)

  Lemma inputs_insert_wf k v m : value_wf v -> utxos_wf m -> utxos_wf (inputs_insert k v m).
  Proof.
    intros Wv. induction 1 as [|[k' v'] m W' Wm IH]; cbn [inputs_insert]; [constructor; [exact Wv | constructor]|].
    destruct (N.compare k k'); [constructor; assumption | constructor; [exact Wv | constructor; assumption] | constructor; assumption].
  Qed.

  Lemma WF_add_inputs l s : WF s -> utxos_wf l ->
    WF (set_s_inputs (fold_left (fun m e => inputs_insert (fst e) (value_without_empty_entries (snd e)) m) l (s_inputs s)) s).
  Proof.
    intros [(Wi & Wo & Wm)%state_wf_iff C] Wl. split; [|exact C]. apply state_wf_iff. split; [|split; assumption].
    cbn [s_inputs set_s_inputs]. apply (fold_left_inv utxos_wf); [|exact Wi]. intros m e Ie Wmm.
    apply inputs_insert_wf; [|exact Wmm]. apply value_without_empty_entries_wf. exact (proj1 (Forall_forall _ _) Wl e Ie).
  Qed.

  Lemma add_inputs_spec P l : utxos_wf l -> hoare WF P (add_inputs l) (fun _ _ => True).
  Proof. intros Wl. apply hoare_modify. intros s Js _. split; [apply WF_add_inputs; assumption | exact I]. Qed.

  Lemma insert_by_forall {A} (key : A -> N) (Q : A -> Prop) x l : Q x -> Forall Q l -> Forall Q (insert_by key x l).
  Proof.
    intros Qx F. induction F as [|y l Qy F IH]; cbn [insert_by]; [constructor; auto|].
    destruct (key y <=? key x); constructor; auto.
  Qed.

  Lemma sort_by_key_forall {A} (key : A -> N) (Q : A -> Prop) l : Forall Q l -> Forall Q (sort_by_key key l).
  Proof.
    intros F. apply (fold_left_inv (Forall Q)); [|constructor]. intros acc x Ix Hacc.
    apply insert_by_forall; [exact (proj1 (Forall_forall _ _) F x Ix) | exact Hacc].
  Qed.

  Lemma sort_unused_wf used utxos : utxos_wf utxos -> utxos_wf (sort_unused used utxos).
  Proof.
    intros W. unfold sort_unused. apply sort_by_key_forall. apply Forall_forall. intros e I.
    apply filter_In in I. destruct I as [I _]. unfold utxos_wf in W. rewrite Forall_forall in W. apply W. exact I.
  Qed.

  Theorem select_and_change_balances fuel utxos addr extra : utxos_wf utxos ->
    hoare WF (fun _ => True) (add_inputs_from_and_change orc fuel utxos addr extra) (fun _ s => balanced s).
  Proof.
    intros Wu. apply select_and_change_keeps with (U := utxos_wf).
    - intros l Wl. apply add_inputs_spec. exact Wl.
    - apply add_change_balances.
    - intros st o. apply OU. exact Wu.
    - intros used x Hx. constructor; [|constructor]. exact (proj1 (Forall_forall _ _) (sort_unused_wf used utxos Wu) x Hx).
  Qed.

  (* build_tx leaves the state alone; what it releases is the body of that state, and the balance check has passed *)
  Lemma build_tx_spec J s0 :
    hoare J (eq s0) (build_tx orc) (fun body s => s = s0 /\ body = body_of s0 /\ validate_balance s0 = Ok tt).
  Proof.
    unfold build_tx. eapply hoare_seq; [apply hoare_pure, pure_validate_fee|]. intros u s1 _ <-.
    apply hoare_get_eq. apply hoare_lift_bind. intros [] Evb. unfold build. apply hoare_get_eq.
    destruct (get_fee_if_set s0); [|apply hoare_fail; discriminate].
    eapply hoare_seq with (Q := fun _ s => s = s0).
    - destruct (s_mint s0); [apply hoare_lift_bind; intros ? _|]; apply hoare_ret'; intros s _ <-; reflexivity.
    - intros u2 s1 _ ->. apply hoare_pure_bind; [auto with pure|]. intros big. apply hoare_if; intros _; [apply hoare_fail; discriminate|].
      apply hoare_ret'. intros s _ <-. auto.
  Qed.

  Theorem build_tx_balanced :
    hoare WF (fun _ => True) (build_tx orc) (fun body s => params_balanced s body).
  Proof using OU.
    apply hoare_pre. intros s0 [W0 _] _. eapply hoare_conseq; [apply (build_tx_spec WF s0) | auto |].
    intros body s _ (-> & -> & Evb). exact (accounting s0 W0 Evb).
  Qed.

End Proofs.
