(* Builder/ChangePure.v — which parts of the change computation (Builder/Change.v) leave the builder state alone,
   whatever their outcome and whatever the oracle answers: the questions to the oracle, the admission tests,
   fee_for_output (it works on a copy), pack_nfts_for_change, the fee checks.  Every proof that follows add_change
   steps over these with [pure_st]; what is left are add_output ([add_output_effect]), set_final_fee and the top-up.
   What such a computation contributes is its result: [returns]. *)
From CSL Require Import Base.Prelude Num.Value Builder.Totals Builder.Change.

Definition pure_st {O A} (m : @M O A) : Prop := forall s o, out_st (m s o) = s.

Lemma pure_bind {O A B} (m : @M O A) (f : A -> @M O B) : pure_st m -> (forall a, pure_st (f a)) -> pure_st (bindM m f).
Proof.
  intros Hm Hf s o. unfold bindM. specialize (Hm s o).
  destruct (out_res (m s o)) eqn:R; cbn [out_st]; try exact Hm.
  rewrite Hf. exact Hm.
Qed.

(* [auto with pure]: a bind of pure computations is pure; ret, lift, get and the questions to the oracle return the
   state they were given; a case analysis is pure when its branches are *)
Create HintDb pure.
#[export] Hint Resolve pure_bind : pure.
#[export] Hint Extern 1 (pure_st _) => (intros ? ?; reflexivity) : pure.
#[export] Hint Extern 3 (pure_st _) => match goal with |- pure_st (match ?x with _ => _ end) => destruct x end : pure.

(* [returns m Q]: every value m can return satisfies Q, whatever the builder state and the oracle state *)
Definition returns {O A} (m : @M O A) (Q : A -> Prop) : Prop := forall s o a, out_res (m s o) = Ok a -> Q a.

Section Returns.
  Context {O : Type}.
  Notation M := (@M O).

  Lemma returns_ret {A} (a : A) (Q : A -> Prop) : Q a -> returns (@ret O A a) Q.
  Proof. intros H s o b E. inversion E; subst. exact H. Qed.
  Lemma returns_bind {A B} (m : M A) (f : A -> M B) Q R :
    returns m Q -> (forall a, Q a -> returns (f a) R) -> returns (bindM m f) R.
  Proof.
    intros Hm Hf s o b. unfold bindM. destruct (out_res (m s o)) as [a| | |] eqn:E; cbn [out_res]; try discriminate.
    apply (Hf a (Hm _ _ _ E)).
  Qed.
  Lemma returns_skip {A B} (m : M A) (f : A -> M B) R : (forall a, returns (f a) R) -> returns (bindM m f) R.
  Proof. intros H. apply returns_bind with (Q := fun _ => True); [intros s o a _; exact I | auto]. Qed.
  Lemma returns_lift_bind {A B} (r : result A) (f : A -> M B) R :
    (forall a, r = Ok a -> returns (f a) R) -> returns (bindM (lift r) f) R.
  Proof. intros H. apply returns_bind with (Q := fun a => r = Ok a); [intros s o a E; exact E | exact H]. Qed.
  Lemma returns_unwrap_bind {B} (m : option multiasset) (f : multiasset -> M B) R :
    (forall x, m = Some x -> returns (f x) R) -> returns (bindM (unwrap_ma m) f) R.
  Proof.
    intros H. apply returns_bind with (Q := fun x => m = Some x); [|exact H].
    intros s o x. destruct m; cbn; congruence.
  Qed.
End Returns.

Section Pure.
  Context {O : Type}.
  Variable orc : @oracle O.

  Lemma pure_output_admissible x : pure_st (output_admissible orc x).
  Proof. unfold output_admissible. auto 6 with pure. Qed.
  (* add_output / fee_for_output first refuse a value with empty entries (Builder/Change.v output_acceptable) *)
  Lemma pure_output_acceptable x : pure_st (output_acceptable orc x).
  Proof. unfold output_acceptable. auto using pure_output_admissible with pure. Qed.
  Lemma pure_fee_for_output x : pure_st (fee_for_output orc x).
  Proof. unfold fee_for_output. cbv zeta. auto 8 using pure_output_acceptable with pure. Qed.
  Lemma pure_min_fee_pub : pure_st (min_fee_pub orc).
  Proof. unfold min_fee_pub. auto with pure. Qed.
  Lemma pure_unwrap_ma m : pure_st (@unwrap_ma O m).
  Proof. unfold unwrap_ma. auto with pure. Qed.
  Lemma pure_will_overflow a b c d q : pure_st (will_adding_asset_make_output_overflow orc a b c d q).
  Proof. unfold will_adding_asset_make_output_overflow. cbv zeta. auto with pure. Qed.
  Lemma pure_pack_policy_assets policy l : forall a, pure_st (pack_policy_assets orc policy l a).
  Proof.
    induction l as [|[name q] r IH]; intros a; cbn [pack_policy_assets]; auto 8 using pure_unwrap_ma, pure_will_overflow with pure.
  Qed.
  Lemma pure_pack_policies l : forall out changes, pure_st (pack_policies orc l out changes).
  Proof.
    induction l as [|[policy a] r IH]; intros out changes; cbn [pack_policies]; auto 8 using pure_pack_policy_assets with pure.
  Qed.
  Lemma pure_pack_nfts ce : pure_st (pack_nfts_for_change orc ce).
  Proof. unfold pack_nfts_for_change. auto 6 using pure_unwrap_ma, pure_pack_policies with pure. Qed.
  Lemma pure_check_fee : pure_st (check_fee_after_change orc).
  Proof. unfold check_fee_after_change. auto 6 with pure. Qed.
  Lemma pure_validate_fee : pure_st (validate_fee orc).
  Proof. unfold validate_fee. cbv zeta. auto 6 with pure. Qed.

  (* add_output: a refused output leaves the builder exactly as it was (the admission tests run before the push), an
     accepted one is appended unchanged.  The caller can go on using the builder after an error. *)
  Lemma add_output_effect x s o :
    match out_res (add_output orc x s o) with
    | Ok _ => out_res (output_acceptable orc x s o) = Ok tt /\
              out_st (add_output orc x s o) = set_s_outputs (s_outputs s ++ [x]) s
    | _ => out_st (add_output orc x s o) = s
    end.
  Proof.
    unfold add_output, bindM, modify. pose proof (pure_output_acceptable x s o) as E.
    destruct (out_res (output_acceptable orc x s o)) as [[]| | |]; cbn [out_res out_st]; [rewrite E; split; reflexivity | exact E..].
  Qed.
End Pure.

#[export] Hint Resolve pure_output_acceptable pure_output_admissible pure_fee_for_output pure_min_fee_pub pure_unwrap_ma
  pure_will_overflow pure_pack_nfts pure_check_fee pure_validate_fee : pure.
