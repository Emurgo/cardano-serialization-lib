(* Builder/ScenarioProofs.v — C05 over whole histories: for every UTxO table, every list of builder operations in
   every order, and every recorded-answer tape, a transaction released by build_tx is ledger-balanced, and every
   successful balancing operation leaves a balanced builder.  Also: how a Hoare triple of ChangeProofs.v reads for one
   run from a well-formed builder, the recorded-answer oracle meets the typing premise, non-vacuity examples, and
   the witness showing why a mint quantity of -2^64 had to be excluded (finding C05-mint-min-int, fixed in /repo 0175f0b). *)
From CSL Require Import Base.Prelude Base.Facts Base.U64 Num.Value Num.ValueProofs Deposits.Deposits Deposits.DepositsProofs
  Builder.Totals Builder.TotalsProofs Builder.Change Builder.ChangeProofs Builder.Scenario.
Local Open Scope N_scope.

(* from the Hoare triples of ChangeProofs.v to statements about one run from a well-formed builder *)

Lemma WF_self s : state_wf s -> WF (s_cfg s) s.
Proof. intros W. split; [exact W | reflexivity]. Qed.

Lemma WF_params_balanced cfg s b : WF cfg s -> params_balanced s b ->
  ledger_balanced (c_pool_deposit cfg) (c_key_deposit cfg) b.
Proof. intros [_ <-] B. exact B. Qed.

Lemma WF_balanced_ledger cfg s : WF cfg s -> balanced s ->
  ledger_balanced (c_pool_deposit cfg) (c_key_deposit cfg) (body_of s).
Proof. intros W B. exact (WF_params_balanced cfg s _ W (balanced_ledger s B)). Qed.

(* a balancing operation that succeeds leaves a well-formed builder whose body meets the ledger rule *)
Lemma balancing_run {O A} (m : @M O A) st o a :
  hoare (WF (s_cfg st)) (fun _ => True) m (fun _ s => balanced s) -> state_wf st -> out_res (m st o) = Ok a ->
  state_wf (out_st (m st o)) /\
  ledger_balanced (c_pool_deposit (s_cfg st)) (c_key_deposit (s_cfg st)) (body_of (out_st (m st o))).
Proof.
  intros H W E. destruct (H st o (WF_self st W) I) as [W' B]. rewrite E in B.
  split; [exact (proj1 W') | exact (WF_balanced_ledger _ _ W' B)].
Qed.

(* the recorded-answer oracle meets the typing premise for every tape *)

Lemma pop_num_bound site o v : fst (pop_num site o) = Ok v -> v < two64.
Proof.
  unfold pop_num. destruct (pop site o) as [[[x|]|] o']; cbn; try discriminate.
  destruct (N.ltb_spec x two64); cbn; [intros [= <-]; assumption | discriminate].
Qed.

Lemma lookup_utxo_wf utxos id v : utxos_wf utxos -> lookup_utxo utxos id = Some v -> value_wf v.
Proof.
  intros W. unfold lookup_utxo. destruct (find (fun e => fst e =? id) utxos) as [e|] eqn:F; [|discriminate].
  intros [= <-]. apply find_some in F. destruct F as [I _]. exact (proj1 (Forall_forall _ _) W e I).
Qed.

Lemma resolve_wf utxos ids : utxos_wf utxos -> utxos_wf (resolve utxos ids).
Proof.
  intros W. unfold resolve, utxos_wf. apply Forall_forall. intros e I. apply in_flat_map in I.
  destruct I as [id [_ I]]. destruct (lookup_utxo utxos id) as [v|] eqn:L; [|destruct I].
  destruct I as [<-|[]]. cbn. eapply lookup_utxo_wf; eassumption.
Qed.

Lemma tape_oracle_u64 : oracle_u64 tape_oracle.
Proof.
  split; [|split].
  - intros st o v. apply pop_num_bound.
  - intros x o v. apply pop_num_bound.
  - intros st us o Wus. cbn. destruct (t_sel o) as [[ids ok]|]; cbn; [|constructor].
    apply resolve_wf. exact Wus.
Qed.

(* the mint builder keeps its map well-formed *)

(* both levels of the mint map are "sorted, and every entry passes a test" *)
Lemma am_insert_wfb {V} cmp (KO : key_order cmp) (f : bytes * V -> bool) k v (m : list (bytes * V)) :
  am_sorted cmp m && forallb f m = true -> f (k, v) = true ->
  am_sorted cmp (am_insert cmp k v m) && forallb f (am_insert cmp k v m) = true.
Proof.
  intros [S Fm]%andb_true_iff Fk. apply andb_true_iff. split; [apply (am_sorted_insert cmp KO); exact S|].
  apply forallb_forall. intros kv I. apply (am_in_insert cmp) in I.
  destruct I as [->|I]; [exact Fk | exact (proj1 (forallb_forall _ _) Fm kv I)].
Qed.

Lemma mint_update_wf ow p n amt m m' : mint_wfb m = true -> (amt <= int_max)%Z ->
  mint_update ow p n amt m = Ok m' -> mint_wfb m' = true.
Proof.
  intros W Hmax. unfold mint_update.
  destruct (amt =? 0)%Z; [discriminate|].
  destruct (amt <? mint_amount_min)%Z eqn:Lmin; [discriminate|].
  set (a := match am_get bytes_cmp p m with Some a => a | None => [] end).
  assert (Wa : mint_assets_wfb a = true).
  { unfold a. destruct (am_get bytes_cmp p m) as [a0|] eqn:G; [exact (mint_wfb_entry m p a0 W G) | reflexivity]. }
  assert (Ins : forall z, (mint_amount_min <= z <= int_max)%Z ->
            mint_wfb (am_insert bytes_cmp p (am_insert name_cmp n z a) m) = true).
  { intros z Rz. apply (am_insert_wfb bytes_cmp bytes_key_order); [exact W|]. cbn [snd].
    apply (am_insert_wfb name_cmp name_key_order); [exact Wa|]. cbn [snd]. lia. }
  destruct ow.
  - intros [= <-]. apply Ins. lia.
  - destruct ((mint_amount_min <=? _) && (_ <=? int_max))%Z eqn:R; [|discriminate].
    intros [= <-]. apply Ins. lia.
Qed.

Definition op_wf (x : op) : Prop :=
  match x with
  | OpOutput o => value_wf (o_amount o)
  | _ => True
  end.

Section Scenarios.
  Variable utxos : list (N * value).
  Hypothesis WU : utxos_wf utxos.
  Variable cfg : config.

  Notation WFc := (WF cfg).

  Lemma WF_mint s : WFc s -> mint_wfb (opt_mint (s_mint s)) = true.
  Proof. intros [(_ & _ & Wm)%state_wf_iff _]. exact Wm. Qed.

  Lemma WF_set_mint m s : WFc s -> mint_wfb (opt_mint m) = true -> WFc (set_s_mint m s).
  Proof. intros [(Wi & Wo & _)%state_wf_iff C] Wm. split; [apply state_wf_iff; auto | exact C]. Qed.

  (* what one operation of a history leaves: the invariant, a ledger-balanced body if one was built, and a balanced
     builder if a balancing operation reported success *)
  Definition step_ok (res : opres) (s' : state) (tx : option tx_body) : Prop :=
    WFc s' /\
    (forall b, tx = Some b -> ledger_balanced (c_pool_deposit cfg) (c_key_deposit cfg) b) /\
    (forall v, res = RBool v -> balanced s').

  (* an operation that only edits the builder and asks the oracle nothing *)
  Lemma pure_step s o r : WFc s -> (forall s', r = Ok s' -> WFc s') ->
    step_ok (fst (pure_op s o r)) (snd (pure_op s o r)) None.
  Proof.
    intros W H. unfold pure_op. destruct (t_tape o), (t_sel o), r; cbn [fst snd];
      (split; [auto | split; discriminate]).
  Qed.

  Lemma finish_step {A} (r : out A) okv (tx : option tx_body) :
    WFc (out_st r) -> (forall b, tx = Some b -> ledger_balanced (c_pool_deposit cfg) (c_key_deposit cfg) b) ->
    (forall a v, out_res r = Ok a -> okv a = RBool v -> balanced (out_st r)) ->
    step_ok (fst (finish r okv)) (snd (finish r okv)) tx.
  Proof.
    intros W T B. unfold finish. destruct (_ || _ || _); cbn [fst snd]; (split; [exact W | split; [exact T|]]); [discriminate|].
    intros v. destruct (out_res r) as [a| | |]; try discriminate. exact (B a v eq_refl).
  Qed.

  Lemma run_op_spec x s o : WFc s -> op_wf x ->
    let r := run_op utxos x s o in step_ok (fst (fst r)) (snd (fst r)) (snd r).
  Proof.
    intros W Wx.
    destruct x; cbn [run_op fst snd]; try (apply pure_step; [exact W|]; intros s' [= <-]; exact W).
    - (* input *)
      apply pure_step; [exact W|]. intros s'. destruct (lookup_utxo utxos id) as [v|] eqn:L; [|discriminate]. intros [= <-].
      apply (WF_add_inputs cfg [(id, v)] s W). constructor; [exact (lookup_utxo_wf utxos id v WU L) | constructor].
    - (* output *)
      apply finish_step; [|discriminate | discriminate].
      exact (proj1 (add_output_spec tape_oracle tape_oracle_u64 cfg s x Wx s o W eq_refl)).
    - (* mint *)
      apply pure_step; [exact W|]. intros s'. destruct (_ || _)%Z eqn:R; [discriminate|].
      intros (m & E & [= <-])%bind_ok. apply WF_set_mint; [exact W|].
      apply (mint_update_wf overwrite p n amt (opt_mint (s_mint s)) m); [exact (WF_mint s W) | lia | exact E].
    - (* treasury *)
      apply pure_step; [exact W|]. intros s'. unfold set_current_treasury_value. destruct (c =? 0); [discriminate|].
      intros [= <-]. exact W.
    - (* add_change *)
      destruct (add_change_balances tape_oracle tape_oracle_u64 cfg fuel_default addr extra s o W I) as [W' B].
      apply finish_step; [exact W' | discriminate|]. intros a v E _. rewrite E in B. exact B.
    - (* add_inputs_from_and_change *)
      destruct (select_and_change_balances tape_oracle tape_oracle_u64 cfg fuel_default (resolve utxos avail) addr extra
                  (resolve_wf utxos avail WU) s o W I) as [W' B].
      apply finish_step; [exact W' | discriminate|]. intros a v E _. rewrite E in B. exact B.
    - (* build_tx *)
      destruct (build_tx_balanced tape_oracle tape_oracle_u64 cfg s o W I) as [W' B].
      apply finish_step; [exact W' | | discriminate].
      intros b. destruct (out_res (build_tx tape_oracle s o)) as [b'| | |]; try discriminate.
      intros [= <-]. exact (WF_params_balanced cfg _ _ W' B).
  Qed.

  Theorem scenarios_balanced l : forall s rs s' body,
    WFc s -> Forall op_wf (map fst l) -> run_ops utxos l s = (rs, s', Some body) ->
    ledger_balanced (c_pool_deposit cfg) (c_key_deposit cfg) body.
  Proof.
    induction l as [|[x o] l IH]; intros s rs s' body W Wl H; [discriminate|].
    cbn [run_ops] in H. cbn [map fst] in Wl. inversion Wl as [|? ? Wx Wl']. subst.
    destruct (run_op_spec x s o W Wx) as [W1 [B1 _]].
    destruct (run_op utxos x s o) as [[res s1] tx] eqn:E1. cbn [fst snd] in *.
    destruct (run_ops utxos l s1) as [[rs2 s2] tx2] eqn:E2.
    destruct tx2 as [b2|].
    - inversion H. subst. eapply IH; eassumption.
    - destruct res; inversion H; subst. apply B1. reflexivity.
  Qed.

  Lemma new_state_wf : WFc (new_state cfg).
  Proof. split; reflexivity. Qed.
End Scenarios.

(* why a mint quantity of -2^64 is excluded from well-formed states: with it, the builder's own balance test passes
   on a state whose body violates the ledger rule (the witness of finding C05-mint-min-int, evaluated in
   C05_mint_min_int_refuted; /repo 0175f0b makes MintBuilder reject the quantity, which [mint_update] mirrors) *)

Definition witness_policy : bytes := [236; 15; 156; 189].
Definition witness_state : state :=
  let v := mkValue 10000000 (Some [(witness_policy, [([97], 5)])]) in
  mkState (mkConfig 500000000 2000000 false false)
          [(5, v)]
          [mkOutput 6 (mkValue 9824951 (Some [(witness_policy, [([97], 5)])])) 0]
          FeeUnspecified (Some 175049) None None
          (Some [(witness_policy, [([97], int_min)])]) None None None.

(* non-vacuity: concrete runs of the model in which the premises hold and the operations succeed *)

Definition ex_utxos : list (N * value) :=
  [(5, mkValue 10000000 (Some [(witness_policy, [([97], 5); ([98], 7)])])); (8, mkValue 3000000 None)].
Definition ex_cfg : config := mkConfig 500000000 2000000 true false.
Definition tp (l : list (N * option N)) : tape_state := mkTape l None false.
Definition ex_ops : list (op * tape_state) :=
  [ (OpInput 5, tp []); (OpInput 8, tp []);
    (OpOutput (mkOutput 2 (mkValue 2000000 None) 0), tp [(83, Some 0); (65, Some 969750)]);
    (OpCerts (Some [StakeRegistration None; DRepDeregistration 500000]), tp []);
    (OpMint false witness_policy [98] (-3)%Z, tp []);
    (OpDonation 100000, tp []);
    (* add_change: min_fee; calc minimum; pack (2 assets, 1 policy); one change output; pure split *)
    (OpChange 6 0, tp [(70, Some 170000); (65, Some 1000000);
                       (65, Some 1100000); (83, Some 0); (65, Some 1150000); (83, Some 0); (65, Some 1150000); (83, Some 0);
                       (65, Some 1150000); (70, Some 169000); (83, Some 0); (65, Some 1150000); (70, Some 172000);
                       (83, Some 0); (65, Some 1150000);
                       (70, Some 172500); (83, Some 0); (65, Some 900000); (70, Some 175000); (83, Some 0); (65, Some 900000);
                       (70, Some 170000)]);   (* check_fee_after_change *)
    (OpBuild, tp [(70, Some 170000); (84, Some 0)]) ].

Example scenario_example :
  exists rs s body,
    run_ops ex_utxos ex_ops (new_state ex_cfg) = (rs, s, Some body) /\
    rs = [ROk; ROk; ROk; ROk; ROk; ROk; RBool true; ROk] /\
    length (b_outputs body) = 3%nat /\ b_fee body = 175500 /\
    ledger_balancedb 500000000 2000000 body = true.
Proof. eexists. eexists. eexists. vm_compute. repeat split; reflexivity. Qed.

Example scenario_example_premises :
  utxos_wf ex_utxos /\ Forall op_wf (map fst ex_ops) /\ WF ex_cfg (new_state ex_cfg).
Proof.
  split; [repeat constructor|]. split; [repeat constructor | apply new_state_wf].
Qed.
