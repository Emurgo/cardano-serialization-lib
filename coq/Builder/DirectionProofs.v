(* Builder/DirectionProofs.v — C05 phase 2: change only ever goes to the change address.
   A successful add_change appends outputs carrying the change address (and the requested datum / script reference) to
   the builder's outputs and leaves every output that was there before untouched — for ANY oracle.  This is what the
   finding C05-zero-quantity-change violated (the left-over ADA was added to the last REQUESTED output; /repo 5207e1d):
   with has_assets = "some quantity above zero" the asset branch is entered only when the packing loop runs, every
   successful pass appends at least one change output, so the final top-up always lands on an output of this call.
   The walk through add_change is that of ChangeProofs.add_change_spec; here its second half is read off. *)
From CSL Require Import Base.Prelude Base.U64 Num.Value Num.ValueProofs Deposits.Deposits Deposits.DepositsProofs
  Builder.Totals Builder.TotalsProofs Builder.Change Builder.ChangeProofs.
Local Open Scope N_scope.

Section Direction.
  Context {O : Type}.
  Variable orc : @oracle O.
  Hypothesis OU : oracle_u64 orc.
  Variable cfg0 : config.
  Notation WF := (WF cfg0).
  Variables (outs0 : list output) (addr extra : N).

  Definition at_change (x : output) : Prop := o_addr x = addr /\ o_extra x = extra.
  (* [k]: at least one output has been appended *)
  Definition app_n (k : bool) (s : state) : Prop :=
    exists l, s_outputs s = outs0 ++ l /\ Forall at_change l /\ (k = true -> l <> []).

  Lemma app_n_fee k v s : app_n k s -> app_n k (set_final_fee v s).
  Proof. intros H. exact H. Qed.

  Theorem add_change_direction_hoare fuel :
    hoare WF (fun s => s_outputs s = outs0) (add_change orc fuel addr extra) (fun _ s => app_n false s).
  Proof.
    apply hoare_pre. intros s0 _ E.
    eapply hoare_conseq; [apply (add_change_spec orc OU cfg0 fuel addr extra s0) | auto |].
    intros _ s _ [_ (l & El & F)]. exists l. rewrite <- E. split; [exact El|]. split; [exact F | discriminate].
  Qed.
End Direction.

(* plain form *)
Theorem add_change_direction {O : Type} (orc : @oracle O) (OU : oracle_u64 orc) fuel addr extra st o b :
  state_wf st -> out_res (add_change orc fuel addr extra st o) = Ok b ->
  exists l, s_outputs (out_st (add_change orc fuel addr extra st o)) = s_outputs st ++ l /\
            Forall (fun x => o_addr x = addr /\ o_extra x = extra) l.
Proof.
  intros W E.
  destruct (add_change_direction_hoare orc OU (s_cfg st) (s_outputs st) addr extra fuel st o (conj W eq_refl) eq_refl) as [_ H].
  rewrite E in H. destruct H as (l & El & F & _). exists l. split; assumption.
Qed.
