(* Builder/TxReaderExamples.v — C05 phase 2: the judge's independent reader on concrete data (test vectors for its behaviour). *)
From CSL Require Import Base.Prelude Cbor.Item Num.Value Deposits.Deposits Builder.Totals Builder.Scenario Builder.TxReader.
Local Open Scope N_scope.

(* a transaction built by the implementation (c05 harness, seed 1): one input (UTxO id 7), no output, fee 3 783 636;
   84 a3 00 d90102 81 8258201e…  01 80  02 1a0039bbd4  a0 f5 f6 *)
Definition ex_tx_bytes : bytes := [132; 163; 0; 217; 1; 2; 129; 130; 88; 32; 30; 0; 0; 0; 0; 0; 0; 0; 7; 40; 238; 161; 61; 21; 176; 235; 37; 58; 211; 224; 117; 146; 20; 115; 199; 213; 67; 108; 41; 193; 219; 162; 0; 1; 128; 2; 26; 0; 57; 187; 212; 160; 245; 246].

Example read_tx_example :
  match read_tx ex_tx_bytes with
  | Some r => map (fun i => utxo_id_of_hash (fst i)) (r_inputs r) = [7] /\ r_outputs r = [] /\ r_fee r = 3783636 /\
              r_certs r = [] /\ r_withdrawals r = [] /\ r_mint r = [] /\ r_proposals r = [] /\ r_donation r = 0
  | None => False
  end.
Proof. vm_compute. repeat split; reflexivity. Qed.

(* the whole verdict from bytes: the only input holds exactly the fee *)
Example judge_bytes_example :
  judge_bytes 500000000 2000000 [(7, mkValue 3783636 None)] [] [] (Some ex_tx_bytes) = Holds /\
  judge_bytes 500000000 2000000 [(7, mkValue 3783637 None)] [] [] (Some ex_tx_bytes) = FailsUnknown /\
  judge_bytes 500000000 2000000 [(7, mkValue 3783636 None)] [] [] (Some (removelast ex_tx_bytes)) = FailsUnknown.
Proof. vm_compute. repeat split; reflexivity. Qed.

(* values, outputs (both wire forms), certificates, mint *)
Example read_value_example :
  read_value (IArray true [IUint 5; IMap true [(IBytes [1; 2], IMap true [(IBytes [97], IUint 7); (IBytes [], IUint 1)])]])
  = Some (mkValue 5 (Some [([1; 2], [([], 1); ([97], 7)])])).
Proof. vm_compute. reflexivity. Qed.

Example read_output_example :
  read_output (IArray true [IBytes [9]; IUint 4]) = Some ([9], mkValue 4 None, 0) /\
  read_output (IMap true [(IUint 0, IBytes [9]); (IUint 1, IUint 4); (IUint 2, IArray true [IUint 1; ITag 24 (IBytes [1])]);
                          (IUint 3, ITag 24 (IBytes [130]))]) = Some ([9], mkValue 4 None, 4).
Proof. vm_compute. split; reflexivity. Qed.

Example read_cert_example :
  read_cert (IArray true [IUint 13; IArray true [IUint 0; IBytes [1]]; IBytes [2]; IArray true [IUint 2]; IUint 2000000])
    = Some (StakeVoteRegistrationAndDelegation 2000000) /\
  read_cert (IArray true [IUint 1; IArray true [IUint 0; IBytes [1]]]) = Some (StakeDeregistration None) /\
  read_cert (IArray true [IUint 16; IArray true [IUint 0; IBytes [1]]; IUint 500; ISimple 22]) = Some (DRepRegistration 500).
Proof. vm_compute. repeat split; reflexivity. Qed.

Example read_mint_example :
  read_assets as_int (IMap true [(IBytes [1], IMap true [(IBytes [97], INint 4); (IBytes [98], IUint 3)])])
  = Some [([1], [97], (-5)%Z); ([1], [98], 3%Z)].
Proof. vm_compute. reflexivity. Qed.
