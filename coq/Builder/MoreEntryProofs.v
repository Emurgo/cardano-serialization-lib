(* Builder/MoreEntryProofs.v — C05 phase 2: conservation through the remaining entry points.
   The collateral entry point (add_inputs_from_and_change_with_collateral_return) on the joint state: its builder side is
   the balancing call, so success means a balanced builder (percent_entry_spec); its collateral side IS C19's
   percent_helper, with the balancing outcome (succeeded?, fee afterwards) computed by the C05 model instead of given
   from outside and the min-ADA function read off the oracle: neither side is an oracle for the other.
   The mint-with-output operations and the deprecated setters keep the builder well-formed; with that, histories over
   the extended operation set are handled one operation at a time (run_op2_spec). *)
From CSL Require Import Base.Prelude Base.U64 Num.Value Num.ValueProofs Deposits.Deposits Deposits.DepositsProofs
  Builder.Totals Builder.TotalsProofs Builder.Change Builder.ChangeProofs Builder.Scenario Builder.ScenarioProofs Builder.MoreEntry.
From CSL Require Import Base.Facts.
From CSL Require Collateral.Collateral.
Local Open Scope N_scope.

Section Joint.
  Context {O : Type}.
  Variable orc : @oracle O.
  Hypothesis OU : oracle_u64 orc.
  Variable ask_col : Collateral.output -> O -> result N * O.

  (* the builder state that percent_entry leaves is the one its balancing call leaves (or the one it started in), and it
     reports success only if that call did *)
  Lemma percent_entry_spec cfg fuel utxos addr extra addr_b pct s c o :
    WF cfg s -> utxos_wf utxos ->
    WF cfg (jo_st (percent_entry orc ask_col fuel utxos addr extra addr_b pct s c o)) /\
    (jo_res (percent_entry orc ask_col fuel utxos addr extra addr_b pct s c o) = Ok tt ->
     balanced (jo_st (percent_entry orc ask_col fuel utxos addr extra addr_b pct s c o))).
  Proof.
    intros W Wu. destruct (select_and_change_balances orc OU cfg fuel utxos addr extra Wu s o W I) as [W' B].
    unfold percent_entry. destruct (Collateral.total_value (cs_inputs c)); try (split; [exact W | discriminate]).
    destruct (out_res (add_inputs_from_and_change orc fuel utxos addr extra s o)); try (split; [exact W' | discriminate]).
    destruct (get_fee_if_set _) as [fee|]; [|split; [exact W' | discriminate]].
    destruct (let* x := checked_mul fee pct in checked_add (x / 100) 1) as [req| | |]; try (split; [exact W' | discriminate]).
    destruct (col_set_total_and_return ask_col req addr_b _ _) as [[[]] ?]; (split; [exact W' | discriminate || intros _; exact B]).
  Qed.

  (* the collateral side is C19's percent_helper *)

  Lemma u64_mul_is a b : Collateral.u64_mul a b = checked_mul a b.
  Proof. reflexivity. Qed.
  Lemma u64_add_is a b : u64_add a b = checked_add a b.
  Proof. reflexivity. Qed.

  Lemma col_set_is_c19 total addr_b s c o (min_ada := fun out => fst (ask_col out o)) :
    let r := col_set_total_and_return ask_col total addr_b c o in
    match Collateral.set_total_collateral_and_return min_ada total addr_b (to_c19 s c) with
    | Ok b' => fst (fst r) = Ok tt /\ to_c19 s (snd (fst r)) = b'
    | _ => fst (fst r) <> Ok tt /\ snd (fst r) = c
    end.
  Proof.
    unfold col_set_total_and_return, Collateral.set_total_collateral_and_return, Collateral.set_total_collateral_and_return_gen,
      Collateral.legacy_keeps_stale_return, to_c19, min_ada. cbn [Collateral.b_collateral].
    destruct (cs_inputs c) as [|x l] eqn:Ei; cbn [is_nilb Collateral.is_nil]; [split; [discriminate | reflexivity]|].
    rewrite <- Ei. destruct (Collateral.total_value (cs_inputs c)) as [inp| | |]; cbn [bind]; try (split; [discriminate | reflexivity]).
    destruct (coin inp <? total); [split; [discriminate | reflexivity]|].
    destruct (value_checked_sub inp (value_new total)) as [ret| | |]; cbn [bind]; try (split; [discriminate | reflexivity]).
    change (Collateral.is_some (multiasset_of ret)) with (is_someb (multiasset_of ret)).
    destruct (is_someb (multiasset_of ret) || (0 <? coin ret)).
    - destruct (ask_col (Collateral.output_new addr_b ret) o) as [[m| | |] o'] eqn:Ea; cbn [fst snd bind];
        try (split; [discriminate | reflexivity]).
      destruct (coin ret <? m); cbn [fst snd]; [split; [discriminate | reflexivity]|].
      split; reflexivity.
    - cbn [fst snd]. split; reflexivity.
  Qed.

  Theorem percent_entry_is_c19 fuel utxos addr extra addr_b pct s c o :
    let bal := add_inputs_from_and_change orc fuel utxos addr extra s o in
    let r := percent_entry orc ask_col fuel utxos addr extra addr_b pct s c o in
    (out_res bal <> Panic /\ out_res bal <> OutOfFuel) ->
    let h := Collateral.percent_helper (fun out => fst (ask_col out (out_orc bal))) pct addr_b
               (is_ok (out_res bal)) (get_fee_if_set (out_st bal)) (to_c19 s c) in
    (match Collateral.total_value (cs_inputs c) with Ok _ => to_c19 (jo_st r) (jo_col r) = snd h | _ => jo_col r = clear_col c end) /\
    (fst h = true <-> jo_res r = Ok tt).
  Proof.
    intros bal r [NP1 NP2] h. subst h r. unfold percent_entry, Collateral.percent_helper, Collateral.percent_helper_gen.
    change (Collateral.b_collateral (to_c19 s c)) with (cs_inputs c).
    destruct (Collateral.total_value (cs_inputs c)) as [tc| | |]; try (split; [reflexivity | split; discriminate]).
    fold bal. cbv zeta.
    (* [b3]: C19's builder after the balancing step, placeholders removed; it is the joint state seen from C19, and every
       failing leaf on either side ends in it *)
    set (b3 := Collateral.clear_fields (Collateral.with_fee (get_fee_if_set (out_st bal))
                 (Collateral.with_return (Some (Collateral.output_new addr_b tc)) (Collateral.with_total (Some (coin tc)) (to_c19 s c))))).
    assert (E3 : to_c19 (out_st bal) (clear_col c) = b3) by reflexivity.
    assert (E4 : Collateral.clear_fields b3 = b3) by reflexivity.
    change (Collateral.b_fee b3) with (get_fee_if_set (out_st bal)). change (clear_col (clear_col c)) with (clear_col c).
    clearbody b3.
    destruct (out_res bal) as [b| | |]; try congruence; cbn [is_ok negb]; [|split; [exact E3 | split; discriminate]].
    destruct (get_fee_if_set (out_st bal)) as [fee|]; [|split; [exact E3 | split; discriminate]].
    change (let* x := Collateral.u64_mul fee pct in u64_add (x / 100) 1) with (let* x := checked_mul fee pct in checked_add (x / 100) 1).
    destruct (let* x := checked_mul fee pct in checked_add (x / 100) 1) as [required| | |];
      try (split; [exact E3 | split; discriminate]).
    pose proof (col_set_is_c19 required addr_b (out_st bal) (clear_col c) (out_orc bal)) as H. cbn zeta in H. rewrite E3 in H.
    unfold Collateral.set_total_collateral_and_return in H.
    destruct (Collateral.set_total_collateral_and_return_gen _ _ required addr_b b3) as [b'| | |];
      destruct (col_set_total_and_return ask_col required addr_b (clear_col c) (out_orc bal)) as [[res c''] o''];
      cbn [fst snd] in H; destruct H as [H1 H2]; [subst res; split; [exact H2 | split; reflexivity] | | |];
      (subst c''; destruct res as [[]| | |]; [congruence | | |]; (split; [rewrite E4; exact E3 | split; discriminate])).
  Qed.

End Joint.

(* mint together with an output; deprecated setters: the builder stays well-formed *)

Lemma minted_multiasset_wf p n amt : ma_wfb (minted_multiasset p n amt) = true.
Proof.
  unfold minted_multiasset. apply ma_wfb_insert; [apply ma_wfb_nil|].
  apply assets_wfb_insert; [apply assets_wfb_nil|]. apply (int_amount_bound true amt).
Qed.

Definition at_most_max {K} (e : K * Z) : Prop := (snd e <= int_max)%Z.

Lemma mint_fill_wf es : forall m m', mint_wfb m = true -> Forall at_most_max es -> mint_fill es m = Ok m' -> mint_wfb m' = true.
Proof.
  induction es as [|[[p n] z] es IH]; intros m m' W F H; cbn [mint_fill] in H; [injection H as <-; exact W|].
  apply bind_ok in H as (m1 & E & H). eapply IH; [|exact (Forall_inv_tail F) | exact H].
  exact (mint_update_wf _ _ _ _ _ _ W (Forall_inv F) E).
Qed.

Lemma mint_set_all_wf p l : forall m, mint_wfb m = true -> Forall at_most_max l -> mint_wfb (snd (mint_set_all p l m)) = true.
Proof.
  induction l as [|[n z] l IH]; intros m Wm Hl; [exact Wm|]. cbn [mint_set_all].
  destruct (mint_update true p n z m) as [m'| | |] eqn:E; try exact Wm.
  apply IH; [exact (mint_update_wf _ _ _ _ _ _ Wm (Forall_inv Hl) E) | exact (Forall_inv_tail Hl)].
Qed.

Lemma in_range_max amt : in_range amt = true -> (amt <= int_max)%Z.
Proof. unfold in_range. intros H. apply negb_true_iff in H. apply orb_false_iff in H. lia. Qed.

Lemma mint_assets_map_max es : (forall e, In e es -> in_range (snd e) = true) -> Forall at_most_max (mint_assets_map es).
Proof.
  intros H. apply (fold_left_inv (Forall at_most_max)); [|constructor]. intros acc e Ie Hacc.
  apply Forall_forall. intros x Ix. apply (am_in_insert name_cmp) in Ix.
  destruct Ix as [->|Ix]; [exact (in_range_max _ (H e Ie)) | exact (proj1 (Forall_forall _ _) Hacc x Ix)].
Qed.

Section MintOps.
  Context {O : Type}.
  Variable orc : @oracle O.
  Hypothesis OU : oracle_u64 orc.
  Variable cfg : config.

  Lemma add_mint_asset_wf p n amt : (amt <= int_max)%Z ->
    hoare (WF cfg) (fun _ => True) (@add_mint_asset O p n amt) (fun _ _ => True).
  Proof.
    intros Hm. apply hoare_pre. intros s0 J0 _. unfold add_mint_asset. apply hoare_get_eq. apply hoare_lift_bind. intros m Em.
    apply hoare_put. intros s _ _. split; [|exact I]. apply WF_set_mint; [exact J0|].
    exact (mint_update_wf _ _ _ _ _ _ (WF_mint cfg s0 J0) Hm Em).
  Qed.

  Lemma add_output_wf x : value_wf (o_amount x) -> hoare (WF cfg) (fun _ => True) (add_output orc x) (fun _ _ => True).
  Proof. intros Wx. apply hoare_pre. intros s0 _ _. eapply hoare_conseq; [apply (add_output_spec orc OU cfg s0 x Wx) | auto | auto]. Qed.

  Lemma minted_output_wf p n amt c : c < two64 -> value_wf (value_set_multiasset (minted_multiasset p n amt) (value_new c)).
  Proof. intros Hc. apply value_wf_set_multiasset; [exact Hc | apply minted_multiasset_wf]. Qed.

  Lemma mint_and_output_wf p n amt addr extra coin : (amt <= int_max)%Z -> coin < two64 ->
    hoare (WF cfg) (fun _ => True) (mint_and_output orc p n amt addr extra coin) (fun _ _ => True).
  Proof.
    intros Hm Hc. unfold mint_and_output. destruct (amt <? 0)%Z; [apply hoare_fail; discriminate|].
    eapply hoare_bind; [apply add_mint_asset_wf; exact Hm|]. intros u.
    apply add_output_wf. apply minted_output_wf. exact Hc.
  Qed.

  Lemma mint_and_output_min_wf p n amt addr extra : (amt <= int_max)%Z ->
    hoare (WF cfg) (fun _ => True) (mint_and_output_min orc p n amt addr extra) (fun _ _ => True).
  Proof.
    intros Hm. unfold mint_and_output_min. destruct (amt <? 0)%Z; [apply hoare_fail; discriminate|].
    eapply hoare_bind; [apply add_mint_asset_wf; exact Hm|]. intros u.
    apply (hoare_askA_bind orc OU). intros a1 L1. apply (hoare_askA_bind orc OU). intros a2 L2.
    apply (hoare_askA_bind orc OU). intros a3 L3.
    apply add_output_wf. apply minted_output_wf. lia.
  Qed.
End MintOps.

Definition op2_wf (x : op2) : Prop :=
  match x with
  | Old y => op_wf y
  | OpMintOutput _ _ _ _ _ coin => coin < two64
  | _ => True
  end.

Definition is_percent (x : op2) : bool := match x with OpPercent _ _ _ _ _ => true | _ => false end.

Section Scenarios2.
  Variable utxos : list (N * value).
  Hypothesis WU : utxos_wf utxos.
  Variable cfg : config.
  Notation WFc := (WF cfg).

  (* [step_ok] of the joint state, and: the collateral entry point reports success only with a balanced builder *)
  Definition step2_ok (x : op2) (r : opres * state * colstate * option tx_body) : Prop :=
    step_ok cfg (fst (fst (fst r))) (snd (fst (fst r))) (snd r) /\
    (is_percent x = true -> fst (fst (fst r)) = ROk -> balanced (snd (fst (fst r)))).

  (* an operation that only touches the builder state, builds nothing and is no collateral entry *)
  Lemma plain_step2 x (p : opres * state) (c : colstate) :
    is_percent x = false -> step_ok cfg (fst p) (snd p) None ->
    step2_ok x (match p with (res, s') => (res, s', c, None) end).
  Proof. destruct p. intros Hx H. split; [exact H | rewrite Hx; discriminate]. Qed.

  (* a monadic operation that keeps the invariant, run on a quantity that has to be an Int *)
  Lemma ranged_step {A} amt (m : @M tape_state A) s o : WFc s ->
    (in_range amt = true -> hoare WFc (fun _ => True) m (fun _ _ => True)) ->
    let p := if in_range amt then finish (m s o) (fun _ => ROk) else pure_op s o Err in step_ok cfg (fst p) (snd p) None.
  Proof.
    intros W H. destruct (in_range amt); [|apply pure_step; [exact W | discriminate]].
    apply finish_step; [exact (proj1 (H eq_refl s o W I)) | discriminate | discriminate].
  Qed.

  (* the collateral entry point: what [finish_step] says, for the joint state *)
  Lemma finish_j_step x (r : @jout tape_state) : WFc (jo_st r) -> (jo_res r = Ok tt -> balanced (jo_st r)) ->
    step2_ok x (match finish_j r with (res, s', c') => (res, s', c', None) end).
  Proof.
    intros W B. unfold finish_j. destruct (_ || _ || _); cbn [fst snd].
    - split; [split; [exact W | split; discriminate] | discriminate].
    - destruct (jo_res r) as [[]| | |]; cbn [res_of]; (split; [split; [exact W | split; discriminate]|]); try discriminate.
      intros _ _. exact (B eq_refl).
  Qed.

  Lemma set_mint_deprecated_wf ok es s s' :
    WFc s -> forallb (fun e : bytes * bytes * Z => in_range (snd e)) es = true ->
    set_mint_deprecated ok es s = Ok s' -> WFc s'.
  Proof.
    intros W R. unfold set_mint_deprecated. destruct (negb ok); [discriminate|]. intros (m & E & [= <-])%bind_ok.
    apply WF_set_mint; [exact W|]. apply (mint_fill_wf es [] m); [reflexivity | | exact E].
    apply Forall_forall. intros e Ie. rewrite forallb_forall in R. exact (in_range_max _ (R e Ie)).
  Qed.

  (* set_mint_asset (deprecated): the map reached when an entry fails stays in the builder, so it has to be well-formed too *)
  Lemma WF_mint_set_all p es m s :
    WFc s -> mint_wfb m = true -> forallb (fun e : bytes * Z => in_range (snd e) && negb (snd e =? 0)%Z) es = true ->
    WFc (set_s_mint (Some (snd (mint_set_all p (mint_assets_map es) m))) s).
  Proof.
    intros W Wm R. apply WF_set_mint; [exact W|]. apply mint_set_all_wf; [exact Wm|]. apply mint_assets_map_max.
    intros e Ie. rewrite forallb_forall in R. apply R in Ie. apply andb_true_iff in Ie. apply Ie.
  Qed.

  Lemma run_op2_spec x s c o : WFc s -> op2_wf x -> step2_ok x (run_op2 utxos x s c o).
  Proof.
    intros W Wx.
    destruct x as [y|ids|avail addr extra addr_b pct|p n amt addr extra coin|p n amt addr extra|p n amt|ok es|l|l| |p es|l];
      cbn [run_op2]; try (apply plain_step2; [reflexivity|]).
    - (* old operations *)
      pose proof (run_op_spec utxos WU cfg y s o W Wx) as H. cbn zeta in H.
      destruct (run_op utxos y s o) as [[res s'] tx]. split; [exact H | discriminate].
    - (* set_collateral *)
      pose proof (pure_step cfg s o (Ok s) W ltac:(intros s' [= <-]; exact W)) as H.
      destruct (pure_op s o (Ok s)). split; [exact H | discriminate].
    - (* add_inputs_from_and_change_with_collateral_return *)
      destruct (percent_entry_spec tape_oracle tape_oracle_u64 tape_ask_col cfg fuel_default (resolve utxos avail) addr extra
                  addr_b pct s c o W (resolve_wf utxos avail WU)) as [W' B].
      exact (finish_j_step _ _ W' B).
    - (* add_mint_asset_and_output *)
      apply ranged_step; [exact W|]. intros R. exact (mint_and_output_wf tape_oracle tape_oracle_u64 cfg p n amt addr extra coin (in_range_max _ R) Wx).
    - apply ranged_step; [exact W|]. intros R. exact (mint_and_output_min_wf tape_oracle tape_oracle_u64 cfg p n amt addr extra (in_range_max _ R)).
    - apply ranged_step; [exact W|]. intros R. exact (add_mint_asset_wf cfg p n amt (in_range_max _ R)).
    - (* set_mint (deprecated) *)
      apply pure_step; [exact W|]. intros s'. destruct (forallb _ es) eqn:R; [|discriminate].
      exact (set_mint_deprecated_wf ok es s s' W R).
    - (* set_certs (deprecated) *)
      apply pure_step; [exact W|]. intros s' (cs & _ & [= <-])%bind_ok. exact W.
    - (* set_withdrawals (deprecated) *)
      apply pure_step; [exact W|]. intros s' (ws & _ & [= <-])%bind_ok. exact W.
    - (* remove_mint_builder *)
      apply pure_step; [exact W|]. intros s' [= <-]. apply WF_set_mint; [exact W | reflexivity].
    - (* set_mint_asset (deprecated) *)
      destruct (forallb _ es) eqn:R; [|apply plain_step2; [reflexivity|]; apply pure_step; [exact W | discriminate]].
      pose proof (WF_mint cfg s W) as Wm.
      destruct (s_mint s) as [m|]; cbv zeta; (apply plain_step2; [reflexivity|]).
      + pose proof (WF_mint_set_all p es m s W Wm R) as W1.
        apply pure_step; [exact W1|]. intros s'. destruct (fst _); [|discriminate]. intros [= <-]. exact W1.
      + apply pure_step; [exact W|]. intros s'. destruct (fst _); [|discriminate]. intros [= <-].
        exact (WF_mint_set_all p es [] s W eq_refl R).
    - (* proposals with identities *)
      apply pure_step; [exact W|]. intros s' [= <-]. exact W.
  Qed.

  Theorem scenarios2_balanced l : forall s c rs s' c' body,
    WFc s -> Forall op2_wf (map fst l) -> run_ops2 utxos l s c = (rs, s', c', Some body) ->
    ledger_balanced (c_pool_deposit cfg) (c_key_deposit cfg) body.
  Proof.
    induction l as [|[x o] l IH]; intros s c rs s' c' body W Wl H; [discriminate|].
    cbn [run_ops2] in H. cbn [map fst] in Wl. inversion Wl as [|? ? Wx Wl']. subst.
    destruct (run_op2_spec x s c o W Wx) as [[W1 [B1 _]] _].
    destruct (run_op2 utxos x s c o) as [[[res s1] c1] tx] eqn:E1. cbn [fst snd] in *.
    destruct (run_ops2 utxos l s1 c1) as [[[rs2 s2] c2] tx2] eqn:E2.
    destruct tx2 as [b2|].
    - inversion H. subst. eapply IH; eassumption.
    - destruct res; inversion H; subst. apply B1. reflexivity.
  Qed.
End Scenarios2.

(* non-vacuity: a history through the collateral entry point (taken from a run of the implementation) *)
Definition ex2_utxos : list (N * value) := [(5, mkValue 36213597 None); (402, mkValue 10067867 None)].
Definition ex2_cfg : config := mkConfig 500000000 2000000 true true.
Definition ex2_ops : list (op2 * tape_state) :=
  [ (Old (OpOutput (mkOutput 20 (mkValue 2250147 None) 0)), tp [(83, Some 0); (65, Some 19700)]);
    (Old (OpSetMinFee 1000000), tp []);
    (OpSetCollateral [402], tp []);
    (Old (OpInput 5), tp []);
    (OpPercent [5] 17 4 [17] 0,
     mkTape [(70, Some 197000); (65, Some 28100); (70, Some 195000); (83, Some 0); (65, Some 25800); (70, Some 244000);
             (83, Some 0); (65, Some 25800); (70, Some 246000); (83, Some 0); (65, Some 20200)] (Some ([], true)) false);
    (Old OpBuild, tp [(70, Some 242000); (84, Some 0)]) ].

Example scenario2_example :
  exists rs s c body,
    run_ops2 ex2_utxos ex2_ops (new_state ex2_cfg) col_new = (rs, s, c, Some body) /\
    rs = [ROk; ROk; ROk; ROk; ROk; ROk] /\
    b_fee body = 1000000 /\ length (b_outputs body) = 2%nat /\
    cs_total c = Some 1 /\
    match cs_return c with Some o => coin (Collateral.o_amount o) = 10067866 | None => False end /\
    ledger_balancedb 500000000 2000000 body = true.
Proof. eexists. eexists. eexists. eexists. vm_compute. repeat split; reflexivity. Qed.

Example scenario2_example_premises : utxos_wf ex2_utxos /\ Forall op2_wf (map fst ex2_ops).
Proof. split; repeat constructor. Qed.
