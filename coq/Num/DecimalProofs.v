(* Proofs about Num/Decimal.v.  A digit string is read through its value (dval); the printer yields the one
   canonical string of a number (no leading zero except "0"), so printing then parsing is the identity, and an accepted
   literal is the printed number up to the sign and zero rules of its parser. *)
From CSL Require Import Base.Prelude Num.Decimal.
Local Open Scope N_scope.

Definition digit (c : N) : Prop := is_digit c = true.

Lemma digit_range c : digit c <-> 48 <= c <= 57.
Proof. unfold digit, is_digit. lia. Qed.

(* value of a digit string, most significant digit first *)
Fixpoint dval (ds : text) : N :=
  match ds with [] => 0 | c :: r => (c - 48) * 10 ^ N.of_nat (length r) + dval r end.

Lemma pow10_S k : 10 ^ N.of_nat (S k) = 10 * 10 ^ N.of_nat k.
Proof. rewrite Nat2N.inj_succ. apply N.pow_succ_r'. Qed.

Lemma dval_snoc ds c : dval (ds ++ [c]) = dval ds * 10 + (c - 48).
Proof.
  induction ds as [|d r IH]; cbn [app dval length]; [cbn; lia|].
  rewrite IH, app_length, Nat.add_1_r, pow10_S. lia.
Qed.

Lemma dval_bound ds : Forall digit ds -> dval ds < 10 ^ N.of_nat (length ds).
Proof.
  induction 1 as [|c r Hc _ IH]; cbn [dval length]; [reflexivity|].
  apply digit_range in Hc. rewrite pow10_S. nia.
Qed.

(* the parsers' accumulator loop computes dval *)
Lemma parse_digits_dval ds : Forall digit ds -> forall a, parse_digits ds a = Some (a * 10 ^ N.of_nat (length ds) + dval ds).
Proof.
  induction 1 as [|c r Hc _ IH]; intros a; cbn [parse_digits dval length].
  - f_equal. change (10 ^ N.of_nat 0) with 1. lia.
  - unfold digit in Hc. rewrite Hc, IH, pow10_S. f_equal. lia.
Qed.

Lemma parse_digits_all ds a n : parse_digits ds a = Some n -> Forall digit ds.
Proof.
  revert a. induction ds as [|c r IH]; intros a H; [constructor|]. cbn [parse_digits] in H.
  destruct (is_digit c) eqn:D; [|discriminate]. constructor; [exact D | eauto].
Qed.

(* non-empty, and a leading '0' only as the whole string *)
Definition canonical (ds : text) : Prop := match ds with [] => False | c :: r => c = 48 -> r = [] end.

Lemma digits_aux_spec fuel : forall n acc, fuel <> O -> n < 10 ^ N.of_nat fuel ->
  exists ds, digits_aux fuel n acc = ds ++ acc /\ Forall digit ds /\ dval ds = n /\ canonical ds.
Proof.
  induction fuel as [|f IH]; intros n acc F B; [congruence|]. cbn [digits_aux].
  assert (Hd : digit (48 + n mod 10)) by (apply digit_range; pose proof (N.mod_lt n 10); lia).
  destruct (n <? 10) eqn:T.
  - exists [48 + n mod 10]. rewrite N.mod_small by lia.
    split; [reflexivity | split; [repeat constructor; rewrite <- (N.mod_small n 10) by lia; exact Hd | split; [cbn; lia | intros _; reflexivity]]].
  - assert (F' : f <> O) by (intros ->; change (10 ^ N.of_nat 1) with 10 in B; lia).
    assert (B' : n / 10 < 10 ^ N.of_nat f) by (apply N.div_lt_upper_bound; [lia | rewrite <- pow10_S; exact B]).
    destruct (IH (n / 10) ((48 + n mod 10) :: acc) F' B') as [ds [E [D1 [D2 D3]]]].
    exists (ds ++ [48 + n mod 10]). split; [rewrite E, <- app_assoc; reflexivity|].
    split; [apply Forall_app; split; [exact D1 | repeat constructor; exact Hd] |]. split.
    + rewrite dval_snoc, D2. pose proof (N.div_mod n 10). lia.
    + (* n >= 10, so the digits of n / 10 do not start with '0' *)
      destruct ds as [|c r]; [destruct D3|]. cbn [app canonical] in *. intros C. rewrite (D3 C), C in D2. cbn in D2.
      assert (n / 10 <> 0) by (intros Z; apply N.div_small_iff in Z; lia). lia.
Qed.

Theorem print_N_spec n : Forall digit (print_N n) /\ dval (print_N n) = n /\ canonical (print_N n).
Proof.
  unfold print_N. destruct (digits_aux_spec (S (N.to_nat (N.log2 n))) n []) as [ds [E D]]; [congruence | |].
  - rewrite Nat2N.inj_succ, N2Nat.id. destruct (N.eq_dec n 0) as [-> | NZ]; [reflexivity|].
    (* fuel: n < 2^(log2 n + 1) <= 10^(log2 n + 1) *)
    pose proof (N.log2_spec n). pose proof (N.pow_le_mono_l 2 10 (N.succ (N.log2 n))). lia.
  - rewrite E, app_nil_r. exact D.
Qed.

Lemma print_N_parse n : parse_digits (print_N n) 0 = Some n.
Proof. destruct (print_N_spec n) as [F [V _]]. rewrite (parse_digits_dval _ F), V. reflexivity. Qed.

Lemma print_N_head n : exists c r, print_N n = c :: r /\ 48 <= c <= 57.
Proof.
  destruct (print_N_spec n) as [F [_ C]]. destruct (print_N n) as [|c r]; [destruct C|].
  exists c, r. split; [reflexivity | apply digit_range; inversion F; assumption].
Qed.

Lemma print_Z_of_N n : print_Z (Z.of_N n) = print_N n.
Proof. destruct n; reflexivity. Qed.

(* BigNum::from_str(to_str(n)) *)
Theorem parse_u64_print n : n < two64 -> parse_u64 (print_N n) = Ok n.
Proof.
  intros B. destruct (print_N_head n) as [c [r [E Hc]]]. unfold parse_u64, ch_plus. rewrite E.
  replace (c =? 43) with false by lia. rewrite <- E, (print_N_parse n).
  replace (n <? two64) with true by lia. reflexivity.
Qed.

(* str::parse::<i128>(format!("{}", z)) *)
Theorem parse_i128_print z : (- two127 <= z < two127)%Z -> parse_i128 (print_Z z) = Ok z.
Proof.
  intros B. unfold parse_i128. destruct z as [|p|p]; cbn [print_Z]; unfold ch_plus, ch_minus; [reflexivity | |].
  - destruct (print_N_head (Z.to_N (Z.pos p))) as [c [r [E Hc]]]. rewrite E.
    replace (c =? 43) with false by lia. replace (c =? 45) with false by lia.
    rewrite <- E, print_N_parse, Z2N.id by lia. replace (Z.pos p <? two127)%Z with true by lia. reflexivity.
  - destruct (print_N_head (N.pos p)) as [c [r [E Hc]]]. change (45 =? 43) with false. change (45 =? 45) with true. cbv iota.
    rewrite E, <- E, print_N_parse. replace (Z.of_N (N.pos p) <=? two127)%Z with true by lia. reflexivity.
Qed.

Lemma parse_digits_us_digits ds : Forall digit ds -> forall a, parse_digits_us ds a = parse_digits ds a.
Proof.
  induction 1 as [|c ds Hc _ IH]; intros a; [reflexivity|]. cbn [parse_digits_us parse_digits].
  pose proof Hc as Hc'. apply digit_range in Hc'. unfold ch_underscore. replace (c =? 95) with false by lia.
  unfold digit in Hc. rewrite Hc. apply IH.
Qed.

Lemma parse_biguint_print n : parse_biguint (print_N n) = Ok n.
Proof.
  destruct (print_N_head n) as [c [r [E Hc]]]. unfold parse_biguint, ch_plus, ch_underscore. rewrite E.
  replace (c =? 43) with false by lia. cbn [andb]. replace (c =? 95) with false by lia.
  rewrite <- E, (parse_digits_us_digits _ (proj1 (print_N_spec n))), print_N_parse. reflexivity.
Qed.

(* num_bigint::BigInt::from_str(to_string(z)), any size *)
Theorem parse_bigint_print z : parse_bigint (print_Z z) = Ok z.
Proof.
  unfold parse_bigint. destruct z as [|p|p]; cbn [print_Z]; unfold ch_minus; [reflexivity | |].
  - destruct (print_N_head (Z.to_N (Z.pos p))) as [c [r [E Hc]]]. rewrite E. replace (c =? 45) with false by lia.
    rewrite <- E, parse_biguint_print. reflexivity.
  - destruct (print_N_head (N.pos p)) as [c [r [E Hc]]]. change (45 =? 45) with true. cbv iota.
    replace (starts_with ch_plus (print_N (N.pos p))) with false by (rewrite E; unfold starts_with, ch_plus; lia).
    rewrite parse_biguint_print. reflexivity.
Qed.

(* Parse side: what the parsers accept.  An accepted literal denotes exactly one number, and that number's printed
   form is the literal with the optional sign / leading zeros (/ underscores) normalised: from_str s = Ok n -> canon s = to_str n.
   Strict injectivity is false by design of the Rust parsers: "+1", "007", "-0" (signed), "1_0" (BigInt) are accepted. *)

(* two digit strings of the same length with the same value are equal *)
Lemma dval_inj d1 : forall d2, Forall digit d1 -> Forall digit d2 -> length d1 = length d2 -> dval d1 = dval d2 -> d1 = d2.
Proof.
  induction d1 as [|c1 r1 IH]; intros [|c2 r2] F1 F2 L V; try discriminate; [reflexivity|].
  inversion F1 as [|? ? H1 F1']; inversion F2 as [|? ? H2 F2']; subst. cbn [length] in L. injection L as L.
  cbn [dval] in V. rewrite L in V. pose proof (dval_bound r1 F1') as B1. pose proof (dval_bound r2 F2') as B2. rewrite L in B1.
  apply digit_range in H1, H2. set (P := 10 ^ N.of_nat (length r2)) in *.
  (* the leading digit is the quotient by P, the rest the remainder *)
  assert (E1 : c1 - 48 = c2 - 48).
  { rewrite (N.div_unique ((c1 - 48) * P + dval r1) P (c1 - 48) (dval r1) B1 ltac:(lia)).
    rewrite V. symmetry. apply (N.div_unique _ P (c2 - 48) (dval r2) B2). lia. }
  f_equal; [lia | apply IH; try assumption; rewrite E1 in V; lia].
Qed.

(* a canonical non-zero string of length k+1 has a value of at least 10^k, so canonical strings of equal value have equal length *)
Lemma canon_unique d1 d2 : Forall digit d1 -> Forall digit d2 -> canonical d1 -> canonical d2 -> dval d1 = dval d2 -> d1 = d2.
Proof.
  assert (Len : forall d d', Forall digit d -> Forall digit d' -> canonical d -> canonical d' -> dval d = dval d' -> (length d <= length d')%nat).
  { intros [|c r] [|c' r'] F F' C C' V; try contradiction. cbn [length]. apply le_n_S, Nat.nlt_ge. intros L.
    (* r' shorter than r: dval (c' :: r') < 10^|r| <= dval (c :: r) unless c = '0', and then r = [] *)
    pose proof (dval_bound _ F') as B. cbn [length] in B. inversion F as [|? ? Hc _]. apply digit_range in Hc.
    assert (P : 10 ^ N.of_nat (S (length r')) <= 10 ^ N.of_nat (length r)) by (apply N.pow_le_mono_r; lia).
    cbn [dval canonical] in *. destruct (N.eq_dec c 48) as [E | NE]; [rewrite (C E) in L; inversion L | nia]. }
  intros F1 F2 C1 C2 V. apply dval_inj; try assumption. apply Nat.le_antisymm; apply Len; auto.
Qed.

Lemma strip_zeros_spec ds : Forall digit ds ->
  Forall digit (strip_zeros ds) /\ dval (strip_zeros ds) = dval ds /\ match strip_zeros ds with c :: _ => c <> 48 | [] => True end.
Proof.
  induction 1 as [|c r Hc F IH]; cbn [strip_zeros]; [repeat split; constructor|].
  unfold ch_zero. destruct (N.eqb_spec c 48) as [-> | NE].
  - destruct IH as [F' [V C]]. split; [exact F' | split; [|exact C]]. rewrite V. cbn [dval]. lia.
  - repeat split; [constructor; assumption | exact NE].
Qed.

(* the heart: the canonical form of an all-digit body is the printed form of its value *)
Lemma canon_digits_print body n : parse_digits body 0 = Some n -> canon_digits body = print_N n.
Proof.
  intros P. pose proof (parse_digits_all _ _ _ P) as F. rewrite (parse_digits_dval _ F) in P. injection P as P.
  destruct (strip_zeros_spec body F) as [Fs [Vs Cs]]. destruct (print_N_spec n) as [Fp [Vp Cp]].
  unfold canon_digits. destruct (strip_zeros body) as [|c r] eqn:E.
  - cbn in Vs. replace n with 0 by lia. reflexivity.
  - apply canon_unique; try assumption; [intros Z; contradiction | lia].
Qed.

(* the signed parsers negate the value of the body; "-0…0" denotes 0 *)
Lemma canon_neg_print body n : parse_digits body 0 = Some n ->
  match strip_zeros body with [] => [ch_zero] | t => ch_minus :: t end = print_Z (- Z.of_N n).
Proof.
  intros P. pose proof (canon_digits_print body n P) as C. unfold canon_digits in C.
  pose proof (parse_digits_all _ _ _ P) as F. destruct (strip_zeros_spec body F) as [_ [_ Cs]].
  destruct (print_N_spec n) as [_ [Vp _]]. destruct (strip_zeros body) as [|c r], n as [|p]; cbn [Z.of_N Z.opp print_Z]; try reflexivity.
  - rewrite <- C in Vp. discriminate Vp.
  - change (print_N 0) with [48] in C. injection C as -> _. contradiction.
  - rewrite C. reflexivity.
Qed.

(* BigNum::from_str: an accepted text is the printed number up to one '+' and leading zeros *)
Theorem parse_u64_canon s n : parse_u64 s = Ok n -> n < two64 /\ canon_unsigned s = print_N n.
Proof.
  assert (G : forall body, match body with [] => Err | _ :: _ => match parse_digits body 0 with
                             | Some v => if v <? two64 then Ok v else Err | None => Err end end = Ok n ->
                           n < two64 /\ canon_digits body = print_N n).
  { intros [|b0 b]; [discriminate|]. destruct (parse_digits (b0 :: b) 0) as [v|] eqn:P; [|discriminate].
    destruct (v <? two64) eqn:T; [|discriminate]. intros [= <-]. split; [lia | exact (canon_digits_print _ _ P)]. }
  unfold parse_u64, canon_unsigned. destruct s as [|c r]; [discriminate|]. destruct (c =? ch_plus); [apply G | apply (G (c :: r))].
Qed.

(* parse::<i128>: an accepted text is the printed number up to a '+', leading zeros, and "-0" for 0 *)
Theorem parse_i128_canon s z : parse_i128 s = Ok z -> (- two127 <= z < two127)%Z /\ canon_signed s = print_Z z.
Proof.
  assert (T127 : (0 < two127)%Z) by reflexivity.
  (* the digits after the optional sign; neg = a '-' was read *)
  assert (G : forall (neg : bool) body,
            match body with [] => Err | _ :: _ => match parse_digits body 0 with
            | Some n => if neg then (if (Z.of_N n <=? two127)%Z then Ok (- Z.of_N n)%Z else Err)
                        else (if (Z.of_N n <? two127)%Z then Ok (Z.of_N n) else Err)
            | None => Err end end = Ok z ->
            (- two127 <= z < two127)%Z /\
            (if neg then match strip_zeros body with [] => [ch_zero] | t => ch_minus :: t end else canon_digits body) = print_Z z).
  { intros neg [|b0 b]; [discriminate|]. destruct (parse_digits (b0 :: b) 0) as [v|] eqn:P; [|discriminate].
    destruct neg; [destruct (Z.of_N v <=? two127)%Z eqn:T | destruct (Z.of_N v <? two127)%Z eqn:T];
      try discriminate; intros [= <-]; (split; [lia|]).
    - exact (canon_neg_print _ _ P).
    - rewrite (canon_digits_print _ _ P). symmetry. apply print_Z_of_N. }
  unfold parse_i128, canon_signed. destruct s as [|c r]; [discriminate|].
  destruct (c =? ch_plus); [exact (G false r) | destruct (c =? ch_minus); [exact (G true r) | exact (G false (c :: r))]].
Qed.

(* the non-canonical literals the Rust parsers accept by design *)
Example parse_noncanonical_accepted :
  parse_u64 [43; 49] = Ok 1 /\ parse_u64 [48; 48; 55] = Ok 7 /\                       (* "+1", "007" *)
  parse_i128 [45; 48] = Ok 0%Z /\ parse_i128 [43; 48; 53] = Ok 5%Z /\                  (* "-0", "+05" *)
  parse_bigint [49; 95; 48] = Ok 10%Z /\ parse_bigint [45; 48; 95] = Ok 0%Z.           (* "1_0", "-0_" *)
Proof. repeat split; vm_compute; reflexivity. Qed.

Lemma parse_digits_us_drop ds : forall a, parse_digits_us ds a = parse_digits (drop_underscores ds) a.
Proof.
  induction ds as [|c r IH]; intros a; [reflexivity|]. cbn [parse_digits_us drop_underscores filter].
  destruct (c =? ch_underscore) eqn:U; cbn [negb]; [apply IH|]. cbn [parse_digits].
  destruct (is_digit c); [apply IH | reflexivity].
Qed.

Lemma parse_biguint_canon s n : parse_biguint s = Ok n -> parse_digits (biguint_body s) 0 = Some n.
Proof.
  unfold parse_biguint, biguint_body.
  destruct (match s with [] => s | c :: tail => if (c =? ch_plus) && negb (starts_with ch_plus tail) then tail else s end) as [|c r]; [discriminate|].
  destruct (c =? ch_underscore); [discriminate|]. rewrite parse_digits_us_drop.
  destruct (parse_digits _ 0); [intros [= <-]; reflexivity | discriminate].
Qed.

Lemma parse_biguint_minus tail : parse_biguint (ch_minus :: tail) = Err.
Proof. reflexivity. Qed.

(* BigInt::from_str: an accepted text is the printed number up to the sign rules, underscores and leading zeros *)
Theorem parse_bigint_canon s z : parse_bigint s = Ok z -> canon_bigint s = print_Z z.
Proof.
  unfold parse_bigint, canon_bigint. destruct s as [|c tail]; [discriminate|].
  destruct (N.eqb_spec c ch_minus) as [-> | _].
  - destruct (starts_with ch_plus tail); [rewrite parse_biguint_minus; discriminate|].   (* "-+…": BigUint sees the '-' and rejects *)
    destruct (parse_biguint tail) as [n| | |] eqn:P; try discriminate. intros [= <-].
    exact (canon_neg_print _ _ (parse_biguint_canon _ _ P)).
  - destruct (parse_biguint (c :: tail)) as [n| | |] eqn:P; try discriminate. intros [= <-].
    rewrite (canon_digits_print _ _ (parse_biguint_canon _ _ P)). symmetry. apply print_Z_of_N.
Qed.
