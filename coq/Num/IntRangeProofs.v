(* Proofs about Num/IntRange.v: the range invariant of Int over every public way to obtain one, the CBOR and
   decimal round trips over the whole range, the cast argument of the former nint workaround. *)
From CSL Require Import Base.Prelude Cbor.Head Cbor.HeadProofs Num.Decimal Num.DecimalProofs Num.IntRange.
Local Open Scope Z_scope.

Lemma int_in_range_iff z : int_in_range z = true <-> - two64Z <= z <= two64Z - 1.
Proof. unfold int_in_range, int_min, int_max. lia. Qed.

(* CBOR round trip over the whole range (serialization/numeric/int.rs with write_nint) *)
Theorem int_cbor_roundtrip z rest : int_in_range z = true -> int_deserialize (int_serialize z ++ rest) = Ok (z, rest).
Proof.
  intros R. apply int_in_range_iff in R. unfold int_serialize, int_deserialize, two64Z in *.
  destruct (z <? 0) eqn:S; rewrite Z.mod_small, decode_encode_head by (unfold two64; lia); do 2 f_equal; lia.
Qed.

Corollary int_from_bytes_roundtrip z : int_in_range z = true -> int_from_bytes (int_serialize z) = Ok z.
Proof.
  intros R. unfold int_from_bytes. rewrite <- (app_nil_r (int_serialize z)), (int_cbor_roundtrip z [] R). reflexivity.
Qed.

(* decimal text (Int::to_str / Int::from_str, serde) *)
Lemma int_from_str_ok s z : int_from_str s = Ok z <-> parse_i128 s = Ok z /\ int_in_range z = true.
Proof.
  unfold int_from_str. destruct (parse_i128 s) as [x| | |]; cbn [bind].
  2-4: split; [discriminate | intros [[=] _]].
  destruct (int_in_range x) eqn:R.
  - split; [intros [= <-]; auto | intros [[= ->] _]; reflexivity].
  - split; [discriminate | intros [[= ->] R']; congruence].
Qed.

Theorem int_decimal_roundtrip z : int_in_range z = true -> int_from_str (int_to_str z) = Ok z.
Proof.
  intros R. apply int_from_str_ok. split; [|exact R].
  apply parse_i128_print. apply int_in_range_iff in R. unfold two64Z, two127 in *. lia.
Qed.

(* the cast argument of the former workaround, write_negative_integer(x as i64):
   wrapping to i64 does not change a value modulo 2^64 ... *)
Lemma wrap_i64_mod x : wrap_i64 x mod two64Z = x mod two64Z.
Proof. unfold wrap_i64. rewrite Zminus_mod_idemp_l. f_equal. lia. Qed.

(* ... and on the negative range of Int it is the identity down to -2^63 and adds 2^64 below *)
Lemma wrap_i64_neg z : - two64Z <= z < 0 -> wrap_i64 z = if z <? - two63 then z + two64Z else z.
Proof.
  intros R. destruct (Z.ltb_spec z (- two63)) as [L | L]; unfold wrap_i64, two63, two64Z in *.
  - rewrite <- (Z_mod_plus_full _ 1), Z.mod_small; lia.
  - rewrite Z.mod_small; lia.
Qed.

(* for -2^64 <= x < 0 the i64 round trip is exact in wrapping arithmetic and overflows only at x = -2^63 *)
Theorem nint_arg_legacy_exact oc z : - two64Z <= z < 0 -> (oc = false \/ z <> - two63) ->
  nint_arg_legacy oc z = Ok (Z.to_N (-1 - z)).
Proof.
  intros R H. unfold nint_arg_legacy.
  assert (V : (wrap_i64 z =? - two63) && oc = false).
  { destruct H as [-> | NE]; [apply andb_false_r|]. apply andb_false_intro1. rewrite (wrap_i64_neg z R).
    destruct (Z.ltb_spec z (- two63)); unfold two63, two64Z in *; lia. }
  rewrite V. do 2 f_equal.
  (* every wrap disappears modulo 2^64, and -1 - z is already a u64 *)
  rewrite wrap_i64_mod, <- Zminus_mod_idemp_l, wrap_i64_mod, Zminus_mod_idemp_l.
  replace (- wrap_i64 z - 1) with (-1 - wrap_i64 z) by lia.
  rewrite <- Zminus_mod_idemp_r, wrap_i64_mod, Zminus_mod_idemp_r. apply Z.mod_small. unfold two64Z in *. lia.
Qed.

Lemma nint_arg_legacy_refuted : nint_arg_legacy true (- two63) = Panic /\ int_in_range (- two63) = true.
Proof. split; vm_compute; reflexivity. Qed.

Corollary int_serialize_legacy_agrees oc z : int_in_range z = true -> (oc = false \/ z <> - two63) ->
  int_serialize_legacy oc z = Ok (int_serialize z).
Proof.
  intros R H. apply int_in_range_iff in R. unfold int_serialize_legacy, int_serialize. destruct (z <? 0) eqn:S; [|reflexivity].
  rewrite nint_arg_legacy_exact by (auto; lia). cbn [bind]. do 3 f_equal.
  symmetry. apply Z.mod_small. unfold two64Z in *. lia.
Qed.

Theorem int_accessors_exact z : int_in_range z = true -> z <> int_min ->
  int_as_positive z = (if 0 <=? z then Some (Z.to_N z) else None) /\
  int_as_negative z = (if z <? 0 then Some (Z.to_N (- z)) else None) /\
  int_as_i32 z = (if (- two31 <=? z) && (z <? two31) then Some z else None).
Proof.
  intros R NM. apply int_in_range_iff in R.
  unfold int_as_positive, int_as_negative, int_as_i32, int_is_positive, int_min, two64Z in *.
  split; [|split; [|reflexivity]]; destruct (0 <=? z) eqn:S.
  - rewrite Z.mod_small by lia. reflexivity.
  - reflexivity.
  - replace (z <? 0) with false by lia. reflexivity.
  - replace (z <? 0) with true by lia. rewrite Z.mod_small by lia. reflexivity.
Qed.

(* MintBuilder: a property of the accumulated quantities over every history *)
Definition ms_all (P : Z -> Prop) (s : mint_state) : Prop := Forall (fun kv : N * Z => P (snd kv)) s.

Lemma ms_set_all P k v s : ms_all P s -> P v -> ms_all P (ms_set k v s).
Proof.
  intros H V. induction H as [|[k' v'] s Hk Hs IH]; cbn [ms_set].
  - apply Forall_cons; [exact V | apply Forall_nil].
  - destruct (k =? k')%N; apply Forall_cons; auto.
Qed.

Lemma ms_get_all P k s v : ms_all P s -> ms_get k s = Some v -> P v.
Proof.
  induction 1 as [|[k' v'] s Hk _ IH]; cbn [ms_get]; [discriminate|].
  destruct (k =? k')%N; [intros [= <-]; exact Hk | exact IH].
Qed.

(* a call stores 0, a sum checked to lie within mint_min .. int_max, or (set_asset) an amount not below mint_min *)
Lemma mint_step_all (P : Z -> Prop) s op :
  P 0 -> (forall z, mint_min <= z <= int_max -> P z) -> (mint_min <= mint_op_amount op -> P (mint_op_amount op)) ->
  ms_all P s -> ms_all P (fst (mint_step s op)).
Proof.
  intros P0 PR PA H. destruct op as [k a | k a]; cbn [mint_step mint_op_amount] in *.
  - destruct ((a =? 0) || (a <? mint_min)); [exact H|].
    assert (H0 : ms_all P match ms_get k s with Some _ => s | None => ms_set k 0 s end)
      by (destruct (ms_get k s); [exact H | apply ms_set_all; assumption]).
    destruct (i128_ok _ && _) eqn:C; cbn [fst]; [|exact H0].
    apply andb_true_iff in C. apply ms_set_all; [exact H0 | apply PR; lia].
  - destruct ((a =? 0) || (a <? mint_min)) eqn:G; cbn [fst]; [exact H | apply ms_set_all; [exact H | apply PA; lia]].
Qed.

(* since /repo 0175f0b the builder never holds -2^64 (whose as_negative is truncated) *)
Lemma mint_step_above_min s op : Forall (fun kv : N * Z => snd kv <> int_min) s ->
  Forall (fun kv : N * Z => snd kv <> int_min) (fst (mint_step s op)).
Proof. apply (mint_step_all (fun z => z <> int_min)); unfold mint_min, int_max, int_min, two64Z; lia. Qed.

(* the builder's own range -(2^64-1) .. 2^64-1 (since /repo 0175f0b), narrower than Int's *)
Definition in_mint_range (z : Z) : Prop := mint_min <= z <= int_max.

Lemma in_mint_range_int z : in_mint_range z -> int_in_range z = true /\ z <> int_min.
Proof. unfold in_mint_range, mint_min, int_max, int_min. intros H. split; [apply int_in_range_iff|]; unfold two64Z in *; lia. Qed.

Theorem mint_run_mint_range ops : forall s, ms_all in_mint_range s ->
  forallb (fun op => int_in_range (mint_op_amount op)) ops = true ->
  ms_all in_mint_range (fst (mint_run mint_step s ops)).
Proof.
  induction ops as [|op ops IH]; intros s H A; cbn [mint_run]; [exact H|].
  cbn [forallb] in A. apply andb_true_iff in A. destruct A as [A1 A2]. apply int_in_range_iff in A1.
  assert (H1 : ms_all in_mint_range (fst (mint_step s op))).
  { apply mint_step_all; try exact H; unfold in_mint_range, mint_min, int_max, two64Z in *; lia. }
  destruct (mint_step s op) as [s1 ok]. specialize (IH s1 H1 A2). destruct (mint_run mint_step s1 ops). exact IH.
Qed.

(* hence every quantity build() can release is an Int, and not -2^64 *)
Corollary mint_run_get_mint_range ops k z : forallb (fun op => int_in_range (mint_op_amount op)) ops = true ->
  ms_get k (fst (mint_run mint_step [] ops)) = Some z -> in_mint_range z.
Proof. intros W. apply ms_get_all, mint_run_mint_range; [apply Forall_nil | exact W]. Qed.

(* the unchecked accumulation (before /repo 3669e5e) leaves the range after two calls *)
Lemma mint_legacy_refuted :
  let ops := [MAdd 0%N int_max; MAdd 0%N int_max] in
  forallb (fun op => int_in_range (mint_op_amount op)) ops = true /\
  ms_get 0%N (fst (mint_run mint_step_legacy [] ops)) = Some (2 * int_max) /\ int_in_range (2 * int_max) = false /\
  int_serialize (2 * int_max) = int_serialize (int_max - 1).      (* truncated on the wire *)
Proof. repeat split; vm_compute; reflexivity. Qed.

Definition int_src_bytes_ok (src : int_src) : Prop :=
  match src with SFromBytes bs => bytes_ok bs | _ => True end.

Lemma two64_Z x : (x <? two64)%N = true -> 0 <= Z.of_N x < two64Z.
Proof. intros H. assert (Z.of_N two64 = two64Z) by reflexivity. lia. Qed.

Lemma int_from_bytes_in_range bs z : bytes_ok bs -> int_from_bytes bs = Ok z -> int_in_range z = true.
Proof.
  intros B. unfold int_from_bytes, int_deserialize. destruct (decode_head bs) as [[[m a] r]|] eqn:D; [|discriminate].
  destruct a as [arg|]; [|destruct m as [|[|[|[]|]|]]; discriminate].
  pose proof (decode_head_arg_lt bs m arg r B D) as Bn.
  assert (Bz : 0 <= Z.of_N arg < two64Z) by (apply two64_Z; lia). clear Bn D.
  destruct m as [|[|[|[]|]|]]; cbn [bind]; try discriminate; intros X; inversion X; subst; apply int_in_range_iff; lia.
Qed.

Lemma meta_encode_number_in_range jf oc s z : meta_encode_number_gen jf oc s = Ok z -> int_in_range z = true.
Proof.
  unfold meta_encode_number_gen. destruct s as [|c s]; [discriminate|]. destruct (N.eqb c ch_plus); [discriminate|].
  assert (Neg : forall x, int_in_range (int_new_negative (Z.to_N ((- x) mod two64Z))) = true).
  { intros x. apply int_in_range_iff. unfold int_new_negative.
    pose proof (Z.mod_pos_bound (- x) two64Z eq_refl). rewrite Z2N.id by lia. lia. }
  destruct (parse_u64 (c :: s)) as [x| | |] eqn:P.
  1: { apply parse_u64_canon in P. destruct P as [P _]. intros [= <-]. apply int_in_range_iff.
       unfold int_new. assert (0 <= Z.of_N x < two64Z) by (apply two64_Z; lia). lia. }
  all: destruct (parse_i64 (c :: s)) as [x| | |]; try discriminate;
    destruct ((x =? - two63) && negb jf && oc); [discriminate|]; intros [= <-]; apply Neg.
Qed.

Theorem int_obtain_in_range src z : int_src_wf src = true -> int_src_bytes_ok src ->
  int_obtain src = Some z -> int_in_range z = true.
Proof.
  intros W B. unfold int_obtain. destruct src; cbn [int_obtain_gen int_src_wf int_src_bytes_ok] in W, B |- *.
  - intros [= <-]. apply two64_Z in W. apply int_in_range_iff. unfold int_new. lia.
  - intros [= <-]. apply two64_Z in W. apply int_in_range_iff. unfold int_new_negative. lia.
  - intros [= <-]. apply int_in_range_iff. unfold int_new_i32. change two31 with 2147483648 in W.
    assert (2147483648 < two64Z) by reflexivity. lia.
  - destruct (int_from_str s) as [x| | |] eqn:E; try discriminate. intros [= <-]. apply int_from_str_ok in E. apply E.
  - destruct (int_from_bytes bs) as [x| | |] eqn:E; try discriminate.
    intros [= <-]. eapply int_from_bytes_in_range; eassumption.
  - unfold bigint_as_int. destruct (Z.abs z0 <? two64Z) eqn:A; [|discriminate].
    intros [= <-]. apply int_in_range_iff. lia.
  - destruct (meta_encode_number_gen true false s) as [x| | |] eqn:E; try discriminate.
    intros [= <-]. eapply meta_encode_number_in_range; eassumption.
  - unfold meta_key_int_gen, meta_key_checked. destruct (parse_i128 s) as [x| | |]; try discriminate.
    destruct ((- int_max <=? x) && (x <=? int_max)) eqn:R; [|discriminate].
    intros [= <-]. apply int_in_range_iff. unfold int_max in R. lia.
  - intros G. exact (proj1 (in_mint_range_int z (mint_run_get_mint_range ops k z W G))).
Qed.

(* premises of int_obtain_in_range are satisfiable on non-trivial sources *)
Example int_obtain_example :
  let src := SMint [MAdd 1%N (- int_max); MSet 2%N 5; MAdd 1%N int_max; MAdd 1%N int_max; MAdd 1%N 7] 1%N in
  int_src_wf src = true /\ int_src_bytes_ok src /\ int_obtain src = Some int_max.
Proof. repeat split; vm_compute; reflexivity. Qed.

(* the JSON number written for a metadata integer denotes it exactly (or the conversion is an explicit error) *)
Theorem meta_int_to_json_exact z t : meta_int_to_json z = Ok t -> parse_i128 t = Ok z.
Proof.
  unfold meta_int_to_json. assert (two64Z < two127) by reflexivity. assert (- two127 < - two63) by reflexivity.
  destruct (0 <=? z) eqn:S.
  - destruct (z <? two64Z) eqn:B; [|discriminate]. intros [= <-]. apply parse_i128_print. lia.
  - destruct (- two63 <=? z) eqn:B; [|discriminate]. intros [= <-]. apply parse_i128_print. lia.
Qed.
Lemma meta_int_to_json_total z : meta_int_to_json z = Err \/ exists t, meta_int_to_json z = Ok t.
Proof. unfold meta_int_to_json. destruct (0 <=? z); [destruct (z <? two64Z) | destruct (- two63 <=? z)]; eauto. Qed.
