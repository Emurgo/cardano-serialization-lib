(* Proofs about Num/Mint.v: Mint::as_positive_multiasset / as_negative_multiasset report, for every asset, exactly the
   minted / burnt quantity — for Mints whose policies are pairwise distinct and which do not hold -2^64 (the two known classes). *)
From CSL Require Import Base.Prelude Num.IntRange Num.IntRangeProofs Num.Value Num.ValueProofs Num.Mint.
Local Open Scope Z_scope.

Definition amount_ok (z : Z) : Prop := int_in_range z = true /\ z <> int_min.

(* what one quantity contributes to the side s (true = minted, false = burnt) of the conversion *)
Definition side_qty (s : bool) (z : Z) : option N :=
  if Bool.eqb (int_is_positive z) s then (if s then int_as_positive z else int_as_negative z) else None.

Lemma side_qty_spec s z : amount_ok z ->
  match side_qty s z with Some q => Z.of_N q = signed_part s z /\ (q < two64)%N | None => signed_part s z = 0 end.
Proof.
  intros [R M]. destruct (int_accessors_exact z R M) as [P [Ng _]]. apply int_in_range_iff in R.
  assert (T : Z.of_N two64 = two64Z) by reflexivity.
  unfold side_qty, signed_part, int_is_positive, int_min in *. rewrite P, Ng.
  destruct s, (0 <=? z) eqn:S; cbn [Bool.eqb]; try replace (z <? 0) with true by lia; lia.
Qed.

(* one entry: the filtered asset map holds exactly the wanted part of every amount *)
Lemma mint_entry_assets_spec s a : am_sorted name_cmp a = true -> (forall n z, In (n, z) a -> amount_ok z) ->
  assets_wfb (mint_entry_assets s a) = true /\
  forall n, Z.of_N (aq (mint_entry_assets s a) n) = signed_part s (entry_amount a n).
Proof.
  intros S OK. unfold mint_entry_assets.
  (* f: the step of the model's loop; it inserts what side_qty provides *)
  set (f := fun (acc : assets) (nz : bytes * Z) => if Bool.eqb (int_is_positive (snd nz)) s then _ else acc).
  assert (F : forall acc nz, f acc nz = match side_qty s (snd nz) with Some q => am_insert name_cmp (fst nz) q acc | None => acc end)
    by (intros acc nz; unfold f, side_qty; destruct (Bool.eqb _ s); reflexivity).
  split.
  - apply assets_wfb_iff, (am_inv_fold_insert name_cmp name_key_order fst _ f F); [|apply assets_wfb_iff; reflexivity].
    intros [n z] q I E. pose proof (side_qty_spec s z (OK n z I)) as Sp. cbn [snd] in E. rewrite E in Sp. apply Sp.
  - intros n. unfold aq, assets_get, entry_amount.
    rewrite (am_get_fold_insert name_cmp name_key_order fst _ f F a (am_sorted_nodup name_cmp name_key_order a S)), (am_get_find name_cmp n a).
    destruct (find _ a) as [[n1 z1]|] eqn:Fd; cbn [option_map snd am_get]; [|destruct s; reflexivity].
    apply find_some in Fd. pose proof (side_qty_spec s z1 (OK n1 z1 (proj1 Fd))) as Sp.
    destruct (side_qty s z1); [apply Sp | symmetry; exact Sp].
Qed.

(* the specification is additive over the entry list *)
Lemma spec_fold_acc s m p n : forall acc,
  fold_left (fun t e => if bytes_eqb (fst e) p then t + signed_part s (entry_amount (snd e) n) else t) m acc
  = acc + mint_spec_qty s m p n.
Proof.
  unfold mint_spec_qty. induction m as [|e m IH]; intros acc; cbn [fold_left]; [lia|].
  rewrite IH, (IH (if bytes_eqb (fst e) p then _ else _)). destruct (bytes_eqb (fst e) p); lia.
Qed.

Lemma spec_cons s e m p n :
  mint_spec_qty s (e :: m) p n = (if bytes_eqb (fst e) p then signed_part s (entry_amount (snd e) n) else 0) + mint_spec_qty s m p n.
Proof. unfold mint_spec_qty at 1. cbn [fold_left]. rewrite spec_fold_acc. destruct (bytes_eqb (fst e) p); lia. Qed.

Lemma no_dup_policy m : has_dup_policy m = false -> NoDup (map fst m).
Proof.
  induction m as [|[p a] m IH]; [constructor|]. cbn [has_dup_policy]. rewrite orb_false_iff. intros [D1 D2].
  constructor; [|exact (IH D2)]. intros I. apply in_map_iff in I. destruct I as [e [E I]].
  rewrite <- not_true_iff_false, existsb_exists in D1. apply D1. exists e. split; [exact I | apply bytes_eqb_eq, E].
Qed.

(* with pairwise distinct policies the sum has at most one term *)
Lemma mint_spec_find s m p n : NoDup (map fst m) ->
  mint_spec_qty s m p n = match find (fun e => keq bytes_cmp p (fst e)) m with
                          | Some e => signed_part s (entry_amount (snd e) n) | None => 0 end.
Proof.
  induction m as [|e m IH]; intros D; [reflexivity|]. inversion D as [|? ? NI D']; subst.
  rewrite spec_cons, (IH D'). cbn [find]. change (keq bytes_cmp p (fst e)) with (bytes_eqb p (fst e)). rewrite (bytes_eqb_sym p).
  destruct (bytes_eqb_spec (fst e) p) as [<- |]; [|reflexivity].
  destruct (find _ m) as [e'|] eqn:Fd; [|lia]. apply find_some in Fd. destruct Fd as [I E].
  apply (keq_eq bytes_cmp bytes_key_order) in E. destruct NI. rewrite E. apply in_map, I.
Qed.

Definition mint_ok (m : mint) : Prop :=
  forall p a, In (p, a) m -> am_sorted name_cmp a = true /\ forall n z, In (n, z) a -> amount_ok z.

(* Mint::as_positive_multiasset / as_negative_multiasset are exact outside the two known classes *)
Theorem mint_as_multiasset_exact s m : mint_ok m -> has_dup_policy m = false ->
  ma_wfb (mint_as_multiasset s m) = true /\
  forall p n, Z.of_N (ma_qty (mint_as_multiasset s m) p n) = mint_spec_qty s m p n.
Proof.
  intros OK D. apply no_dup_policy in D. unfold mint_as_multiasset.
  (* f: the step of the model's loop; upd: the non-empty filtered asset map of an entry, if any *)
  set (upd := fun e : bytes * mint_assets => match mint_entry_assets s (snd e) with [] => None | a => Some a end).
  set (f := fun (res : multiasset) (e : bytes * mint_assets) => match mint_entry_assets s (snd e) with [] => res | _ => _ end).
  assert (F : forall res e, f res e = match upd e with Some a => am_insert bytes_cmp (fst e) a res | None => res end)
    by (intros res e; unfold f, upd; destruct (mint_entry_assets s (snd e)); reflexivity).
  assert (E : forall p a, In (p, a) m -> assets_wfb (mint_entry_assets s a) = true /\
                forall n, Z.of_N (aq (mint_entry_assets s a) n) = signed_part s (entry_amount a n))
    by (intros p a I; destruct (OK p a I); apply mint_entry_assets_spec; assumption).
  split.
  - apply ma_wfb_iff, (am_inv_fold_insert bytes_cmp bytes_key_order fst upd f F (fun a => assets_wfb a = true)); [|apply ma_wfb_iff; reflexivity].
    intros [p a] a' I U. unfold upd in U. cbn [snd] in U. replace a' with (mint_entry_assets s a) by (destruct (mint_entry_assets s a); congruence).
    apply (E p a I).
  - intros p n. rewrite ma_qty_unfold, (mint_spec_find s m p n D). unfold ma_get.
    rewrite (am_get_fold_insert bytes_cmp bytes_key_order fst upd f F m D).
    destruct (find _ m) as [[p1 a1]|] eqn:Fd; [|reflexivity]. apply find_some in Fd.
    rewrite <- (proj2 (E p1 a1 (proj1 Fd))). unfold upd. cbn [snd]. destruct (mint_entry_assets s a1); reflexivity.
Qed.

(* the decidable form of the premises *)
Lemma mint_ok_of_bool m : mint_wfb m = true -> mint_has_min m = false -> mint_ok m.
Proof.
  intros W M p a I. unfold mint_wfb in W. rewrite forallb_forall in W. specialize (W (p, a) I). cbn [snd] in W.
  apply andb_true_iff in W. destruct W as [S F]. split; [exact S|]. intros n z Iz.
  rewrite forallb_forall in F. specialize (F (n, z) Iz). cbn [snd] in F. apply andb_true_iff in F. destruct F as [R _].
  split; [exact R|]. intros ->.
  assert (X : mint_has_min m = true); [|congruence].
  unfold mint_has_min. apply existsb_exists. exists (p, a). split; [exact I|]. cbn [snd].
  apply existsb_exists. exists (n, int_min). split; [exact Iz | reflexivity].
Qed.

Example mint_as_multiasset_example :
  let m := [([1%N], [([97%N], 5); ([98%N], - int_max)]); ([2%N], [([], int_max)]); ([3%N], [])] in
  mint_wfb m = true /\ mint_has_min m = false /\ has_dup_policy m = false /\
  mint_as_positive_multiasset m = [([1%N], [([97%N], 5%N)]); ([2%N], [([], (two64 - 1)%N)])] /\
  mint_as_negative_multiasset m = [([1%N], [([98%N], (two64 - 1)%N)])].
Proof. repeat split; vm_compute; reflexivity. Qed.
