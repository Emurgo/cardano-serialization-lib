(* Num/ValueNormProofs.v — the normalised value is well-formed, has the same quantities, and has no empty entries. *)
From CSL Require Import Base.Prelude Num.Value Num.ValueProofs Num.ValueNorm.
Local Open Scope N_scope.

(* Both normalisation passes keep the keys of a sorted map and transform a value or drop its entry. *)
Section Sorted.
  Context {V W : Type}.
  Variable cmp : bytes -> bytes -> comparison.
  Hypothesis KO : key_order cmp.

  Definition am_filter_map (g : V -> option W) (m : list (bytes * V)) : list (bytes * W) :=
    flat_map (fun kv => match g (snd kv) with Some w => [(fst kv, w)] | None => [] end) m.

  Lemma am_filter_map_cons g k v m :
    am_filter_map g ((k, v) :: m) = match g v with Some w => (k, w) :: am_filter_map g m | None => am_filter_map g m end.
  Proof. unfold am_filter_map. cbn [flat_map fst snd]. destruct (g v); reflexivity. Qed.

  Lemma am_filter_map_in g m k w : In (k, w) (am_filter_map g m) -> exists v, In (k, v) m /\ g v = Some w.
  Proof.
    unfold am_filter_map. intros I. apply in_flat_map in I. destruct I as [[k0 v] [I0 I1]]. cbn [fst snd] in I1.
    destruct (g v) as [w'|] eqn:E; [|destruct I1]. destruct I1 as [[= -> ->] | []]. eauto.
  Qed.

  Lemma am_sorted_filter_map g m : am_sorted cmp m = true -> am_sorted cmp (am_filter_map g m) = true.
  Proof.
    induction m as [|[k v] m IH]; intros S; [reflexivity|].
    apply (am_sorted_cons cmp KO) in S. destruct S as [A S]. rewrite am_filter_map_cons.
    destruct (g v) as [w|]; [|exact (IH S)]. apply (am_sorted_cons cmp KO). split; [|exact (IH S)].
    unfold above in *. rewrite Forall_forall in *. intros [k' w'] I.
    destruct (am_filter_map_in g m k' w' I) as [v' [I' _]]. exact (A (k', v') I').
  Qed.

  Lemma am_get_filter_map g m k : am_sorted cmp m = true ->
    am_get cmp k (am_filter_map g m) = match am_get cmp k m with Some v => g v | None => None end.
  Proof.
    induction m as [|[k' v] m IH]; intros S; [reflexivity|].
    apply (am_sorted_cons cmp KO) in S. destruct S as [A S]. rewrite am_filter_map_cons. cbn [am_get].
    destruct (cmp k k') eqn:C.
    - apply (ko_eq cmp KO) in C. subst k'. destruct (g v) as [w|]; cbn [am_get]; [rewrite (ko_refl cmp KO); reflexivity|].
      rewrite (IH S), (above_get cmp k m A). reflexivity.
    - destruct (g v); cbn [am_get]; rewrite ?C; apply (IH S).
    - destruct (g v); cbn [am_get]; rewrite ?C; apply (IH S).
  Qed.
End Sorted.

Lemma assets_drop_zero_filter_map a : assets_drop_zero a = am_filter_map (fun q => if q =? 0 then None else Some q) a.
Proof.
  induction a as [|[n q] a IH]; [reflexivity|]. rewrite am_filter_map_cons, <- IH. unfold assets_drop_zero. cbn [filter snd].
  destruct (q =? 0); reflexivity.
Qed.

Lemma ma_drop_empty_filter_map m :
  ma_drop_empty m = am_filter_map (fun a => match assets_drop_zero a with [] => None | a' => Some a' end) m.
Proof. apply flat_map_ext. intros [p a]. cbn [fst snd]. destruct (assets_drop_zero a); reflexivity. Qed.

Lemma aq_drop_zero a n : am_sorted name_cmp a = true -> aq (assets_drop_zero a) n = aq a n.
Proof.
  intros S. unfold aq, assets_get. rewrite assets_drop_zero_filter_map, (am_get_filter_map name_cmp name_key_order) by exact S.
  destruct (am_get name_cmp n a) as [q|]; [|reflexivity]. destruct (N.eqb_spec q 0); [subst|]; reflexivity.
Qed.

Lemma ma_drop_empty_cons p a m :
  ma_drop_empty ((p, a) :: m) = match assets_drop_zero a with [] => ma_drop_empty m | a' => (p, a') :: ma_drop_empty m end.
Proof. unfold ma_drop_empty. cbn [flat_map fst snd]. destruct (assets_drop_zero a); reflexivity. Qed.

Lemma ma_drop_empty_in p a m : In (p, a) (ma_drop_empty m) -> exists a0, In (p, a0) m /\ a = assets_drop_zero a0 /\ a <> [].
Proof.
  rewrite ma_drop_empty_filter_map. intros I. destruct (am_filter_map_in _ m p a I) as [a0 [I0 E]].
  exists a0. destruct (assets_drop_zero a0); [discriminate|]. injection E as <-. split; [exact I0 | split; [reflexivity | discriminate]].
Qed.

Lemma ma_drop_empty_sorted m : am_sorted bytes_cmp m = true -> am_sorted bytes_cmp (ma_drop_empty m) = true.
Proof. rewrite ma_drop_empty_filter_map. apply (am_sorted_filter_map bytes_cmp bytes_key_order). Qed.

Lemma ma_get_drop_empty m p : am_sorted bytes_cmp m = true ->
  ma_get p (ma_drop_empty m) = match ma_get p m with
                                | Some a => match assets_drop_zero a with [] => None | a' => Some a' end
                                | None => None end.
Proof. unfold ma_get. rewrite ma_drop_empty_filter_map. apply (am_get_filter_map bytes_cmp bytes_key_order). Qed.

Lemma ma_drop_empty_inner_sorted m :
  forallb (fun pa : bytes * assets => am_sorted name_cmp (snd pa)) m = true ->
  forallb (fun pa : bytes * assets => am_sorted name_cmp (snd pa)) (ma_drop_empty m) = true.
Proof.
  intros F. apply forallb_forall. intros [p a] I. cbn [snd].
  destruct (ma_drop_empty_in p a m I) as [a0 [I0 [-> _]]].
  rewrite assets_drop_zero_filter_map. apply (am_sorted_filter_map name_cmp name_key_order). rewrite forallb_forall in F. exact (F (p, a0) I0).
Qed.

Lemma ma_drop_empty_sortedb m : ma_sortedb m = true -> ma_sortedb (ma_drop_empty m) = true.
Proof.
  unfold ma_sortedb. rewrite !andb_true_iff. intros [S F]. split; [apply ma_drop_empty_sorted, S | apply ma_drop_empty_inner_sorted, F].
Qed.

Lemma ma_qty_drop_empty m p n : ma_sortedb m = true -> ma_qty (ma_drop_empty m) p n = ma_qty m p n.
Proof.
  intros S. rewrite !ma_qty_unfold, (ma_get_drop_empty m p (proj1 (proj1 (ma_sortedb_iff m) S))).
  destruct (ma_get p m) as [a|] eqn:G; [|reflexivity].
  rewrite <- (aq_drop_zero a n (ma_sortedb_get m p a S G)). destruct (assets_drop_zero a); reflexivity.
Qed.

(* sortedness is kept and no quantity changes, so the u64 bound is kept *)
Lemma ma_drop_empty_wf m : ma_wfb m = true -> ma_wfb (ma_drop_empty m) = true.
Proof.
  rewrite !ma_wfb_bound_iff. intros [S B]. split; [apply ma_drop_empty_sortedb, S|].
  intros p n. rewrite (ma_qty_drop_empty m p n S). apply B.
Qed.

Theorem value_without_empty_entries_wf v : value_wf v -> value_wf (value_without_empty_entries v).
Proof.
  intros W. apply value_wf_iff in W. destruct W as [C M]. apply value_wf_iff. unfold value_without_empty_entries. cbn [coin multiasset_of].
  split; [exact C|]. destruct (multiasset_of v); [apply ma_drop_empty_wf; exact M | exact I].
Qed.

Theorem value_without_empty_entries_sem v : value_wf v ->
  coin (value_without_empty_entries v) = coin v /\ forall p n, qty (value_without_empty_entries v) p n = qty v p n.
Proof.
  intros W. split; [reflexivity|]. intros p n. rewrite !qty_unfold. unfold value_without_empty_entries. cbn [multiasset_of].
  apply value_wf_iff in W. destruct W as [_ M]. destruct (multiasset_of v); [apply ma_qty_drop_empty, ma_wfb_sortedb, M | reflexivity].
Qed.

(* what is left has no empty entry *)
Lemma assets_drop_zero_clean a : assets_has_zero (assets_drop_zero a) = false.
Proof.
  unfold assets_has_zero, assets_drop_zero. induction a as [|[n q] a IH]; [reflexivity|]. cbn [filter snd].
  destruct (N.eqb_spec q 0); cbn [negb]; [exact IH|]. cbn [existsb snd]. destruct (N.eqb_spec q 0); [contradiction | exact IH].
Qed.

Theorem value_without_empty_entries_clean v : value_has_empty_entries (value_without_empty_entries v) = false.
Proof.
  unfold value_has_empty_entries, value_without_empty_entries. cbn [multiasset_of]. destruct (multiasset_of v) as [m|]; [|reflexivity].
  unfold ma_has_empty_entries. induction m as [|[p a] m IH]; [reflexivity|].
  rewrite ma_drop_empty_cons. destruct (assets_drop_zero a) as [|x l] eqn:E; [exact IH|].
  cbn [existsb snd]. rewrite IH, orb_false_r. rewrite <- E. apply assets_drop_zero_clean.
Qed.

(* a value without empty entries is its own normalisation *)
Lemma assets_drop_zero_id a : assets_has_zero a = false -> assets_drop_zero a = a.
Proof.
  unfold assets_has_zero, assets_drop_zero. induction a as [|[n q] a IH]; [reflexivity|]. cbn [existsb filter snd].
  intros H. apply orb_false_iff in H. destruct H as [H1 H2]. rewrite H1. cbn [negb]. rewrite (IH H2). reflexivity.
Qed.

Theorem value_without_empty_entries_id v : value_has_empty_entries v = false -> value_without_empty_entries v = v.
Proof.
  unfold value_has_empty_entries, value_without_empty_entries. destruct v as [c [m|]]; cbn [coin multiasset_of]; [|reflexivity].
  intros H. f_equal. f_equal. unfold ma_has_empty_entries in H. induction m as [|[p a] m IH]; [reflexivity|].
  cbn [existsb snd] in H. apply orb_false_iff in H. destruct H as [H1 H2].
  rewrite ma_drop_empty_cons, (IH H2).
  destruct a as [|x l]; [discriminate|]. rewrite (assets_drop_zero_id _ H1). reflexivity.
Qed.
