(* Proofs about Num/BigIntCbor.v: BigInt survives its CBOR encoding (uint / nint / tag 2 / tag 3 with 64-byte
   chunks) and its decimal text, for integers of any size. *)
From CSL Require Import Base.Prelude Cbor.Head Cbor.HeadProofs Num.Decimal Num.DecimalProofs Num.IntRange Num.IntRangeProofs Num.BigIntCbor.
Local Open Scope N_scope.

Lemma encode_head_first m n : exists b t, encode_head m n = b :: t /\ b / 32 = m.
Proof.
  unfold encode_head.
  destruct (n <? 24) eqn:E1; [|destruct (n <? 256); [|destruct (n <? 65536); [|destruct (n <? 4294967296)]]];
    (eexists _, _; split; [reflexivity | apply initial_byte; lia]).
Qed.

Lemma decode_head_indef_bytes r : decode_head (95 :: r) = Some (2, Indef, r).
Proof. reflexivity. Qed.

Definition chunk_ok (c : bytes) : Prop := (0 < length c <= 64)%nat.

Lemma chunks_aux_spec fuel : forall bs, (length bs <= fuel)%nat ->
  concat (chunks_aux fuel bs) = bs /\ Forall chunk_ok (chunks_aux fuel bs).
Proof.
  induction fuel as [|f IH]; intros bs L; cbn [chunks_aux].
  - destruct bs; [split; [reflexivity | constructor] | cbn in L; lia].
  - destruct bs as [|b bs]; [split; [reflexivity | constructor]|].
    assert (L' : (length (skipn chunk_size (b :: bs)) <= f)%nat).
    { rewrite skipn_length. unfold chunk_size. cbn [length] in *. lia. }
    destruct (IH _ L') as [C F]. split.
    + cbn [concat]. rewrite C. apply firstn_skipn.
    + constructor; [|exact F]. unfold chunk_ok. rewrite firstn_length. unfold chunk_size. cbn [length]. lia.
Qed.

Lemma chunks_spec bs : concat (chunks bs) = bs /\ Forall chunk_ok (chunks bs).
Proof. apply chunks_aux_spec. lia. Qed.

(* the chunk loop reads back what the writer emitted *)
Lemma enc_bytes_read c tl : (length c <= 64)%nat ->
  decode_head (enc_bytes c ++ tl) = Some (2, Arg (N.of_nat (length c)), c ++ tl).
Proof.
  intros L. unfold enc_bytes. rewrite <- app_assoc. apply decode_encode_head. unfold two64. lia.
Qed.

Lemma read_chunks_spec cs : forall fuel acc rest, Forall chunk_ok cs -> (length cs < fuel)%nat ->
  read_chunks fuel (concat (map enc_bytes cs) ++ 255 :: rest) acc = Ok (acc ++ concat cs, rest).
Proof.
  induction cs as [|c cs IH]; intros fuel acc rest F L; (destruct fuel as [|f]; [cbn in L; lia|]).
  - cbn [map concat app read_chunks]. change (255 / 32 =? 7) with true. change (255 =? 255) with true.
    cbv iota. rewrite app_nil_r. reflexivity.
  - inversion F as [|? ? Hc F']; subst. destruct Hc as [Hc0 Hc].
    cbn [map concat]. rewrite <- app_assoc.
    set (tl := concat (map enc_bytes cs) ++ 255 :: rest).
    pose proof (enc_bytes_read c tl Hc) as D.
    destruct (encode_head_first 2 (N.of_nat (length c))) as [b [t [E Hb]]].
    assert (E' : enc_bytes c ++ tl = b :: (t ++ c ++ tl)) by (unfold enc_bytes; rewrite E, <- app_assoc; reflexivity).
    rewrite E' in *. cbn [read_chunks]. rewrite Hb. change (2 =? 7) with false. cbv iota. rewrite D.
    replace (64 <? N.of_nat (length c)) with false by lia.
    rewrite Nat2N.id, split_at_app by reflexivity. subst tl.
    rewrite (IH f (acc ++ c) rest F') by (cbn [length] in L; lia). rewrite <- app_assoc. reflexivity.
Qed.

Theorem read_write_bounded_bytes bs rest : read_bounded_bytes (write_bounded_bytes bs ++ rest) = Ok (bs, rest).
Proof.
  unfold write_bounded_bytes, read_bounded_bytes. destruct (length bs <=? chunk_size)%nat eqn:E.
  - apply Nat.leb_le in E. unfold chunk_size in E. rewrite (enc_bytes_read bs rest E).
    rewrite Nat2N.id, split_at_app by reflexivity. replace (64 <? N.of_nat (length bs)) with false by lia. reflexivity.
  - cbn [app]. rewrite decode_head_indef_bytes. destruct (chunks_spec bs) as [C F].
    rewrite <- app_assoc. cbn [app].
    rewrite (read_chunks_spec (chunks bs)); [rewrite C; reflexivity | exact F |].
    rewrite !app_length. cbn [length].
    assert (X : (length (chunks bs) <= length (concat (map enc_bytes (chunks bs))))%nat).
    { clear C. induction F as [|c cs Hc _ IH]; [cbn; lia|]. cbn [map concat length]. rewrite app_length.
      unfold enc_bytes at 1. rewrite app_length. destruct Hc. lia. }
    lia.
Qed.

Lemma byte_len_bound n : n < 256 ^ N.of_nat (byte_len n).
Proof.
  unfold byte_len. rewrite N2Nat.id. destruct (N.eq_dec n 0) as [-> | NZ]; [reflexivity|].
  pose proof (N.log2_spec n ltac:(lia)) as [_ U].
  assert (P : 2 ^ N.succ (N.log2 n) <= 256 ^ (N.log2 n / 8 + 1)).
  { change 256 with (2 ^ 8). rewrite <- N.pow_mul_r. apply N.pow_le_mono_r; [lia|].
    pose proof (N.div_mod (N.log2 n) 8 ltac:(lia)). pose proof (N.mod_lt (N.log2 n) 8 ltac:(lia)). lia. }
  lia.
Qed.

Theorem from_to_bytes_be n : from_bytes_be (to_bytes_be n) = n.
Proof. unfold from_bytes_be, to_bytes_be. rewrite unbe_be by apply byte_len_bound. lia. Qed.

Theorem bigint_cbor_roundtrip z rest : bigint_deserialize (bigint_serialize z ++ rest) = Ok (z, rest).
Proof.
  unfold bigint_serialize, bigint_deserialize.
  assert (T : Z.of_N two64 = two64Z) by reflexivity. assert (T0 : (0 < two64Z)%Z) by reflexivity.
  destruct ((0 <=? z) && (z <? two64Z))%Z eqn:C1.
  - rewrite decode_encode_head by lia. f_equal. f_equal. lia.
  - destruct ((- two64Z <=? z) && (z <? 0))%Z eqn:C2.
    + rewrite decode_encode_head by lia. f_equal. f_equal. lia.
    + destruct (0 <? z)%Z eqn:C3.
      * rewrite <- app_assoc, decode_encode_head by (unfold two64; lia).
        rewrite read_write_bounded_bytes. cbn [bind]. change (2 =? 2) with true. cbv iota.
        rewrite from_to_bytes_be. f_equal. f_equal. lia.
      * rewrite <- app_assoc, decode_encode_head by (unfold two64; lia).
        rewrite read_write_bounded_bytes. cbn [bind]. change (3 =? 2) with false. change (3 =? 3) with true. cbv iota.
        rewrite from_to_bytes_be. f_equal. f_equal. lia.
Qed.

Corollary bigint_from_bytes_roundtrip z : bigint_from_bytes (bigint_serialize z) = Ok z.
Proof.
  unfold bigint_from_bytes. rewrite <- (app_nil_r (bigint_serialize z)), bigint_cbor_roundtrip. reflexivity.
Qed.

(* the encoding before /repo 07262c5 agrees with the current one except for the debug panic at -2^63 *)
Lemma bigint_serialize_legacy_agrees oc z : (oc = false \/ z <> - two63)%Z ->
  bigint_serialize_legacy oc z = Ok (bigint_serialize z).
Proof.
  intros H. unfold bigint_serialize_legacy. destruct ((- two64Z <=? z) && (z <? 0))%Z eqn:C; [|reflexivity].
  rewrite nint_arg_legacy_exact by (auto; lia). cbn [bind]. unfold bigint_serialize.
  replace ((0 <=? z) && (z <? two64Z))%Z with false by lia. rewrite C. reflexivity.
Qed.

Lemma bigint_serialize_legacy_refuted : bigint_serialize_legacy true (- two63)%Z = Panic.
Proof. vm_compute. reflexivity. Qed.

Theorem bigint_decimal_roundtrip z : bigint_from_str (bigint_to_str z) = Ok z.
Proof. apply parse_bigint_print. Qed.

(* the chunked path is exercised: a 2000-bit integer *)
Example bigint_roundtrip_example :
  let z := (- 2 ^ 2000 - 12345)%Z in
  bigint_from_bytes (bigint_serialize z) = Ok z /\ (64 < length (to_bytes_be (Z.to_N (-1 - z))))%nat /\
  bigint_from_str (bigint_to_str z) = Ok z.
Proof. split; [apply bigint_from_bytes_roundtrip | split; [vm_compute; lia | apply bigint_decimal_roundtrip]]. Qed.
