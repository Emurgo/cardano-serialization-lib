(* Num/C14ModelProofs.v — the executable judge of the correspondence run (Num/C14Model.v) accepts the model's own
   observations, for ALL inputs: so a `fails` verdict on the implementation is a statement about the implementation, and
   the judge's conditions are consequences of the theorems of Num/*Proofs.v.  The exactness of the BigNum operations
   (Num/U64.v), which the first judge rests on, is proved here as well. *)
From CSL Require Import Base.Prelude Base.U64 Cbor.Head Num.Decimal Num.U64 Num.IntRange Num.BigIntCbor Num.Value Num.Mint Num.C14Model.
From CSL Require Import Num.DecimalProofs Num.IntRangeProofs Num.BigIntCborProofs Num.ValueProofs Num.MintProofs.
Local Open Scope N_scope.

Lemma resN_eqb_refl r : resN_eqb r r = true.
Proof. destruct r; cbn; auto using N.eqb_refl. Qed.
Lemma resZ_eqb_refl r : resZ_eqb r r = true.
Proof. destruct r; cbn; auto using Z.eqb_refl. Qed.
Lemma optN_eqb_refl o : optN_eqb o o = true.
Proof. destruct o; cbn; auto using N.eqb_refl. Qed.
Lemma optZ_eqb_refl o : optZ_eqb o o = true.
Proof. destruct o; cbn; auto using Z.eqb_refl. Qed.
Lemma text_eqb_refl t : text_eqb t t = true.
Proof. induction t as [|c t IH]; cbn [text_eqb]; [reflexivity | rewrite N.eqb_refl; exact IH]. Qed.

(* the specification on a result that is a natural number: the u64 test on it *)
Lemma exact_or_error_of_N m : exact_or_error_u64 (Some (Z.of_N m)) = if m <? two64 then Ok m else Err.
Proof.
  cbn [exact_or_error_u64]. rewrite N2Z.id. assert (E : two64Z = Z.of_N two64) by reflexivity.
  destruct (m <? two64) eqn:T; [rewrite (proj2 (andb_true_iff _ _)) by lia | rewrite (proj2 (andb_false_iff _ _)) by lia];
    reflexivity.
Qed.

(* the BigNum operations are exact or fail explicitly *)
Lemma bn_apply_exact (op : bn_op) (a b : N) :
  a < two64 -> b < two64 -> known_div_by_zero op b = false ->
  bn_apply op a b = exact_or_error_u64 (bn_exact op a b).
Proof.
  intros Ha Hb K. destruct op; cbn [bn_apply bn_exact known_div_by_zero] in *;
    unfold checked_add, checked_sub, checked_mul, clamped_sub, div_floor.
  - rewrite <- N2Z.inj_add. symmetry. apply exact_or_error_of_N.
  - destruct (b <=? a) eqn:T.
    + rewrite <- N2Z.inj_sub, exact_or_error_of_N by lia. replace (a - b <? two64) with true by lia. reflexivity.
    + cbn [exact_or_error_u64]. replace (0 <=? Z.of_N a - Z.of_N b)%Z with false by lia. reflexivity.
  - rewrite <- N2Z.inj_mul. symmetry. apply exact_or_error_of_N.
  - rewrite <- N2Z.inj_sub_max, exact_or_error_of_N. replace (a - b <? two64) with true by lia. reflexivity.
  - rewrite K, <- N2Z.inj_div, exact_or_error_of_N.
    assert (a / b <= a) by (apply N.div_le_upper_bound; nia). replace (a / b <? two64) with true by lia. reflexivity.
Qed.

Theorem judge_bn_accepts op a b : a < two64 -> b < two64 ->
  judge_bn op a b (model_bn op a b) = if known_div_by_zero op b then Fails cls_div_zero else Holds.
Proof.
  intros Ha Hb. unfold judge_bn, model_bn. destruct (known_div_by_zero op b) eqn:K.
  - destruct op; cbn in K; try discriminate. apply N.eqb_eq in K. subst b. reflexivity.
  - rewrite (bn_apply_exact op a b Ha Hb K), resN_eqb_refl. reflexivity.
Qed.

Lemma judge_int_obs_accepts z : int_in_range z = true ->
  judge_int_obs (int_observe z) = if (z =? int_min)%Z then Fails cls_as_negative else Holds.
Proof.
  intros R. unfold judge_int_obs, int_observe. cbn [io_val io_cbor io_str_rt io_cbor_rt io_json_rt io_meta_json io_pos io_neg io_i32].
  rewrite R. cbn [negb]. rewrite (int_from_bytes_roundtrip z R), (int_decimal_roundtrip z R), !resZ_eqb_refl. cbn [andb negb].
  assert (MJ : match meta_int_to_json z with Ok t => resZ_eqb (parse_i128 t) (Ok z) | Err => true | _ => false end = true).
  { destruct (meta_int_to_json_total z) as [E | [t E]]; rewrite E; [reflexivity|]. rewrite (meta_int_to_json_exact z t E). apply resZ_eqb_refl. }
  rewrite MJ. cbn [negb].
  destruct (z =? int_min)%Z eqn:M.
  - apply Z.eqb_eq in M. subst z. reflexivity.
  - apply Z.eqb_neq in M. destruct (int_accessors_exact z R M) as [P [Ng I]]. rewrite P, Ng, I, !optN_eqb_refl, optZ_eqb_refl.
    reflexivity.
Qed.

(* an exact source yields exactly its value, and a source with a prescribed value yields no other *)
Lemma int_obtain_exact src : match int_src_exact src with Some z => int_obtain src = Some z | None => True end.
Proof. destruct src; cbn; try exact I; try reflexivity. unfold bigint_as_int. destruct (Z.abs z <? two64Z)%Z; [reflexivity | exact I]. Qed.

Lemma int_obtain_value src z : int_obtain src = Some z ->
  match int_src_value src with Some z' => negb (z =? z')%Z | None => false end = false.
Proof.
  destruct src; cbn; try reflexivity; unfold bigint_as_int; try destruct (Z.abs _ <? two64Z)%Z;
    intros [= <-]; rewrite Z.eqb_refl; reflexivity.
Qed.

(* an accepted literal is the canonical text of the Int it yields *)
Lemma int_obtain_text src z : int_obtain src = Some z -> int_src_text_ok src z = true.
Proof.
  assert (T : forall s x, parse_i128 s = Ok x -> text_eqb (print_Z x) (canon_signed s) = true)
    by (intros s x P; rewrite (proj2 (parse_i128_canon s x P)); apply text_eqb_refl).
  destruct src; cbn [int_src_text_ok]; try reflexivity; cbn; unfold int_from_str, meta_key_int_gen;
    destruct (parse_i128 s) as [x| | |] eqn:P; cbn [bind]; try discriminate.
  - destruct (int_in_range x); [intros [= <-]; exact (T s x P) | discriminate].
  - destruct (_ && _); [intros [= <-]; exact (T s x P) | discriminate].
Qed.

Theorem judge_int_accepts src : int_src_wf src = true -> int_src_bytes_ok src ->
  judge_int src (model_int src) = Holds \/
  (judge_int src (model_int src) = Fails cls_as_negative /\ int_obtain src = Some int_min).
Proof.
  intros W B. unfold judge_int, model_int. pose proof (int_obtain_exact src) as X.
  destruct (int_obtain src) as [z|] eqn:O; cbn [option_map].
  - change (io_val (int_observe z)) with z.
    rewrite (int_obtain_value src z O), (int_obtain_text src z O), (judge_int_obs_accepts z (int_obtain_in_range src z W B O)).
    cbn [negb]. destruct (Z.eqb_spec z int_min) as [-> | _]; [right | left]; destruct src; auto.
  - left. destruct (int_src_exact src); [discriminate | reflexivity].
Qed.

Theorem judge_biz_accepts z : judge_biz z (model_biz z) = Holds.
Proof.
  unfold judge_biz, model_biz. cbn [bo_cbor bo_cbor_rt bo_str bo_str_rt bo_u64 bo_int bo_zero].
  rewrite bigint_from_bytes_roundtrip, bigint_decimal_roundtrip, !resZ_eqb_refl.
  unfold bigint_as_u64, bigint_as_int, bi_is_zero. rewrite optN_eqb_refl, optZ_eqb_refl, Bool.eqb_reflx. reflexivity.
Qed.

(* decoding never panics: every leaf of the three decoders is Ok, Err or OutOfFuel (the only major types that are
   not refused at once are 2, resp. 0, 1 and 6) *)
Lemma read_chunks_no_panic f : forall bs acc, read_chunks f bs acc <> Panic.
Proof.
  induction f as [|f IH]; intros bs acc H; cbn [read_chunks] in H; [discriminate|].
  destruct bs as [|b0 r0]; [discriminate|]. destruct (b0 / 32 =? 7); [destruct (b0 =? 255); discriminate|].
  destruct (decode_head (b0 :: r0)) as [[[[|[p|[p|p|]|]] [l|]] r3]|]; try discriminate.
  destruct (64 <? l); [discriminate|]. destruct (split_at (N.to_nat l) r3) as [[c r4]|]; [exact (IH _ _ H) | discriminate].
Qed.

Lemma read_bounded_bytes_no_panic bs : read_bounded_bytes bs <> Panic.
Proof.
  unfold read_bounded_bytes. intros H.
  destruct (decode_head bs) as [[[[|[p|[p|p|]|]] [l|]] r]|]; try discriminate; [|exact (read_chunks_no_panic _ _ _ H)].
  destruct (split_at (N.to_nat l) r) as [[c r3]|]; [destruct (64 <? l)|]; discriminate.
Qed.

Lemma bigint_from_bytes_no_panic bs : bigint_from_bytes bs <> Panic.
Proof.
  unfold bigint_from_bytes, bigint_deserialize. intros H.
  destruct (decode_head bs) as [[[[|[p|[[p|p|]|p|]|]] [tag|]] r]|]; cbn [bind] in H; try discriminate.
  pose proof (read_bounded_bytes_no_panic r) as NP. destruct (read_bounded_bytes r) as [[b r']| | |]; cbn [bind] in H; try discriminate; [|congruence].
  destruct (tag =? 2); [discriminate|]. destruct (tag =? 3); discriminate.
Qed.

Theorem judge_bibytes_accepts bs : judge_bibytes bs (model_bibytes bs) = Holds \/ model_bibytes bs = OutOfFuel.
Proof.
  unfold judge_bibytes, model_bibytes. pose proof (bigint_from_bytes_no_panic bs) as NP.
  destruct (bigint_from_bytes bs) as [z| | |] eqn:E; cbn [bind].
  - left. rewrite bigint_from_bytes_roundtrip, !resZ_eqb_refl. reflexivity.
  - left. reflexivity.
  - congruence.
  - right. reflexivity.
Qed.

Theorem judge_biop_accepts op a b :
  judge_biop op a b (model_biop op a b) = if (match op with BDivFloor | BDivCeil => (b =? 0)%Z | _ => false end) then Fails cls_div_zero else Holds.
Proof.
  unfold judge_biop, model_biop, bi_exact, bi_apply. destruct op; try (rewrite Z.eqb_refl; reflexivity).
  - destruct (b =? 0)%Z; [reflexivity | rewrite Z.eqb_refl; reflexivity].
  - destruct (b =? 0)%Z eqn:E; [reflexivity|]. apply Z.eqb_neq in E. unfold check.
    destruct (a mod b =? 0)%Z eqn:M.
    + apply Z.eqb_eq in M. replace (- (- a / b))%Z with (a / b)%Z; [rewrite Z.eqb_refl; reflexivity|].
      rewrite Z.div_opp_l_z by assumption. lia.
    + apply Z.eqb_neq in M. replace (- (- a / b))%Z with (a / b + 1)%Z; [rewrite Z.eqb_refl; reflexivity|].
      rewrite Z.div_opp_l_nz by assumption. lia.
Qed.

Lemma judge_mint_entry_accepts z : in_mint_range z -> z <> 0%Z -> judge_mint_entry (Some (mint_observe_entry z)) = true.
Proof.
  intros R NZ. destruct (in_mint_range_int z R) as [Ri Rm]. destruct (int_accessors_exact z Ri Rm) as [P [Ng _]].
  cbn [judge_mint_entry mint_observe_entry]. rewrite P, Ng, (int_from_bytes_roundtrip z Ri), resZ_eqb_refl.
  unfold in_mint_range in R. destruct (0 <=? z)%Z eqn:S1; [replace (z <? 0)%Z with false by lia | replace (z <? 0)%Z with true by lia];
    cbn [orN]; repeat (apply andb_true_iff; split); try reflexivity; lia.
Qed.

Theorem judge_mint_accepts ops : forallb (fun op => int_in_range (mint_op_amount op)) ops = true ->
  judge_mint ops (model_mint ops) = Holds.
Proof.
  intros W. unfold judge_mint, model_mint.
  pose proof (fun k => mint_run_get_mint_range ops k) as R.
  destruct (mint_run mint_step [] ops) as [s oks]. cbn [fst snd] in *.
  unfold mint_build. destruct (forallb (fun kv : N * Z => negb (snd kv =? 0)%Z) s) eqn:NZ; cbn [bind snd]; [|reflexivity].
  assert (A : forall k, judge_mint_entry (option_map mint_observe_entry (ms_get k s)) = true).
  { intros k. destruct (ms_get k s) as [z|] eqn:G; [|reflexivity]. apply judge_mint_entry_accepts; [exact (R k z W G)|].
    rewrite forallb_forall, <- Forall_forall in NZ. pose proof (ms_get_all (fun z => negb (z =? 0)%Z = true) k s z NZ G) as H. cbv beta in H. lia. }
  unfold mint_keys. cbn [map forallb]. rewrite !A. reflexivity.
Qed.

Theorem judge_mintv_accepts m : mint_wfb m = true -> mint_has_min m = false -> has_dup_policy m = false ->
  judge_mintv m (model_mintv m) = Holds.
Proof.
  intros W M D. unfold judge_mintv, model_mintv. rewrite W. cbn [negb fst snd].
  pose proof (mint_ok_of_bool m W M) as OK.
  assert (S : forall s, mintv_side_ok s m (mint_as_multiasset s m) = true).
  { intros s. destruct (mint_as_multiasset_exact s m OK D) as [Wr Q]. unfold mintv_side_ok. rewrite Wr. cbn [andb].
    apply forallb_forall. intros [p n] _. cbn [fst snd]. rewrite Q. apply Z.eqb_refl. }
  unfold mint_as_positive_multiasset, mint_as_negative_multiasset. rewrite !S. reflexivity.
Qed.

(* The judge quantifies over the keys that some value of the list mentions; at every other key all quantities are 0.
   So a test that holds wherever all quantities vanish holds on the listed keys iff it holds everywhere. *)
Lemma keys_cover vs p n : In (p, n) (keys_of vs) \/ forall v, In v vs -> qty v p n = 0.
Proof.
  induction vs as [|v vs IH]; [right; intros v []|]. unfold keys_of. cbn [flat_map]. rewrite in_app_iff.
  destruct (N.eq_dec (qty v p n) 0) as [Z | NZ].
  - destruct IH as [I | Zs]; [left; right; exact I | right; intros w [<- | I]; auto].
  - left. left. rewrite opt_ma_qty_unfold in NZ. apply in_map_iff.
    exists (p, n, ma_qty (opt_ma (multiasset_of v)) p n). split; [reflexivity | apply qty_in_entries, NZ].
Qed.

Lemma all_keys_intro vs f : (forall p n, f p n = true) -> all_keys vs f = true.
Proof. intros H. apply forallb_forall. intros [p n] _. apply H. Qed.

Lemma all_keys_iff vs f : (forall p n, (forall v, In v vs -> qty v p n = 0) -> f p n = true) ->
  (all_keys vs f = true <-> forall p n, f p n = true).
Proof.
  intros Z. split; [|apply all_keys_intro]. unfold all_keys. rewrite forallb_forall. intros H p n.
  destruct (keys_cover vs p n) as [I | Z0]; [exact (H (p, n) I) | exact (Z p n Z0)].
Qed.

Lemma some_key_none vs f : (forall p n, f p n = false) -> some_key vs f = false.
Proof.
  intros H. unfold some_key. rewrite <- not_true_iff_false, existsb_exists. intros [[p n] [_ F]]. cbn in F. rewrite H in F. discriminate.
Qed.

Lemma some_key_false_iff vs f : (forall p n, (forall v, In v vs -> qty v p n = 0) -> f p n = false) ->
  (some_key vs f = false <-> forall p n, f p n = false).
Proof.
  intros Z. split; [|apply some_key_none]. unfold some_key. rewrite <- not_true_iff_false, existsb_exists. intros H p n.
  destruct (keys_cover vs p n) as [I | Z0]; [|exact (Z p n Z0)].
  apply not_true_iff_false. intros F. apply H. exists (p, n). auto.
Qed.

(* the common tail of the specifications: coin and every listed quantity are the stated ones, and the result is well-formed *)
Lemma exact_components vs c X F : value_wf c -> coin c = X -> (forall p n, qty c p n = F p n) ->
  (coin c =? X) && all_keys vs (fun p n => qty c p n =? F p n) && value_wfb c = true.
Proof. intros W -> Q. rewrite N.eqb_refl, all_keys_intro by (intros p n; rewrite Q; apply N.eqb_refl). exact W. Qed.

Lemma add_overflows_iff a b : add_overflows a b = false <-> totals_fit (coin a + coin b) (fun p n => qty a p n + qty b p n).
Proof.
  unfold add_overflows, totals_fit. rewrite orb_false_iff, N.leb_gt, some_key_false_iff.
  - setoid_rewrite N.leb_gt. reflexivity.
  - intros p n Z. rewrite !Z by (cbn; auto). reflexivity.
Qed.

Lemma spec_add_accepts a b : value_wf a -> value_wf b -> spec_add a b (value_checked_add a b) = true.
Proof.
  intros Wa Wb. pose proof (value_checked_add_sums a b Wa Wb) as C. unfold spec_add.
  destruct (value_checked_add a b) as [c| | |]; try contradiction.
  - rewrite (proj2 (add_overflows_iff a b) (sums_to_fits _ _ _ C)). destruct C as [Wc [Cc Q]]. apply exact_components; assumption.
  - apply not_false_iff_true. intros F. apply C, add_overflows_iff, F.
Qed.

Lemma value_eqb_sem_keys_intro v w : value_eq_sem v w -> value_eqb_sem_keys v w = true.
Proof.
  intros [C Q]. unfold value_eqb_sem_keys. rewrite C, N.eqb_refl. apply all_keys_intro. intros p n. rewrite Q. apply N.eqb_refl.
Qed.

Lemma asset_underflows_iff a b : asset_underflows a b = false <-> forall p n, qty b p n <= qty a p n.
Proof.
  unfold asset_underflows. rewrite some_key_false_iff.
  - setoid_rewrite N.ltb_ge. reflexivity.
  - intros p n Z. rewrite (Z b) by (cbn; auto). apply N.ltb_ge, N.le_0_l.
Qed.

Lemma spec_sub_accepts a b : value_wf a -> value_wf b -> spec_sub a b (value_checked_sub a b) = true.
Proof.
  intros Wa Wb. pose proof (value_checked_sub_cases a b Wa Wb) as C. unfold spec_sub, coin_underflows.
  destruct (value_checked_sub a b) as [c| | |]; try contradiction.
  - destruct C as [Wc [Cb [Cc Q]]]. replace (coin a <? coin b) with false by lia.
    rewrite (proj2 (asset_underflows_iff a b)) by (intros p n; apply Q). apply exact_components; [exact Wc | exact Cc | intros p n; apply Q].
  - destruct C as [O | [p [n O]]]; [replace (coin a <? coin b) with true by lia; reflexivity|].
    apply orb_true_iff. right. apply not_false_iff_true. intros F. rewrite asset_underflows_iff in F. specialize (F p n). lia.
Qed.

Lemma spec_csub_accepts a b : value_wf a -> value_wf b -> spec_csub a b (value_clamped_sub a b) = true.
Proof.
  intros Wa Wb. destruct (value_clamped_sub_spec a b Wa Wb) as [W [C Q]]. apply exact_components; assumption.
Qed.

Lemma spec_msub_accepts a b : value_wf a -> value_wf b ->
  spec_csub (mkValue 0 (multiasset_of a)) (mkValue 0 (multiasset_of b))
            (mkValue 0 (Some (ma_sub (opt_ma (multiasset_of a)) (opt_ma (multiasset_of b))))) = true.
Proof.
  intros Wa Wb. pose proof (opt_ma_wf a Wa) as Ma. pose proof (opt_ma_wf b Wb) as Mb.
  destruct (ma_sub_spec _ _ (ma_wfb_sortedb _ Ma) (ma_wfb_sortedb _ Mb)) as [_ Q].
  apply exact_components; [apply value_wf_iff; split; [reflexivity | exact (ma_sub_wf _ _ Ma Mb)] | reflexivity |].
  intros p n. rewrite !opt_ma_qty_unfold. apply Q.
Qed.

Lemma le_keys_leb a b : value_wf a -> le_keys a b = value_leb_sem a b.
Proof.
  intros Wa. apply eq_true_iff_eq. rewrite (value_leb_sem_iff a b Wa). unfold le_keys, value_le_sem.
  rewrite andb_true_iff, N.leb_le, all_keys_iff.
  - setoid_rewrite N.leb_le. reflexivity.
  - intros p n Z. rewrite (Z a) by (cbn; auto). apply N.leb_le, N.le_0_l.
Qed.

Lemma spec_cmp_accepts a b : value_wf a -> value_wf b -> value_compare a b = spec_cmp a b.
Proof.
  intros Wa Wb. unfold value_compare, spec_cmp. rewrite value_partial_cmp_leb, (le_keys_leb a b Wa), (le_keys_leb b a Wb).
  destruct (value_leb_sem a b), (value_leb_sem b a); reflexivity.
Qed.

Theorem judge_val_accepts a b : value_wf a -> value_wf b -> judge_val a b (model_val a b) = Holds.
Proof.
  intros Wa Wb. unfold judge_val, model_val.
  cbn [vo_add vo_add_rev vo_sub vo_csub vo_msub vo_undo vo_cmp vo_lt vo_le vo_gt vo_ge vo_eq vo_zero].
  unfold value_wf in Wa, Wb. rewrite Wa, Wb. cbn [andb negb].
  rewrite (spec_add_accepts a b Wa Wb), (spec_add_accepts b a Wb Wa). cbn [andb negb].
  pose proof (value_add_comm a b Wa Wb) as CM. unfold same_outcome in CM.
  assert (T1 : match value_checked_add a b, value_checked_add b a with
               | Ok c, Ok c' => value_eqb_sem_keys c c' | Err, Err => true | _, _ => false end = true).
  { destruct (value_checked_add a b), (value_checked_add b a); try contradiction; [apply value_eqb_sem_keys_intro; exact CM | reflexivity]. }
  rewrite T1. cbn [negb]. rewrite (spec_sub_accepts a b Wa Wb). cbn [negb]. rewrite (spec_csub_accepts a b Wa Wb). cbn [negb].
  rewrite (spec_msub_accepts a b Wa Wb). cbn [negb].
  assert (T2 : match value_checked_add a b, match value_checked_add a b with Ok c => Some (value_checked_sub c b) | _ => None end with
               | Ok _, Some (Ok d) => value_eqb_sem_keys d a | Ok _, _ => false | _, None => true | _, Some _ => false end = true).
  { destruct (value_checked_add a b) as [c| | |] eqn:E; try reflexivity.
    destruct (value_sub_undoes_add a b c Wa Wb E) as [d [D S]]. rewrite D. apply value_eqb_sem_keys_intro. exact S. }
  rewrite T2. cbn [negb].
  rewrite <- (spec_cmp_accepts a b Wa Wb), optZ_eqb_refl.
  unfold value_lt, value_le, value_gt, value_ge, value_compare.
  assert (T3 : implb (value_eqb a b) (value_eqb_sem_keys a b) = true).
  { destruct (value_eqb a b) eqn:E; [|reflexivity]. cbn [implb]. apply value_eqb_sem_keys_intro, value_eqb_sound. exact E. }
  rewrite T3.
  assert (T4 : Bool.eqb (value_is_zero a)
                 ((coin a =? 0) && match multiasset_of a with Some m => match m with [] => true | _ :: _ => false end | None => true end) = true).
  { unfold value_is_zero. destruct (multiasset_of a) as [[|e m]|]; unfold ma_len; cbn [length]; try apply Bool.eqb_reflx. }
  rewrite T4.
  destruct (value_partial_cmp a b) as [[| |]|]; reflexivity.
Qed.

Theorem judge_val3_accepts a b c : value_wf a -> value_wf b -> value_wf c -> judge_val3 a b c (model_val3 a b c) = Holds.
Proof.
  intros Wa Wb Wc. unfold judge_val3, model_val3, add3_l, add3_r. cbn [fst snd].
  pose proof (add3_l_sums a b c Wa Wb Wc) as L. pose proof (add3_r_sums a b c Wa Wb Wc) as R.
  unfold value_wf in Wa, Wb, Wc. rewrite Wa, Wb, Wc. cbn [andb negb]. unfold total3 in L, R.
  destruct (let* x := value_checked_add a b in _) as [l| | |], (let* y := value_checked_add b c in _) as [r| | |];
    try contradiction; try reflexivity.
  - destruct L as [_ [Cl Ql]], R as [_ [Cr Qr]].
    rewrite value_eqb_sem_keys_intro by (split; [congruence | intros p n; rewrite Ql, Qr; reflexivity]).
    rewrite Cl, N.eqb_refl, all_keys_intro by (intros p n; rewrite Ql; apply N.eqb_refl). reflexivity.
  - destruct (R (sums_to_fits _ _ _ L)).
  - destruct (L (sums_to_fits _ _ _ R)).
Qed.

(* the text parsers have two outcomes only *)
Lemma parse_u64_total s : parse_u64 s = Err \/ exists n, parse_u64 s = Ok n.
Proof.
  unfold parse_u64. destruct (match s with [] => [] | c :: r => if c =? ch_plus then r else s end); [auto|].
  destruct (parse_digits _ 0) as [v|]; [destruct (v <? two64)|]; eauto.
Qed.

Lemma parse_biguint_total s : parse_biguint s = Err \/ exists n, parse_biguint s = Ok n.
Proof.
  unfold parse_biguint. destruct (match s with [] => s | c :: tail => if (c =? ch_plus) && negb (starts_with ch_plus tail) then tail else s end) as [|c r]; [auto|].
  destruct (c =? ch_underscore); [auto|]. destruct (parse_digits_us (c :: r) 0); eauto.
Qed.

Lemma parse_bigint_total s : parse_bigint s = Err \/ exists z, parse_bigint s = Ok z.
Proof.
  assert (T : forall t (g : N -> Z), (let* n := parse_biguint t in Ok (g n)) = Err \/
                                    exists z, (let* n := parse_biguint t in Ok (g n)) = Ok z)
    by (intros t g; destruct (parse_biguint_total t) as [-> | [n ->]]; cbn [bind]; eauto).
  unfold parse_bigint. destruct s as [|c tail]; [|destruct (c =? ch_minus)]; apply T.
Qed.

Theorem judge_bnstr_accepts s : judge_bnstr s (model_bnstr s) = Holds.
Proof.
  unfold judge_bnstr, model_bnstr, bn_from_str. destruct (parse_u64_total s) as [-> | [n P]]; [reflexivity|]. rewrite P.
  destruct (parse_u64_canon s n P) as [B C]. rewrite C, text_eqb_refl. replace (n <? two64) with true by lia. reflexivity.
Qed.

Theorem judge_bistr_accepts s : judge_bistr s (model_bistr s) = Holds.
Proof.
  unfold judge_bistr, model_bistr, bigint_from_str. destruct (parse_bigint_total s) as [-> | [z P]]; [reflexivity|]. rewrite P.
  rewrite bigint_decimal_roundtrip, resZ_eqb_refl, (parse_bigint_canon s z P), text_eqb_refl. reflexivity.
Qed.
