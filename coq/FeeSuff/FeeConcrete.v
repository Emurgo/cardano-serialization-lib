(* FeeSuff/FeeConcrete.v — C06: the size environment made CONCRETE on the sub-class of builder states that
   MinAda/TxSize.v (C07, on C13's encoder lemmas) and Witnesses/* (C18) cover:

       key and Byron inputs, plain / asset / datum / script-ref outputs;
       no explicit required signers (they are also a body field, key 14, outside TxSize.v's bodies with keys 0, 1, 2), no
       certificates, withdrawals, mint, proposals, scripts, reference inputs, collateral, ttl, auxiliary data.

   [cenv I a b max_tx] instantiates FeeModel.env:
       K(st)   = 3 + 7 + witness_set_size (count_needed_vkeys ops) (bootstrap witness sizes) + inputs_size
                 (TxSize.full_tx_size without its fee and outputs terms; the witness counts are C18's model of
                 count_needed_vkeys / get_bootstraps on the history [ops_of I st] of the builder's inputs and signers)
       obase   = OutputSize.out_size of the output with coin 0 and no assets, minus that one-byte coin
       ex-unit and reference-script parts = 0
   and [fee_exact] holds for the oracle [with_fee (cenv ..) base] by definition — no oracle premise is left.

   [signed_by_required I st F x]: x is a concrete transaction (Batch/Denote values of Ledger/Schemas.v) that carries the
   inputs and outputs of st, the fee F, one vkey witness per key of C18's required_keys_spec and one bootstrap witness
   (of the size C18 proves for it) per address of required_boots_spec.

   Then tx_size (cenv ..) st F is the length of [enc (Transaction d) x], and the fee that add_change fixes, or that a
   body returned by build_tx carries, covers a * |enc x| + b. *)
From CSL Require Import Base.Prelude Base.U64 Cbor.Head Cbor.HeadProofs Num.Value Deposits.Deposits
  Builder.Totals Builder.Change FeeSuff.FeeModel FeeSuff.FeeSpec FeeSuff.FeeProofs.
From CSL Require Codec.Schema Ledger.Schemas MinAda.OutputSize MinAda.SchemaTie MinAda.TxSize
  Witnesses.Witnesses Witnesses.WitnessSpec Witnesses.WitnessProofs.
From Coq Require Import Permutation.
Local Open Scope N_scope.

(* interpretation of the identifiers of C05's state *)

Inductive iowner : Type := IKey (k : N) | IByron (a : N).

Record interp : Type := mkInterp {
  i_index : N -> N;                    (* output index of the outpoint of input id *)
  i_owner : N -> iowner;               (* payment key hash / Byron address of input id *)
  i_attrs : Witnesses.WitnessSpec.attr_table;             (* length of the attributes of every Byron address *)
  i_addr_len : N -> N;                 (* byte length of address id *)
  i_datum : N -> MinAda.OutputSize.datum;             (* datum / script reference of the identifier o_extra *)
  i_sref : N -> option MinAda.OutputSize.sref
}.

Definition owner_of (w : iowner) : Witnesses.Witnesses.owner := match w with IKey k => Witnesses.Witnesses.OKey k | IByron a => Witnesses.Witnesses.OByron a end.

(* the history of the builder as far as witnesses go: one add per input (the inputs of C05's state are a map:
   one entry per outpoint); nothing else *)
Definition ops_of (I : interp) (st : state) : Witnesses.Witnesses.tx_ops :=
  Witnesses.Witnesses.Build_tx_ops (map (fun e => Witnesses.Witnesses.InAdd (fst e) (owner_of (i_owner I (fst e)))) (s_inputs st))
                 [] [] [] [] [] [] [] [] [] false.

Definition boot_sizes (I : interp) (l : list N) : list N :=
  map (fun a => Witnesses.WitnessSpec.boot_witness_size (Witnesses.WitnessSpec.attr_len (i_attrs I) a)) l.

(* the fake full transaction outside its fee integer and its outputs *)
Definition concrete_k (I : interp) (st : state) : N :=
  3 + 7 + MinAda.TxSize.witness_set_size (Witnesses.Witnesses.count_needed_vkeys (ops_of I st)) (boot_sizes I (Witnesses.Witnesses.needed_bootstraps (ops_of I st)))
  + MinAda.TxSize.inputs_size (map (fun e => i_index I (fst e)) (s_inputs st)).

Definition concrete_obase (I : interp) (a x : N) : N :=
  MinAda.OutputSize.out_size (MinAda.OutputSize.mkOut (i_addr_len I a) 0 [] (i_datum I x) (i_sref I x)) - 1.

Definition cenv (I : interp) (a b max_tx : N) : env :=
  mkEnv a b max_tx (concrete_k I) (concrete_obase I) (fun _ => Ok 0) (fun _ => Ok 0).

(* the sub-class *)
Definition plain_state (st : state) : Prop :=
  s_certs st = None /\ s_withdrawals st = None /\ s_mint st = None /\ s_proposals st = None.

(* the concrete signed transaction *)

Definition opt_cma (m : option multiasset) : MinAda.SchemaTie.cma := match m with Some x => x | None => [] end.

Section Concrete.
Variable d : nat.

(* a concrete output for an output of the state *)
Definition out_rel (I : interp) (o : output) (co : MinAda.SchemaTie.coutput) : Prop :=
  MinAda.SchemaTie.len (MinAda.SchemaTie.co_addr co) = i_addr_len I (o_addr o) /\
  MinAda.SchemaTie.co_coin co = coin (o_amount o) /\
  MinAda.SchemaTie.co_ma co = opt_cma (multiasset_of (o_amount o)) /\
  MinAda.SchemaTie.shape_datum d (MinAda.SchemaTie.co_datum co) = i_datum I (o_extra o) /\
  option_map (MinAda.SchemaTie.shape_sref d) (MinAda.SchemaTie.co_sref co) = i_sref I (o_extra o).

Definition signed_by_required (I : interp) (st : state) (F : N) (x : MinAda.TxSize.ctx) : Prop :=
  MinAda.TxSize.ctx_ok x /\
  map snd (MinAda.TxSize.x_inputs x) = map (fun e => i_index I (fst e)) (s_inputs st) /\
  Forall2 (out_rel I) (s_outputs st) (MinAda.TxSize.x_outputs x) /\
  MinAda.TxSize.x_fee x = F /\
  (* exactly the required keys sign *)
  length (MinAda.TxSize.x_vkeys x) = length (Witnesses.WitnessSpec.required_keys_spec (ops_of I st)) /\
  (* one bootstrap witness per required Byron address, of the size C18 proves for real witnesses *)
  map (fun b => MinAda.SchemaTie.len (Codec.Schema.enc Ledger.Schemas.BootstrapWitness b)) (MinAda.TxSize.x_boots x)
  = boot_sizes I (Witnesses.WitnessSpec.required_boots_spec (ops_of I st)).

(* sizes of values and outputs: FeeModel's algebra = OutputSize's (the same sums, over lengths there and over
   byte strings here; [sumN], [lenN] and [len] of the two sides are convertible) *)

Lemma assets_size_eq (a : assets) :
  OutputSize.assets_size (map (fun x => (SchemaTie.len (fst x), snd x)) a) = assets_size a.
Proof. unfold OutputSize.assets_size, assets_size. rewrite SchemaTie.lenN_map, map_map. reflexivity. Qed.

Lemma ma_size_eq (m : multiasset) :
  SchemaTie.ids28 m -> OutputSize.ma_size (SchemaTie.shape_ma m) = ma_size m.
Proof.
  intros H. unfold OutputSize.ma_size, ma_size, SchemaTie.shape_ma. rewrite SchemaTie.lenN_map, map_map. f_equal.
  apply SchemaTie.sumN_map_in. eapply Forall_impl; [|exact H]. intros [pid a] Hp.
  unfold OutputSize.policy_size, policy_size. cbn [fst snd] in *. rewrite assets_size_eq, <- Hp. reflexivity.
Qed.

Lemma ma_present_eq (m : multiasset) :
  OutputSize.ma_present (SchemaTie.shape_ma m) = match ma_reduce_empty_to_none m with Some _ => true | None => false end.
Proof.
  unfold ma_reduce_empty_to_none.
  assert (E : OutputSize.ma_present (SchemaTie.shape_ma m)
              = existsb (fun pa : bytes * assets => match snd pa with [] => false | _ => true end) m).
  { unfold OutputSize.ma_present, SchemaTie.shape_ma.
    induction m as [|[p a] m IH]; [reflexivity|]. cbn [map existsb snd]. rewrite IH. destruct a; reflexivity. }
  rewrite E. destruct (existsb _ m); reflexivity.
Qed.

Lemma value_size_eq (v : value) :
  SchemaTie.ids28 (opt_cma (multiasset_of v)) ->
  OutputSize.value_size (coin v) (SchemaTie.shape_ma (opt_cma (multiasset_of v))) = value_size v.
Proof.
  intros H. unfold OutputSize.value_size, value_size, value_extra.
  destruct (multiasset_of v) as [m|]; cbn [opt_cma] in *.
  - rewrite ma_present_eq. unfold ma_reduce_empty_to_none.
    destruct (existsb _ m); [rewrite (ma_size_eq m H); lia | lia].
  - cbn. lia.
Qed.

(* OutputSize.out_size = a part that ignores the value + the size of the value *)
Lemma os_out_size_split al c ma dt sr :
  OutputSize.out_size (OutputSize.mkOut al c ma dt sr)
  = (OutputSize.out_size (OutputSize.mkOut al 0 [] dt sr) - 1) + OutputSize.value_size c ma.
Proof.
  unfold OutputSize.out_size, OutputSize.map_form, OutputSize.out_value_size.
  cbn [OutputSize.o_addr OutputSize.o_coin OutputSize.o_ma OutputSize.o_datum OutputSize.o_sref].
  change (OutputSize.value_size 0 []) with 1.
  destruct (OutputSize.is_inline dt || OutputSize.is_some sr); lia.
Qed.

Lemma out_size_concrete (I : interp) a b mx (o : output) (co : SchemaTie.coutput) :
  out_rel I o co -> SchemaTie.ids28 (SchemaTie.co_ma co) ->
  OutputSize.out_size (SchemaTie.shape d co) = out_size (cenv I a b mx) o.
Proof.
  intros (Ha & Hc & Hm & Hd & Hs) H28. unfold SchemaTie.shape. rewrite Ha, Hc, Hm, Hd, Hs.
  rewrite os_out_size_split. unfold out_size, cenv, concrete_obase. cbn [e_obase].
  rewrite value_size_eq; [reflexivity|]. rewrite <- Hm. exact H28.
Qed.

Lemma forall2_length {A B} (R : A -> B -> Prop) l l' : Forall2 R l l' -> length l = length l'.
Proof. induction 1; cbn; congruence. Qed.

Lemma outs_size_concrete (I : interp) a b mx (outs : list output) (couts : list SchemaTie.coutput) :
  Forall2 (out_rel I) outs couts -> Forall (fun co => SchemaTie.ids28 (SchemaTie.co_ma co)) couts ->
  TxSize.outputs_size (map (SchemaTie.shape d) couts) = outs_size (cenv I a b mx) outs.
Proof.
  intros H H28. unfold TxSize.outputs_size, outs_size. rewrite SchemaTie.lenN_map.
  unfold OutputSize.lenN, lenN. rewrite <- (forall2_length _ _ _ H). f_equal.
  induction H as [|o co outs couts Ho _ IH]; [reflexivity|].
  inversion H28; subst. cbn [map]. unfold OutputSize.sumN, sumN in *. cbn [fold_right].
  rewrite IH by assumption. f_equal. apply out_size_concrete; assumption.
Qed.

Lemma perm_sumN (l l' : list N) : Permutation l l' -> OutputSize.sumN l = OutputSize.sumN l'.
Proof. unfold OutputSize.sumN. induction 1; cbn [fold_right]; lia. Qed.

Lemma wss_perm v (l l' : list N) : Permutation l l' -> TxSize.witness_set_size v l = TxSize.witness_set_size v l'.
Proof.
  intros H. unfold TxSize.witness_set_size, OutputSize.lenN.
  rewrite (Permutation_length H), (perm_sumN _ _ H). reflexivity.
Qed.

Lemma ops_of_core I st : ops_of I (core st) = ops_of I st.
Proof. destruct st; reflexivity. Qed.

Lemma known_genesis_plain I st : WitnessSpec.known_genesis (ops_of I st) = false.
Proof.
  unfold WitnessSpec.known_genesis, Witnesses.Witnesses.needed_vkeys_gen, ops_of. cbn. rewrite Nat.eqb_refl. reflexivity.
Qed.

(* the size the fee is computed from is the length of the encoded transaction signed by exactly the required keys *)
Theorem concrete_size_is_encoding (I : interp) a b mx (st : state) (F : N) (x : TxSize.ctx) :
  signed_by_required I st F x -> WitnessProofs.all_consistent (ops_of I st) = true ->
  tx_size (cenv I a b mx) st F = SchemaTie.len (TxSize.enc_tx d x).
Proof.
  intros (Hok & Hin & Hout & Hfee & Hvk & Hbt) HC.
  rewrite (TxSize.full_tx_size_is_encoding d x Hok).
  pose proof (WitnessProofs.signers_union (ops_of I st) HC (known_genesis_plain I st)) as Hcount.
  pose proof (WitnessProofs.boots_spec (ops_of I st) HC) as Hperm.
  destruct Hok as (_ & Ho28 & _).
  unfold tx_size, TxSize.full_tx_size, TxSize.ctx_shape, TxSize.mkTx0, TxSize.extras_size.
  cbn [TxSize.t_inputs TxSize.t_outputs TxSize.t_fee TxSize.t_vkeys TxSize.t_boots
       TxSize.t_col_inputs TxSize.t_col_return TxSize.t_col_total TxSize.t_aux].
  cbn [cenv e_k]. unfold concrete_k. rewrite ops_of_core.
  replace (s_inputs (core st)) with (s_inputs st) by (destruct st; reflexivity).
  rewrite Hin, Hfee, Hbt.
  rewrite (outs_size_concrete I a b mx (s_outputs st) (TxSize.x_outputs x) Hout)
    by (eapply Forall_impl; [|exact Ho28]; intros co (H28 & _); exact H28).
  unfold OutputSize.lenN. rewrite Hvk, <- Hcount.
  change (Witnesses.Witnesses.needed_bootstraps (ops_of I st)) with (Witnesses.Witnesses.needed_bootstraps_gen true (ops_of I st)).
  unfold boot_sizes. rewrite (wss_perm _ _ _ (Permutation_map _ Hperm)). lia.
Qed.

Lemma with_fee_exact {O} (e : env) (base : @oracle O) : fee_exact e (with_fee e base).
Proof. intros st o. reflexivity. Qed.

(* the ledger minimum of the state = the linear fee of the encoded transaction signed by exactly the required keys *)
Lemma need_is_encoding (I : interp) a b mx st F x :
  signed_by_required I st F x -> WitnessProofs.all_consistent (ops_of I st) = true ->
  need (cenv I a b mx) st F = a * SchemaTie.len (TxSize.enc_tx d x) + b.
Proof.
  intros Hx HC. rewrite <- (concrete_size_is_encoding I a b mx st F x Hx HC).
  unfold need, need_w, tx_size. cbn [cenv e_a e_b e_ex e_ref e_k res_or0]. lia.
Qed.

(* C06_sufficient_concrete: no oracle premise.  The fee answers are the concrete linear fee of the concrete size; min-ADA,
   size-test and selection answers ([base]) are arbitrary. *)
Theorem add_change_concrete {O} (base : @oracle O) (I : interp) a b mx fuel addr extra r st st' (o o' : O) :
  add_change (with_fee (cenv I a b mx) base) fuel addr extra st o = mkOut (Ok r) st' o' ->
  (forall y, s_fee_request st <> FeeExactly y) ->
  WitnessProofs.all_consistent (ops_of I st') = true ->
  exists F, s_fee st' = Some F /\
    forall x, signed_by_required I st' F x -> a * SchemaTie.len (TxSize.enc_tx d x) + b <= F.
Proof.
  intros H Hne HC.
  destruct (add_change_fee_sufficient _ _ (with_fee_exact (cenv I a b mx) base) _ _ _ _ _ _ _ _ H Hne) as (F & HF & Hn).
  exists F. split; [exact HF|]. intros x Hx. rewrite <- (need_is_encoding I a b mx st' F x Hx HC). exact Hn.
Qed.

(* C06_validate_concrete: whatever the history, a body build_tx returns carries a fee that covers the encoded transaction
   signed by exactly the required keys *)
Theorem build_tx_concrete {O} (base : @oracle O) (I : interp) a b mx body st st' (o o' : O) :
  build_tx (with_fee (cenv I a b mx) base) st o = mkOut (Ok body) st' o' ->
  WitnessProofs.all_consistent (ops_of I st) = true ->
  forall x, signed_by_required I st (b_fee body) x -> a * SchemaTie.len (TxSize.enc_tx d x) + b <= b_fee body.
Proof.
  intros H HC x Hx.
  destruct (build_tx_validates _ _ (with_fee_exact (cenv I a b mx) base) _ _ _ _ _ H) as (F & _ & <- & Hn & _).
  rewrite <- (need_is_encoding I a b mx st _ x Hx HC). exact Hn.
Qed.
End Concrete.

(* non-vacuity: a key input of 5 ADA, change to an enterprise address, mainnet parameters *)
Module ConcreteWitness.
  Definition I0 : interp :=
    mkInterp (fun _ => 0) (fun _ => IKey 7) [] (fun a => if a =? 0 then 57 else 29) (fun _ => MinAda.OutputSize.DNone) (fun _ => None).
  Definition e0 : env := cenv I0 44 155381 16384.
  Definition s0 : state := set_s_inputs [(1, mkValue 5000000 None)] (new_state (mkConfig 500000000 2000000 false false)).
  Definition r0 := add_change (with_fee e0 (size_oracle e0 4310 5000)) 10 1 0 s0 tt.
  (* the transaction signed with one (any) 32-byte key and 64-byte signature *)
  Definition x0 (fee coin : N) : MinAda.TxSize.ctx :=
    MinAda.TxSize.mkCTx [(repeat 9 32, 0)] [MinAda.SchemaTie.mkCOut (repeat 1 29) coin [] MinAda.SchemaTie.CDNone None] fee [(repeat 2 32, repeat 3 64)] [].
End ConcreteWitness.
Import ConcreteWitness.

(* the model reproduces the implementation's figures for this transaction (corpus case w5: fee 164225, change 4835775,
   full_size 197): the encoded signed transaction has 197 bytes, its minimum fee is 164049 *)
Example concrete_premises :
  out_res r0 = Ok true /\ s_fee (out_st r0) = Some 164225 /\
  Witnesses.WitnessProofs.all_consistent (ops_of I0 (out_st r0)) = true /\
  signed_by_required 0 I0 (out_st r0) 164225 (x0 164225 4835775) /\
  MinAda.SchemaTie.len (MinAda.TxSize.enc_tx 0 (x0 164225 4835775)) = 197 /\ 44 * 197 + 155381 <= 164225.
Proof.
  split; [vm_compute; reflexivity|]. split; [vm_compute; reflexivity|]. split; [vm_compute; reflexivity|].
  split.
  - unfold signed_by_required. split.
    + unfold MinAda.TxSize.ctx_ok. repeat split; repeat constructor.
    + split; [vm_compute; reflexivity|]. split.
      * assert (E : s_outputs (out_st r0) = [mkOutput 1 (mkValue 4835775 None) 0]) by (vm_compute; reflexivity).
        rewrite E. cbn [MinAda.TxSize.x_outputs x0]. constructor; [|constructor].
        unfold out_rel. cbn [MinAda.SchemaTie.co_addr MinAda.SchemaTie.co_coin MinAda.SchemaTie.co_ma MinAda.SchemaTie.co_datum MinAda.SchemaTie.co_sref o_addr o_amount o_extra].
        repeat split; vm_compute; reflexivity.
      * repeat split; vm_compute; reflexivity.
  - split; [vm_compute; reflexivity | vm_compute; discriminate].
Qed.
