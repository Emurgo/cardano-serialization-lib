(* FeeSuff/FeeProofs.v — C06: proofs about the fee arithmetic of add_change (model: Builder/Change.v with the fee
   oracle of FeeSuff/FeeModel.v).  The statements the property stands for are in Props/C06.v.

   add_change starts from the estimate X made with a 9-byte fee field, adds to it what fee_for_output returns for
   every change output (a difference of two estimates, each aligned with the fee request), stores the sum and only
   then tops the last output up.  The differences telescope ([Inv]); what the sum covers is the transaction as it was
   priced, with a fee field of the placeholder width ([Inv_final], [add_change_pre_spec]).  The repaired code compares
   the stored fee with the estimate of the transaction it leaves once more ([add_change_fee_sufficient]). *)
From CSL Require Import Base.Prelude Base.U64 Cbor.Head Cbor.HeadProofs Num.Value Deposits.Deposits
  Builder.Totals Builder.Change Builder.ChangePure FeeSuff.FeeModel FeeSuff.FeeSpec.
Local Open Scope N_scope.

(* the monad: a successful run read backwards; get / modify / put / ret in front of a bind just run on *)

Section Monad.
  Context {O : Type}.

  Lemma bindM_inv {A B} (m : @M O A) (f : A -> @M O B) s o b s' o' :
    bindM m f s o = mkOut (Ok b) s' o' ->
    exists a s1 o1, m s o = mkOut (Ok a) s1 o1 /\ f a s1 o1 = mkOut (Ok b) s' o'.
  Proof.
    unfold bindM. destruct (m s o) as [[a| | |] s1 o1]; cbn; try discriminate.
    intros H. exists a, s1, o1. auto.
  Qed.

  Lemma ret_inv {A} (a b : A) (s s' : state) (o o' : O) :
    ret a s o = mkOut (Ok b) s' o' -> b = a /\ s' = s /\ o' = o.
  Proof. intros H; inversion H; auto. Qed.

  Lemma lift_inv {A} (r : result A) (b : A) (s s' : state) (o o' : O) :
    lift r s o = mkOut (Ok b) s' o' -> r = Ok b /\ s' = s /\ o' = o.
  Proof. intros H; inversion H; auto. Qed.

  Lemma bindM_lift_inv {A B} (r : result A) (f : A -> @M O B) s o b s' o' :
    bindM (lift r) f s o = mkOut (Ok b) s' o' -> exists a, r = Ok a /\ f a s o = mkOut (Ok b) s' o'.
  Proof. destruct r as [a| | |]; try discriminate. intros H. exists a. auto. Qed.

  (* a bind after a computation that leaves the state alone (Builder/ChangePure.v) goes on from the same state *)
  Lemma bindM_pure_inv {A B} (m : @M O A) (f : A -> @M O B) s o b s' o' :
    pure_st m -> bindM m f s o = mkOut (Ok b) s' o' ->
    exists a o1, m s o = mkOut (Ok a) s o1 /\ f a s o1 = mkOut (Ok b) s' o'.
  Proof.
    intros Hm H. apply bindM_inv in H as (a & s1 & o1 & H1 & H). pose proof (Hm s o) as E. rewrite H1 in E. cbn in E. subst s1. eauto.
  Qed.

  Lemma bindM_get {B} (f : state -> @M O B) s o : bindM get f s o = f s s o.
  Proof. reflexivity. Qed.

  Lemma bindM_modify {B} g (f : unit -> @M O B) s o : bindM (modify g) f s o = f tt (g s) o.
  Proof. reflexivity. Qed.

  Lemma bindM_put {B} x (f : unit -> @M O B) s o : bindM (put x) f s o = f tt x o.
  Proof. reflexivity. Qed.

  Lemma bindM_ret_l {A B} (a : A) (f : A -> @M O B) s o : bindM (ret a) f s o = f a s o.
  Proof. reflexivity. Qed.

  Lemma bindM_assoc {A B C} (m : @M O A) (f : A -> @M O B) (g : B -> @M O C) s o :
    bindM (bindM m f) g s o = bindM m (fun a => bindM (f a) g) s o.
  Proof. unfold bindM. destruct (m s o) as [[a| | |] s1 o1]; reflexivity. Qed.

  Lemma bindM_ext {A B} (m : @M O A) (f g : A -> @M O B) s o :
    (forall a s' o', f a s' o' = g a s' o') -> bindM m f s o = bindM m g s o.
  Proof. intros H. unfold bindM. destruct (out_res (m s o)); auto. Qed.

  (* a continuation [g] pushed through one bind: how one program is shown to be another followed by [g] *)
  Lemma bindM_push {A B C} (m : @M O A) (f : A -> @M O B) (g : B -> @M O C) h s o :
    (forall a s1 o1, h a s1 o1 = bindM (f a) g s1 o1) -> bindM m h s o = bindM (bindM m f) g s o.
  Proof. intros E. rewrite bindM_assoc. apply bindM_ext, E. Qed.

  Lemma bindM_ret_r {A} (m : @M O A) s o : bindM m (fun a => ret a) s o = m s o.
  Proof. unfold bindM, ret. destruct (m s o) as [[a| | |] s1 o1]; reflexivity. Qed.

  Lemma bindM_lift_fail {A B} (r : result A) (f : A -> @M O B) s o :
    (forall a, r <> Ok a) -> bindM (lift r) f s o = lift (match r with Ok _ => Err | Err => Err | Panic => Panic | OutOfFuel => OutOfFuel end) s o.
  Proof. intros H. destruct r; try reflexivity. now destruct (H a). Qed.

  Lemma catch_some {A} (m : @M O A) v s s' (o o' : O) :
    catch m s o = mkOut (Ok (Some v)) s' o' -> m s o = mkOut (Ok v) s' o'.
  Proof.
    unfold catch. destruct (m s o) as [r s1 o1]; cbn. destruct r; intros H; inversion H; reflexivity.
  Qed.
End Monad.

Lemma checked_add_inv a b c : checked_add a b = Ok c -> c = a + b.
Proof. unfold checked_add. destruct (a + b <? two64); [|discriminate]. intros H; inversion H; reflexivity. Qed.

Lemma core_set_outputs x s : core (set_s_outputs x s) = core s.
Proof. reflexivity. Qed.
Lemma outputs_set_outputs x s : s_outputs (set_s_outputs x s) = x.
Proof. reflexivity. Qed.
Lemma fee_set_outputs x s : s_fee (set_s_outputs x s) = s_fee s.
Proof. reflexivity. Qed.
Lemma req_set_outputs x s : s_fee_request (set_s_outputs x s) = s_fee_request s.
Proof. reflexivity. Qed.
Lemma cfg_set_outputs x s : s_cfg (set_s_outputs x s) = s_cfg s.
Proof. destruct s; reflexivity. Qed.
Lemma set_outputs_set_outputs x y s : set_s_outputs x (set_s_outputs y s) = set_s_outputs x s.
Proof. reflexivity. Qed.
Lemma set_outputs_same s : set_s_outputs (s_outputs s) s = s.
Proof. destruct s; reflexivity. Qed.

(* set_final_fee stores the aligned figure and touches nothing else *)
Lemma set_final_fee_al f s : set_final_fee f s = set_s_fee (Some (get_new_fee (s_fee_request s) f)) s.
Proof.
  unfold set_final_fee, get_new_fee. destruct (s_fee_request s) as [|r|]; try reflexivity.
  destruct (N.leb_spec r f), (N.ltb_spec f r); try reflexivity; lia.
Qed.
Lemma core_set_final_fee f s : core (set_final_fee f s) = core s.
Proof. rewrite set_final_fee_al. reflexivity. Qed.
Lemma outputs_set_final_fee f s : s_outputs (set_final_fee f s) = s_outputs s.
Proof. rewrite set_final_fee_al. reflexivity. Qed.
Lemma req_set_final_fee f s : s_fee_request (set_final_fee f s) = s_fee_request s.
Proof. rewrite set_final_fee_al. reflexivity. Qed.
Lemma fee_set_final_fee f s : s_fee (set_final_fee f s) = Some (get_new_fee (s_fee_request s) f).
Proof. rewrite set_final_fee_al. reflexivity. Qed.
Lemma get_fee_set_final_fee f s : get_fee_if_set (set_final_fee f s) = Some (get_new_fee (s_fee_request s) f).
Proof. unfold get_fee_if_set. rewrite fee_set_final_fee. reflexivity. Qed.
Lemma set_outputs_final_fee_comm x f s : set_s_outputs x (set_final_fee f s) = set_final_fee f (set_s_outputs x s).
Proof. rewrite !set_final_fee_al. reflexivity. Qed.
Lemma need_w_set_final_fee e f s w : need_w e (set_final_fee f s) w = need_w e s w.
Proof. unfold need_w. rewrite core_set_final_fee, outputs_set_final_fee. reflexivity. Qed.

#[local] Hint Rewrite core_set_outputs outputs_set_outputs fee_set_outputs req_set_outputs set_outputs_set_outputs
  core_set_final_fee outputs_set_final_fee req_set_final_fee fee_set_final_fee get_fee_set_final_fee
  need_w_set_final_fee : state.

(* the builder state with more outputs *)
Definition add_out (x : output) (s : state) : state := set_s_outputs (s_outputs s ++ [x]) s.
Definition add_outs (l : list output) (s : state) : state := set_s_outputs (s_outputs s ++ l) s.

Lemma add_outs_nil s : add_outs [] s = s.
Proof. unfold add_outs. rewrite app_nil_r. apply set_outputs_same. Qed.
Lemma add_outs_app l l' s : add_outs l' (add_outs l s) = add_outs (l ++ l') s.
Proof. unfold add_outs. rewrite outputs_set_outputs, set_outputs_set_outputs, app_assoc. reflexivity. Qed.
Lemma add_outs_cons x l s : add_outs (x :: l) s = add_outs l (add_out x s).
Proof. symmetry. apply (add_outs_app [x]). Qed.
Lemma add_out_final_fee_comm x f s : add_out x (set_final_fee f s) = set_final_fee f (add_out x s).
Proof. unfold add_out. rewrite outputs_set_final_fee. apply set_outputs_final_fee_comm. Qed.

(* the fee request: get_new_fee aligns a figure with it *)

Lemma al_ge r x : (forall y, r <> FeeExactly y) -> x <= get_new_fee r x.
Proof. intros H. destruct r as [|f|f]; cbn; [lia | destruct (N.ltb_spec x f); lia | now destruct (H f)]. Qed.

Lemma al_mono r x y : x <= y -> get_new_fee r x <= get_new_fee r y.
Proof. intros H. destruct r; cbn; try lia. destruct (N.ltb_spec x f), (N.ltb_spec y f); lia. Qed.

Lemma al0_fld0 r : get_new_fee r 0 = fld0 r.
Proof. destruct r as [|f|f]; cbn; try reflexivity. destruct (N.ltb_spec 0 f); [reflexivity | lia]. Qed.

Lemma al_policy_ok r x : policy_ok r (get_new_fee r x).
Proof. destruct r as [|f|f]; cbn; auto. destruct (N.ltb_spec x f); lia. Qed.

(* the placeholder 2^32 of the public min_fee stays a 9-byte integer *)
Lemma al_two32_w r : (forall x, r <> FeeExactly x) -> head_size (get_new_fee r two32) = 9.
Proof.
  intros H. pose proof (head_size_mono _ _ (al_ge r two32 H)) as Hm.
  pose proof (head_size_bounds (get_new_fee r two32)). change (head_size two32) with 9 in Hm. lia.
Qed.

(* the heart of the matter, on numbers.  [a0], [a1]: estimates of the start state and of the state reached, made with
   the fee field fee_for_output prices with; [c]: what the 9-byte placeholder adds to either.  When the requested
   minimal fee is above [a0], the aligned differences guarantee nothing beyond [a1]. *)
Lemma telescope_covers r a0 a1 c nf :
  (forall y, r <> FeeExactly y) -> a0 <= a1 ->
  get_new_fee r (a0 + c) + get_new_fee r a1 <= nf + get_new_fee r a0 ->
  a1 + (if match r with FeeNotLess f => a0 <? f | _ => false end then 0 else c) <= nf.
Proof.
  intros Hne Hle. destruct r as [|f|f]; cbn [get_new_fee]; [lia | | now destruct (Hne f)].
  destruct (N.ltb_spec a0 f), (N.ltb_spec (a0 + c) f), (N.ltb_spec a1 f); lia.
Qed.

Lemma min_fee_model_ok e s m :
  min_fee_model e s = Ok m -> exists f, get_fee_if_set s = Some f /\ m = need e s f.
Proof.
  unfold min_fee_model. destruct (get_fee_if_set s) as [f|]; [|discriminate].
  destruct (negb (mint_ok s)); [discriminate|].
  destruct (e_max_tx e <? tx_size e s f); [discriminate|].
  unfold checked_mul, checked_add, need, need_w, tx_size.
  set (sz := e_k e (core s) + head_size f + outs_size e (s_outputs s)).
  destruct (sz * e_a e <? two64); cbn [bind]; [|discriminate].
  destruct (sz * e_a e + e_b e <? two64); cbn [bind]; [|discriminate].
  destruct (e_ex e (core s)) as [x| | |]; cbn [bind]; try discriminate.
  destruct (sz * e_a e + e_b e + x <? two64); cbn [bind]; [|discriminate].
  destruct (e_ref e (core s)) as [r| | |]; cbn [bind]; try discriminate.
  destruct (sz * e_a e + e_b e + x + r <? two64); [|discriminate].
  intros H; inversion H; subst. exists f. split; auto. cbn [res_or0]. lia.
Qed.

Lemma sumN_app l1 l2 : sumN (l1 ++ l2) = sumN l1 + sumN l2.
Proof. unfold sumN. induction l1; cbn; [lia|]. fold (sumN (l1 ++ l2)) in *. rewrite IHl1. lia. Qed.

Lemma lenN_app {A} (l1 l2 : list A) : lenN (l1 ++ l2) = lenN l1 + lenN l2.
Proof. unfold lenN. rewrite app_length. lia. Qed.

(* more outputs: their sizes, and the head of the outputs array may grow (23 -> 24, 255 -> 256 outputs) *)
Lemma outs_size_app e l l' :
  outs_size e (l ++ l') + head_size (lenN l) = outs_size e l + sumN (map (out_size e) l') + head_size (lenN l + lenN l').
Proof. unfold outs_size. rewrite map_app, sumN_app, lenN_app. lia. Qed.

Lemma outs_size_snoc e l x :
  outs_size e (l ++ [x]) + head_size (lenN l) = outs_size e l + out_size e x + head_size (lenN l + 1).
Proof.
  rewrite outs_size_app. change (lenN [x]) with 1. change (sumN (map (out_size e) [x])) with (out_size e x + 0). lia.
Qed.

Lemma outs_size_app_le e l l' : outs_size e l <= outs_size e (l ++ l').
Proof.
  pose proof (outs_size_app e l l'). pose proof (head_size_mono (lenN l) (lenN l + lenN l')). lia.
Qed.

Lemma need_w_diff e s w w' : w' <= w -> need_w e s w = need_w e s w' + e_a e * (w - w').
Proof. intros H. unfold need_w. nia. Qed.

Lemma need_w_mono_w e s w w' : w' <= w -> need_w e s w' <= need_w e s w.
Proof. intros H. rewrite (need_w_diff e s w w' H). apply N.le_add_r. Qed.

Lemma need_w_mono_outs e s l l' w :
  outs_size e l <= outs_size e l' -> need_w e (set_s_outputs l s) w <= need_w e (set_s_outputs l' s) w.
Proof. intros H. unfold need_w. autorewrite with state. nia. Qed.

Lemma need_w_add_outs_le e s l w : need_w e s w <= need_w e (add_outs l s) w.
Proof. rewrite <- (set_outputs_same s) at 1. apply need_w_mono_outs, outs_size_app_le. Qed.

Lemma need_w_last_le e s x x' w :
  out_size e x' <= out_size e x -> need_w e (add_out x' s) w <= need_w e (add_out x s) w.
Proof.
  intros H. apply need_w_mono_outs.
  pose proof (outs_size_snoc e (s_outputs s) x). pose proof (outs_size_snoc e (s_outputs s) x'). lia.
Qed.

(* the coin of a Value arithmetic result; subtracting pure ADA from the amount of an output does not make it larger *)
Lemma vcmp_coin_ge a b c : value_partial_cmp a b = Some c -> c <> Lt -> coin b <= coin a.
Proof.
  unfold value_partial_cmp. destruct (value_compare_assets _ _) as [m|]; [|discriminate].
  destruct (N.compare_spec (coin a) (coin b)), m; intros E Hc; inversion E; subst; try lia; now destruct Hc.
Qed.
Lemma vadd_coin a b v : value_checked_add a b = Ok v -> coin v = coin a + coin b.
Proof.
  unfold value_checked_add, u64_add. destruct (coin a + coin b <? two64); cbn [bind]; [|discriminate].
  destruct (multiasset_of a), (multiasset_of b); cbn [bind];
    try (intros H; inversion H; reflexivity).
  destruct (ma_checked_add m m0); cbn [bind]; try discriminate. intros H; inversion H; reflexivity.
Qed.
Lemma vsub_coin a b v : value_checked_sub a b = Ok v -> coin v = coin a - coin b /\ coin b <= coin a.
Proof.
  unfold value_checked_sub, u64_sub. destruct (N.leb_spec (coin b) (coin a)); cbn [bind]; [|discriminate].
  match goal with |- (if ?c then _ else _) = _ -> _ => destruct c end; [|discriminate].
  intros H'; inversion H'; cbn. auto.
Qed.
Lemma out_size_sub_fee e a v f v' x :
  value_checked_sub v (value_new f) = Ok v' -> out_size e (mkOutput a v' x) <= out_size e (mkOutput a v x).
Proof.
  intros H. pose proof (vsub_coin _ _ _ H) as (Hc & _). revert H.
  unfold value_checked_sub, u64_sub. destruct (coin (value_new f) <=? coin v); cbn [bind]; [|discriminate].
  cbn [value_new multiasset_of]. intros H; inversion H; subst v'; clear H. cbn [coin] in Hc.
  unfold out_size, value_size, value_sub_assets; cbn.
  assert (head_size (coin v - f) <= head_size (coin v)) by (apply head_size_mono; lia).
  destruct (multiasset_of v); lia.
Qed.

(* what the pieces of Builder/Change.v do, for an oracle whose fee answers are the model's *)

Section Pieces.
  Context {O : Type}.
  Variable orc : @oracle O.
  Variable e : env.
  Hypothesis Hfee : fee_exact e orc.

  Lemma askF_inv st v s s' o o' :
    askF orc st s o = mkOut (Ok v) s' o' -> min_fee_model e st = Ok v.
  Proof. unfold askF. intros H; inversion H. rewrite <- (Hfee st o). reflexivity. Qed.

  (* the successful runs of a computation leave the builder state alone *)
  Definition pres {A} (m : @M O A) : Prop := forall s o a s' o', m s o = mkOut (Ok a) s' o' -> s' = s.

  Lemma pure_pres {A} (m : @M O A) : pure_st m -> pres m.
  Proof. intros Hm s o a s' o' H. rewrite <- (Hm s o), H. reflexivity. Qed.
  Lemma pres_askF x : pres (askF orc x).
  Proof using Hfee. apply pure_pres. intros s o. reflexivity. Qed.

  (* a fee answer compared with a stored fee: validate_fee, check_fee_after_change *)
  Lemma fee_covers_inv F u s s' o o' :
    bindM (askF orc s) (fun mf => if F <? mf then lift Err else ret tt) s o = mkOut (Ok u) s' o' ->
    get_fee_if_set s = Some F -> s' = s /\ need e s F <= F.
  Proof.
    intros H HF. apply bindM_pure_inv in H as (mf & o1 & Hm & H); [|auto with pure].
    apply askF_inv in Hm. apply min_fee_model_ok in Hm as (f & Hf & ->).
    rewrite HF in Hf. inversion Hf; subst f.
    destruct (N.ltb_spec F (need e s F)); [discriminate H|]. apply ret_inv in H. tauto.
  Qed.

  (* pub min_fee: the estimate with the placeholder fee, aligned with the request *)
  Lemma min_fee_pub_spec fee s s' o o' :
    min_fee_pub orc s o = mkOut (Ok fee) s' o' ->
    s' = s /\
    fee = get_new_fee (s_fee_request s)
            (need_w e s (head_size (get_new_fee (s_fee_request s) two32))).
  Proof.
    unfold min_fee_pub. rewrite bindM_get. intros H.
    apply bindM_pure_inv in H as (m & o1 & Hm & H); [|auto with pure].
    apply ret_inv in H as (-> & -> & _). split; [reflexivity|].
    apply askF_inv in Hm. apply min_fee_model_ok in Hm as (f & Hf & ->).
    autorewrite with state in Hf. inversion Hf; subst f.
    unfold need. autorewrite with state. reflexivity.
  Qed.

  Lemma add_output_spec x u s s' o o' :
    add_output orc x s o = mkOut (Ok u) s' o' -> s' = add_out x s.
  Proof. intros H. pose proof (add_output_effect orc x s o) as E. rewrite H in E. exact (proj2 E). Qed.

  (* fee_for_output: difference of two aligned estimates made with the fee field of set_final_fee(0) *)
  Lemma fee_for_output_spec x d s s' o o' :
    fee_for_output orc x s o = mkOut (Ok d) s' o' ->
    let al := get_new_fee (s_fee_request s) in
    let w0 := head_size (fld0 (s_fee_request s)) in
    let mb := need_w e s w0 in
    let ma := need_w e (add_out x s) w0 in
    al mb <= al ma /\ d = al ma - al mb /\ min_fee_model e (set_final_fee 0 s) = Ok mb.
  Proof.
    unfold fee_for_output. rewrite bindM_get. intros H.
    apply bindM_pure_inv in H as (mb & o1 & Hb & H); [|auto with pure].
    apply bindM_pure_inv in H as (_ & o2 & _ & H); [|auto with pure].
    apply bindM_pure_inv in H as (ma & o3 & Ha & H); [|auto with pure].
    apply lift_inv in H as (Hsub & _). cbv zeta.
    apply askF_inv in Hb. apply askF_inv in Ha. pose proof Hb as Hb'.
    apply min_fee_model_ok in Hb as (fb & Hfb & ->). apply min_fee_model_ok in Ha as (fa & Hfa & ->).
    rewrite outputs_set_final_fee, set_outputs_final_fee_comm in *.
    autorewrite with state in Hfb, Hfa. inversion Hfb; subst fb. inversion Hfa; subst fa.
    unfold need in *. autorewrite with state in Hsub, Hb'. rewrite al0_fld0 in *.
    unfold checked_sub in Hsub. destruct (_ <=? _) eqn:Hle in Hsub; [apply N.leb_le in Hle | discriminate].
    inversion Hsub; subst d. auto.
  Qed.

End Pieces.

(* the loops of the asset branch: the accumulated fee telescopes *)

Section Loops.
  Context {O : Type}.
  Variable orc : @oracle O.
  Variable e : env.
  Hypothesis Hfee : fee_exact e orc.
  Variable s0 : state.        (* the state add_change starts from *)
  Variable X : N.             (* the fee estimate it starts with *)

  Let al := get_new_fee (s_fee_request s0).
  Let w0 := head_size (fld0 (s_fee_request s0)).

  (* [s] is [s0] with more outputs, and the fee accumulated so far covers the start estimate plus the difference of
     the aligned estimates of [s] and [s0]; once an output has been priced, the estimate of [s0] is known to exist *)
  Definition Inv (s : state) (nf : N) : Prop :=
    (exists l, s = add_outs l s0) /\
    X + al (need_w e s w0) <= nf + al (need_w e s0 w0) /\
    (s = s0 \/ min_fee_model e (set_final_fee 0 s0) = Ok (need_w e s0 w0)).

  Lemma Inv_init nf : X <= nf -> Inv s0 nf.
  Proof. intros H. split; [exists []; symmetry; apply add_outs_nil|]. split; [lia | left; reflexivity]. Qed.

  Lemma Inv_frame s nf : Inv s nf -> core s = core s0 /\ s_fee_request s = s_fee_request s0.
  Proof. intros ((l & ->) & _). split; reflexivity. Qed.

  (* [x] is priced, and an output that is not larger is added *)
  Lemma Inv_step s nf x x' d s1 o o1 :
    Inv s nf -> fee_for_output orc x s o = mkOut (Ok d) s1 o1 -> out_size e x' <= out_size e x ->
    Inv (add_out x' s) (nf + d).
  Proof.
    intros ((l & ->) & Hnf & Hor) H Hx.
    apply (fee_for_output_spec orc e Hfee) in H. cbv zeta in H. destruct H as (Hle & -> & Hmb).
    change (s_fee_request (add_outs l s0)) with (s_fee_request s0) in *. fold al w0 in Hle, Hmb |- *.
    pose proof (al_mono (s_fee_request s0) _ _ (need_w_last_le e (add_outs l s0) x x' w0 Hx)) as Hx'. fold al in Hx'.
    split; [exists (l ++ [x']); apply add_outs_app|]. split; [lia|].
    right. destruct Hor as [E | Hor]; [rewrite E in Hmb; exact Hmb | exact Hor].
  Qed.

  Lemma change_outputs_loop_inv addr extra l : forall cl nf s o r s' o',
    change_outputs_loop orc addr extra l cl nf s o = mkOut (Ok r) s' o' ->
    Inv s nf -> Inv s' (snd r).
  Proof.
    induction l as [|c l IH]; intros cl nf s o r s' o' H HI; cbn [change_outputs_loop] in H.
    - apply ret_inv in H as (-> & -> & _). exact HI.
    - apply bindM_pure_inv in H as (min_ada & o1 & _ & H); [|auto with pure].
      apply bindM_pure_inv in H as (d & o2 & Hd & H); [|auto with pure].
      apply bindM_lift_inv in H as (nf' & Hadd & H). apply checked_add_inv in Hadd as ->.
      apply bindM_lift_inv in H as (nd & _ & H).
      destruct (coin cl <? nd); [discriminate H|].
      apply bindM_lift_inv in H as (cl' & _ & H).
      apply bindM_inv in H as (u & s1 & o3 & Hout & H). apply (add_output_spec orc) in Hout as ->.
      eapply IH; [exact H|]. eapply Inv_step; [exact HI | exact Hd | apply N.le_refl].
  Qed.

  Lemma change_while_loop_inv addr extra fuel : forall cl nf s o r s' o',
    change_while_loop orc fuel addr extra cl nf s o = mkOut (Ok r) s' o' ->
    Inv s nf -> Inv s' (snd r).
  Proof.
    induction fuel as [|fuel IH]; intros cl nf s o r s' o' H HI; cbn [change_while_loop] in H;
      (destruct (change_has_assets_left cl); [|apply ret_inv in H as (-> & -> & _); exact HI]).
    - discriminate H.
    - apply bindM_pure_inv in H as (nfts & o1 & _ & H); [|auto with pure].
      destruct (existsb ma_positive nfts); [|discriminate H].
      apply bindM_inv in H as (r1 & s1 & o2 & H1 & H). eapply IH, change_outputs_loop_inv; eauto.
  Qed.
End Loops.

(* what the accumulated fee covers: the state reached, with a fee field of the placeholder width *)
Lemma Inv_final e s0 X s nf :
  (forall y, s_fee_request s0 <> FeeExactly y) ->
  X = get_new_fee (s_fee_request s0) (need_w e s0 9) ->
  Inv e s0 X s nf ->
  need_w e s (placeholder_w e s0) <= nf.
Proof.
  intros Hne -> ((l & ->) & Hnf & Hor).
  set (w0 := head_size (fld0 (s_fee_request s0))) in *.
  assert (Hw0 : w0 <= 9) by apply head_size_bounds.
  destruct Hor as [E | Ho].
  - (* nothing was priced *)
    rewrite E in *.
    assert (HP : placeholder_w e s0 <= 9) by (unfold placeholder_w; destruct (binding e s0); [exact Hw0 | lia]).
    pose proof (al_ge _ (need_w e s0 9) Hne). pose proof (need_w_mono_w e s0 9 _ HP). lia.
  - rewrite (need_w_diff e s0 9 w0 Hw0) in Hnf.
    apply (telescope_covers _ _ _ _ _ Hne (need_w_add_outs_le e s0 l w0)) in Hnf.
    unfold placeholder_w, binding. rewrite Ho. cbv beta iota. fold w0. revert Hnf.
    destruct (match s_fee_request s0 with FeeNotLess f => _ | _ => false end); intros Hnf;
      [|rewrite (need_w_diff e _ 9 w0 Hw0)]; lia.
Qed.

(* the pricing phase of add_change (everything but the final top-up) *)

Section Main.
  Context {O : Type}.
  Variable orc : @oracle O.
  Variable e : env.
  Hypothesis Hfee : fee_exact e orc.

  (* the state after the pricing phase: the stored fee is an aligned figure, and (unless the fee was fixed by the
     caller) it covers the priced transaction with a fee field of the placeholder width *)
  Definition pre_post (s : state) (b : bool) (s1 : state) : Prop :=
    exists x, s_fee s1 = Some (get_new_fee (s_fee_request s) x) /\ core s1 = core s /\
      s_fee_request s1 = s_fee_request s /\
      ((forall y, s_fee_request s <> FeeExactly y) ->
        need_w e s1 (if b then placeholder_w e s else 9) <= get_new_fee (s_fee_request s) x).

  (* every path ends by storing a figure that covers the state reached *)
  Lemma pre_post_intro s (b : bool) s2 x :
    core s2 = core s -> s_fee_request s2 = s_fee_request s ->
    ((forall y, s_fee_request s <> FeeExactly y) -> need_w e s2 (if b then placeholder_w e s else 9) <= x) ->
    pre_post s b (set_final_fee x s2).
  Proof.
    intros Hc Hr Hn. exists x. autorewrite with state. rewrite Hr. repeat split; auto.
    intros Hne. pose proof (al_ge (s_fee_request s) x Hne). specialize (Hn Hne). lia.
  Qed.

  (* the estimate add_change starts with, unless the fee was fixed by the caller *)
  Definition start_fee (s : state) (X : N) : Prop :=
    (forall y, s_fee_request s <> FeeExactly y) -> X = get_new_fee (s_fee_request s) (need_w e s 9).

  Lemma burn_post s burn X : start_fee s X -> X <= burn -> pre_post s false (set_final_fee burn s).
  Proof.
    intros HX Hb. apply pre_post_intro; auto. intros Hne. pose proof (al_ge _ (need_w e s 9) Hne).
    rewrite <- (HX Hne) in *. lia.
  Qed.

  Lemma Inv_pre_post s X s2 nf : start_fee s X -> Inv e s X s2 nf -> pre_post s true (set_final_fee nf s2).
  Proof.
    intros HX HI. destruct (Inv_frame _ _ _ _ _ HI). apply pre_post_intro; auto.
    intros Hne. exact (Inv_final e s X _ _ Hne (HX Hne) HI).
  Qed.

  Lemma burn_extra_spec burn b s s1 o o1 :
    burn_extra (O:=O) burn s o = mkOut (Ok b) s1 o1 -> b = false /\ s1 = set_final_fee burn s.
  Proof.
    unfold burn_extra. rewrite bindM_get. intros H.
    destruct (c_do_not_burn_extra_change (s_cfg s)); [discriminate H|].
    destruct (s_fee_request s) as [|f|f]; [| |destruct (f <? burn); [discriminate H|]]; inversion H; auto.
  Qed.

  Lemma pure_branch_spec addr extra ce X b s s1 o o1 :
    pure_branch_legacy orc addr extra ce X s o = mkOut (Ok b) s1 o1 ->
    start_fee s X -> X <= coin ce -> pre_post s b s1.
  Proof.
    unfold pure_branch_legacy. intros H HX Hce.
    apply bindM_pure_inv in H as (min_ada & o2 & _ & H); [|auto with pure].
    destruct (coin ce <? min_ada).
    { apply burn_extra_spec in H as (-> & ->). now apply (burn_post _ _ X). }
    apply bindM_pure_inv in H as (d & o3 & Hd & H); [|auto with pure].
    apply bindM_lift_inv in H as (nf & Hadd & H). apply checked_add_inv in Hadd as ->.
    apply bindM_lift_inv in H as (nd & _ & H).
    destruct (coin ce <? nd).
    { apply burn_extra_spec in H as (-> & ->). now apply (burn_post _ _ X). }
    rewrite bindM_modify in H. apply bindM_lift_inv in H as (amount & Hsub & H).
    apply bindM_inv in H as (u & s' & o4 & Hout & H). apply (add_output_spec orc) in Hout as ->.
    apply ret_inv in H as (-> & -> & _).
    rewrite add_out_final_fee_comm. apply Inv_pre_post with X; [exact HX|].
    eapply Inv_step; [exact Hfee | apply Inv_init, N.le_refl | exact Hd | eapply out_size_sub_fee, Hsub].
  Qed.

  Lemma asset_branch_pre_spec fuel addr extra it ot X bg s s1 o o1 :
    asset_branch_pre orc fuel addr extra it ot X s o = mkOut (Ok bg) s1 o1 ->
    start_fee s X -> fst bg = true /\ pre_post s true s1.
  Proof.
    unfold asset_branch_pre. intros H HX.
    apply bindM_lift_inv in H as (cl0 & _ & H).
    apply bindM_pure_inv in H as (minimum & o2 & _ & H); [|auto with pure].
    apply bindM_inv in H as (r & sl & o3 & Hl & H).
    apply (change_while_loop_inv orc e Hfee s X) in Hl; [|apply Inv_init, N.le_refl].
    apply bindM_lift_inv in H as (cl1 & _ & H). rewrite bindM_get in H.
    apply bindM_inv in H as (r2 & s2 & o4 & H2 & H). rewrite bindM_modify in H.
    apply ret_inv in H as (-> & -> & _). split; [reflexivity|]. apply Inv_pre_post with X; [exact HX|].
    (* the optional pure-ADA output *)
    destruct (c_prefer_pure_change (s_cfg sl) && (minimum <? coin cl1)).
    - apply bindM_pure_inv in H2 as (af & o5 & Haf & H2); [|auto with pure].
      apply bindM_lift_inv in H2 as (ppv & Hppv & H2).
      destruct (minimum <? coin ppv).
      + apply bindM_lift_inv in H2 as (nf' & Hadd & H2). apply checked_add_inv in Hadd as ->.
        apply bindM_inv in H2 as (u & s' & o6 & Hout & H2). apply (add_output_spec orc) in Hout as ->.
        apply ret_inv in H2 as (-> & -> & _).
        eapply Inv_step; [exact Hfee | exact Hl | exact Haf | eapply out_size_sub_fee, Hppv].
      + apply ret_inv in H2 as (-> & -> & _). exact Hl.
    - apply ret_inv in H2 as (-> & -> & _). exact Hl.
  Qed.

  Theorem add_change_pre_spec fuel addr extra bg s s1 o o1 :
    add_change_pre orc fuel addr extra s o = mkOut (Ok bg) s1 o1 ->
    s_fee s = None /\ pre_post s (fst bg) s1 /\ (snd bg <> None -> fst bg = true).
  Proof.
    unfold add_change_pre. rewrite bindM_get. intros H.
    destruct (s_fee s) eqn:Efee; [discriminate H|]. split; [reflexivity|].
    apply bindM_inv in H as (X & s' & o2 & HX & H). apply (min_fee_pub_spec orc e Hfee) in HX as (-> & HX).
    assert (HX' : start_fee s X) by (intros Hne; rewrite (al_two32_w _ Hne) in HX; exact HX).
    apply bindM_lift_inv in H as (it & _ & H). apply bindM_lift_inv in H as (ot & _ & H).
    apply bindM_lift_inv in H as (sh & _ & H). destruct sh; [discriminate H|].
    apply bindM_lift_inv in H as (opf & Hopf & H). apply vadd_coin in Hopf. cbn [value_new coin] in Hopf.
    destruct (value_partial_cmp it opf) as [c|] eqn:Ecmp; [|discriminate H].
    pose proof (vcmp_coin_ge _ _ _ Ecmp) as Hge.
    destruct c; [| discriminate H |]; apply bindM_lift_inv in H as (d & Hd & H);
      apply vsub_coin in Hd as (Hd & _); specialize (Hge ltac:(discriminate)).
    - (* exact *)
      rewrite bindM_modify in H. apply ret_inv in H as (-> & -> & _).
      split; [|intros Hc; now destruct Hc]. apply (burn_post _ _ X); [exact HX' | lia].
    - (* change or burn *)
      destruct (has_assets (multiasset_of d)).
      + apply asset_branch_pre_spec in H as (Hb & Hp); [|exact HX']. rewrite Hb. auto.
      + apply bindM_inv in H as (b & s' & o3 & Hb & H). apply ret_inv in H as (-> & -> & _).
        split; [|intros Hc; now destruct Hc]. eapply pure_branch_spec; [exact Hb | exact HX' | lia].
  Qed.
End Main.

(* add_change_legacy = pricing phase, then the top-up; add_change = add_change_legacy, then the fee re-check on the
   paths that return true *)

Section Split.
  Context {O : Type}.
  Variable orc : @oracle O.

  Lemma asset_branch_split fuel addr extra it ot fee s (o : O) :
    asset_branch_legacy orc fuel addr extra it ot fee s o =
    bindM (asset_branch_pre orc fuel addr extra it ot fee) (finish_change orc) s o.
  Proof. unfold asset_branch_legacy, asset_branch_pre. do 7 (apply bindM_push; intros). reflexivity. Qed.

  Lemma add_change_split fuel addr extra s (o : O) :
    add_change_legacy orc fuel addr extra s o =
    bindM (add_change_pre orc fuel addr extra) (finish_change orc) s o.
  Proof.
    unfold add_change_legacy, add_change_pre. apply bindM_push; intros sg s1 o1.
    destruct (s_fee sg); [reflexivity|].
    do 4 (apply bindM_push; intros). destruct a2; [reflexivity|]. apply bindM_push; intros.
    destruct (value_partial_cmp a0 a2) as [[ | | ]|]; try reflexivity.
    - do 2 (apply bindM_push; intros). reflexivity.
    - apply bindM_push; intros. destruct (has_assets (multiasset_of a3)); [apply asset_branch_split|].
      rewrite bindM_assoc. symmetry. apply bindM_ret_r.
  Qed.

  Lemma burn_extra_post x s (o : O) :
    burn_extra x s o = bindM (burn_extra x) (post_check orc) s o.
  Proof.
    unfold burn_extra. apply bindM_push; intros sg s1 o1.
    destruct (c_do_not_burn_extra_change (s_cfg sg)); [reflexivity|].
    destruct (s_fee_request sg); [| |destruct (f <? x)]; reflexivity.
  Qed.

  Lemma pure_branch_fix_split addr extra ce fee s (o : O) :
    pure_branch orc addr extra ce fee s o = bindM (pure_branch_legacy orc addr extra ce fee) (post_check orc) s o.
  Proof.
    unfold pure_branch, pure_branch_legacy. apply bindM_push; intros.
    destruct (coin ce <? a); [apply burn_extra_post|]. do 3 (apply bindM_push; intros).
    destruct (coin ce <? a2); [apply burn_extra_post|]. do 3 (apply bindM_push; intros). reflexivity.
  Qed.

  Lemma asset_branch_fix_split fuel addr extra it ot fee s (o : O) :
    asset_branch orc fuel addr extra it ot fee s o
    = bindM (asset_branch_legacy orc fuel addr extra it ot fee) (post_check orc) s o.
  Proof. unfold asset_branch, asset_branch_legacy. do 8 (apply bindM_push; intros). reflexivity. Qed.

  Lemma add_change_fix_split fuel addr extra s (o : O) :
    add_change orc fuel addr extra s o = bindM (add_change_legacy orc fuel addr extra) (post_check orc) s o.
  Proof.
    unfold add_change, add_change_legacy. apply bindM_push; intros sg s1 o1.
    destruct (s_fee sg); [reflexivity|].
    do 4 (apply bindM_push; intros). destruct a2; [reflexivity|]. apply bindM_push; intros.
    destruct (value_partial_cmp a0 a2) as [[ | | ]|]; try reflexivity.
    - do 2 (apply bindM_push; intros). reflexivity.
    - apply bindM_push; intros.
      destruct (has_assets (multiasset_of a3)); [apply asset_branch_fix_split | apply pure_branch_fix_split].
  Qed.
End Split.

Lemma need_placeholder e s F : need_w e s 9 <= F -> need e s F <= F.
Proof. intros H. pose proof (head_size_bounds F). pose proof (need_w_mono_w e s 9 (head_size F)). unfold need. lia. Qed.

Section Theorems.
  Context {O : Type}.
  Variable orc : @oracle O.
  Variable e : env.
  Hypothesis Hfee : fee_exact e orc.

  Lemma top_up_last_spec t u s s' o o' :
    top_up_last orc t s o = mkOut (Ok u) s' o' -> exists outs', s' = set_s_outputs outs' s.
  Proof.
    unfold top_up_last. rewrite bindM_get. intros H.
    destruct (rev (s_outputs s)) as [|last before]; [discriminate H|].
    apply bindM_lift_inv in H as (amount & _ & H). rewrite bindM_put in H.
    apply (pure_pres _ (pure_output_admissible orc _)) in H as ->. eauto.
  Qed.

  Lemma finish_change_spec bg b s s' o o' :
    finish_change orc bg s o = mkOut (Ok b) s' o' ->
    b = fst bg /\ (snd bg = None -> s' = s) /\ exists outs', s' = set_s_outputs outs' s.
  Proof.
    unfold finish_change. intros H. assert (Hs : exists outs', s = set_s_outputs outs' s) by (eexists; symmetry; apply set_outputs_same).
    destruct (snd bg) as [t|].
    - apply bindM_inv in H as (u & s1 & o1 & H1 & H). apply ret_inv in H as (-> & -> & _).
      split; [reflexivity|]. split; [discriminate|].
      destruct (value_is_zero t); [apply ret_inv in H1 as (_ & -> & _); exact Hs | eapply top_up_last_spec, H1].
    - apply ret_inv in H as (-> & -> & _). auto.
  Qed.

  (* a successful run of the code before the repair: its pricing phase succeeded, and the top-up changed outputs only
     (nothing at all on the paths that return false) *)
  Lemma add_change_legacy_spec fuel addr extra b s s' o o' :
    add_change_legacy orc fuel addr extra s o = mkOut (Ok b) s' o' ->
    exists g s1 o1 outs,
      add_change_pre orc fuel addr extra s o = mkOut (Ok (b, g)) s1 o1 /\ pre_post e s b s1 /\
      s' = set_s_outputs outs s1 /\ (b = false -> s' = s1).
  Proof.
    intros H. rewrite add_change_split in H. apply bindM_inv in H as ([b1 g] & s1 & o1 & Hpre & Hfin).
    pose proof (add_change_pre_spec orc e Hfee _ _ _ _ _ _ _ _ Hpre) as (_ & Hpp & Hg).
    apply finish_change_spec in Hfin as (-> & Hsame & outs & ->). cbn [fst snd] in *.
    exists g, s1, o1, outs. repeat split; auto.
    intros ->. apply Hsame. destruct g; [|reflexivity]. now discriminate Hg.
  Qed.

  (* C06_policy for the code before the repair: the fee add_change stores respects the request *)
  Theorem add_change_legacy_policy fuel addr extra b s s' o o' :
    add_change_legacy orc fuel addr extra s o = mkOut (Ok b) s' o' ->
    exists F, s_fee s' = Some F /\ s_fee_request s' = s_fee_request s /\ policy_ok (s_fee_request s) F.
  Proof.
    intros H. apply add_change_legacy_spec in H as (g & s1 & o1 & outs & _ & (x & Hf & _ & Hr & _) & -> & _).
    exists (get_new_fee (s_fee_request s) x). autorewrite with state. auto using al_policy_ok.
  Qed.

  (* C06_legacy_sufficient *)
  Theorem add_change_legacy_fee_sufficient fuel addr extra b s s' o o' :
    add_change_legacy orc fuel addr extra s o = mkOut (Ok b) s' o' ->
    (forall y, s_fee_request s <> FeeExactly y) ->
    slack_ok e orc fuel addr extra s o = true ->
    sufficient e s'.
  Proof.
    intros H Hne Hslack. unfold slack_ok in Hslack. rewrite H in Hslack.
    apply add_change_legacy_spec in H as (g & s1 & o1 & outs & Hpre & (x & Hf & _ & _ & Hn) & -> & Hsame).
    rewrite Hpre in Hslack. cbn [out_res out_st] in Hslack. autorewrite with state in Hslack. rewrite Hf in Hslack.
    specialize (Hn Hne). exists (get_new_fee (s_fee_request s) x). autorewrite with state. split; [exact Hf|].
    destruct b.
    - apply N.leb_le in Hslack. unfold need, need_w in *. autorewrite with state. clear - Hslack Hn. nia.
    - rewrite (Hsame eq_refl). apply need_placeholder, Hn.
  Qed.

  (* the check leaves the state alone; when it passes (fee not fixed by the caller) the stored fee covers the estimate *)
  Lemma check_fee_after_change_inv u s s' o o' :
    check_fee_after_change orc s o = mkOut (Ok u) s' o' ->
    s' = s /\ ((forall y, s_fee_request s <> FeeExactly y) -> forall F, s_fee s = Some F -> need e s F <= F).
  Proof.
    unfold check_fee_after_change. rewrite bindM_get. intros H.
    destruct (s_fee s) as [F|] eqn:EF.
    - assert (EF' : get_fee_if_set s = Some F) by (unfold get_fee_if_set; now rewrite EF).
      destruct (s_fee_request s) as [|r|f];
        [ | | apply ret_inv in H as (_ & -> & _); split; [reflexivity | intros Hne; now destruct (Hne f)] ];
        apply (fee_covers_inv orc e Hfee) in H as (-> & H); auto;
        (split; [reflexivity | intros _ F' [= <-]; exact H]).
    - split; [|discriminate]. destruct (s_fee_request s); apply ret_inv in H; tauto.
  Qed.

  Lemma post_check_inv b b' s s' o o' :
    post_check orc b s o = mkOut (Ok b') s' o' ->
    b' = b /\ s' = s /\
    (b = true -> (forall y, s_fee_request s <> FeeExactly y) -> forall F, s_fee s = Some F -> need e s F <= F).
  Proof.
    unfold post_check. destruct b; intros H.
    - apply bindM_inv in H as (u & s1 & o1 & Hc & H). apply check_fee_after_change_inv in Hc as (-> & Hc).
      apply ret_inv in H as (-> & -> & _). auto.
    - apply ret_inv in H as (-> & -> & _). repeat split. discriminate.
  Qed.

  (* C06_sufficient: every successful add_change (fee not fixed by the caller) stores a sufficient fee *)
  Theorem add_change_fee_sufficient fuel addr extra b s s' o o' :
    add_change orc fuel addr extra s o = mkOut (Ok b) s' o' ->
    (forall y, s_fee_request s <> FeeExactly y) ->
    sufficient e s'.
  Proof.
    intros H Hne. rewrite add_change_fix_split in H. apply bindM_inv in H as (b1 & s1 & o1 & Hl & Hp).
    apply post_check_inv in Hp as (-> & -> & Hc).
    apply add_change_legacy_spec in Hl as (g & s2 & o2 & outs & _ & (x & Hf & _ & Hr & Hn) & -> & Hsame).
    exists (get_new_fee (s_fee_request s) x). autorewrite with state in Hc |- *. split; [exact Hf|].
    destruct b1.
    - apply Hc; auto. rewrite Hr. exact Hne.
    - rewrite (Hsame eq_refl). apply need_placeholder, Hn, Hne.
  Qed.

  (* build_tx's final guard; add_inputs_from_and_change ends with a successful add_change *)

  Lemma validate_fee_spec u s s' o o' :
    validate_fee orc s o = mkOut (Ok u) s' o' ->
    s' = s /\ exists F, get_fee_if_set s = Some F /\ need e s F <= F /\ policy_ok (s_fee_request s) F.
  Proof.
    unfold validate_fee. rewrite bindM_get. intros H.
    destruct (get_fee_if_set s) as [F|] eqn:EF; [|discriminate H].
    destruct (negb _) eqn:Eh in H; [discriminate H|]. apply negb_false_iff in Eh.
    apply (fee_covers_inv orc e Hfee) in H as (-> & Hn); [|exact EF].
    split; [reflexivity|]. exists F. repeat split; auto.
    unfold policy_ok. destruct (s_fee_request s); auto; [apply N.leb_le | apply N.eqb_eq]; exact Eh.
  Qed.

  (* C06_validate *)
  Theorem build_tx_validates body s s' o o' :
    build_tx orc s o = mkOut (Ok body) s' o' ->
    exists F, get_fee_if_set s = Some F /\ b_fee body = F /\ need e s F <= F /\ policy_ok (s_fee_request s) F.
  Proof.
    unfold build_tx. intros H. apply bindM_inv in H as (u & s1 & o1 & Hv & H).
    apply validate_fee_spec in Hv as (-> & F & HF & Hn & Hp). rewrite bindM_get in H.
    apply bindM_lift_inv in H as (u2 & _ & H). unfold build in H. rewrite bindM_get, HF in H.
    apply bindM_pure_inv in H as (u3 & o2 & _ & H); [|auto with pure].
    apply bindM_pure_inv in H as (big & o3 & _ & H); [|auto with pure].
    destruct big; [discriminate H|]. apply ret_inv in H as (-> & _).
    exists F. repeat split; auto. unfold body_of; cbn [b_fee]. rewrite HF. reflexivity.
  Qed.

  Lemma retry_loop_ends fuel addr extra l : forall b s s' (o o' : O),
    retry_loop orc fuel addr extra l s o = mkOut (Ok (Some b)) s' o' ->
    exists st ot, add_change orc fuel addr extra st ot = mkOut (Ok b) s' o'.
  Proof.
    induction l as [|x l IH]; intros b s s' o o' H; cbn [retry_loop] in H; [discriminate H|].
    apply bindM_inv in H as (u & s1 & o1 & _ & H). apply bindM_inv in H as ([v|] & s2 & o2 & Hc & H).
    - apply ret_inv in H as (Hv & -> & ->). inversion Hv; subst. apply catch_some in Hc. eauto.
    - eapply IH, H.
  Qed.

  (* C06_select: the state add_inputs_from_and_change leaves on success is the state a successful add_change left *)
  Theorem select_and_change_ends fuel utxos addr extra b s s' o o' :
    add_inputs_from_and_change orc fuel utxos addr extra s o = mkOut (Ok b) s' o' ->
    exists st ot, add_change orc fuel addr extra st ot = mkOut (Ok b) s' o'.
  Proof.
    unfold add_inputs_from_and_change. rewrite bindM_get. intros H.
    apply bindM_inv in H as (sel & s2 & o2 & _ & H). apply bindM_inv in H as (u & s3 & o3 & _ & H).
    destruct (negb (snd sel)); [discriminate H|]. rewrite bindM_get in H.
    destruct (s_fee _); [discriminate H|].
    apply bindM_inv in H as ([v|] & s5 & o5 & Hc & H).
    - apply ret_inv in H as (-> & -> & ->). apply catch_some in Hc. eauto.
    - rewrite bindM_get in H. apply bindM_inv in H as ([v|] & s7 & o7 & Hr & H); [|discriminate H].
      apply ret_inv in H as (-> & -> & ->). eapply retry_loop_ends, Hr.
  Qed.
End Theorems.

(* C06_telescope: sequential fee_for_output increments add up to the difference of the estimates, including
   the growth of the outputs array head (23 -> 24, 255 -> 256 outputs) *)

Fixpoint seq_fees (e : env) (w : N) (s : state) (l : list output) : N :=
  match l with
  | [] => 0
  | x :: r => (need_w e (add_out x s) w - need_w e s w) + seq_fees e w (add_out x s) r
  end.

Lemma need_w_add_outs e s l w :
  need_w e (add_outs l s) w + e_a e * head_size (lenN (s_outputs s))
  = need_w e s w + e_a e * (sumN (map (out_size e) l) + head_size (lenN (s_outputs s) + lenN l)).
Proof.
  pose proof (outs_size_app e (s_outputs s) l). unfold add_outs, need_w. autorewrite with state. nia.
Qed.

(* without a fee request, fee_for_output IS the increment of the estimate (fee field of one byte: 0) *)
Lemma fee_for_output_unspecified {O} (orc : @oracle O) e (Hfee : fee_exact e orc) x d s s' (o o' : O) :
  s_fee_request s = FeeUnspecified ->
  fee_for_output orc x s o = mkOut (Ok d) s' o' ->
  d = need_w e (add_out x s) 1 - need_w e s 1.
Proof.
  intros Hr H. apply (fee_for_output_spec orc e Hfee) in H. cbv zeta in H. rewrite Hr in H. tauto.
Qed.

(* only the last output's coin grew *)
Lemma slack_from_widths e l x x' F P :
  e_obase e (o_addr x') (o_extra x') = e_obase e (o_addr x) (o_extra x) ->
  value_extra (multiasset_of (o_amount x')) = value_extra (multiasset_of (o_amount x)) ->
  head_size (coin (o_amount x')) + head_size F <= head_size (coin (o_amount x)) + P ->
  outs_size e (l ++ [x']) + head_size F <= outs_size e (l ++ [x]) + P.
Proof.
  intros Hb Hv Hw. pose proof (outs_size_snoc e l x). pose proof (outs_size_snoc e l x').
  unfold out_size, value_size in *. rewrite Hb, Hv in *. lia.
Qed.

(* witnesses: the premises are satisfiable (that the slack premise cannot be dropped is shown in Props/C06.v) *)

Lemma sufficientb_spec e s : sufficientb e s = true <-> sufficient e s.
Proof.
  unfold sufficientb, sufficient. split.
  - destruct (s_fee s) as [F|]; [|discriminate]. intros H. exists F. split; auto. apply N.leb_le; auto.
  - intros (F & -> & H). apply N.leb_le; auto.
Qed.

Lemma size_oracle_fee_exact e cpb mv : fee_exact e (size_oracle e cpb mv).
Proof. intros st o. reflexivity. Qed.

Module Witness.
  Definition pol : bytes := repeat 1 28.
  Definition tok : bytes := [116; 111; 107].
  Definition cfg := mkConfig 500000000 2000000 false false.
  (* one key input (enterprise address), no requested output, change to an enterprise address (id 1; the fake
     address of the min-ADA calculator is id 0, a 57-byte base address): K = 154 bytes, as measured on the
     implementation *)
  Definition obase (a _ : N) : N := if a =? 0 then 60 else 32.
  Definition e_main : env := mkEnv 44 155381 16384 (fun _ => 154) obase (fun _ => Ok 0) (fun _ => Ok 0).
  (* 5000 ADA and 5 tokens of one asset *)
  Definition s_tok : state := set_s_inputs [(1, mkValue 5000000000 (Some [(pol, [(tok, 5)])]))] (new_state cfg).
  (* a 1.4 kB transaction (metadata), linear fee 44 * size: the estimate is just below 2^16 *)
  Definition e_nl : env := mkEnv 44 0 16384 (fun _ => 1449) obase (fun _ => Ok 0) (fun _ => Ok 0).
  Definition s_nl : state := set_s_fee_request (FeeNotLess 65535) (set_s_inputs [(1, mkValue 5000000 None)] (new_state cfg)).
End Witness.
Import Witness.

(* mainnet parameters (4310 lovelace per byte): the premises of the sufficiency theorem hold, with zero margin:
   fee 165897 = 44 * 239 + 155381 *)
Example sufficient_premises_mainnet :
  let orc := size_oracle e_main 4310 5000 in
  let r := add_change orc 10 1 0 s_tok tt in
  out_res r = Ok true /\ s_fee (out_st r) = Some 165897 /\ s_fee_request s_tok = FeeUnspecified /\
  slack_ok e_main orc 10 1 0 s_tok tt = true /\ need e_main (out_st r) 165897 = 165897 /\
  out_res (add_change_legacy orc 10 1 0 s_tok tt) = Ok true.
Proof. vm_compute. repeat split. Qed.

(* the repaired add_change refuses the two runs on which the code before the repair stored too small a fee
   (Props/C06.v C06_sufficient_refuted, C06_notless_refuted) *)
Example fixed_refuses_witnesses :
  out_res (add_change (size_oracle e_main 100 5000) 10 1 0 s_tok tt) = Err /\
  out_res (add_change (size_oracle e_nl 4310 5000) 10 1 0 s_nl tt) = Err.
Proof. vm_compute. split; reflexivity. Qed.

(* premises of the other theorems are satisfiable *)
Example build_premises :
  let orc := size_oracle e_main 4310 5000 in
  let r := add_change orc 10 1 0 s_tok tt in
  exists body, out_res (build_tx orc (out_st r) tt) = Ok body /\ b_fee body = 165897.
Proof. vm_compute. eexists. split; reflexivity. Qed.

Example policy_premises :
  let orc := size_oracle e_main 4310 5000 in
  out_res (add_change orc 10 1 0 (set_s_fee_request (FeeNotLess 200000) s_tok) tt) = Ok true.
Proof. vm_compute. reflexivity. Qed.
