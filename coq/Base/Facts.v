(* Facts about [result] and list folds that every part of the development uses. *)
From CSL Require Import Base.Prelude.

Lemma bind_ok {A B} (r : result A) (f : A -> result B) b :
  bind r f = Ok b -> exists a, r = Ok a /\ f a = Ok b.
Proof. destruct r; cbn [bind]; try discriminate. intros H. eexists; split; [reflexivity|exact H]. Qed.

(* an invariant of the accumulator that every step keeps survives the fold *)
Lemma fold_left_inv {A B} (P : A -> Prop) (f : A -> B -> A) l :
  (forall a b, In b l -> P a -> P (f a b)) -> forall a, P a -> P (fold_left f l a).
Proof.
  induction l as [|b l IH]; intros H a Ha; cbn [fold_left]; [assumption|].
  apply IH; [intros a' b' Hb'; apply H; now right | apply H; [now left | assumption]].
Qed.

(* two folds over the same list stay related when each step keeps them related *)
Lemma fold_left_sim {A B C} (R : A -> C -> Prop) (f : A -> B -> A) (g : C -> B -> C) l :
  (forall a c b, R a c -> R (f a b) (g c b)) -> forall a c, R a c -> R (fold_left f l a) (fold_left g l c).
Proof. intros H. induction l as [|b l IH]; intros a c Hac; cbn [fold_left]; [assumption | apply IH, H, Hac]. Qed.
