(* Strict total orders given by boolean functions, and the orders the builders and the ledger use on
   keys: lexicographic order of byte strings (Rust's derived Ord on [u8; N] / Vec<u8>; the
   ledger's order on hashes), lexicographic products (derived Ord on structs / Haskell records),
   orders induced by injections (derived Ord on enums = order on (constructor index, payload)). *)
From CSL Require Import Base.Prelude.
Local Open Scope N_scope.

Record strict_total {A : Type} (ltb : A -> A -> bool) : Prop := {
  st_irrefl : forall x, ltb x x = false;
  st_trans : forall x y z, ltb x y = true -> ltb y z = true -> ltb x z = true;
  st_total : forall x y, ltb x y = false -> ltb y x = false -> x = y }.

(* equality test derived from the order *)
Definition eqb_of {A} (ltb : A -> A -> bool) (x y : A) : bool := negb (ltb x y) && negb (ltb y x).

Section Facts.
  Context {A : Type} (ltb : A -> A -> bool) (ST : strict_total ltb).

  Lemma st_asym x y : ltb x y = true -> ltb y x = false.
  Proof.
    intros H. destruct (ltb y x) eqn:E; [|reflexivity].
    pose proof (st_trans _ ST _ _ _ H E) as T. rewrite (st_irrefl _ ST) in T. discriminate.
  Qed.

  Lemma eqb_of_true x y : eqb_of ltb x y = true <-> x = y.
  Proof.
    unfold eqb_of. split.
    - intros H. apply andb_true_iff in H as [H1 H2]. apply negb_true_iff in H1, H2.
      apply (st_total _ ST); assumption.
    - intros ->. rewrite (st_irrefl _ ST). reflexivity.
  Qed.

  Lemma eqb_of_false x y : eqb_of ltb x y = false <-> x <> y.
  Proof.
    split.
    - intros H E. apply eqb_of_true in E. congruence.
    - intros H. destruct (eqb_of ltb x y) eqn:E; [|reflexivity]. apply eqb_of_true in E. contradiction.
  Qed.

  Lemma eqb_of_refl x : eqb_of ltb x x = true.
  Proof. apply eqb_of_true. reflexivity. Qed.

  Lemma st_eq_dec (x y : A) : {x = y} + {x <> y}.
  Proof.
    destruct (eqb_of ltb x y) eqn:E; [left; apply eqb_of_true; exact E | right; apply eqb_of_false; exact E].
  Qed.

  Lemma st_trichotomy x y : ltb x y = true \/ x = y \/ ltb y x = true.
  Proof.
    destruct (ltb x y) eqn:E1; [left; reflexivity|]. destruct (ltb y x) eqn:E2; [right; right; reflexivity|].
    right; left. apply (st_total _ ST); assumption.
  Qed.
End Facts.

(* byte strings, lexicographic; a proper prefix is smaller *)
Fixpoint bytes_ltb (a b : bytes) : bool :=
  match a, b with
  | [], [] => false
  | [], _ :: _ => true
  | _ :: _, [] => false
  | x :: a', y :: b' => if x <? y then true else if y <? x then false else bytes_ltb a' b'
  end.

Lemma bytes_ltb_irrefl a : bytes_ltb a a = false.
Proof. induction a as [|x a IH]; [reflexivity|]. cbn [bytes_ltb]. rewrite N.ltb_irrefl. exact IH. Qed.

Lemma bytes_ltb_cons x a y b : bytes_ltb (x :: a) (y :: b) = true <-> x < y \/ (x = y /\ bytes_ltb a b = true).
Proof.
  cbn [bytes_ltb]. destruct (N.ltb_spec x y) as [Hxy|Hxy]; [split; [left; exact Hxy|reflexivity]|].
  destruct (N.ltb_spec y x) as [Hyx|Hyx]; [split; [discriminate|intros [H|[H _]]; lia]|].
  split; [intros H; right; split; [lia|exact H]|intros [H|[_ H]]; [lia|exact H]].
Qed.

Lemma bytes_ltb_trans a : forall b c, bytes_ltb a b = true -> bytes_ltb b c = true -> bytes_ltb a c = true.
Proof.
  induction a as [|x a IH]; intros [|y b] [|z c]; try discriminate; try reflexivity.
  rewrite !bytes_ltb_cons. intros [H1|[-> H1]] [H2|[-> H2]].
  - left. lia.
  - left. exact H1.
  - left. exact H2.
  - right. split; [reflexivity|exact (IH _ _ H1 H2)].
Qed.

Lemma bytes_ltb_total a : forall b, bytes_ltb a b = false -> bytes_ltb b a = false -> a = b.
Proof.
  induction a as [|x a IH]; intros [|y b]; cbn [bytes_ltb]; try discriminate; try reflexivity.
  destruct (x <? y) eqn:E1; destruct (y <? x) eqn:E2; try discriminate.
  intros H1 H2. f_equal; [lia | apply IH; assumption].
Qed.

Lemma bytes_strict_total : strict_total bytes_ltb.
Proof. constructor; [apply bytes_ltb_irrefl | apply bytes_ltb_trans | apply bytes_ltb_total]. Qed.

Lemma N_strict_total : strict_total N.ltb.
Proof. constructor; intros; lia. Qed.

Definition bool_ltb (a b : bool) : bool := negb a && b.        (* false < true *)
Lemma bool_strict_total : strict_total bool_ltb.
Proof. constructor; unfold bool_ltb; intros; destruct x; try destruct y; try destruct z; try discriminate; reflexivity. Qed.

(* lexicographic product (derived Ord on a struct / record: first field, then second) *)
Definition lex_ltb {A B} (la : A -> A -> bool) (lb : B -> B -> bool) (p q : A * B) : bool :=
  if la (fst p) (fst q) then true else if la (fst q) (fst p) then false else lb (snd p) (snd q).

Lemma lex_strict_total {A B} (la : A -> A -> bool) (lb : B -> B -> bool) :
  strict_total la -> strict_total lb -> strict_total (lex_ltb la lb).
Proof.
  intros SA SB. constructor.
  - intros [a b]. unfold lex_ltb. cbn [fst snd]. rewrite (st_irrefl _ SA). apply (st_irrefl _ SB).
  - intros [a1 b1] [a2 b2] [a3 b3]. unfold lex_ltb. cbn [fst snd].
    destruct (st_trichotomy la SA a1 a2) as [H12|[->|H12]].
    + rewrite H12. intros _.
      destruct (st_trichotomy la SA a2 a3) as [H23|[->|H23]].
      * rewrite (st_trans _ SA _ _ _ H12 H23). reflexivity.
      * rewrite H12. reflexivity.
      * rewrite (st_asym la SA _ _ H23), H23. discriminate.
    + rewrite (st_irrefl _ SA). intros Hb. destruct (la a2 a3) eqn:E23; [reflexivity|].
      destruct (la a3 a2); [discriminate|]. intros Hb'. apply (st_trans _ SB _ _ _ Hb Hb').
    + rewrite (st_asym la SA _ _ H12), H12. discriminate.
  - intros [a1 b1] [a2 b2]. unfold lex_ltb. cbn [fst snd].
    destruct (la a1 a2) eqn:E12; [discriminate|]. destruct (la a2 a1) eqn:E21; [discriminate|].
    intros H1 H2. f_equal; [apply (st_total _ SA) | apply (st_total _ SB)]; assumption.
Qed.

(* order induced by an injection into an ordered type *)
Definition on_ltb {A B} (f : A -> B) (lb : B -> B -> bool) (x y : A) : bool := lb (f x) (f y).

Lemma on_strict_total {A B} (f : A -> B) (lb : B -> B -> bool) :
  (forall x y, f x = f y -> x = y) -> strict_total lb -> strict_total (on_ltb f lb).
Proof.
  intros Inj SB. constructor; unfold on_ltb.
  - intros x. apply (st_irrefl _ SB).
  - intros x y z. apply (st_trans _ SB).
  - intros x y H1 H2. apply Inj. apply (st_total _ SB); assumption.
Qed.

(* None < Some _ (derived Ord on Option<T>) *)
Definition opt_ltb {A} (la : A -> A -> bool) (x y : option A) : bool :=
  match x, y with
  | None, Some _ => true
  | Some a, Some b => la a b
  | _, None => false
  end.

Lemma opt_strict_total {A} (la : A -> A -> bool) : strict_total la -> strict_total (opt_ltb la).
Proof.
  intros SA. constructor.
  - intros [a|]; cbn; [apply (st_irrefl _ SA) | reflexivity].
  - intros [a|] [b|] [c|]; cbn; try discriminate; try reflexivity. apply (st_trans _ SA).
  - intros [a|] [b|]; cbn; try discriminate; try reflexivity. intros H1 H2. f_equal. apply (st_total _ SA); assumption.
Qed.
