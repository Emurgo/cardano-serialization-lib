(* C09 — the judge's byte slicing is sound on what the model emits: slicing the serialised witness set
   (ScriptDataSpec.map_slices / field_slice, built on Cbor/Item.v skip_item) returns exactly the structured fields
   of ScriptData.ws_fields, provided every emitted field is one well-formed CBOR item (true whenever the opaque
   scripts / datums / redeemer data are).  This ties the structured statements of ScriptDataProofs.v to the
   bytes of the emitted transaction.  All closed under the global context. *)
From CSL Require Import Base.Prelude Cbor.Head Cbor.HeadProofs Cbor.Item Cbor.ItemProofs
  ScriptData.LangViews ScriptData.ScriptData ScriptData.ScriptDataSpec ScriptData.ScriptDataProofs.
Local Open Scope N_scope.

(* a byte string that skip_item delimits exactly, whatever follows *)
Definition delim (v : bytes) : Prop := forall rest, skip_item (v ++ rest) = Ok (v, rest).

Lemma item_wf_delim v : item_wf v = true -> delim v.
Proof.
  unfold item_wf. intros Hwf rest. destruct (parse_exact v) as [it| | |] eqn:E; try discriminate.
  apply parse_exact_ok in E. rewrite <- (app_nil_r v) in E. apply (parse_one_local _ _ rest) in E.
  apply skip_item_parse. exists it. split; [exact E|reflexivity].
Qed.

Lemma delim_uint k : k < two64 -> delim (encode_head 0 k).
Proof.
  intros Hk rest. change (encode_head 0 k) with (encode_item (IUint k)). apply skip_item_encode.
  cbn [item_ok]. apply N.ltb_lt, Hk.
Qed.

Lemma delim_true : delim [245].
Proof. change [245] with (encode_item (ISimple 21)). intros rest. apply skip_item_encode. reflexivity. Qed.

Lemma delim_null : delim [246].
Proof. change [246] with (encode_item (ISimple 22)). intros rest. apply skip_item_encode. reflexivity. Qed.

Lemma delim_ne v : delim v -> v <> [].
Proof. intros Hd. specialize (Hd []). apply skip_item_exact in Hd as [_ Hne]. exact Hne. Qed.

(* consecutive delimited items are sliced apart one by one *)
Lemma item_slices_delims vs rest : Forall delim vs -> item_slices (length vs) (concat vs ++ rest) = Ok (vs, rest).
Proof.
  induction 1 as [|v t Hv _ IH]; [reflexivity|].
  cbn [length concat item_slices]. rewrite <- app_assoc, (Hv _). cbn [bind]. rewrite IH. reflexivity.
Qed.

Lemma delims_length vs : Forall delim vs -> (length vs <= length (concat vs))%nat.
Proof.
  induction 1 as [|v t Hv _ IH]; [apply le_n|]. cbn [concat length]. rewrite app_length.
  apply delim_ne in Hv. destruct v; [congruence|]. cbn [length]. lia.
Qed.

(* a definite-length array of delimited items is sliced into exactly these items *)
Lemma array_slices_delims n vs bs : Forall delim vs -> len vs = n -> n < two64 -> concat vs = bs ->
  array_slices n (encode_head 4 n ++ bs) = Ok vs.
Proof.
  intros Hd <- Hl <-. unfold array_slices. rewrite (decode_encode_head 4 _ _ Hl), N.eqb_refl.
  replace (N.to_nat (len vs)) with (length vs) by (unfold len; lia).
  rewrite <- (app_nil_r (concat vs)), (item_slices_delims vs [] Hd). reflexivity.
Qed.

(* the fields of a map, each a key slice and a value slice *)
Definition flat_fields (fs : list (N * bytes)) : bytes := flat_map (fun kv => encode_head 0 (fst kv) ++ snd kv) fs.
Definition slices_of (fs : list (N * bytes)) : list bytes := flat_map (fun kv => [encode_head 0 (fst kv); snd kv]) fs.

Definition field_ok (kv : N * bytes) : Prop := fst kv < two64 /\ delim (snd kv).

Lemma slices_of_fields fs : Forall field_ok fs ->
  Forall delim (slices_of fs) /\ concat (slices_of fs) = flat_fields fs /\ length (slices_of fs) = (2 * length fs)%nat.
Proof.
  induction 1 as [|[k v] t [Hk Hv] _ [IHd [IHc IHl]]]; [repeat split; constructor|].
  unfold slices_of, flat_fields in *. cbn [flat_map concat length fst snd app]. rewrite IHc, IHl, <- app_assoc.
  repeat split; [|lia]. constructor; [apply delim_uint, Hk|constructor; assumption].
Qed.

Lemma pair_up_slices fs : pair_up (slices_of fs) = map (fun kv => (encode_head 0 (fst kv), snd kv)) fs.
Proof.
  induction fs as [|[k v] t IH]; [reflexivity|].
  change (slices_of ((k, v) :: t)) with (encode_head 0 k :: v :: slices_of t).
  cbn [pair_up map fst snd]. rewrite IH. reflexivity.
Qed.

Lemma flat_fields_length fs : Forall field_ok fs -> (2 * length fs <= length (flat_fields fs))%nat.
Proof. intros Hf. destruct (slices_of_fields fs Hf) as [Hd [<- <-]]. apply delims_length, Hd. Qed.

Theorem map_slices_fields fs : Forall field_ok fs -> len fs < two64 ->
  map_slices (enc_fields fs) = Ok (map (fun kv => (encode_head 0 (fst kv), snd kv)) fs).
Proof.
  intros Hf Hl. unfold map_slices, enc_fields. rewrite (decode_encode_head 5 _ _ Hl).
  fold (flat_fields fs).
  assert (Hg : (2 * len fs <=? len (flat_fields fs)) = true).
  { apply N.leb_le. unfold len. pose proof (flat_fields_length fs Hf). lia. }
  rewrite Hg.
  replace (N.to_nat (2 * len fs)) with (2 * length fs)%nat by (unfold len; lia).
  destruct (slices_of_fields fs Hf) as [Hd [<- <-]].
  rewrite <- (app_nil_r (concat _)), (item_slices_delims _ [] Hd). cbn [bind is_nil].
  rewrite pair_up_slices. reflexivity.
Qed.

Lemma field_slice_assoc k fs : Forall field_ok fs ->
  field_slice k (map (fun kv => (encode_head 0 (fst kv), snd kv)) fs) = assoc_field k fs.
Proof.
  induction 1 as [|[k' v] t [Hk _] _ IH]; [reflexivity|].
  cbn [map field_slice assoc_field fst snd] in *. rewrite IH. unfold key_is.
  rewrite <- (app_nil_r (encode_head 0 k')), (decode_encode_head 0 k' [] Hk). reflexivity.
Qed.

Lemma present_ok tbl :
  Forall (fun e => fst e < two64 /\ forall v, snd e = Some v -> delim v) tbl -> Forall field_ok (present tbl).
Proof.
  induction 1 as [|[k [v|]] t [Hk Hv] _ IH]; [constructor|rewrite present_cons..]; [|exact IH].
  constructor; [split; [exact Hk|apply Hv; reflexivity]|exact IH].
Qed.

(* an emitted witness set: keys 0, 1, 2, 3, 6, 7, 4, 5, at most eight fields *)
Lemma ws_fields_ok w :
  Forall (fun kv => item_wf (snd kv) = true) (ws_fields w) -> Forall field_ok (ws_fields w) /\ len (ws_fields w) < two64.
Proof.
  rewrite ws_fields_table. intros Hw. split.
  - assert (Hk : Forall (fun kv => fst kv < two64) (present (ws_table w))).
    { apply (present_keys (fun k => k < two64)). repeat constructor. }
    rewrite Forall_forall in *. intros kv Hin. split; [apply Hk, Hin|apply item_wf_delim, Hw, Hin].
  - pose proof (present_length (ws_table w)) as Hl. cbn [ws_table length] in Hl. unfold len, two64. lia.
Qed.

(* an item delimited by skip_item parses the same way at every fuel larger than the input *)
Lemma delim_parse v : delim v -> exists it, forall f rest, (length (v ++ rest) < f)%nat -> parse_item f (v ++ rest) = Ok (it, rest).
Proof.
  intros Hd. pose proof (Hd []) as H0. apply skip_item_parse in H0 as [it [H0 _]].
  exists it. intros f rest Hf.
  assert (Hp : parse_one (v ++ rest) = Ok (it, rest)) by (apply (parse_one_local _ [] rest), H0).
  rewrite (parse_item_default f (v ++ rest)); [exact Hp|]. apply parse_item_fuel_enough, Hf.
Qed.

Lemma parse_n_fields f fs : Forall field_ok fs -> forall rest, (length (flat_fields fs ++ rest) < f)%nat ->
  exists kvs, parse_n (parse_pair (parse_item f)) (length fs) (flat_fields fs ++ rest) = Ok (kvs, rest).
Proof.
  induction 1 as [|[k v] t [Hk Hv] _ IH]; intros rest Hf; [exists []; reflexivity|].
  cbn [flat_fields flat_map fst snd length parse_n] in *. fold (flat_fields t) in *.
  destruct (delim_parse _ (delim_uint k Hk)) as [ik Pk]. destruct (delim_parse _ Hv) as [iv Pv].
  rewrite <- !app_assoc in *. unfold parse_pair at 1.
  rewrite Pk by exact Hf. cbn [bind].
  rewrite Pv by (rewrite !app_length in *; lia). cbn [bind].
  destruct (IH rest) as [kvs Hkvs]; [rewrite !app_length in *; lia|].
  rewrite Hkvs. cbn [bind]. eexists. reflexivity.
Qed.

(* a definite-length map of delimited fields is itself delimited *)
Theorem delim_enc_fields fs : Forall field_ok fs -> len fs < two64 -> delim (enc_fields fs).
Proof.
  intros Hf Hl rest. apply skip_item_parse.
  unfold enc_fields. fold (flat_fields fs). rewrite <- app_assoc.
  set (bs := encode_head 5 (len fs) ++ flat_fields fs ++ rest).
  assert (Hd : decode_head bs = Some (5, Arg (len fs), flat_fields fs ++ rest)) by (apply decode_encode_head, Hl).
  unfold parse_one, default_fuel. cbn [parse_item]. rewrite (parse_body_head _ _ _ _ _ Hd).
  unfold parse_after. cbn [major_of].
  assert (Hg : (len fs <=? len (flat_fields fs ++ rest)) = true).
  { apply N.leb_le. unfold len. rewrite app_length. pose proof (flat_fields_length fs Hf). lia. }
  rewrite Hg. replace (N.to_nat (len fs)) with (length fs) by (unfold len; lia).
  assert (Hlen : (length (flat_fields fs ++ rest) < length bs)%nat).
  { apply decode_head_shorter in Hd. exact Hd. }
  destruct (parse_n_fields (length bs) fs Hf rest Hlen) as [kvs Hk]. rewrite Hk. cbn [bind].
  eexists. split; [reflexivity|]. subst bs. reflexivity.
Qed.

(* [ body, witness_set, true, auxiliary_data / null ]; the body is a definite-length map whose fields 7 (auxiliary
   data hash) and 11 (script data hash) are the ones of the model and whose other fields are given, in any order *)
Definition hash_field (h : bytes) : bytes := [88; 32] ++ h.
Definition body_fields (other : list (N * bytes)) (t : tx) : list (N * bytes) :=
  other ++
  (match tx_aux_data_hash t with Some h => [(7, hash_field h)] | None => [] end) ++
  (match tx_script_data_hash t with Some h => [(11, hash_field h)] | None => [] end).
Definition tx_bytes (other : list (N * bytes)) (t : tx) : bytes :=
  [132] ++ enc_fields (body_fields other t) ++ ws_bytes (tx_witness_set t) ++ [245] ++
  (match tx_aux t with Some a => enc_aux a | None => [246] end).

Definition hash_ok (o : option bytes) : Prop :=
  match o with Some h => length h = 32%nat /\ bytes_ok h | None => True end.
Definition other_ok (other : list (N * bytes)) : Prop :=
  Forall (fun kv => fst kv < two64 /\ fst kv <> 7 /\ fst kv <> 11 /\ item_wf (snd kv) = true) other.

Lemma delim_hash_field h : length h = 32%nat -> bytes_ok h -> delim (hash_field h).
Proof.
  intros Hl Hok rest. unfold hash_field.
  assert (E : [88; 32] ++ h = encode_item (IBytes h)).
  { cbn [encode_item]. unfold len. rewrite Hl. reflexivity. }
  rewrite E. apply skip_item_encode. cbn [item_ok]. unfold chunk_ok.
  rewrite (bytes_ok_okb _ Hok). unfold len. rewrite Hl. reflexivity.
Qed.

(* the two hash fields of the body as a table of optional fields (ScriptDataProofs.present) *)
Definition hash_fields (t : tx) : list (N * option bytes) :=
  [(7, option_map hash_field (tx_aux_data_hash t)); (11, option_map hash_field (tx_script_data_hash t))].

Lemma body_fields_table other t : body_fields other t = other ++ present (hash_fields t).
Proof.
  unfold body_fields, hash_fields, present. cbn [flat_map fst snd]. rewrite app_nil_r.
  destruct (tx_aux_data_hash t), (tx_script_data_hash t); reflexivity.
Qed.

Lemma hash_entry_delim o v : hash_ok o -> option_map hash_field o = Some v -> delim v.
Proof. destruct o as [h|]; [|discriminate]. intros [Hl Hb] [= <-]. apply delim_hash_field; assumption. Qed.

(* reading a hash field back: `58 20` and 32 bytes (the identity match is the shape first_present leaves after cbv
   in C09_tx_view_sound) *)
Lemma opt_hash_field o : hash_ok o -> opt_hash (match option_map hash_field o with Some v => Some v | None => None end) = Ok o.
Proof.
  destruct o as [h|]; [|reflexivity]. intros [Hl _]. unfold option_map, hash_field, opt_hash, hash32_payload. cbn [app].
  unfold len. rewrite Hl. reflexivity.
Qed.

(* the given body fields hide neither hash field *)
Lemma assoc_other k other rest : other_ok other -> k = 7 \/ k = 11 -> assoc_field k (other ++ rest) = assoc_field k rest.
Proof.
  intros Ho Hk. induction Ho as [|[k' v] t [_ [H7 [H11 _]]] _ IH]; [reflexivity|].
  cbn [app assoc_field fst] in *. destruct (k' =? k) eqn:E; [apply N.eqb_eq in E; destruct Hk; congruence|]. exact IH.
Qed.

(* the auxiliary data are never written as the byte `f6` that stands for their absence *)
Lemma aux_not_null a : (match enc_aux a with [246] => None | _ => Some (enc_aux a) end) = Some (enc_aux a).
Proof.
  assert (Hn : enc_aux a <> [246]).
  { unfold enc_aux.
    destruct (negb (a_prefer_alonzo a)), (a_metadata a) as [md|], (a_plutus a) as [pl|];
      try (change (encode_head 6 259) with [217; 1; 3]; cbn [app]; discriminate).
    destruct (a_native a) as [ns|]; [cbn [app]; discriminate|].
    destruct (enc_metadata_first md) as [b [r [-> Hb]]]. intros [= Hb']. lia. }
  (* the pattern [246] is a match on the bits of the first byte: walk them; only 246 itself remains, excluded by Hn *)
  destruct (enc_aux a) as [|x [|y r]]; [reflexivity| |]; (destruct x as [|p]; [reflexivity|]);
    do 8 (try (destruct p as [p|p|]; try reflexivity)). congruence.
Qed.

Lemma opt_bytes_eqb_refl o : opt_bytes_eqb o o = true.
Proof. destruct o; [apply bytes_eqb_refl|reflexivity]. Qed.
