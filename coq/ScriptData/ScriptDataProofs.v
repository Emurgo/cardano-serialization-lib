(* C09 — the lemmas behind Props/C09.v: what hash_script_data and calc_script_data_hash hash is the ledger's preimage
   over the witness set that is emitted (preimage_ledger, calc_preimage_closed); histories of builder operations; the
   auxiliary data and its wire forms.  The hash function is a universally quantified argument: no law about it is used. *)
From CSL Require Import Base.Prelude Base.Facts Cbor.Head Cbor.Item ScriptData.LangViews ScriptData.ScriptData ScriptData.ScriptDataSpec.
Local Open Scope N_scope.

(* the model's encoding is the specification's map over exactly the languages of the table *)
Theorem views_model_spec cm : language_views_encoding cm = spec_views (cm_keys cm) cm.
Proof. destruct cm as [[a|] [b|] [c|]]; reflexivity. Qed.

Lemma the_three_keys : map enc_view_key canonical_langs = [[1]; [2]; [65; 0]].
Proof. reflexivity. Qed.

Lemma lang_eqb_eq a b : lang_eqb a b = true <-> a = b.
Proof. destruct a, b; cbn; split; intros; try reflexivity; try discriminate. Qed.

Lemma mem_lang_In l ls : mem_lang l ls = true <-> In l ls.
Proof.
  unfold mem_lang. rewrite existsb_exists. split.
  - intros [y [Hin Hy]]. apply lang_eqb_eq in Hy. subst y. exact Hin.
  - intros Hin. exists l. split; [exact Hin|destruct l; reflexivity].
Qed.
Lemma mem_lang_app l a b : mem_lang l (a ++ b) = mem_lang l a || mem_lang l b.
Proof. unfold mem_lang. apply existsb_app. Qed.

Lemma mem_filter_all (P : lang -> bool) l : mem_lang l (filter P all_langs) = P l.
Proof.
  unfold all_langs. cbn [filter]. destruct l; destruct (P V1) eqn:E1, (P V2) eqn:E2, (P V3) eqn:E3; reflexivity.
Qed.

Lemma mem_cm_keys cm l : mem_lang l (cm_keys cm) = is_some (cm_get cm l).
Proof. apply (mem_filter_all (fun l => is_some (cm_get cm l))). Qed.

Lemma cm_get_empty l : cm_get cm_empty l = None.
Proof. destruct l; reflexivity. Qed.
Lemma cm_get_insert acc l c l' :
  cm_get (cm_insert acc l c) l' = if lang_eqb l' l then Some c else cm_get acc l'.
Proof. destruct l, l'; reflexivity. Qed.

Lemma covers_iff cm u : covers cm u = true <-> forall l, mem_lang l u = true -> is_some (cm_get cm l) = true.
Proof.
  unfold covers. rewrite forallb_forall. split; intros Hc l Hl; apply Hc, mem_lang_In, Hl.
Qed.

(* the views, the languages in use and the covering of a table depend on the used-language list only through membership *)
Lemma langs_in_use_ext u u' : (forall l, mem_lang l u = mem_lang l u') -> langs_in_use u = langs_in_use u'.
Proof. intros E. apply filter_ext, E. Qed.
Lemma spec_views_ext used used' cm cm' :
  (forall l, mem_lang l used = mem_lang l used') ->
  (forall l, mem_lang l used = true -> cm_get cm l = cm_get cm' l) ->
  spec_views used cm = spec_views used' cm'.
Proof.
  intros Hm Hg. unfold spec_views. cbv zeta. fold (langs_in_use used) (langs_in_use used').
  rewrite <- (langs_in_use_ext _ _ Hm), !flat_map_concat_map. do 2 f_equal.
  apply map_ext_in. intros l Hl. apply filter_In in Hl as [_ Hl]. unfold spec_view_entry. rewrite (Hg l Hl). reflexivity.
Qed.
Lemma ledger_script_integrity_ext (H : bytes -> bytes) r d u u' cm :
  (forall l, mem_lang l u = mem_lang l u') ->
  ledger_script_integrity H r d u cm = ledger_script_integrity H r d u' cm.
Proof.
  intros E. unfold ledger_script_integrity.
  rewrite (spec_views_ext u u' cm cm E (fun _ _ => eq_refl)), (langs_in_use_ext u u' E). reflexivity.
Qed.
Lemma covers_ext cm u u' : (forall l, mem_lang l u = mem_lang l u') -> covers cm u = covers cm u'.
Proof.
  intros E. apply Bool.eq_iff_eq_true. rewrite !covers_iff.
  split; intros Hc l Hl; apply Hc; [rewrite E|rewrite <- E]; exact Hl.
Qed.

(* the loop of calc_script_data_hash is Costmdls::retain_language_versions, failing on a language without cost model *)
Lemma retain_or_fail_eq cm ls : forall acc,
  retain_or_fail cm ls acc =
  if covers cm ls
  then Ok (fold_left (fun acc l => match cm_get cm l with Some c => cm_insert acc l c | None => acc end) ls acc)
  else Err.
Proof.
  induction ls as [|x t IH]; intros acc; cbn [retain_or_fail covers forallb fold_left]; [reflexivity|].
  destruct (cm_get cm x); cbn [is_some andb]; [apply IH|reflexivity].
Qed.

Lemma retain_or_fail_get cm ls : forall acc r,
  retain_or_fail cm ls acc = Ok r ->
  forall l, cm_get r l = if mem_lang l ls then cm_get cm l else cm_get acc l.
Proof.
  induction ls as [|x t IH]; intros acc r Hr l; cbn [retain_or_fail] in Hr.
  - injection Hr as <-. reflexivity.
  - destruct (cm_get cm x) as [c|] eqn:E; [|discriminate].
    rewrite (IH _ _ Hr l), cm_get_insert. cbn [mem_lang existsb]. fold (mem_lang l t).
    destruct (mem_lang l t); [rewrite orb_true_r; reflexivity|]. rewrite orb_false_r.
    destruct (lang_eqb l x) eqn:El; [|reflexivity]. apply lang_eqb_eq in El. subst. symmetry. exact E.
Qed.

Lemma keys_nil_iff (P Q : lang -> bool) :
  (forall l, P l = Q l) -> (len (filter P all_langs) =? 0) = is_nil (filter Q canonical_langs).
Proof.
  intros E. unfold all_langs, canonical_langs. cbn [filter]. rewrite (E V1), (E V2), (E V3).
  destruct (Q V1), (Q V2), (Q V3); reflexivity.
Qed.

(* the table retained by calc_script_data_hash: its keys are the used languages, its views the specification's views of
   the used languages under the caller's (possibly larger) table *)
Lemma views_retained cm used r :
  retain_or_fail cm used cm_empty = Ok r ->
  language_views_encoding r = spec_views used cm /\ (cm_len r =? 0) = is_nil (langs_in_use used).
Proof.
  intros Hr.
  assert (Hget : forall l, cm_get r l = if mem_lang l used then cm_get cm l else None).
  { intros l. rewrite (retain_or_fail_get _ _ _ _ Hr), cm_get_empty. reflexivity. }
  assert (Hcov : covers cm used = true).
  { rewrite retain_or_fail_eq in Hr. destruct (covers cm used); [reflexivity|discriminate]. }
  assert (Hkeys : forall l, is_some (cm_get r l) = mem_lang l used).
  { intros l. rewrite Hget. destruct (mem_lang l used) eqn:M; [|reflexivity]. exact (proj1 (covers_iff cm used) Hcov l M). }
  split.
  - rewrite views_model_spec. apply spec_views_ext; intros l; rewrite mem_cm_keys, Hkeys; [reflexivity|].
    intros M. rewrite Hget, M. reflexivity.
  - apply keys_nil_iff, Hkeys.
Qed.

Lemma dedup_written_no_dups seen l : has_dup_written seen l = false -> dedup_written_from seen l = l.
Proof.
  revert seen. induction l as [|x t IH]; intros seen Hd; [reflexivity|].
  cbn [has_dup_written] in Hd. apply orb_false_iff in Hd as [Hx Ht].
  cbn [dedup_written_from]. rewrite Hx, (IH _ Ht). reflexivity.
Qed.

Lemma dedup_nil l : is_nil (dedup_written l) = is_nil l.
Proof. destruct l; reflexivity. Qed.

Lemma use_definite_clone l : pl_use_definite (pl_deduplicated_clone l) = pl_use_definite l.
Proof. unfold pl_use_definite, pl_deduplicated_clone. cbn [pl_definite pl_elems]. destruct (pl_definite l); [reflexivity|apply dedup_nil]. Qed.

(* the two serialisation paths: to_set_bytes on the list (hash) vs serialize_as_set(false) on its de-duplicated
   clone (witness set) — equal once the header counts what is written; with the header counting the un-deduplicated
   list (the code as found) equal when nothing is dropped or the list is written with indefinite length *)
Lemma set_bytes_clone cd cd' l :
  (cd = true -> pl_use_definite l && has_dup_written [] (pl_elems l) = false) ->
  serialize_as_set_gen cd true l = serialize_as_set_gen cd' false (pl_deduplicated_clone l).
Proof.
  intros Hk. unfold serialize_as_set_gen. rewrite use_definite_clone. cbn [pl_deduplicated_clone pl_elems].
  replace (if cd' then dedup_written (pl_elems l) else dedup_written (pl_elems l)) with (dedup_written (pl_elems l))
    by (destruct cd'; reflexivity).
  destruct cd; [|reflexivity]. destruct (pl_use_definite l); [|reflexivity].
  unfold dedup_written. rewrite (dedup_written_no_dups [] _ (Hk eq_refl)). reflexivity.
Qed.

(* what the serializer does with a table of optional fields: it writes those present, in table order *)
Definition present (t : list (N * option bytes)) : list (N * bytes) :=
  flat_map (fun e => match snd e with Some v => [(fst e, v)] | None => [] end) t.

Lemma present_cons k o t : present ((k, o) :: t) = match o with Some v => (k, v) :: present t | None => present t end.
Proof. destruct o; reflexivity. Qed.

Lemma present_length t : (length (present t) <= length t)%nat.
Proof. induction t as [|[k [v|]] t IH]; [apply le_n|rewrite present_cons..]; cbn [length]; lia. Qed.

Lemma present_keys (P : N -> Prop) t : Forall (fun e => P (fst e)) t -> Forall (fun kv => P (fst kv)) (present t).
Proof.
  induction 1 as [|[k [v|]] t Hk _ IH]; [constructor|rewrite present_cons..]; [|exact IH].
  constructor; [exact Hk|exact IH].
Qed.

Fixpoint first_present (k : N) (t : list (N * option bytes)) : option bytes :=
  match t with
  | [] => None
  | (k', o) :: t' => if k' =? k then match o with Some v => Some v | None => first_present k t' end else first_present k t'
  end.

Lemma assoc_present k t : assoc_field k (present t) = first_present k t.
Proof.
  induction t as [|[k' [v|]] t IH]; [reflexivity|rewrite present_cons..]; cbn [assoc_field first_present]; rewrite IH; [reflexivity|].
  destruct (k' =? k); reflexivity.
Qed.

(* fields 5 and 4 of a witness set: absent when empty *)
Definition ws_red (w : witness_set) : option bytes :=
  match ws_redeemers w with Some r => if is_nil (rs_list r) then None else Some (redeemers_bytes r) | None => None end.
Definition ws_dat (w : witness_set) : option bytes :=
  match ws_plutus_data w with Some d => if is_nil (pl_elems d) then None else Some (serialize_as_set false d) | None => None end.

(* the witness-set serializer as such a table: keys 0, 1, 2, 3, 6, 7, 4, 5 *)
Definition ws_table (w : witness_set) : list (N * option bytes) :=
  let scripts v :=
    match ws_plutus_scripts w with
    | Some l => if has_version v l then Some (enc_scripts_set_by_version v l) else None
    | None => None
    end in
  [(0, ws_vkeys w);
   (1, match ws_native w with Some l => if is_nil l then None else Some (enc_native_set l) | None => None end);
   (2, ws_bootstraps w); (3, scripts V1); (6, scripts V2); (7, scripts V3); (4, ws_dat w); (5, ws_red w)].

Lemma ws_fields_table w : ws_fields w = present (ws_table w).
Proof.
  unfold ws_fields, early_fields, ws_table, present, ws_dat, ws_red. cbn [flat_map fst snd]. rewrite app_nil_r, <- !app_assoc.
  f_equal. f_equal; [destruct (ws_native w) as [l|]; [destruct (is_nil l)|]; reflexivity|].
  f_equal. rewrite !app_assoc. f_equal; [f_equal|].
  - destruct (ws_plutus_scripts w) as [l|]; [|reflexivity].
    destruct (has_version V1 l), (has_version V2 l), (has_version V3 l); reflexivity.
  - destruct (ws_plutus_data w) as [d|]; [destruct (is_nil (pl_elems d))|]; reflexivity.
  - destruct (ws_redeemers w) as [r|]; [destruct (is_nil (rs_list r))|]; reflexivity.
Qed.

Lemma assoc_ws_fields w : assoc_field 5 (ws_fields w) = ws_red w /\ assoc_field 4 (ws_fields w) = ws_dat w.
Proof.
  rewrite ws_fields_table, !assoc_present. cbv [first_present ws_table N.eqb Pos.eqb].
  split; [destruct (ws_red w)|destruct (ws_dat w)]; reflexivity.
Qed.

(* the two fields for given redeemers and datums, as set_redeemers / set_plutus_data leave them *)
Definition red_field (r : redeemers) : option bytes := if is_nil (rs_list r) then None else Some (redeemers_bytes r).
Definition dat_field (d : option plutus_list) : option bytes :=
  match d with
  | Some l => if is_nil (pl_elems l) then None else Some (serialize_as_set false (pl_deduplicated_clone l))
  | None => None
  end.

(* the optional datum step that closes both witness sets (the helper's and get_witness_set's): field 5 stays, field 4
   becomes the datum field *)
Lemma fields_with_datums w d : ws_dat w = None ->
  let fs := ws_fields (match d with Some l => set_plutus_data w l | None => w end) in
  assoc_field 5 fs = ws_red w /\ assoc_field 4 fs = dat_field d.
Proof.
  intros Hd. cbv zeta. destruct (assoc_ws_fields (match d with Some l => set_plutus_data w l | None => w end)) as [-> ->].
  destruct d as [l|]; [|split; [reflexivity|exact Hd]].
  unfold set_plutus_data, dat_field. destruct (is_nil (pl_elems l)) eqn:E; [split; [reflexivity|exact Hd]|].
  split; [reflexivity|]. unfold ws_dat. cbn [ws_plutus_data]. unfold pl_deduplicated_clone at 1. cbn [pl_elems].
  rewrite dedup_nil, E. reflexivity.
Qed.

Lemma redeemers_bytes_empty_map r : rs_list r = [] -> rs_format r <> Some CArray -> redeemers_bytes r = [160].
Proof.
  intros Hl Hf. unfold redeemers_bytes, get_container_type. rewrite Hl.
  destruct (rs_format r) as [[|]|]; try reflexivity. congruence.
Qed.

Lemma spec_views_nil cm : spec_views [] cm = [160].
Proof. reflexivity. Qed.

Lemma cm_keys_nil_views cm : cm_keys cm = [] -> spec_views (cm_keys cm) cm = [160].
Proof. intros ->. reflexivity. Qed.

(* what hash_script_data hashes is the ledger's preimage over the two fields; without redeemers the views are the
   empty map whatever table is handed over.  Stated for both values of both switches: the classes are needed only
   for the value `true` (code as found) *)
Theorem preimage_ledger (cd eh : bool) r cm d :
  helper_out_of_scope r d = false ->
  (cd = true -> known_dup_definite d = false) ->
  (eh = true -> known_empty_datums d = false) ->
  script_data_preimage_gen cd eh r cm d =
  ledger_preimage (red_field r) (dat_field d) (if is_nil (rs_list r) then [160] else language_views_encoding cm).
Proof.
  unfold script_data_preimage_gen, helper_out_of_scope, red_field, dat_field, serialize_as_set.
  intros Hscope Hcd Heh. destruct d as [l|]; cbn [datums_for_hash_gen].
  - cbn [known_dup_definite known_empty_datums] in *. destruct (is_nil (pl_elems l)) eqn:En.
    + destruct eh; [discriminate (Heh eq_refl)|]. destruct (rs_list r); [discriminate|reflexivity].
    + destruct eh, (rs_list r); cbv beta iota zeta; rewrite (set_bytes_clone cd set_len_counts_duplicates l Hcd); reflexivity.
  - destruct (rs_list r); [discriminate|reflexivity].
Qed.

Lemma helper_fields vk bo r d :
  let fs := ws_fields (helper_witness_set_with vk bo r d) in
  assoc_field 5 fs = red_field r /\ assoc_field 4 fs = dat_field d.
Proof.
  unfold helper_witness_set_with. cbv zeta. set (w := set_redeemers _ r).
  destruct (fields_with_datums w d) as [-> ->]; subst w.
  - destruct vk, bo; reflexivity.
  - split; [destruct vk, bo; reflexivity|reflexivity].
Qed.

(* datums without redeemers: the CDDL note literally, A0 | datums | A0, whatever table is handed over *)
Lemma preimage_cddl_note cd r cm l :
  rs_list r = [] -> pl_elems l <> [] ->
  script_data_preimage_gen cd false r cm (Some l) = [160] ++ serialize_as_set_gen cd true l ++ [160].
Proof.
  intros Hr Hl. unfold script_data_preimage_gen. rewrite Hr. cbn [datums_for_hash_gen].
  destruct (pl_elems l) eqn:E; [congruence|]. reflexivity.
Qed.

(* the code as found (switch values `true`) violates the unrestricted statement: witnesses *)
Definition dup_witness_datum : pdata := mk_pdata 7 [24; 42].
Definition dup_witness_list : plutus_list := mk_plist [dup_witness_datum; dup_witness_datum] (Some true).
Definition one_redeemer : redeemers := mk_redeemers [mk_redeemer 0 0 (mk_pdata 1 [1]) 10 20] None.

Section Builder.
Variable H : bytes -> bytes.

Lemma orb_interchange a b c d : (a || b) || (c || d) = (a || c) || (b || d).
Proof. destruct a, b, c; reflexivity. Qed.

Lemma mem_sub_langs c l s :
  mem_lang l (sub_langs_gen c s) = mem_lang l (map w_lang (ss_witnesses s)) || mem_lang l (stale_sub_gen c s).
Proof.
  unfold sub_langs_gen, stale_sub_gen.
  rewrite (mem_filter_all (fun l => mem_lang l (map w_lang (ss_witnesses s)) || (c && mem_lang l (ss_stale s)))).
  destruct c; reflexivity.
Qed.

(* for the inputs and the collateral both sides are empty unless a Plutus witness is returned *)
Lemma mem_inputs_langs c l s :
  mem_lang l (inputs_langs_gen c s) = mem_lang l (map w_lang (ss_witnesses s)) || mem_lang l (stale_in_gen c s).
Proof.
  unfold inputs_langs_gen, stale_in_gen. destruct (ss_witnesses s) eqn:E; cbn [is_nil negb].
  - rewrite andb_false_r. reflexivity.
  - rewrite mem_sub_langs, E, andb_true_r. reflexivity.
Qed.

(* the language set calc_script_data_hash works with: the languages of the witnesses it hashes and (switch on) those of
   the stale witnesses *)
Lemma used_langs_mem_gen c b l :
  mem_lang l (used_langs_gen c b) = mem_lang l (langs_used b) || mem_lang l (stale_langs_gen c b).
Proof.
  unfold used_langs_gen, langs_used, stale_langs_gen, all_witnesses, b_inputs, b_collateral, b_mint, b_certs, b_withdrawals, b_votes, b_proposals.
  rewrite mem_filter_all. cbn [existsb].
  rewrite !mem_inputs_langs, !mem_sub_langs, !map_app, !mem_lang_app, orb_false_r.
  (* seven pairs (witnesses || stale) against (all witnesses) || (all stale): peel one pair at a time *)
  symmetry. do 6 (rewrite orb_interchange; apply f_equal). reflexivity.
Qed.

Lemma used_langs_mem c b l : known_stale_lang_gen c b = false -> mem_lang l (used_langs_gen c b) = mem_lang l (langs_used b).
Proof.
  intros Hk. rewrite used_langs_mem_gen. destruct (mem_lang l (stale_langs_gen c b)) eqn:E; [|apply orb_false_r].
  destruct (mem_lang l (langs_used b)) eqn:M; [reflexivity|exfalso].
  apply mem_lang_In in E. apply Bool.diff_true_false. rewrite <- Hk. symmetry.
  apply existsb_exists. exists l. rewrite M. split; [exact E|reflexivity].
Qed.

(* the redeemers and datums both calc_script_data_hash and get_witness_set arrive at (the extra-datum step is shared) *)
Definition hashed_redeemers (b : builder) : redeemers := snd (collect (all_witnesses b)).
Definition hashed_datums (b : builder) : option plutus_list :=
  add_extra (snd (fst (collect (all_witnesses b)))) (b_extra_datums b).

Lemma calc_preimage_eq c b cm :
  calc_preimage_gen c b cm =
  let* retained := retain_or_fail cm (used_langs_gen c b) cm_empty in
  if is_some (hashed_datums b) || negb (is_nil (rs_list (hashed_redeemers b))) || negb (cm_len retained =? 0)
  then Ok (Some (script_data_preimage (hashed_redeemers b) retained (hashed_datums b)))
  else Ok None.
Proof. reflexivity. Qed.

Lemma get_witness_set_eq b :
  get_witness_set b =
  let w0 := set_native_scripts ws_new (combined_native b) in
  let wit := if is_nil (all_witnesses b) then w0
             else set_redeemers (set_plutus_scripts w0 (fst (fst (collect (all_witnesses b))))) (hashed_redeemers b) in
  match hashed_datums b with Some l => set_plutus_data wit l | None => wit end.
Proof. unfold get_witness_set, hashed_datums, hashed_redeemers. destruct (all_witnesses b); reflexivity. Qed.

Lemma hashed_redeemers_nil b : is_nil (rs_list (hashed_redeemers b)) = is_nil (all_witnesses b).
Proof. unfold hashed_redeemers, collect. cbn [snd rs_list]. destruct (all_witnesses b); reflexivity. Qed.

Lemma witness_fields b :
  let fs := ws_fields (get_witness_set b) in
  assoc_field 5 fs = red_field (hashed_redeemers b) /\ assoc_field 4 fs = dat_field (hashed_datums b).
Proof.
  rewrite get_witness_set_eq. cbv zeta. set (wit := if is_nil (all_witnesses b) then _ else _).
  assert (Hwit : ws_red wit = red_field (hashed_redeemers b) /\ ws_dat wit = None).
  { subst wit. unfold set_native_scripts, set_plutus_scripts. destruct (is_nil (all_witnesses b)) eqn:EW.
    - unfold red_field. rewrite hashed_redeemers_nil, EW. destruct (is_nil (combined_native b)); split; reflexivity.
    - destruct (is_nil (combined_native b)), (is_nil (fst (fst (collect (all_witnesses b))))); split; reflexivity. }
  destruct Hwit as [Hr Hd]. destruct (fields_with_datums wit (hashed_datums b) Hd) as [-> ->]. split; [exact Hr|reflexivity].
Qed.

Lemma fold_pl_add ex l : fold_left pl_add ex l = mk_plist (pl_elems l ++ ex) (match ex with [] => pl_definite l | _ => None end).
Proof.
  revert l. induction ex as [|x t IH]; intros l; cbn [fold_left].
  - rewrite app_nil_r. destruct l; reflexivity.
  - rewrite IH. unfold pl_add. cbn [pl_elems pl_definite]. rewrite <- app_assoc. cbn [app]. destruct t; reflexivity.
Qed.

(* well-formed builder states: add_extra_witness_datum never leaves an empty list behind *)
Definition wf_builder (b : builder) : Prop := b_extra_datums b <> Some [].

(* datum lists the builder handles: never definite, and never Some(empty) *)
Definition builder_list (d : option plutus_list) : Prop :=
  match d with Some l => pl_definite l = None /\ is_nil (pl_elems l) = false | None => True end.

Lemma hashed_datums_builder_list b : wf_builder b -> builder_list (hashed_datums b).
Proof.
  unfold wf_builder, hashed_datums, collect. cbn [fst snd]. intros Hwf.
  assert (Hc : builder_list (match dedup_pdata (witness_datums (all_witnesses b)) with [] => None | ds => Some (mk_plist ds None) end)).
  { destruct (dedup_pdata _); [exact I|split; reflexivity]. }
  destruct (b_extra_datums b) as [[|x ex]|]; [congruence| |exact Hc].
  cbn [add_extra]. rewrite fold_pl_add. split; [reflexivity|]. cbn [pl_elems]. destruct (pl_elems _); reflexivity.
Qed.

(* such a list is in neither class of the helper's statement, and is written whenever it is there *)
Lemma builder_list_classes d : builder_list d ->
  known_dup_definite d = false /\ known_empty_datums d = false /\ is_some (dat_field d) = is_some d.
Proof.
  destruct d as [l|]; [|repeat split]. intros [Hd Hn]. cbn [known_dup_definite known_empty_datums dat_field].
  unfold pl_use_definite. rewrite Hd, Hn. repeat split.
Qed.

Lemma has_items_hashed b : has_script_items b = negb (is_nil (all_witnesses b)) || is_some (hashed_datums b).
Proof.
  unfold has_script_items, hashed_datums. destruct (all_witnesses b); [|reflexivity].
  destruct (b_extra_datums b); reflexivity.
Qed.

Definition script_view (b : builder) :=
  (b_in b, b_col b, b_mi b, b_ce b, b_wd b, b_vo b, b_pr b, b_extra_datums b).

Lemma script_view_eq b b' : script_view b = script_view b' ->
  get_witness_set b = get_witness_set b' /\ langs_used b = langs_used b'.
Proof. destruct b, b'. cbn. intros E. injection E as -> -> -> -> -> -> -> ->. split; reflexivity. Qed.

(* the ledger's preimage over the witness set get_witness_set emits *)
Definition ledger_pre (b : builder) (cm : costmdls) : bytes :=
  let fs := ws_fields (get_witness_set b) in
  ledger_preimage (assoc_field 5 fs) (assoc_field 4 fs) (spec_views (langs_used b) cm).

(* the ledger carries a script-integrity hash exactly when the builder holds a script item *)
Lemma ledger_integrity_items b cm : wf_builder b ->
  let fs := ws_fields (get_witness_set b) in
  ledger_script_integrity H (assoc_field 5 fs) (assoc_field 4 fs) (langs_used b) cm =
  if has_script_items b then Some (H (ledger_pre b cm)) else None.
Proof.
  intros Hwf. unfold ledger_pre, ledger_script_integrity. cbv zeta. destruct (witness_fields b) as [-> ->].
  destruct (builder_list_classes _ (hashed_datums_builder_list b Hwf)) as [_ [_ Hd]].
  unfold is_none. rewrite Hd, has_items_hashed. unfold red_field, langs_used. rewrite hashed_redeemers_nil.
  destruct (all_witnesses b); [destruct (is_some (hashed_datums b))|]; reflexivity.
Qed.

Lemma no_items_no_langs b : has_script_items b = false -> langs_used b = [].
Proof. unfold has_script_items, langs_used. destruct (all_witnesses b); [reflexivity|discriminate]. Qed.

(* the heart of the property: calc_script_data_hash fails exactly when a used language has no cost model; otherwise
   what it hashes is the ledger's preimage over the witness set get_witness_set emits for the same builder state (two
   collection paths, two serialisation paths), and it hashes nothing exactly when there is no script item *)
Theorem calc_preimage_closed c b cm : wf_builder b -> known_stale_lang_gen c b = false ->
  calc_preimage_gen c b cm =
  if covers cm (langs_used b) then Ok (if has_script_items b then Some (ledger_pre b cm) else None) else Err.
Proof.
  intros Hwf Hstale. pose proof (fun l => used_langs_mem c b l Hstale) as Hmem.
  rewrite calc_preimage_eq, <- (covers_ext cm _ _ Hmem).
  pose proof (retain_or_fail_eq cm (used_langs_gen c b) cm_empty) as Hr.
  destruct (covers cm (used_langs_gen c b)); rewrite Hr; [|reflexivity]. cbn [bind].
  destruct (views_retained _ _ _ Hr) as [Hv Hl].
  rewrite (spec_views_ext _ (langs_used b) cm cm Hmem (fun _ _ => eq_refl)) in Hv.
  rewrite (langs_in_use_ext _ _ Hmem) in Hl. rewrite Hl. clear Hr Hl.
  rewrite hashed_redeemers_nil, (orb_comm (is_some _)), <- has_items_hashed.
  destruct (has_script_items b) eqn:Hi; cbn [orb negb]; [|rewrite (no_items_no_langs b Hi); reflexivity].
  destruct (builder_list_classes _ (hashed_datums_builder_list b Hwf)) as [Hdup [Hempty _]].
  unfold script_data_preimage. rewrite preimage_ledger; [|..|intros _; exact Hdup|intros _; exact Hempty].
  - unfold ledger_pre. cbv zeta. destruct (witness_fields b) as [-> ->]. rewrite Hv, hashed_redeemers_nil.
    unfold langs_used. destruct (all_witnesses b); reflexivity.
  - unfold helper_out_of_scope. rewrite hashed_redeemers_nil. rewrite has_items_hashed in Hi.
    destruct (hashed_datums b) as [l|]; [cbn [known_empty_datums] in Hempty; rewrite Hempty; apply andb_false_r|].
    rewrite orb_false_r in Hi. apply negb_true_iff in Hi. rewrite Hi. reflexivity.
Qed.

Theorem calc_hash_closed clears b cm : wf_builder b -> known_stale_lang b = false ->
  calc_script_data_hash_gen H clears b cm =
  if covers cm (langs_used b)
  then Ok (if has_script_items b then set_hash_flag b (Some (H (ledger_pre b cm))) true
           else if clears && b_hash_calculated b then set_hash_flag b None false else b)
  else Err.
Proof.
  intros Hwf Hstale. unfold calc_script_data_hash_gen, calc_preimage. rewrite (calc_preimage_closed _ b cm Hwf Hstale).
  destruct (covers cm (langs_used b)); [|reflexivity].
  destruct (has_script_items b); [reflexivity|]. cbn [bind]. destruct (clears && b_hash_calculated b); reflexivity.
Qed.

(* whatever calc_script_data_hash returns differs from the builder it was given only in the stored hash and its flag *)
Lemma calc_result clears b cm b' :
  calc_script_data_hash_gen H clears b cm = Ok b' -> exists h f, b' = set_hash_flag b h f.
Proof.
  unfold calc_script_data_hash_gen. destruct (calc_preimage b cm) as [[p|]| | |]; cbn [bind]; try discriminate.
  - intros E. injection E as <-. eauto.
  - destruct (clears && b_hash_calculated b); intros E; injection E as <-; [eauto|].
    exists (b_script_data_hash b), (b_hash_calculated b). destruct b; reflexivity.
Qed.
Lemma calc_result_view clears b cm b' :
  calc_script_data_hash_gen H clears b cm = Ok b' ->
  script_view b' = script_view b /\ b_aux b' = b_aux b /\ b_collateral_len b' = b_collateral_len b.
Proof. intros E. destruct (calc_result _ _ _ _ E) as [h [f ->]]. repeat split; reflexivity. Qed.

(* build_tx_unsafe: the stored hash, the hash of the auxiliary data held, the witness set, the auxiliary data *)
Lemma build_tx_ok b t : build_tx H b = Ok t ->
  t = mk_tx (b_script_data_hash b) (match b_aux b with Some a => Some (hash_auxiliary_data H a) | None => None end)
            (get_witness_set b) (b_aux b).
Proof.
  unfold build_tx. destruct (has_plutus_inputs b && negb _); [discriminate|]. destruct (has_plutus_inputs b && _); [discriminate|].
  intros E. injection E as <-. reflexivity.
Qed.

(* C09_aux: the body's auxiliary_data_hash is the hash of the auxiliary data the transaction carries, as serialised *)
Theorem aux_hash b t :
  build_tx H b = Ok t ->
  tx_aux_data_hash t = ledger_aux_hash H (match tx_aux t with Some a => Some (enc_aux a) | None => None end).
Proof. intros Hb. rewrite (build_tx_ok _ _ Hb). cbn [tx_aux_data_hash tx_aux]. destruct (b_aux b); reflexivity. Qed.

(* the instance clears = false (code as found) of C09_calc_noop_keeps_hash (Props/C09.v) *)
Lemma calc_noop_keeps_hash b cm : has_script_items b = false -> wf_builder b -> known_stale_lang b = false ->
  calc_script_data_hash_gen H false b cm = Ok b.
Proof. intros Hno Hwf Hs. rewrite (calc_hash_closed false b cm Hwf Hs), Hno, (no_items_no_langs b Hno). reflexivity. Qed.

Lemma run_fold ops : forall b, fst (run H b ops) = fold_left (fun b o => fst (step H b o)) ops b.
Proof.
  induction ops as [|o t IH]; intros b; [reflexivity|]. cbn [run fold_left].
  destruct (step H b o) as [b' ok]. cbn [fst]. rewrite <- IH. destruct (run H b' t). reflexivity.
Qed.

Lemma run_cons b o t : fst (run H b (o :: t)) = fst (run H (fst (step H b o)) t).
Proof. rewrite !run_fold. reflexivity. Qed.

Lemma run_app b ops1 ops2 : fst (run H b (ops1 ++ ops2)) = fst (run H (fst (run H b ops1)) ops2).
Proof. rewrite !run_fold. apply fold_left_app. Qed.

Definition quiet (o : op) : Prop := touches_scripts o = false /\ touches_hash o = false.

Lemma quiet_run post : Forall quiet post -> forall b,
  script_view (fst (run H b post)) = script_view b /\ b_script_data_hash (fst (run H b post)) = b_script_data_hash b.
Proof.
  intros Hq b. rewrite run_fold. apply fold_left_inv; [|split; reflexivity].
  intros b' o Ho [<- <-]. destruct (proj1 (Forall_forall _ _) Hq o Ho) as [Hs Hh].
  destruct o; try discriminate; split; reflexivity.
Qed.

(* a history whose last calc_script_data_hash is still valid: anything, the calc, then only quiet operations *)
Lemma last_calc_split ops cm before :
  last_calc_rev (rev ops) = Some (cm, before) -> exists post, ops = rev before ++ OpCalc cm :: post /\ Forall quiet post.
Proof.
  intros Hl.
  assert (Hr : exists rpost, rev ops = rpost ++ OpCalc cm :: before /\ Forall quiet rpost).
  { induction (rev ops) as [|o t IH]; [discriminate|].
    (* an operation touching scripts or hash ends the search; the calc is found; a quiet one is skipped *)
    destruct o; cbn [last_calc_rev touches_scripts touches_hash orb] in Hl; try discriminate Hl.
    1: { injection Hl as <- <-. exists []. split; [reflexivity|constructor]. }
    all: destruct (IH Hl) as [rp [-> Hq]]; eexists (_ :: rp); split; [reflexivity|].
    all: constructor; [split; reflexivity|exact Hq]. }
  destruct Hr as [rpost [Hr Hq]]. exists (rev rpost). split; [|apply Forall_rev, Hq].
  rewrite <- (rev_involutive ops), Hr, rev_app_distr. cbn [rev]. rewrite <- app_assoc. reflexivity.
Qed.

Lemma wf_step b o : wf_builder b -> wf_builder (fst (step H b o)).
Proof.
  unfold wf_builder. intros Hb. destruct o; cbn [step fst]; try exact Hb.
  - destruct k; exact Hb.
  - unfold add_extra_witness_datum. cbn [b_extra_datums]. destruct (b_extra_datums b) as [l|]; [destruct l|]; discriminate.
  - destruct (calc_script_data_hash H b cm) as [b'| | |] eqn:E; cbn [fst]; try exact Hb.
    destruct (calc_result _ _ _ _ E) as [h [f ->]]. exact Hb.
Qed.

Lemma wf_run ops b : wf_builder b -> wf_builder (fst (run H b ops)).
Proof. rewrite run_fold. apply fold_left_inv. intros b' o _. apply wf_step. Qed.

Lemma wf_new : wf_builder builder_new.
Proof. discriminate. Qed.

(* a script item added AFTER calc_script_data_hash is outside the statement, and build_tx does not notice:
   the stored hash is the hash of a preimage different from the ledger's preimage of what is emitted *)
Definition stale_ops : list op :=
  [OpAddExtraDatum (mk_pdata 1 [1]); OpCalc cm_empty; OpAddExtraDatum (mk_pdata 2 [2])].

End Builder.

(* The property quantifies over histories of ADDITIONS with the hash computed by the builder (additive, below).  On such
   histories a stored hash always comes with script items, so one of the first two alternatives of the premise
   `has_script_items || hash = None || ...` of C09_same_bytes_history holds by itself: the no-op behaviour of
   calc_script_data_hash (Props/C09.v C09_calc_noop_keeps_hash) cannot leave a stale hash behind. *)
Section Additive.
Variable H : bytes -> bytes.

Definition sub_list (b : builder) (k : sub) : list witness :=
  match k with
  | SubInputs => b_inputs b | SubCollateral => b_collateral b | SubMint => b_mint b | SubCerts => b_certs b
  | SubWithdrawals => b_withdrawals b | SubVotes => b_votes b | SubProposals => b_proposals b
  end.

(* additive: a sub-builder that had Plutus witnesses is not replaced by one without, no stale witness (an input added
   again as a key input), no hash installed by hand *)
Definition additive_op (b : builder) (o : op) : bool :=
  match o with
  | OpSetSub k ss _ => (negb (is_nil (ss_witnesses ss)) || is_nil (sub_list b k)) && is_nil (ss_stale ss)
  | OpSetHash _ => false
  | _ => true
  end.

Fixpoint additive (b : builder) (ops : list op) : bool :=
  match ops with
  | [] => true
  | o :: t => additive_op b o && additive (fst (step H b o)) t
  end.

Definition raw_stale (b : builder) : list lang :=
  ss_stale (b_in b) ++ ss_stale (b_col b) ++ ss_stale (b_mi b) ++ ss_stale (b_ce b) ++ ss_stale (b_wd b) ++
  ss_stale (b_vo b) ++ ss_stale (b_pr b).
Definition hash_has_items (b : builder) : Prop :=
  raw_stale b = [] /\ (b_script_data_hash b = None \/ has_script_items b = true).

Lemma is_nil_app {A} (a b : list A) : is_nil (a ++ b) = is_nil a && is_nil b.
Proof. destruct a; reflexivity. Qed.

Lemma no_stale_known b : raw_stale b = [] -> known_stale_lang b = false.
Proof.
  unfold raw_stale. intros Hb. repeat (apply app_eq_nil in Hb as [? Hb]).
  unfold known_stale_lang, known_stale_lang_gen, stale_langs_gen, stale_in_gen, stale_sub_gen.
  repeat match goal with E : ss_stale _ = [] |- _ => rewrite E; clear E end.
  destruct stale_langs_counted, (is_nil (ss_witnesses (b_in b))), (is_nil (ss_witnesses (b_col b))); reflexivity.
Qed.

(* replacing a sub-builder by one with Plutus witnesses, or one without by another without, takes no script item away *)
Lemma items_set_sub b k ss n : negb (is_nil (ss_witnesses ss)) || is_nil (sub_list b k) = true ->
  has_script_items b = true -> has_script_items (set_sub b k ss n) = true.
Proof.
  unfold has_script_items, all_witnesses, sub_list, b_inputs, b_collateral, b_mint, b_certs, b_withdrawals, b_votes, b_proposals.
  intros Ha Hi. destruct k; cbn [set_sub b_in b_col b_mi b_ce b_wd b_vo b_pr b_extra_datums] in *; rewrite !is_nil_app in *;
    (destruct (is_nil (ss_witnesses ss)); [cbn [negb orb] in Ha; rewrite Ha in Hi; exact Hi|rewrite ?andb_false_r; reflexivity]).
Qed.

Lemma stale_set_sub b k ss n : raw_stale b = [] -> is_nil (ss_stale ss) = true -> raw_stale (set_sub b k ss n) = [].
Proof.
  unfold raw_stale. intros Hb Hs. destruct (ss_stale ss) eqn:Es; [|discriminate].
  repeat (apply app_eq_nil in Hb as [? Hb]).
  destruct k; cbn [set_sub b_in b_col b_mi b_ce b_wd b_vo b_pr]; rewrite ?Es;
    repeat match goal with E : _ = [] |- _ => rewrite E; clear E end; reflexivity.
Qed.

Lemma additive_step b o : wf_builder b -> hash_has_items b -> additive_op b o = true -> hash_has_items (fst (step H b o)).
Proof.
  intros Hwf [Hst Hi] Ha. destruct o; cbn [additive_op] in Ha; cbn [step fst]; try (split; assumption).
  - apply andb_true_iff in Ha as [Ha Hs]. split; [apply stale_set_sub; assumption|].
    destruct Hi as [Hn|Hitems]; [left; destruct k; exact Hn|right; apply items_set_sub; assumption].
  - split; [exact Hst|]. right. unfold has_script_items, add_extra_witness_datum. cbn [b_extra_datums is_some]. apply orb_true_r.
  - unfold calc_script_data_hash. rewrite (calc_hash_closed H _ b cm Hwf (no_stale_known b Hst)).
    destruct (covers cm (langs_used b)); cbn [fst]; [|split; assumption].
    destruct (has_script_items b) eqn:Hitems; [split; [exact Hst|right; exact Hitems]|].
    destruct Hi as [Hn|Hf]; [|discriminate].
    destruct (calc_clears_own_hash && b_hash_calculated b); (split; [exact Hst|left]); [reflexivity|exact Hn].
  - discriminate.
  - split; [exact Hst|]. left. reflexivity.
Qed.

Lemma additive_run ops : forall b, wf_builder b -> hash_has_items b -> additive b ops = true ->
  hash_has_items (fst (run H b ops)).
Proof.
  induction ops as [|o t IH]; intros b Hwf Hi Ha; [exact Hi|].
  cbn [additive] in Ha. apply andb_true_iff in Ha as [Ho Ht]. rewrite run_cons.
  apply IH; [apply wf_step, Hwf|apply additive_step; assumption|exact Ht].
Qed.

Lemma additive_app b ops1 ops2 : additive b (ops1 ++ ops2) = true -> additive b ops1 = true.
Proof.
  revert b. induction ops1 as [|o t IH]; intros b Ha; [reflexivity|].
  cbn [app additive] in *. apply andb_true_iff in Ha as [Ho Ht]. rewrite Ho. exact (IH _ Ht).
Qed.

End Additive.

(* the defect behind the class C09-stale-input-language (code as found, switch stale_langs_counted = true): an input
   added with a PlutusV1 witness and then again as a key input leaves the witness registered; while the inputs builder
   still returns another Plutus witness (here a V2 one) calc_script_data_hash hashes a PlutusV1 language view that no
   emitted script uses *)
Definition stale_lang_witness : witness := mk_witness (SrcRef V2) DatumNone (mk_redeemer 0 0 (mk_pdata 1 [1]) 10 20).
Definition stale_lang_cm : costmdls := mk_costmdls (Some [1; 2]%Z) (Some [3]%Z) None.
Definition stale_lang_ops : list op :=
  [OpSetSub SubCollateral (mk_sub [] [] []) 1; OpSetSub SubInputs (mk_sub [stale_lang_witness] [V1] []) 0; OpCalc stale_lang_cm].

(* the state stale_lang_ops leaves before its calc *)
Definition stale_lang_builder : builder :=
  set_sub (set_sub builder_new SubCollateral (mk_sub [] [] []) 1) SubInputs (mk_sub [stale_lang_witness] [V1] []) 0.

(* the defect behind the class C09-noop-calc-keeps-hash (code as found, switch calc_clears_own_hash = false): a Plutus spend, calc_script_data_hash (stores a hash), the same
   outpoint added again as a key input (the witness stays registered, nothing is returned any more),
   calc_script_data_hash again — finds nothing to hash and leaves the earlier hash; build_tx succeeds (a hash is there,
   has_plutus_inputs still sees the registered witness) and emits a body hash of a state that no longer exists, while
   the witness set has neither redeemers nor datums: the ledger expects NO script_data_hash *)
Definition noop_calc_ops : list op :=
  [OpSetSub SubCollateral (mk_sub [] [] []) 1; OpSetSub SubInputs (mk_sub [stale_lang_witness] [] []) 0; OpCalc stale_lang_cm;
   OpSetSub SubInputs (mk_sub [] [V2] []) 0; OpCalc stale_lang_cm].

(* the state before the last calc: the first calc stored a hash, then the inputs builder was replaced *)
Definition noop_state (H : bytes -> bytes) : builder := fst (run H builder_new (removelast noop_calc_ops)).
(* the same with a Plutus mint replaced by a native-only mint builder (no stale registration: build_tx does not insist on a hash) *)
Definition noop_mint_ops : list op :=
  [OpSetSub SubCollateral (mk_sub [] [] []) 1; OpSetSub SubMint (mk_sub [mk_witness (SrcRef V2) DatumNone (mk_redeemer 1 0 (mk_pdata 1 [1]) 10 20)] [] []) 0;
   OpCalc stale_lang_cm; OpSetSub SubMint (mk_sub [] [] [[130; 0; 1]]) 0].
Definition noop_mint_state (H : bytes -> bytes) : builder := fst (run H builder_new noop_mint_ops).

Section AuxHistory.
Variable H : bytes -> bytes.

(* the auxiliary data a history leaves in the builder: the fold of aux_step, whatever else happens in between *)
Definition aux_of_history (ops : list op) : option aux_data := fold_left aux_step ops None.

Lemma step_aux b o : b_aux (fst (step H b o)) = aux_step (b_aux b) o.
Proof.
  destruct o; cbn [step fst aux_step]; try reflexivity.
  - destruct k; reflexivity.
  - destruct (calc_script_data_hash H b cm) as [b'| | |] eqn:E; cbn [fst]; try reflexivity.
    apply (calc_result_view H _ _ _ _ E).
Qed.

Lemma run_aux ops b : b_aux (fst (run H b ops)) = fold_left aux_step ops (b_aux b).
Proof.
  rewrite run_fold. apply (fold_left_sim (fun b a => b_aux b = a)); [|reflexivity].
  intros b' a o <-. apply step_aux.
Qed.

(* a metadata map starts with a map head: a byte below c0 (so neither the tag 259 nor the array of the two other forms) *)
Lemma enc_metadata_first md : exists b r, enc_metadata md = b :: r /\ b < 192.
Proof.
  unfold enc_metadata, encode_head.
  destruct (len md <? 24) eqn:E1; [eexists _, _; split; [reflexivity|lia]|].
  destruct (len md <? 256); [eexists _, _; split; [reflexivity|lia]|].
  destruct (len md <? 65536); [eexists _, _; split; [reflexivity|lia]|].
  destruct (len md <? 4294967296); eexists _, _; (split; [reflexivity|lia]).
Qed.

(* decoding: what comes back from a wire form re-serialises to the same bytes when the form is one the serializer
   itself produces (Plutus lists: a V1 list present whenever any is, later lists non-empty) *)
Definition nonempty_or_absent (o : option (list bytes)) : bool := match o with Some [] => false | _ => true end.
Definition wire_canonical (w : aux_wire) : bool :=
  match w with
  | WAlonzo _ _ v1 v2 v3 =>
      (is_some v1 || (negb (is_some v2) && negb (is_some v3))) && nonempty_or_absent v2 && nonempty_or_absent v3
  | _ => true
  end.

Lemma scripts_view_map v v' l :
  scripts_view v (map (mk_script v') l) = if lang_eqb v' v then map (mk_script v') l else [].
Proof.
  unfold scripts_view. induction l as [|x t IH]; cbn [map filter sc_lang]; [destruct (lang_eqb v' v); reflexivity|].
  rewrite IH. destruct (lang_eqb v' v); reflexivity.
Qed.

Lemma has_version_view v l : has_version v l = negb (is_nil (scripts_view v l)).
Proof.
  induction l as [|x t IH]; [reflexivity|]. cbn [has_version existsb scripts_view filter].
  destruct (lang_eqb (sc_lang x) v); [reflexivity|]. exact IH.
Qed.

(* what the serializer writes for version v when the scripts of that version are the byte strings l *)
Lemma view_enc v L l : scripts_view v L = map (mk_script v) l ->
  enc_scripts_by_version v L = enc_script_array l /\ has_version v L = negb (is_nil l).
Proof.
  intros E. unfold enc_scripts_by_version, enc_script_array. rewrite has_version_view, E. unfold len. rewrite map_length.
  split; [|destruct l; reflexivity]. f_equal. rewrite !flat_map_concat_map, map_map. reflexivity.
Qed.

(* the merged Plutus list of a decoded Alonzo form: V1, V2, V3 scripts in this order *)
Definition ol (o : option (list bytes)) : list bytes := match o with Some l => l | None => [] end.
Definition merged3 (l1 l2 l3 : list bytes) : list script :=
  map (mk_script V1) l1 ++ map (mk_script V2) l2 ++ map (mk_script V3) l3.

Lemma merged3_view v l1 l2 l3 :
  scripts_view v (merged3 l1 l2 l3) = map (mk_script v) (match v with V1 => l1 | V2 => l2 | V3 => l3 end).
Proof.
  unfold merged3. unfold scripts_view at 1. rewrite !filter_app.
  change (filter (fun s => lang_eqb (sc_lang s) v)) with (scripts_view v). rewrite !scripts_view_map.
  destruct v; cbv [lang_eqb lang_index N.eqb Pos.eqb]; cbn [app]; rewrite ?app_nil_r; reflexivity.
Qed.

Lemma merge_opt_merged3 v1 v2 v3 :
  merge_opt (merge_opt (scripts_of V1 v1) (scripts_of V2 v2)) (scripts_of V3 v3) =
  if is_some v1 || is_some v2 || is_some v3 then Some (merged3 (ol v1) (ol v2) (ol v3)) else None.
Proof.
  unfold merged3. destruct v1 as [l1|], v2 as [l2|], v3 as [l3|]; cbn [scripts_of merge_opt is_some orb ol map app];
    rewrite ?app_nil_r, <- ?app_assoc; reflexivity.
Qed.

(* the serializer reproduces a canonical wire form exactly (so set_auxiliary_data(from_bytes(b)) emits b and hashes b) *)
Theorem wire_reencode w a : decode_wire w = Ok a -> wire_canonical w = true -> enc_aux a = enc_wire w.
Proof.
  destruct w as [md|md ns|md ns v1 v2 v3]; cbn [decode_wire wire_canonical].
  - destruct (labels_nodup [] md); [|discriminate]. intros [= <-] _. reflexivity.
  - destruct (labels_nodup [] md); [|discriminate]. intros [= <-] _. reflexivity.
  - destruct (match md with Some m => labels_nodup [] m | None => true end); [|discriminate].
    intros [= <-] Hc. rewrite merge_opt_merged3. unfold enc_aux.
    cbn [negb a_prefer_alonzo a_metadata a_native a_plutus enc_wire].
    destruct v1 as [l1|]; cbn [is_some orb ol] in *.
    + destruct (view_enc V1 _ _ (merged3_view V1 l1 (ol v2) (ol v3))) as [-> _].
      destruct (view_enc V2 _ _ (merged3_view V2 l1 (ol v2) (ol v3))) as [-> ->].
      destruct (view_enc V3 _ _ (merged3_view V3 l1 (ol v2) (ol v3))) as [-> ->].
      destruct md, v2 as [[|x2 t2]|], v3 as [[|x3 t3]|]; try discriminate;
        cbn [ol is_nil negb b2n opt64 is_some app]; rewrite ?app_nil_r, ?N.add_0_r, ?N.add_assoc; reflexivity.
    + destruct v2, v3; try discriminate. destruct md; cbn [is_some orb opt64]; rewrite !app_nil_r, ?N.add_0_r; reflexivity.
Qed.

End AuxHistory.
