(* C09 x C10 — per sub-builder: the language set get_used_plutus_lang_versions reads from the ENTRIES is the language
   set of the derived C09 sub-builder state (returned witnesses + stale registrations, switch on).  For the five builders
   without stale registrations the returned witnesses carry exactly the registered rids (withdrawals: in another order);
   for the inputs, registered = returned or stale.  Props/C09.v puts the seven together (C09_entries_langs_model).
   All closed under the global context. *)
From CSL Require Import Base.Prelude Base.BytesOrd Cbor.Head Cbor.Item ScriptData.LangViews ScriptData.ScriptData
  ScriptData.ScriptDataSpec ScriptData.ScriptDataProofs ScriptData.SubBuilders.
From CSL Require Pointers.Pointers Pointers.MapsProofs Pointers.PointersProofs.
Local Open Scope N_scope.

Section WithPayload.
Variable pay : N -> payload.

Lemma mem_lang_ext l a b : (forall x, In x a <-> In x b) -> mem_lang l a = mem_lang l b.
Proof.
  intros E. apply Bool.eq_iff_eq_true. rewrite !mem_lang_In. apply E.
Qed.

Lemma mem_langs_of_rids l rids : mem_lang l (langs_of_rids pay rids) = mem_lang l (map (rid_lang pay) rids).
Proof. unfold langs_of_rids. apply (mem_filter_all (fun l => mem_lang l (map (rid_lang pay) rids))). Qed.

Lemma langs_of_witnesses rs : map w_lang (map (witness_of pay) rs) = map (rid_lang pay) (map P.r_data rs).
Proof. rewrite !map_map. reflexivity. Qed.
Lemma langs_of_witnesses_mint rs : map w_lang (map (witness_of_mint pay) rs) = map (rid_lang pay) (map P.r_data rs).
Proof. rewrite !map_map. reflexivity. Qed.

Lemma map_flat_map {A B C} (f : B -> C) (g : A -> list B) l : map f (flat_map g l) = flat_map (fun a => map f (g a)) l.
Proof. induction l as [|a t IH]; [reflexivity|]. cbn [flat_map]. rewrite map_app, IH. reflexivity. Qed.

(* rids of a flat_map over enumerated entries do not depend on the positions *)
Lemma rids_enum {A} (g : N * A -> list P.redeemer) (h : A -> list N) :
  (forall i e, map P.r_data (g (i, e)) = h e) ->
  forall l i, map P.r_data (flat_map g (P.enum_from i l)) = flat_map h l.
Proof.
  intros Hg. induction l as [|e t IH]; intros i; [reflexivity|].
  cbn [P.enum_from flat_map]. rewrite map_app, Hg, IH. reflexivity.
Qed.

(* the five builders whose two getters iterate the same entries *)
Lemma mint_rids st : map P.r_data (P.mint_plutus st) = mint_registered st.
Proof.
  unfold P.mint_plutus, mint_registered. apply rids_enum. intros i e. unfold P.mint_entry_redeemer. cbn [snd fst].
  destruct (snd e); reflexivity.
Qed.
Lemma wentries_rids {K} T (st : list (K * option P.wit)) :
  map P.r_data (flat_map (P.wentry_redeemer T) (P.enum_from 0 st)) = wentries_registered st.
Proof.
  unfold wentries_registered. apply rids_enum. intros i e. unfold P.wentry_redeemer. cbn [snd fst].
  destruct (P.plutus_rid (snd e)); reflexivity.
Qed.
Lemma vote_rids st : map P.r_data (P.vote_plutus st) = wentries_registered st.
Proof.
  unfold P.vote_plutus, wentries_registered. rewrite map_flat_map. apply flat_map_ext. intros e.
  unfold P.vote_entry_redeemer. destruct (P.plutus_rid (snd e)); reflexivity.
Qed.

(* withdrawals: the witnesses are returned in ledger order, the language getter walks the insertion-ordered map *)
Lemma wd_entries_In st : NoDup (map fst st) -> forall e, In e (P.wd_ordered st) <-> In e st.
Proof.
  intros ND [k v]. unfold P.wd_ordered. pose proof PointersProofs.racct_code_st as St.
  assert (NDs : NoDup (map fst (P.sm_sort P.racct_code_ltb st))).
  { rewrite (MapsProofs.sm_sort_keys _ St). apply (MapsProofs.sortedk_nodup _ St), MapsProofs.sset_sort_sorted, St. }
  split; intros Hin.
  - apply (MapsProofs.al_get_nodup _ St _ _ _ NDs) in Hin. rewrite (MapsProofs.sm_sort_get _ St) in Hin.
    apply (MapsProofs.al_get_In _ St), Hin.
  - apply (MapsProofs.al_get_nodup _ St _ _ _ ND) in Hin. rewrite <- (MapsProofs.sm_sort_get _ St) in Hin.
    apply (MapsProofs.al_get_In _ St), Hin.
Qed.
Lemma wd_rids_In st : NoDup (map fst st) -> forall rid, In rid (map P.r_data (P.wd_plutus st)) <-> In rid (wentries_registered st).
Proof.
  intros ND rid. unfold P.wd_plutus. rewrite wentries_rids. unfold wentries_registered. rewrite !in_flat_map.
  split; intros [e [He Hr]]; exists e; (split; [apply (wd_entries_In st ND), He|exact Hr]).
Qed.

(* inputs: registered = returned or stale, entry by entry *)
Lemma in_flat_map_or {A B} (f g h : A -> list B) l x :
  (forall a, In x (f a) <-> In x (g a) \/ In x (h a)) ->
  In x (flat_map f l) <-> In x (flat_map g l) \/ In x (flat_map h l).
Proof.
  intros E. rewrite !in_flat_map. split.
  - intros [a [Ha Hx]]. apply E in Hx as [Hx|Hx]; [left|right]; exists a; split; assumption.
  - intros [[a [Ha Hx]]|[a [Ha Hx]]]; exists a; (split; [exact Ha|apply E]); [left|right]; exact Hx.
Qed.

Lemma ib_rids_In st rid :
  In rid (ib_registered st) <-> In rid (map P.r_data (P.ib_plutus st)) \/ In rid (ib_stale st).
Proof.
  unfold ib_registered, P.ib_plutus, ib_stale. rewrite map_flat_map. apply in_flat_map_or. intros hm.
  rewrite map_flat_map. apply in_flat_map_or. intros ow. unfold P.ib_entry_redeemer, ib_stale_entry.
  destruct (snd ow) as [[|r]|]; [cbn; tauto| |cbn; tauto].
  destruct (P.al_get _ _ _) as [[h' i]|]; [destruct (eqb_of _ h' (fst hm))|]; cbn; tauto.
Qed.

Lemma mem_map_In_ext l (A B : list N) : (forall x, In x A <-> In x B) ->
  mem_lang l (map (rid_lang pay) A) = mem_lang l (map (rid_lang pay) B).
Proof.
  intros E. apply mem_lang_ext. intros x. rewrite !in_map_iff. split; intros [y [Hy Hin]]; exists y; (split; [exact Hy|apply E, Hin]).
Qed.

(* the language set of one inputs builder, read from its entries = the model's sub_langs_gen true of the derived state *)
Lemma inputs_langs_entries st l :
  mem_lang l (langs_of_rids pay (ib_registered st)) = mem_lang l (sub_langs_gen true (sub_of_inputs pay st)).
Proof.
  rewrite mem_langs_of_rids, (mem_sub_langs true). unfold stale_sub_gen, sub_of_inputs. cbn [ss_witnesses ss_stale].
  rewrite langs_of_witnesses, <- mem_lang_app, <- map_app.
  apply mem_map_In_ext. intros x. rewrite in_app_iff. apply ib_rids_In.
Qed.

(* the language set of a sub-builder without stale registrations, read from the rids of its entries: what matters is that
   the returned witnesses carry the registered rids, in whatever order *)
Lemma sub_langs_entries l (ws : list witness) rs rids :
  map w_lang ws = map (rid_lang pay) (map P.r_data rs) -> (forall x, In x (map P.r_data rs) <-> In x rids) ->
  mem_lang l (langs_of_rids pay rids) = mem_lang l (sub_langs_gen true (mk_sub ws [] [])).
Proof.
  intros Hw Hr. rewrite mem_langs_of_rids, (mem_sub_langs true). unfold stale_sub_gen. cbn [ss_witnesses ss_stale].
  rewrite orb_false_r, Hw. symmetry. apply mem_map_In_ext, Hr.
Qed.

(* the inputs / collateral getter is guarded by has_plutus_scripts (guard in SubBuilders.v): both sides are empty unless
   a Plutus witness is returned *)
Lemma guard_langs st l :
  mem_lang l (if is_nil (P.ib_plutus st) then [] else langs_of_rids pay (ib_registered st)) =
  mem_lang l (inputs_langs_gen true (sub_of_inputs pay st)).
Proof.
  unfold inputs_langs_gen. unfold sub_of_inputs at 1. cbn [ss_witnesses].
  destruct (P.ib_plutus st) eqn:E; cbn [map is_nil]; [reflexivity|]. apply inputs_langs_entries.
Qed.

End WithPayload.
