(* C05 — built transactions conserve value exactly.  The theorems of the property; each follows in a few lines from the
   general statements of Builder/*Proofs.v (Hoare triples, one specification per operation of a history). *)
From CSL Require Import Base.Prelude Base.U64 Num.Value Deposits.Deposits Deposits.DepositsProofs Builder.Totals Builder.TotalsProofs
  Builder.Change Builder.ChangeProofs Builder.Scenario Builder.ScenarioProofs Builder.MoreEntry Builder.MoreEntryProofs Builder.TerminationProofs Builder.DirectionProofs Builder.TxReader Builder.TxReaderExamples Builder.GivenValues.
From CSL Require Import Num.ValueNorm Num.ValueNormProofs.
From CSL Require Collateral.Collateral.
From Coq Require Import Permutation.
Local Open Scope N_scope.

(* the specification the theorems speak about (Builder/Totals.v): the ledger's consumed = produced *)
Check (eq_refl : ledger_balanced = fun (pool_deposit key_deposit : N) (b : tx_body) =>
  sum_coin (map snd (b_inputs b)) + sumN (map snd (b_withdrawals b)) + spec_cert_refunds key_deposit (b_certs b)
  = sum_coin (map o_amount (b_outputs b)) + b_fee b + spec_cert_deposits pool_deposit key_deposit (b_certs b)
    + sumN (b_proposals b) + b_donation b
  /\ forall p n,
      sum_qty (map snd (b_inputs b)) p n + mint_pos (b_mint b) p n
      = sum_qty (map o_amount (b_outputs b)) p n + mint_neg (b_mint b) p n).

(* the final equality check of the builder implies the ledger rule on the body it is about to release *)
Theorem C05_accounting : forall s : state,
  state_wf s -> validate_balance s = Ok tt ->
  ledger_balanced (c_pool_deposit (s_cfg s)) (c_key_deposit (s_cfg s)) (body_of s).
Proof. exact accounting. Qed.
Print Assumptions C05_accounting.

(* add_change_if_needed*, every branch, every fee policy, ANY size/fee oracle: success leaves a balanced builder *)
Theorem C05_change_balances : forall (O : Type) (orc : @oracle O), oracle_u64 orc ->
  forall (fuel : nat) (addr extra : N) (st : state) (o : O) (b : bool),
  state_wf st -> out_res (add_change orc fuel addr extra st o) = Ok b ->
  state_wf (out_st (add_change orc fuel addr extra st o)) /\
  ledger_balanced (c_pool_deposit (s_cfg st)) (c_key_deposit (s_cfg st))
                  (body_of (out_st (add_change orc fuel addr extra st o))).
Proof.
  intros O orc OU fuel addr extra st o b.
  exact (balancing_run _ st o b (add_change_balances orc OU (s_cfg st) fuel addr extra)).
Qed.
Print Assumptions C05_change_balances.

(* add_inputs_from_and_change: whatever inputs the selection (an oracle answer) added, and through the retry loop *)
Theorem C05_select_and_change : forall (O : Type) (orc : @oracle O), oracle_u64 orc ->
  forall (fuel : nat) (utxos : list (N * value)) (addr extra : N) (st : state) (o : O) (b : bool),
  state_wf st -> utxos_wf utxos ->
  out_res (add_inputs_from_and_change orc fuel utxos addr extra st o) = Ok b ->
  state_wf (out_st (add_inputs_from_and_change orc fuel utxos addr extra st o)) /\
  ledger_balanced (c_pool_deposit (s_cfg st)) (c_key_deposit (s_cfg st))
                  (body_of (out_st (add_inputs_from_and_change orc fuel utxos addr extra st o))).
Proof.
  intros O orc OU fuel utxos addr extra st o b W Wu.
  exact (balancing_run _ st o b (select_and_change_balances orc OU (s_cfg st) fuel utxos addr extra Wu) W).
Qed.
Print Assumptions C05_select_and_change.

(* build_tx: a released transaction body satisfies the ledger rule *)
Theorem C05_balance : forall (O : Type) (orc : @oracle O), oracle_u64 orc ->
  forall (st : state) (o : O) (tx : tx_body),
  state_wf st -> out_res (build_tx orc st o) = Ok tx ->
  ledger_balanced (c_pool_deposit (s_cfg st)) (c_key_deposit (s_cfg st)) tx.
Proof.
  intros O orc OU st o tx W E. destruct (build_tx_balanced orc OU (s_cfg st) st o (WF_self st W) I) as [W' B].
  rewrite E in B. exact (WF_params_balanced _ _ _ W' B).
Qed.
Print Assumptions C05_balance.

(* a failing add_change (which may already have added outputs) leaves a well-formed builder with the same parameters *)
Theorem C05_failure_keeps_wf : forall (O : Type) (orc : @oracle O), oracle_u64 orc ->
  forall (fuel : nat) (addr extra : N) (st : state) (o : O),
  state_wf st ->
  state_wf (out_st (add_change orc fuel addr extra st o)) /\
  s_cfg (out_st (add_change orc fuel addr extra st o)) = s_cfg st.
Proof.
  intros O orc OU fuel addr extra st o W.
  exact (proj1 (add_change_balances orc OU (s_cfg st) fuel addr extra st o (WF_self st W) I)).
Qed.
Print Assumptions C05_failure_keeps_wf.

(* histories: every list of builder operations, in every order, with every recorded oracle tape *)
Theorem C05_histories : forall (utxos : list (N * value)) (cfg : config) (l : list (op * tape_state))
  (rs : list opres) (s : state) (body : tx_body),
  utxos_wf utxos -> Forall op_wf (map fst l) ->
  run_ops utxos l (new_state cfg) = (rs, s, Some body) ->
  ledger_balanced (c_pool_deposit cfg) (c_key_deposit cfg) body.
Proof.
  intros utxos cfg l rs s body WU. exact (scenarios_balanced utxos WU cfg l (new_state cfg) rs s body (new_state_wf cfg)).
Qed.
Print Assumptions C05_histories.

(* inside a history: every balancing operation that reports success leaves a balanced builder *)
Theorem C05_history_change : forall (utxos : list (N * value)) (cfg : config) (x : op) (s : state) (o : tape_state) (v : bool),
  utxos_wf utxos -> WF cfg s -> op_wf x ->
  fst (fst (run_op utxos x s o)) = RBool v ->
  ledger_balanced (c_pool_deposit cfg) (c_key_deposit cfg) (body_of (snd (fst (run_op utxos x s o)))).
Proof.
  intros utxos cfg x s o v WU W Wx H. destruct (run_op_spec utxos WU cfg x s o W Wx) as (W' & _ & B).
  exact (WF_balanced_ledger cfg _ W' (B v H)).
Qed.
Print Assumptions C05_history_change.

(* phase 2: the remaining entry points *)

(* add_inputs_from_and_change_with_collateral_return (joint model: builder state x collateral state, any oracles) *)
Theorem C05_collateral_entry : forall (O : Type) (orc : @oracle O), oracle_u64 orc ->
  forall (ask_col : Collateral.output -> O -> result N * O)
         (fuel : nat) (utxos : list (N * value)) (addr extra : N) (addr_b : bytes) (pct : N)
         (s : state) (c : colstate) (o : O),
  state_wf s -> utxos_wf utxos ->
  jo_res (percent_entry orc ask_col fuel utxos addr extra addr_b pct s c o) = Ok tt ->
  state_wf (jo_st (percent_entry orc ask_col fuel utxos addr extra addr_b pct s c o)) /\
  ledger_balanced (c_pool_deposit (s_cfg s)) (c_key_deposit (s_cfg s))
                  (body_of (jo_st (percent_entry orc ask_col fuel utxos addr extra addr_b pct s c o))).
Proof.
  intros O orc OU ask_col fuel utxos addr extra addr_b pct s c o W Wu E.
  destruct (percent_entry_spec orc OU ask_col (s_cfg s) fuel utxos addr extra addr_b pct s c o (WF_self s W) Wu) as [W' B].
  split; [exact (proj1 W') | exact (WF_balanced_ledger _ _ W' (B E))].
Qed.
Print Assumptions C05_collateral_entry.

(* its collateral side is C19's percent_helper, run with the balancing outcome that the C05 model computes (not given) and
   the min-ADA function read off the oracle: C19's theorems about fields 13/16/17 apply to the joint model *)
Theorem C05_collateral_is_c19 : forall (O : Type) (orc : @oracle O)
  (ask_col : Collateral.output -> O -> result N * O)
  (fuel : nat) (utxos : list (N * value)) (addr extra : N) (addr_b : bytes) (pct : N) (s : state) (c : colstate) (o : O),
  let bal := add_inputs_from_and_change orc fuel utxos addr extra s o in
  let r := percent_entry orc ask_col fuel utxos addr extra addr_b pct s c o in
  (out_res bal <> Panic /\ out_res bal <> OutOfFuel) ->
  let h := Collateral.percent_helper (fun out => fst (ask_col out (out_orc bal))) pct addr_b
             (is_ok (out_res bal)) (get_fee_if_set (out_st bal)) (to_c19 s c) in
  (match Collateral.total_value (cs_inputs c) with Ok _ => to_c19 (jo_st r) (jo_col r) = snd h | _ => jo_col r = clear_col c end) /\
  (fst h = true <-> jo_res r = Ok tt).
Proof. exact (@percent_entry_is_c19). Qed.
Print Assumptions C05_collateral_is_c19.

(* histories over the extended operation set: + set_collateral, the collateral entry point, add_mint_asset_and_output,
   add_mint_asset_and_output_min_required_coin, add_mint_asset, set_mint, set_certs, set_withdrawals, remove_mint_builder,
   set_mint_asset, voting proposals added with their identities *)
Theorem C05_histories2 : forall (utxos : list (N * value)) (cfg : config) (l : list (op2 * tape_state))
  (rs : list opres) (s : state) (c : colstate) (body : tx_body),
  utxos_wf utxos -> Forall op2_wf (map fst l) ->
  run_ops2 utxos l (new_state cfg) col_new = (rs, s, c, Some body) ->
  ledger_balanced (c_pool_deposit cfg) (c_key_deposit cfg) body.
Proof.
  intros utxos cfg l rs s c body WU.
  exact (scenarios2_balanced utxos WU cfg l (new_state cfg) col_new rs s c body (new_state_wf cfg)).
Qed.
Print Assumptions C05_histories2.

(* inside such a history: a balancing operation of either kind that reports success leaves a balanced builder *)
Theorem C05_history2_balancing : forall (utxos : list (N * value)) (cfg : config) (x : op2) (s : state) (c : colstate) (o : tape_state),
  utxos_wf utxos -> WF cfg s -> op2_wf x ->
  (exists v, fst (fst (fst (run_op2 utxos x s c o))) = RBool v) \/
  ((exists avail addr extra addr_b pct, x = OpPercent avail addr extra addr_b pct) /\ fst (fst (fst (run_op2 utxos x s c o))) = ROk) ->
  ledger_balanced (c_pool_deposit cfg) (c_key_deposit cfg) (body_of (snd (fst (fst (run_op2 utxos x s c o))))).
Proof.
  intros utxos cfg x s c o WU W Wx H. destruct (run_op2_spec utxos WU cfg x s c o W Wx) as [(W' & _ & B1) B2].
  apply (WF_balanced_ledger cfg _ W').
  destruct H as [[v Hv] | [(avail & addr & extra & addr_b & pct & ->) Hok]]; [exact (B1 v Hv) | exact (B2 eq_refl Hok)].
Qed.
Print Assumptions C05_history2_balancing.

(* change only goes to the change address (finding C05-zero-quantity-change, /repo 5207e1d): a successful add_change
   appends outputs at (change address, requested datum/script) and leaves every earlier output untouched *)
Theorem C05_change_goes_to_change_address : forall (O : Type) (orc : @oracle O), oracle_u64 orc ->
  forall (fuel : nat) (addr extra : N) (st : state) (o : O) (b : bool),
  state_wf st -> out_res (add_change orc fuel addr extra st o) = Ok b ->
  exists l, s_outputs (out_st (add_change orc fuel addr extra st o)) = s_outputs st ++ l /\
            Forall (fun x => o_addr x = addr /\ o_extra x = extra) l.
Proof. exact (@add_change_direction). Qed.
Print Assumptions C05_change_goes_to_change_address.

(* termination of the repaired change loop (finding C05-change-loop-progress, /repo f596a0b): with fuel above the total
   asset quantity of change_left the model's loop never returns OutOfFuel, for any packing, prices and oracle *)
Theorem C05_change_loop_terminates : forall (O : Type) (orc : @oracle O), oracle_u64 orc -> oracle_answers orc ->
  forall (cfg0 : config) (addr extra : N) (fuel : nat) (cl : value) (nf : N) (s : state) (o : O),
  WF cfg0 s -> value_wf cl -> ksum (value_keys cl) cl < N.of_nat fuel ->
  out_res (change_while_loop orc fuel addr extra cl nf s o) <> OutOfFuel.
Proof. exact (@change_loop_fuel_bound). Qed.
Print Assumptions C05_change_loop_terminates.

Theorem C05_recorded_oracle_answers : oracle_answers tape_oracle.
Proof. exact tape_oracle_answers. Qed.
Print Assumptions C05_recorded_oracle_answers.

(* the normaliser applied to every input amount (Value::without_empty_entries, /repo bb8d7fa) changes no quantity: what the
   builder stores denotes the value it was given.  (The seeded change C05-m7 - dropping a whole policy that holds one
   zero quantity - violates exactly this.) *)
Theorem C05_normaliser_keeps_quantities : forall v : value, value_wf v ->
  coin (value_without_empty_entries v) = coin v /\
  forall p n, qty (value_without_empty_entries v) p n = qty v p n.
Proof. exact value_without_empty_entries_sem. Qed.
Print Assumptions C05_normaliser_keeps_quantities.

(* hence the ledger rule on a body reads the same with the amounts as stored and with the amounts as given (the UTxO values) *)
Theorem C05_balanced_for_given_amounts : forall (pd kd : N) (given : list (N * value)) (b : tx_body),
  Forall (fun e : N * value => value_wf (snd e)) given ->
  (ledger_balanced pd kd (with_inputs (stored given) b) <-> ledger_balanced pd kd (with_inputs given b)).
Proof. exact ledger_balanced_given. Qed.
Print Assumptions C05_balanced_for_given_amounts.

(* the rule does not depend on the order of inputs, outputs, certificates, withdrawals, proposals *)
Theorem C05_order : forall (pd kd : N) (b b' : tx_body),
  Permutation (b_inputs b) (b_inputs b') -> Permutation (b_outputs b) (b_outputs b') ->
  Permutation (b_certs b) (b_certs b') -> Permutation (b_withdrawals b) (b_withdrawals b') ->
  Permutation (b_proposals b) (b_proposals b') ->
  b_fee b = b_fee b' -> b_mint b = b_mint b' -> b_donation b = b_donation b' ->
  ledger_balanced pd kd b -> ledger_balanced pd kd b'.
Proof.
  intros pd kd b b' Pi Po Pc Pw Pp Ef Em Ed [C Q]. unfold ledger_balanced.
  rewrite <- (sum_coin_perm _ _ (Permutation_map snd Pi)), <- (sum_coin_perm _ _ (Permutation_map o_amount Po)).
  rewrite <- (sumN_perm _ _ (Permutation_map snd Pw)), <- (sumN_perm _ _ Pp).
  rewrite <- (spec_cert_refunds_perm kd _ _ Pc), <- (spec_cert_deposits_perm pd kd _ _ Pc).
  rewrite <- Ef, <- Em, <- Ed. split; [exact C|].
  intros p n. rewrite <- (sum_qty_perm _ _ p n (Permutation_map snd Pi)), <- (sum_qty_perm _ _ p n (Permutation_map o_amount Po)).
  apply Q.
Qed.
Print Assumptions C05_order.

(* the judge's executable test (run on the implementation's transaction) decides the rule *)
Theorem C05_judge_decides : forall (pd kd : N) (b : tx_body),
  ledger_balancedb pd kd b = true <-> ledger_balanced pd kd b.
Proof. exact ledger_balancedb_iff. Qed.
Print Assumptions C05_judge_decides.

(* the recorded-answer oracle of the correspondence run meets the typing premise, whatever was recorded *)
Theorem C05_recorded_oracle_ok : oracle_u64 tape_oracle.
Proof. exact tape_oracle_u64. Qed.
Print Assumptions C05_recorded_oracle_ok.

(* finding C05-mint-min-int (fixed in /repo 0175f0b): with a mint quantity of -2^64 the builder's own balance test
   passes on a body that violates the rule; such a state is outside state_wf and MintBuilder now rejects it *)
Theorem C05_mint_min_int_refuted :
  validate_balance witness_state = Ok tt /\
  ~ ledger_balanced 500000000 2000000 (body_of witness_state) /\
  known_mint_min witness_state = true /\ state_wfb witness_state = false.
Proof.
  split; [vm_compute; reflexivity|]. split; [|split; vm_compute; reflexivity].
  intros H. apply ledger_balancedb_iff in H. vm_compute in H. discriminate.
Qed.
Print Assumptions C05_mint_min_int_refuted.

(* non-vacuity: a concrete history (two inputs with assets, an output, certificates with deposit and refund, a burn, a
   donation, change split into an asset output and a pure-ADA output, build) runs through and is balanced *)
Check scenario_example.
Check scenario_example_premises.
Check scenario2_example.
Check scenario2_example_premises.
(* the judge's independent CBOR reader (Builder/TxReader.v) on a transaction built by the implementation, and on the wire forms of values, outputs, certificates and mint *)
Check read_tx_example.
Check judge_bytes_example.
Check read_value_example.
Check read_output_example.
Check read_cert_example.
Check read_mint_example.
