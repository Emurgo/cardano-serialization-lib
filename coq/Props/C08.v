(* C08 — Coin selection is sound under every random outcome.
   The theorems of the property, each derived in a few lines from the general lemmas of CoinSel/CoinSelSound.v (what a
   successful call is, what its totals are, what a largest-first pass does) or from a witness of CoinSel/CoinSelRefute.v;
   the soundness of the judge is proved in CoinSel/CoinSelSound.v.
   [min_fee] / [fee_for_input] are arbitrary functions (the real builder's min_fee() and fee_for_input()),
   [cs : list N] is the sequence of random draws (hook H1: k-th draw gen_range(0..n) = k-th element mod n), so the
   quantification over [cs] is the quantification over every outcome of the RNG.  [current] is the code as it is
   (after /repo b244700, 2a9f309, d550071, 844a848, 0efa6ad, d980bbe, ab61362; amounts stored as push_input
   normalises them since bb8d7fa); the legacy variants are the code
   before one of these repairs. *)
From CSL Require Import Base.Prelude Num.Value CoinSel.CoinSel CoinSel.CoinSelSpec CoinSel.CoinSelLemmas CoinSel.CoinSelProofs
  CoinSel.CoinSelSound CoinSel.CoinSelRefute.
From Coq Require Import Permutation.
Local Open Scope N_scope.

(* Success => the added inputs are pairwise distinct members of the offered list, the inputs present before are
   unchanged (the resulting map is a permutation of the old inputs and the added ones), and the actual inputs cover
   outputs + deposits + burn + donation + required fee in lovelace and in EVERY asset.  All four strategies, ALL
   offered lists (they may repeat outpoints and overlap the builder's inputs), builder contents and draw sequences.
   No known class is excluded. *)
Theorem C08_sound :
  forall (min_fee : imap -> result N) (fee_for_input : imap -> utxo -> result N)
         (strat : strategy) (cs : list N) (offered : list utxo) (sc : scenario) (st' : sel_state),
    scenario_wf offered sc -> pre_distinct sc ->
    add_inputs_from min_fee fee_for_input current strat cs offered sc = (st', Done tt) ->
    sound_result min_fee fee_for_input false offered (effective_offered current offered sc) sc st'.
Proof.
  intros min_fee ffi strat cs offered sc st' Hwf Hp H.
  destruct (select_run _ _ _ _ _ _ _ Hwf Hp H) as [st0 [rest [E0 [T [Hc Hg]]]]].
  exact (run_sound _ _ _ _ _ _ _ Hwf Hp E0 T Hc Hg).
Qed.
Print Assumptions C08_sound.

(* when fee_for_input is the difference of two minimum fees, the fee covered is min_fee() of the resulting builder *)
Theorem C08_sound_min_fee :
  forall (min_fee : imap -> result N) (fee_for_input : imap -> utxo -> result N)
         (strat : strategy) (cs : list N) (offered : list utxo) (sc : scenario) (st' : sel_state),
    fee_additive min_fee fee_for_input ->
    scenario_wf offered sc -> pre_distinct sc ->
    add_inputs_from min_fee fee_for_input current strat cs offered sc = (st', Done tt) ->
    exists fee, min_fee (st_inputs st') = Ok fee /\ covers_coin sc (st_inputs st') fee.
Proof.
  intros min_fee ffi strat cs offered sc st' Ha Hwf Hp H.
  destruct (C08_sound _ _ _ _ _ _ _ Hwf Hp H) as [_ [_ [fee [Hf [Hc _]]]]].
  exists fee. split; [|exact Hc].
  destruct (select_run _ _ _ _ _ _ _ Hwf Hp H) as [st0 [rest [E0 [[l [R _]] _]]]].
  destruct (reach_account _ _ _ _ _ _ _ _ Hwf Hp E0 R) as [Ht [Hm _]].
  rewrite Hm, <- Ht. apply (required_fee_final _ ffi); assumption.
Qed.
Print Assumptions C08_sound_min_fee.

(* … which is what the builder's own fee functions are, for every raw size-based estimate and every fee request
   (Unspecified / set_min_fee / set_fee): no premise on the fees *)
Theorem C08_sound_fee_model :
  forall (raw : N -> imap -> result N) (req : fee_request)
         (strat : strategy) (cs : list N) (offered : list utxo) (sc : scenario) (st' : sel_state),
    scenario_wf offered sc -> pre_distinct sc ->
    add_inputs_from (min_fee_of raw req) (fee_for_input_of raw req two32) current strat cs offered sc = (st', Done tt) ->
    exists fee, min_fee_of raw req (st_inputs st') = Ok fee /\ covers_coin sc (st_inputs st') fee.
Proof.
  intros raw req strat cs offered sc st' Hwf Hp H. apply (C08_sound_min_fee _ _ _ _ _ _ _) in H; auto.
  intros m u f Hf. rewrite fee_model_derived in Hf. apply (derived_additive _ m u f Hf).
Qed.
Print Assumptions C08_sound_fee_model.

(* Largest-first (strategy LargestFirst), when more lovelace is needed than the builder holds: whatever the outcome,
   the inputs are added in non-increasing order of their lovelace and every (effective) offered UTxO not added holds
   at most as much as every added one *)
Theorem C08_largest_first_order :
  forall (min_fee : imap -> result N) (fee_for_input : imap -> utxo -> result N)
         (cs : list N) (offered : list utxo) (sc : scenario) (st0 st' : sel_state) (r : outcome unit),
    initial_state min_fee sc = (st0, Done tt) -> coin (st_in st0) < coin (st_out st0) ->
    add_inputs_from min_fee fee_for_input current LargestFirst cs offered sc = (st', r) ->
    let eff := effective_offered current offered sc in
    desc_sorted (key_of ByCoin eff) (st_trace st') /\
    (forall i, In i (st_trace st') -> (i < length eff)%nat) /\
    (forall i j, In i (st_trace st') -> (j < length eff)%nat -> ~ In j (st_trace st') ->
                 key_of ByCoin eff j <= key_of ByCoin eff i).
Proof.
  intros min_fee ffi cs offered sc st0 st' r E0 Hlt H eff.
  pose proof (initial_trace _ _ _ E0) as Ht0.
  destruct (lf_top_unfold _ _ _ _ _ _ _ _ E0 Hlt H) as [[-> _]|[r' [Hlf _]]].
  - rewrite Ht0. conj; [constructor|intros i []|intros i j []].
  - fold eff in Hlf. destruct (largest_first_order _ _ _ _ _ _ _ Hlf) as [taken [Htr [S1 [S2 S3]]]].
    rewrite Ht0 in Htr. cbn [app] in Htr. rewrite Htr. conj; auto.
    + intros i Hi. apply has_key_coin. apply S2. exact Hi.
    + intros i j Hi Hj Hnj. apply S3; auto. apply in_seq. lia. apply has_key_coin. exact Hj.
Qed.
Print Assumptions C08_largest_first_order.

(* … it stops as soon as the target is covered: no proper prefix of the added inputs covers outputs + fee *)
Theorem C08_largest_first_minimal :
  forall (min_fee : imap -> result N) (fee_for_input : imap -> utxo -> result N)
         (cs : list N) (offered : list utxo) (sc : scenario) (st0 st' : sel_state),
    scenario_wf offered sc -> pre_distinct sc ->
    initial_state min_fee sc = (st0, Done tt) -> coin (st_in st0) < coin (st_out st0) ->
    add_inputs_from min_fee fee_for_input current LargestFirst cs offered sc = (st', Done tt) ->
    forall k, (k < length (st_trace st'))%nat ->
      let eff := effective_offered current offered sc in
      let before := initial_map sc in
      let prefix := added_utxos eff (firstn k (st_trace st')) in
      exists fk, required_fee min_fee fee_for_input before prefix = Ok fk /\ ~ covers_coin sc (before ++ prefix) fk.
Proof.
  intros min_fee ffi cs offered sc st0 st' Hwf Hd E0 Hlt H k Hk.
  destruct (lf_top_unfold _ _ _ _ _ _ _ _ E0 Hlt H) as [[_ Hr]|[r' [Hlf Hr]]]; [discriminate Hr|].
  destruct r' as [aidx'| | | |]; try discriminate Hr.
  (* the pass added every input to a state that did not cover the target *)
  destruct (lf_by_done _ _ _ (fun _ _ E => E) _ _ _ _ _ Hlf) as [l [R _]].
  destruct (reach_account _ _ _ _ _ _ _ _ Hwf Hd E0 R) as [Ht _]. rewrite Ht in *.
  exact (uncovered_prefix _ _ _ _ _ _ _ _ _ Hwf Hd E0 R Hk).
Qed.
Print Assumptions C08_largest_first_minimal.

(* … and it reports insufficiency only after adding every offered UTxO (not yet in the builder), when all of them
   together do not cover outputs + fee — or because an asset of the target, for which this ADA-only strategy does
   not select, is not covered (the guard of /repo ab61362) *)
Theorem C08_largest_first_complete :
  forall (min_fee : imap -> result N) (fee_for_input : imap -> utxo -> result N)
         (cs : list N) (offered : list utxo) (sc : scenario) (st0 st' : sel_state),
    scenario_wf offered sc -> pre_distinct sc ->
    initial_state min_fee sc = (st0, Done tt) -> coin (st_in st0) < coin (st_out st0) ->
    add_inputs_from min_fee fee_for_input current LargestFirst cs offered sc = (st', Insufficient) ->
    let eff := effective_offered current offered sc in
    let before := initial_map sc in
    let added := added_utxos eff (st_trace st') in
    asset_guard st' = false \/
    (Permutation added eff /\
     exists fee, required_fee min_fee fee_for_input before added = Ok fee /\ ~ covers_coin sc (before ++ eff) fee).
Proof.
  intros min_fee ffi cs offered sc st0 st' Hwf Hd E0 Hlt H eff before added.
  destruct (lf_top_unfold _ _ _ _ _ _ _ _ E0 Hlt H) as [[_ Hr]|[r' [Hlf Hr]]]; [discriminate Hr|]. fold eff in Hlf.
  destruct r' as [aidx'| | | |]; cbn [ob] in Hr; try discriminate Hr.
  { destruct (asset_guard st'); [discriminate Hr|]. left. reflexivity. }
  right. destruct (insufficient_means _ _ _ _ _ _ _ _ _ Hwf Hd E0 (takes_refl _ _ _ _) Hlf) as [P [fee [Hf Hfee]]].
  fold eff in P. rewrite filter_none, app_nil_r in P.
  2: { intros i Hi. apply in_seq in Hi. apply Bool.negb_false_iff, has_key_coin. lia. }
  split.
  - apply Permutation_trans with (added_utxos eff (seq 0 (length eff))); [apply added_perm, P|rewrite added_seq; reflexivity].
  - exists fee. split; [exact Hf|]. unfold covers_coin, covers_q. fold eff before in Hfee. lia.
Qed.
Print Assumptions C08_largest_first_complete.

(* LargestFirstMultiAsset reports insufficiency only when all offered UTxOs (not yet in the builder) together do not
   suffice in some quantity of the target: an asset, or the lovelace including the fee of the inputs added *)
Theorem C08_lfma_complete :
  forall (min_fee : imap -> result N) (fee_for_input : imap -> utxo -> result N)
         (cs : list N) (offered : list utxo) (sc : scenario) (st0 st' : sel_state),
    scenario_wf offered sc -> pre_distinct sc ->
    initial_state min_fee sc = (st0, Done tt) -> coin (st_in st0) < coin (st_out st0) ->
    add_inputs_from min_fee fee_for_input current LargestFirstMultiAsset cs offered sc = (st', Insufficient) ->
    let eff := effective_offered current offered sc in
    let before := initial_map sc in
    exists sel fee, required_fee min_fee fee_for_input before (added_utxos eff (st_trace st')) = Ok fee /\
                    supply sel sc (before ++ eff) < demand sel sc fee.
Proof.
  intros min_fee ffi cs offered sc st0 st' Hwf Hd E0 Hlt H eff before.
  destruct (initial_ok _ _ _ _ Hwf Hd E0) as [_ [_ [W0 _]]].
  destruct (effective_ok _ _ Hwf Hd) as [_ [Weff _]].
  rewrite (no_prestep _ _ _ _ _ _ _ E0 Hlt) in H. fold eff in H, Weff.
  destruct (run_strategy ffi current LargestFirstMultiAsset cs eff sc st0) as [st2 x2] eqn:X.
  destruct (lfma_strategy _ _ Weff _ (fun _ _ E => E) _ _ _ _ _ W0 X) as [G I].
  destruct x2 as [[]| | | |]; cbn [obind] in H; try discriminate H.
  - rewrite G in H by reflexivity. discriminate H.
  - inversion H; subst st2. destruct (I eq_refl) as [sel [aidx1 [st1 [T Hlf]]]].
    exists sel. apply (insufficient_means _ _ _ _ _ _ _ _ _ Hwf Hd E0 T Hlf).
Qed.
Print Assumptions C08_lfma_complete.

(* The defects of the code before its repairs: each single-fault variant of the model reports success (or panics)
   on a witness for which the specification fails (witnesses replayed on the real code: corpus/C08/w-*.case) *)
Theorem C08_swap_bookkeeping_refuted :
  exists min_fee ffi cs offered sc st',
    scenario_wf offered sc /\ pre_distinct sc /\
    add_inputs_from min_fee ffi (mkVariant false true true true true true) RandomImprove cs offered sc = (st', Done tt) /\
    ~ sound_result min_fee ffi false offered offered sc st'.
Proof.
  eapply (unsound_witness _ _ zero_fee zero_ffi [0; 1; 0] w10_offered w10_sc); [reflexivity|vm_compute; reflexivity|].
  apply added_twice. reflexivity.
Qed.
Print Assumptions C08_swap_bookkeeping_refuted.

Theorem C08_duplicate_outputs_refuted :
  exists min_fee ffi cs offered sc st',
    scenario_wf offered sc /\ pre_distinct sc /\
    add_inputs_from min_fee ffi (mkVariant true false true true true true) RandomImprove cs offered sc = (st', Done tt) /\
    ~ sound_result min_fee ffi false offered offered sc st'.
Proof.
  eapply (unsound_witness _ _ zero_fee zero_ffi [] w23_offered w23_sc); [reflexivity|vm_compute; reflexivity|].
  apply added_twice. reflexivity.
Qed.
Print Assumptions C08_duplicate_outputs_refuted.

Theorem C08_prestep_fee_refuted :
  exists min_fee ffi cs offered sc st',
    scenario_wf offered sc /\ pre_distinct sc /\
    add_inputs_from min_fee ffi (mkVariant true true false true true true) LargestFirst cs offered sc = (st', Done tt) /\
    ~ sound_result min_fee ffi false offered offered sc st'.
Proof.
  eapply (unsound_witness _ _ wps_fee wps_ffi [] wps_offered wps_sc); [reflexivity|vm_compute; reflexivity|].
  eapply fee_uncovered; reflexivity.
Qed.
Print Assumptions C08_prestep_fee_refuted.

Theorem C08_improve_overflow_refuted :
  exists st st',
    add_inputs_from zero_fee zero_ffi (mkVariant true true true false true true) RandomImprove [0; 0; 0] wv_offered wv_sc = (st, Panicked) /\
    add_inputs_from zero_fee zero_ffi current RandomImprove [0; 0; 0] wv_offered wv_sc = (st', Done tt) /\
    imap_ids (st_inputs st') = [1].
Proof. eexists. eexists. split; [vm_compute; reflexivity|split; vm_compute; reflexivity]. Qed.
Print Assumptions C08_improve_overflow_refuted.

Theorem C08_offered_overlap_refuted :
  exists min_fee ffi cs offered sc st',
    scenario_wf offered sc /\ pre_distinct sc /\
    add_inputs_from min_fee ffi (mkVariant true true true true false true) LargestFirst cs offered sc = (st', Done tt) /\
    ~ sound_result min_fee ffi false offered offered sc st'.
Proof.
  eapply (unsound_witness _ _ zero_fee zero_ffi [] wo_offered wo_sc); [reflexivity|vm_compute; reflexivity|].
  eapply fee_uncovered; reflexivity.
Qed.
Print Assumptions C08_offered_overlap_refuted.

Theorem C08_burn_not_covered_refuted : forall strat, strat <> LargestFirstMultiAsset ->
  exists st', scenario_wf wb_offered wb_sc /\ pre_distinct wb_sc /\
    add_inputs_from zero_fee zero_ffi (mkVariant true true true true true false) strat [] wb_offered wb_sc = (st', Done tt) /\
    ~ covers_assets wb_sc (st_inputs st').
Proof.
  intros strat Hs. destruct (premises_sound wb_offered wb_sc eq_refl) as [W1 W2].
  destruct strat; [| |contradiction|]; eexists.
  all: split; [exact W1|]; split; [exact W2|]; split; [vm_compute; reflexivity|].
  (* the burnt asset is held by no input *)
  all: intros Hc; specialize (Hc wb_policy wb_name); apply covers_qb_iff in Hc; vm_compute in Hc; discriminate Hc.
Qed.
Print Assumptions C08_burn_not_covered_refuted.

(* fee_for_input with the zero fee placeholder it had before /repo d980bbe, under set_min_fee *)
Theorem C08_fee_placeholder_refuted :
  exists raw req cs offered sc st',
    scenario_wf offered sc /\ pre_distinct sc /\
    add_inputs_from (min_fee_of raw req) (fee_for_input_of raw req 0) current LargestFirst cs offered sc = (st', Done tt) /\
    forall fee, min_fee_of raw req (st_inputs st') = Ok fee -> ~ covers_coin sc (st_inputs st') fee.
Proof.
  exists wf_raw, wf_req, [], wf_offered, wf_sc.
  destruct (premises_sound wf_offered wf_sc eq_refl) as [W1 W2]. eexists. split; [exact W1|split; [exact W2|split; [vm_compute; reflexivity|]]].
  intros fee Hf. vm_compute in Hf. inversion Hf; subst fee.
  intros Hc. apply covers_qb_iff in Hc. vm_compute in Hc. discriminate Hc.
Qed.
Print Assumptions C08_fee_placeholder_refuted.

(* The judge evaluated by the check on the implementation's reports implies the clauses of the specification,
   including largest-first's "largest" and "stops as soon as covered" clauses *)
Theorem C08_judge_sound :
  forall strat offered sc final_ids explicit fee prefix,
    judge strat offered sc final_ids explicit fee prefix = Holds ->
    let pre := imap_of_list (sc_pre sc) in
    let eff := filter_offered (ids pre) offered in
    let inputs := judge_inputs offered pre final_ids in
    scenario_wf offered sc /\ pre_distinct sc /\
    NoDup final_ids /\ (forall x, In x final_ids -> In x (ids pre) \/ In x (ids offered)) /\
    incl (ids pre) final_ids /\
    (exists total, sum_values value_zero (map u_val inputs) = Ok total /\ value_eqb_sem total explicit = true) /\
    covers_coin sc inputs fee /\ covers_assets sc inputs /\
    (lf_clause_applies strat sc = true ->
       lf_largest_b eff (ids pre) final_ids = true /\
       forall w, lf_last_added eff (ids pre) final_ids = Some w ->
         exists g, prefix = Some (u_id w, g) /\
                   ~ covers_coin sc (filter (fun u => negb (u_id u =? u_id w)) inputs) g).
Proof. exact judge_sound. Qed.
Print Assumptions C08_judge_sound.

(* [current] and [legacy] written out: a change of either flag shows here *)
Check (eq_refl : current = mkVariant true true true true true true).
Check (eq_refl : legacy = mkVariant false false false false false false).
(* non-vacuity of the premises *)
Check sound_current_premises.
Check largest_first_premises.
Check largest_first_insufficient_premises.
Check fee_additive_premise.
Check burn_now_insufficient.
Check overlap_now_sound.
Check fee_placeholder_now_insufficient.
