(* C09 — Script-integrity and auxiliary-data hashes match what is emitted.
   The statements, each proved here from the general lemmas of ScriptData/ScriptDataProofs.v, SlicesProofs.v and
   SubBuildersProofs.v.
   Model: ScriptData/ScriptData.v + ScriptData/LangViews.v (utils.rs hash_script_data / hash_auxiliary_data,
   Costmdls::language_views_encoding / retain, PlutusList::to_set_bytes / serialize_as_set / deduplicated_clone,
   Redeemers::serialize, PlutusWitnesses::collect, TransactionBuilder::calc_script_data_hash / get_witness_set /
   build_tx / auxiliary-data setters, TransactionWitnessSet serializer, AuxiliaryData serializer).
   Spec: ScriptData/ScriptDataSpec.v (the ledger's script-integrity hash over the witness set actually emitted).
   Blake2b-256 is the universally quantified function [H]: no law about it is used, every statement is an
   equality of PREIMAGES (or of H applied to equal preimages).  All quantifiers are unbounded: arbitrary byte
   strings for scripts / datums / redeemer data, arbitrary identity classes, arbitrary cost-model tables,
   arbitrary histories of builder operations. *)
From CSL Require Import Base.Prelude Cbor.Head Cbor.Item ScriptData.LangViews ScriptData.ScriptData
  ScriptData.ScriptDataSpec ScriptData.ScriptDataProofs ScriptData.SlicesProofs ScriptData.Blake2bProofs
  ScriptData.SubBuilders ScriptData.SubBuildersProofs.
From CSL Require Pointers.Pointers.
Local Open Scope N_scope.

(* hash_script_data(redeemers, cost_models, datums) hashes the ledger's preimage over the witness set emitted for
   the same redeemers and datums (field 5 as written or A0, field 4 as written or nothing, canonical language
   views of the languages in use: those of the table, none when there are no redeemers), for ALL redeemers (any
   container form), datums and cost models outside
     - helper_out_of_scope: neither redeemers nor datums (the ledger then has no script_data_hash to compare with),
     - the classes of the two repaired defects, needed only while the corresponding switch of ScriptData.v is `true`.
   Stated with key / bootstrap witnesses in the witness set (fields 0 and 2 do not enter the hash) and for both values of
   both switches (the statement that survives a repair or a regression of the code). *)
Theorem C09_preimage_spec_with : forall (count_dups empty_hashed : bool) (vk bo : option bytes) (r : redeemers) (cm : costmdls)
    (d : option plutus_list),
  helper_out_of_scope r d = false ->
  (count_dups = true -> known_dup_definite d = false) ->
  (empty_hashed = true -> known_empty_datums d = false) ->
  let fs := ws_fields (helper_witness_set_with vk bo r d) in
  script_data_preimage_gen count_dups empty_hashed r cm d =
  ledger_preimage (assoc_field 5 fs) (assoc_field 4 fs) (spec_views (helper_langs r cm) cm).
Proof.
  intros cd eh vk bo r cm d Hscope Hcd Heh. cbv zeta. destruct (helper_fields vk bo r d) as [-> ->].
  rewrite (preimage_ledger cd eh r cm d Hscope Hcd Heh). unfold helper_langs.
  destruct (is_nil (rs_list r)); [reflexivity|]. rewrite views_model_spec. reflexivity.
Qed.
Print Assumptions C09_preimage_spec_with.

(* for the code as it stands (the two switches of ScriptData.v) and a witness set without key / bootstrap witnesses *)
Theorem C09_preimage_spec : forall (r : redeemers) (cm : costmdls) (d : option plutus_list),
  helper_out_of_scope r d = false ->
  (set_len_counts_duplicates = true -> known_dup_definite d = false) ->
  (empty_datums_hashed = true -> known_empty_datums d = false) ->
  let fs := ws_fields (helper_witness_set r d) in
  script_data_preimage r cm d =
  ledger_preimage (assoc_field 5 fs) (assoc_field 4 fs) (spec_views (helper_langs r cm) cm).
Proof. exact (C09_preimage_spec_with _ _ None None). Qed.
Print Assumptions C09_preimage_spec.

(* for both values of both switches *)
Theorem C09_preimage_spec_gen : forall (count_dups empty_hashed : bool) (r : redeemers) (cm : costmdls) (d : option plutus_list),
  helper_out_of_scope r d = false ->
  (count_dups = true -> known_dup_definite d = false) ->
  (empty_hashed = true -> known_empty_datums d = false) ->
  let fs := ws_fields (helper_witness_set r d) in
  script_data_preimage_gen count_dups empty_hashed r cm d =
  ledger_preimage (assoc_field 5 fs) (assoc_field 4 fs) (spec_views (helper_langs r cm) cm).
Proof. intros cd eh. exact (C09_preimage_spec_with cd eh None None). Qed.
Print Assumptions C09_preimage_spec_gen.

(* the defects: with the header counting the un-deduplicated list / an empty datum list being hashed, the
   unrestricted statement is false (witnesses; they stay valid after the repair because they speak about `_gen true`) *)
Theorem C09_preimage_refuted_dup_length :
  let fs := ws_fields (helper_witness_set one_redeemer (Some dup_witness_list)) in
  helper_out_of_scope one_redeemer (Some dup_witness_list) = false /\
  script_data_preimage_gen true true one_redeemer cm_empty (Some dup_witness_list) <>
  ledger_preimage (assoc_field 5 fs) (assoc_field 4 fs) (spec_views (helper_langs one_redeemer cm_empty) cm_empty) /\
  serialize_as_set_gen true true dup_witness_list = [217; 1; 2; 130; 24; 42] /\
  assoc_field 4 fs = Some [217; 1; 2; 129; 24; 42].
Proof. repeat split; try reflexivity. vm_compute. discriminate. Qed.
Print Assumptions C09_preimage_refuted_dup_length.

Theorem C09_preimage_refuted_empty_datums :
  let d := Some pl_new in
  let fs := ws_fields (helper_witness_set one_redeemer d) in
  helper_out_of_scope one_redeemer d = false /\
  script_data_preimage_gen false true one_redeemer cm_empty d <>
  ledger_preimage (assoc_field 5 fs) (assoc_field 4 fs) (spec_views (helper_langs one_redeemer cm_empty) cm_empty) /\
  assoc_field 4 fs = None.
Proof. repeat split; try reflexivity. vm_compute. discriminate. Qed.
Print Assumptions C09_preimage_refuted_empty_datums.

(* keys are written in strictly increasing canonical order of their ENCODED form (shorter first, then bytewise):
   PlutusV2 (01), PlutusV3 (02), PlutusV1 (41 00 — the double-encoded key), and the whole encoding is the
   specification's map (V1: bytes of an indefinite list; V2/V3: definite list) *)
Theorem C09_views_canonical : forall cm : costmdls,
  strictly_sorted (map enc_view_key (sort_keys (cm_keys cm))) = true /\
  sort_keys (cm_keys cm) = filter (fun l => is_some (cm_get cm l)) canonical_langs /\
  language_views_encoding cm = spec_views (cm_keys cm) cm.
Proof.
  intros cm. split; [|split; [|apply views_model_spec]]; destruct cm as [[a|] [b|] [c|]]; reflexivity.
Qed.
Print Assumptions C09_views_canonical.

(* only the languages in use: the table retained by calc_script_data_hash encodes to the views of exactly the
   used languages under the caller's (possibly larger) table *)
Theorem C09_views_only_used : forall (cm : costmdls) (used : list lang) (r : costmdls),
  retain_or_fail cm used cm_empty = Ok r ->
  language_views_encoding r = spec_views used cm /\
  strictly_sorted (map enc_view_key (langs_in_use used)) = true.
Proof.
  intros cm used r Hr. split; [apply (views_retained cm used r Hr)|].
  unfold langs_in_use, canonical_langs. cbn [filter].
  destruct (mem_lang V2 used), (mem_lang V3 used), (mem_lang V1 used); reflexivity.
Qed.
Print Assumptions C09_views_only_used.

(* C09_same_bytes, state form: whenever the hash stored in the builder was computed by calc_script_data_hash(cm) on a
   state with the same script items (any state: any order of additions led to it), the script_data_hash of the body
   build_tx returns is the ledger's script-integrity hash of the witness set build_tx emits — the two collection
   paths (calc_script_data_hash / get_witness_set) and the two serialisation paths (to_set_bytes /
   serialize_as_set(false) on the de-duplicated clone) agree;
   for both values of the switch calc_clears_own_hash *)
Theorem C09_same_bytes_gen : forall (H : bytes -> bytes) (clears : bool) (b0 : builder) (cm : costmdls) (b1 b : builder) (t : tx),
  wf_builder b0 -> known_stale_lang b0 = false ->
  calc_script_data_hash_gen H clears b0 cm = Ok b1 ->
  (has_script_items b0 = true \/ b_script_data_hash b0 = None \/ (clears = true /\ b_hash_calculated b0 = true)) ->
  script_view b = script_view b0 -> b_script_data_hash b = b_script_data_hash b1 ->
  build_tx H b = Ok t ->
  let fs := ws_fields (tx_witness_set t) in
  tx_script_data_hash t = ledger_script_integrity H (assoc_field 5 fs) (assoc_field 4 fs) (langs_used b) cm.
Proof.
  intros H clears b0 cm b1 b t Hwf Hstale Hcalc Hprior Hview Hhash Hbuild.
  rewrite (build_tx_ok H _ _ Hbuild). cbn [tx_script_data_hash tx_witness_set].
  destruct (script_view_eq _ _ Hview) as [-> ->]. rewrite Hhash, (ledger_integrity_items H b0 cm Hwf).
  rewrite (calc_hash_closed H clears b0 cm Hwf Hstale) in Hcalc. destruct (covers cm (langs_used b0)); [|discriminate].
  injection Hcalc as <-. destruct (has_script_items b0); [reflexivity|].
  destruct (clears && b_hash_calculated b0) eqn:Ec; [reflexivity|].
  destruct Hprior as [Hp|[Hp|[Hc Hf]]]; [discriminate|exact Hp|]. rewrite Hc, Hf in Ec. discriminate.
Qed.
Print Assumptions C09_same_bytes_gen.

(* for the code as it stands (switch calc_clears_own_hash of ScriptData.v) *)
Theorem C09_same_bytes : forall (H : bytes -> bytes) (b0 : builder) (cm : costmdls) (b1 b : builder) (t : tx),
  wf_builder b0 -> known_stale_lang b0 = false ->
  calc_script_data_hash H b0 cm = Ok b1 ->
  (has_script_items b0 = true \/ b_script_data_hash b0 = None \/ (calc_clears_own_hash = true /\ b_hash_calculated b0 = true)) ->
  script_view b = script_view b0 -> b_script_data_hash b = b_script_data_hash b1 ->
  build_tx H b = Ok t ->
  let fs := ws_fields (tx_witness_set t) in
  tx_script_data_hash t = ledger_script_integrity H (assoc_field 5 fs) (assoc_field 4 fs) (langs_used b) cm.
Proof. intros H. exact (C09_same_bytes_gen H calc_clears_own_hash). Qed.
Print Assumptions C09_same_bytes.

(* history form: EVERY sequence of builder operations starting from a new builder in which calc_script_data_hash(cm)
   came after the last operation touching a script item (and the hash was not replaced afterwards) *)
Theorem C09_same_bytes_history : forall (H : bytes -> bytes) (ops : list op) (cm : costmdls) (before : list op) (t : tx),
  last_calc_rev (rev ops) = Some (cm, before) ->
  let b0 := fst (run H builder_new (rev before)) in
  let b := fst (run H builder_new ops) in
  is_ok (calc_script_data_hash H b0 cm) = true ->
  has_script_items b0 || is_none (b_script_data_hash b0) || (calc_clears_own_hash && b_hash_calculated b0) = true ->
  known_stale_lang b0 = false ->
  build_tx H b = Ok t ->
  let fs := ws_fields (tx_witness_set t) in
  tx_script_data_hash t = ledger_script_integrity H (assoc_field 5 fs) (assoc_field 4 fs) (langs_used b) cm.
Proof.
  intros H ops cm before t Hl b0 b Hok Hprior Hstale Hbuild.
  destruct (last_calc_split _ _ _ Hl) as [post [Hops Hq]].
  destruct (calc_script_data_hash H b0 cm) as [b1| | |] eqn:Ec; try discriminate.
  assert (Hb : b = fst (run H b1 post)).
  { subst b. rewrite Hops, run_app. fold b0. rewrite run_cons. cbn [step]. rewrite Ec. reflexivity. }
  destruct (quiet_run H _ Hq b1) as [E1 E2]. rewrite <- Hb in E1, E2.
  apply (C09_same_bytes H b0 cm b1 b t); try assumption.
  - apply wf_run, wf_new.
  - unfold is_none in Hprior. destruct (has_script_items b0); [left; reflexivity|right].
    destruct (b_script_data_hash b0); [right|left; reflexivity]. apply andb_true_iff in Hprior. exact Hprior.
  - rewrite E1. apply (calc_result_view H _ _ _ _ Ec).
Qed.
Print Assumptions C09_same_bytes_history.

(* the heart of C09_same_bytes: the preimage itself (not only its hash) is the ledger's; for both values of the switch
   stale_langs_counted (languages from the sub-builders' registrations / from the collected witnesses); with the switch off
   the class is empty (known_stale_lang_gen false = false) *)
Theorem C09_calc_preimage_gen : forall (H : bytes -> bytes) (counted : bool) (b : builder) (cm : costmdls) (pre : bytes),
  wf_builder b -> known_stale_lang_gen counted b = false -> calc_preimage_gen counted b cm = Ok (Some pre) ->
  let fs := ws_fields (get_witness_set b) in
  pre = ledger_preimage (assoc_field 5 fs) (assoc_field 4 fs) (spec_views (langs_used b) cm).
Proof.
  intros H c b cm pre Hwf Hs Hc. rewrite (calc_preimage_closed c b cm Hwf Hs) in Hc.
  destruct (covers cm (langs_used b)); [|discriminate]. destruct (has_script_items b); [|discriminate].
  injection Hc as <-. reflexivity.
Qed.
Print Assumptions C09_calc_preimage_gen.

(* for the code as it stands *)
Theorem C09_calc_preimage : forall (H : bytes -> bytes) (b : builder) (cm : costmdls) (pre : bytes),
  wf_builder b -> known_stale_lang b = false -> calc_preimage b cm = Ok (Some pre) ->
  let fs := ws_fields (get_witness_set b) in
  pre = ledger_preimage (assoc_field 5 fs) (assoc_field 4 fs) (spec_views (langs_used b) cm).
Proof. intros H. exact (C09_calc_preimage_gen H stale_langs_counted). Qed.
Print Assumptions C09_calc_preimage.

(* C09_aux: the auxiliary-data hash of the body is the hash of the auxiliary data the transaction carries, as serialised *)
Theorem C09_aux : forall (H : bytes -> bytes) (b : builder) (t : tx),
  build_tx H b = Ok t ->
  tx_aux_data_hash t = ledger_aux_hash H (match tx_aux t with Some a => Some (enc_aux a) | None => None end).
Proof. exact aux_hash. Qed.
Print Assumptions C09_aux.

(* additions-only histories (what the property quantifies over: items are added, the hash is computed by the builder):
   no premise about an earlier hash is needed — a stored hash always comes with script items *)
Theorem C09_same_bytes_additive : forall (H : bytes -> bytes) (ops : list op) (cm : costmdls) (before : list op) (t : tx),
  additive H builder_new ops = true ->
  last_calc_rev (rev ops) = Some (cm, before) ->
  let b0 := fst (run H builder_new (rev before)) in
  let b := fst (run H builder_new ops) in
  is_ok (calc_script_data_hash H b0 cm) = true ->
  build_tx H b = Ok t ->
  let fs := ws_fields (tx_witness_set t) in
  tx_script_data_hash t = ledger_script_integrity H (assoc_field 5 fs) (assoc_field 4 fs) (langs_used b) cm.
Proof.
  intros H ops cm before t Hadd Hl b0 b Hok Hbuild.
  destruct (last_calc_split _ _ _ Hl) as [post [Hops _]].
  rewrite Hops in Hadd. apply additive_app in Hadd.
  destruct (additive_run H _ _ (wf_new) (conj eq_refl (or_introl eq_refl)) Hadd) as [Hst Hi]. fold b0 in Hst, Hi.
  apply (C09_same_bytes_history H ops cm before t Hl Hok); [|apply no_stale_known, Hst|exact Hbuild].
  fold b0. destruct Hi as [-> | ->]; [cbn [is_none is_some negb]; rewrite orb_true_r|]; reflexivity.
Qed.
Print Assumptions C09_same_bytes_additive.

(* C09_aux, history form: for EVERY history (set_auxiliary_data with constructed or decoded values, set_metadata,
   add_metadatum / add_json_metadatum*, remove_auxiliary_data, in any number and order, interleaved with anything) the
   transaction carries the auxiliary data the setters left and the body's hash is the hash of its serialisation *)
Theorem C09_aux_history : forall (H : bytes -> bytes) (ops : list op) (t : tx),
  build_tx H (fst (run H builder_new ops)) = Ok t ->
  tx_aux t = aux_of_history ops /\
  tx_aux_data_hash t = ledger_aux_hash H (match aux_of_history ops with Some a => Some (enc_aux a) | None => None end).
Proof.
  intros H ops t Hb. pose proof (aux_hash H _ _ Hb) as Hh. rewrite (build_tx_ok H _ _ Hb) in *. cbn [tx_aux] in *.
  rewrite run_aux in *. split; [reflexivity|exact Hh].
Qed.
Print Assumptions C09_aux_history.

(* the format preference alone changes the emitted bytes, so a hash kept from before such a change would be wrong *)
Theorem C09_aux_format_flag : forall md : list (N * bytes),
  enc_aux (mk_aux (Some md) None None false) <> enc_aux (mk_aux (Some md) None None true).
Proof.
  intros md. cbn [enc_aux negb a_prefer_alonzo a_metadata a_plutus a_native].
  destruct (enc_metadata_first md) as [b [r [-> Hb]]].
  change (encode_head 6 259) with [217; 1; 3]. cbn [app]. intros [= Hb' _]. lia.
Qed.
Print Assumptions C09_aux_format_flag.

(* the three wire forms: what AuxiliaryData decodes from a form the serializer itself produces re-serialises to the
   same bytes (hence set_auxiliary_data(from_bytes(b)) emits and hashes exactly b) *)
Theorem C09_aux_wire_reencode : forall (w : aux_wire) (a : aux_data),
  decode_wire w = Ok a -> wire_canonical w = true -> enc_aux a = enc_wire w.
Proof. exact wire_reencode. Qed.
Print Assumptions C09_aux_wire_reencode.

(* outside the quantifier: a script item added AFTER calc_script_data_hash leaves a stale hash, and build_tx does not
   detect it (the hashed preimage differs from the ledger's preimage of the emitted witness set) *)
Theorem C09_stale_hash_not_detected : forall H : bytes -> bytes,
  exists t p_hashed p_ledger,
    build_tx H (fst (run H builder_new stale_ops)) = Ok t /\
    tx_script_data_hash t = Some (H p_hashed) /\
    (let fs := ws_fields (tx_witness_set t) in
     ledger_script_integrity H (assoc_field 5 fs) (assoc_field 4 fs) (langs_used (fst (run H builder_new stale_ops))) cm_empty
     = Some (H p_ledger)) /\
    p_hashed <> p_ledger /\
    last_calc_rev (rev stale_ops) = None.
Proof.
  intros H. eexists _, _, _. split; [reflexivity|]. split; [reflexivity|]. split; [reflexivity|]. split; [|reflexivity].
  vm_compute. discriminate.
Qed.
Print Assumptions C09_stale_hash_not_detected.

(* known class C09-stale-input-language (shared root with C10-stale-spend-witness / C18-input-readded-with-other-owner):
   an input added with a Plutus witness and then again as a key input keeps the witness registered; when the input
   builder still returns another Plutus witness, the stale one's language goes into the hash although nothing of it is emitted — without the premise known_stale_lang = false the statement is false *)
Theorem C09_stale_lang_refuted :
  exists p_hashed p_ledger,
    calc_preimage_gen true stale_lang_builder stale_lang_cm = Ok (Some p_hashed) /\
    (let fs := ws_fields (get_witness_set stale_lang_builder) in
     p_ledger = ledger_preimage (assoc_field 5 fs) (assoc_field 4 fs) (spec_views (langs_used stale_lang_builder) stale_lang_cm)) /\
    p_hashed <> p_ledger /\
    known_stale_lang_gen true stale_lang_builder = true /\
    calc_preimage_gen false stale_lang_builder stale_lang_cm = Ok (Some p_ledger).
Proof.
  eexists _, _. split; [reflexivity|]. split; [reflexivity|]. split; [vm_compute; discriminate|]. split; reflexivity.
Qed.
Print Assumptions C09_stale_lang_refuted.

(* C09-noop-calc-keeps-hash (repaired).  calc_script_data_hash stored a hash and never cleared one: when every Plutus
   witness present at an earlier calc had been replaced away (the outpoint added again as a key input, a sub-builder
   replaced), the last calc found nothing to hash and left the earlier hash; build_tx emitted it although the witness set
   has no redeemers and no datums.  The histories consist of add_* / set_* calls only and the hash IS computed after the
   last one: a violation.  Since the repair a hash that calc itself stored is removed by such a calc (a hash given with
   set_script_data_hash stays): the third alternative of the premise of C09_same_bytes / C09_same_bytes_history. *)
Theorem C09_noop_calc_refuted : forall H : bytes -> bytes,
  (exists t p,
    noop_shape (noop_state H) = true /\
    calc_script_data_hash_gen H false (noop_state H) stale_lang_cm = Ok (noop_state H) /\
    build_tx H (noop_state H) = Ok t /\
    tx_script_data_hash t = Some (H p) /\
    (let fs := ws_fields (tx_witness_set t) in
     assoc_field 5 fs = None /\ assoc_field 4 fs = None /\
     ledger_script_integrity H (assoc_field 5 fs) (assoc_field 4 fs) (langs_used (noop_state H)) stale_lang_cm = None)) /\
  (exists b', calc_script_data_hash_gen H true (noop_state H) stale_lang_cm = Ok b' /\ b_script_data_hash b' = None /\ build_tx H b' = Err) /\
  (exists b' t, noop_shape (noop_mint_state H) = true /\
     calc_script_data_hash_gen H true (noop_mint_state H) stale_lang_cm = Ok b' /\ build_tx H b' = Ok t /\ tx_script_data_hash t = None) /\
  additive H builder_new noop_calc_ops = false.
Proof.
  intros H. split; [eexists _, _; repeat split; reflexivity|].
  split; [eexists; repeat split; reflexivity|].
  split; [eexists _, _; repeat split; reflexivity|reflexivity].
Qed.
Print Assumptions C09_noop_calc_refuted.

(* calc_script_data_hash on a builder without script items: as found nothing changes (whoever stored the hash);
   repaired, a hash that calc itself stored is removed and a hash given by the caller stays *)
Theorem C09_calc_noop_keeps_hash : forall (H : bytes -> bytes) (clears : bool) (b : builder) (cm : costmdls),
  has_script_items b = false -> wf_builder b -> known_stale_lang b = false ->
  calc_script_data_hash_gen H clears b cm = Ok (if clears && b_hash_calculated b then set_hash_flag b None false else b).
Proof.
  intros H clears b cm Hno Hwf Hs. rewrite (calc_hash_closed H clears b cm Hwf Hs), Hno, (no_items_no_langs b Hno). reflexivity.
Qed.
Print Assumptions C09_calc_noop_keeps_hash.

(* well-formedness is an invariant of every history *)
Theorem C09_wf_invariant : forall (H : bytes -> bytes) (ops : list op), wf_builder (fst (run H builder_new ops)).
Proof. intros H ops. apply wf_run, wf_new. Qed.
Print Assumptions C09_wf_invariant.

(* slicing the serialised witness set with the generic CBOR delimiter (what the judge of the correspondence run does)
   returns the structured fields, provided every emitted field is one well-formed CBOR item *)
Theorem C09_slices_sound : forall w : witness_set,
  Forall (fun kv => item_wf (snd kv) = true) (ws_fields w) ->
  exists sl, map_slices (ws_bytes w) = Ok sl /\
             field_slice 5 sl = assoc_field 5 (ws_fields w) /\
             field_slice 4 sl = assoc_field 4 (ws_fields w).
Proof.
  intros w Hw. destruct (ws_fields_ok w Hw) as [Hf Hl].
  eexists. split; [apply (map_slices_fields _ Hf Hl)|]. split; apply field_slice_assoc, Hf.
Qed.
Print Assumptions C09_slices_sound.

(* C09_same_bytes_history over the BYTES of the emitted witness set *)
Theorem C09_same_bytes_history_bytes : forall (H : bytes -> bytes) (ops : list op) (cm : costmdls) (before : list op) (t : tx),
  last_calc_rev (rev ops) = Some (cm, before) ->
  let b0 := fst (run H builder_new (rev before)) in
  let b := fst (run H builder_new ops) in
  is_ok (calc_script_data_hash H b0 cm) = true ->
  has_script_items b0 || is_none (b_script_data_hash b0) || (calc_clears_own_hash && b_hash_calculated b0) = true ->
  known_stale_lang b0 = false ->
  build_tx H b = Ok t ->
  Forall (fun kv => item_wf (snd kv) = true) (ws_fields (tx_witness_set t)) ->
  exists sl, map_slices (ws_bytes (tx_witness_set t)) = Ok sl /\
    tx_script_data_hash t = ledger_script_integrity H (field_slice 5 sl) (field_slice 4 sl) (langs_used b) cm.
Proof.
  intros H ops cm before t Hl b0 b Hok Hprior Hstale Hbuild Hwf.
  destruct (C09_slices_sound _ Hwf) as [sl [Hs [E5 E4]]]. exists sl. split; [exact Hs|].
  rewrite E5, E4. exact (C09_same_bytes_history H ops cm before t Hl Hok Hprior Hstale Hbuild).
Qed.
Print Assumptions C09_same_bytes_history_bytes.

(* the serialised transaction [body, witness_set, true, aux/null] with ANY other body fields: slicing it (what the judge
   does with the implementation's bytes) yields the model's two hashes, the structured witness-set fields 5 and 4 and
   the auxiliary-data bytes; premises only about the opaque leaves (well-formed items, 32-byte hashes) *)
Theorem C09_tx_view_sound : forall (other : list (N * bytes)) (t : tx),
  other_ok other -> len (body_fields other t) < two64 ->
  hash_ok (tx_script_data_hash t) -> hash_ok (tx_aux_data_hash t) ->
  Forall (fun kv => item_wf (snd kv) = true) (ws_fields (tx_witness_set t)) ->
  (match tx_aux t with Some a => item_wf (enc_aux a) = true | None => True end) ->
  view_tx (tx_bytes other t) =
  Ok (mk_tx_view (tx_script_data_hash t) (tx_aux_data_hash t)
                 (assoc_field 5 (ws_fields (tx_witness_set t))) (assoc_field 4 (ws_fields (tx_witness_set t)))
                 (match tx_aux t with Some a => Some (enc_aux a) | None => None end)).
Proof.
  intros other t Hother Hlen Hs Ha Hws Haux.
  assert (Hbf : Forall field_ok (body_fields other t)).
  { rewrite body_fields_table. apply Forall_app. split.
    - eapply Forall_impl; [|exact Hother]. intros kv [Hk [_ [_ Hw]]]. split; [exact Hk|apply item_wf_delim, Hw].
    - apply present_ok. repeat constructor; intros v; apply hash_entry_delim; assumption. }
  destruct (ws_fields_ok _ Hws) as [Hwf Hwl].
  (* the four elements of the array are delimited, so array_slices returns them *)
  unfold view_tx, tx_bytes. set (aux := match tx_aux t return list N with Some a => enc_aux a | None => [246] end).
  assert (Hparts : Forall delim [enc_fields (body_fields other t); ws_bytes (tx_witness_set t); [245]; aux]).
  { repeat constructor; [apply (delim_enc_fields _ Hbf Hlen)|apply (delim_enc_fields _ Hwf Hwl)|apply delim_true|].
    subst aux. destruct (tx_aux t); [apply item_wf_delim, Haux|apply delim_null]. }
  rewrite (array_slices_delims 4 _ _ Hparts eq_refl eq_refl) by (cbn [concat]; rewrite app_nil_r; reflexivity).
  cbn [bind]. unfold ws_bytes.
  (* body and witness set are sliced into their fields *)
  rewrite (map_slices_fields _ Hbf Hlen), (map_slices_fields _ Hwf Hwl). cbn [bind].
  rewrite !(field_slice_assoc _ _ Hbf), !(field_slice_assoc _ _ Hwf), body_fields_table.
  rewrite !(assoc_other _ _ _ Hother), !assoc_present by auto.
  cbv [first_present hash_fields N.eqb Pos.eqb]. rewrite (opt_hash_field _ Hs), (opt_hash_field _ Ha). cbn [bind].
  subst aux. destruct (tx_aux t) as [a|]; [rewrite aux_not_null|]; reflexivity.
Qed.
Print Assumptions C09_tx_view_sound.

(* the judge of the correspondence run accepts the bytes of the model's own transaction on every history with a fresh
   hash: it is the conjunction of C09_same_bytes_history and C09_aux read off the emitted bytes *)
Theorem C09_judge_accepts_model : forall (H : bytes -> bytes) (ops : list op) (cm : costmdls) (before : list op)
    (other : list (N * bytes)) (t : tx),
  build_tx H (fst (run H builder_new ops)) = Ok t ->
  last_calc_rev (rev ops) = Some (cm, before) ->
  is_ok (calc_script_data_hash H (fst (run H builder_new (rev before))) cm) = true ->
  has_script_items (fst (run H builder_new (rev before))) || is_none (b_script_data_hash (fst (run H builder_new (rev before))))
    || (calc_clears_own_hash && b_hash_calculated (fst (run H builder_new (rev before)))) = true ->
  known_stale_lang (fst (run H builder_new (rev before))) = false ->
  other_ok other -> len (body_fields other t) < two64 ->
  hash_ok (tx_script_data_hash t) -> hash_ok (tx_aux_data_hash t) ->
  Forall (fun kv => item_wf (snd kv) = true) (ws_fields (tx_witness_set t)) ->
  (match tx_aux t with Some a => item_wf (enc_aux a) = true | None => True end) ->
  judge_builder H ops (tx_bytes other t) = Holds.
Proof.
  intros H ops cm before other t Hb Hl Hok Hprior Hstale Ho Hlen Hs Ha Hws Haux.
  unfold judge_builder. rewrite (C09_tx_view_sound other t Ho Hlen Hs Ha Hws Haux).
  cbn [v_aux_hash v_aux v_script_data_hash v_redeemers v_datums].
  rewrite (aux_hash H _ _ Hb), opt_bytes_eqb_refl, Hl, Hok. cbn [negb andb].
  rewrite (C09_same_bytes_history H ops cm before t Hl Hok Hprior Hstale Hb), opt_bytes_eqb_refl.
  apply orb_true_iff in Hprior as [->|Hp]; [reflexivity|].
  apply andb_true_iff in Hp as [_ ->]. rewrite orb_true_r. reflexivity.
Qed.
Print Assumptions C09_judge_accepts_model.

(* the languages in use COMPUTED from the sub-builders' entries (joint with the C10 model Pointers/Pointers.v):
   what calc_script_data_hash reads from the entries of the seven sub-builders (get_used_plutus_lang_versions, with the
   `if let Some(..)` guard of the two input builders) is the language set of the derived C09 state with the stale
   registrations counted, for every C10 builder state with duplicate-free withdrawal keys (every reachable one) *)
Theorem C09_entries_langs_model : forall (pay : N -> payload) (t : P.txb) (ncol : N) (extra : option (list pdata))
    (h : option bytes) (a : option aux_data) (l : lang),
  NoDup (map fst (P.t_wdrl t)) ->
  mem_lang l (entries_langs pay t) = mem_lang l (used_langs_gen true (builder_of pay t ncol extra h a)).
Proof.
  intros pay t ncol extra h a l ND. unfold entries_langs, used_langs_gen, builder_of. cbn [b_in b_col b_mi b_ce b_wd b_vo b_pr].
  rewrite !mem_filter_all. cbn [existsb]. rewrite !guard_langs.
  repeat apply (f_equal2 orb); try reflexivity.
  - apply (sub_langs_entries pay l _ _ _ (langs_of_witnesses_mint pay _)). intros x. rewrite mint_rids. reflexivity.
  - apply (sub_langs_entries pay l _ _ _ (langs_of_witnesses pay _)). intros x. unfold P.cert_plutus. rewrite wentries_rids. reflexivity.
  - apply (sub_langs_entries pay l _ _ _ (langs_of_witnesses pay _)), wd_rids_In, ND.
  - apply (sub_langs_entries pay l _ _ _ (langs_of_witnesses pay _)). intros x. rewrite vote_rids. reflexivity.
  - apply (sub_langs_entries pay l _ _ _ (langs_of_witnesses pay _)). intros x. unfold P.prop_plutus. rewrite wentries_rids. reflexivity.
Qed.
Print Assumptions C09_entries_langs_model.

(* C09_same_bytes with the languages computed from the entries, not given *)
Theorem C09_same_bytes_entries : forall (H : bytes -> bytes) (pay : N -> payload) (t : P.txb) (ncol : N)
    (extra : option (list pdata)) (h : option bytes) (a : option aux_data) (cm : costmdls) (b1 : builder) (tx : ScriptData.tx),
  let b0 := builder_of pay t ncol extra h a in
  wf_builder b0 -> NoDup (map fst (P.t_wdrl t)) ->
  known_stale_lang_gen true b0 = false ->
  calc_script_data_hash H b0 cm = Ok b1 ->
  (has_script_items b0 = true \/ h = None) ->
  build_tx H b1 = Ok tx ->
  let fs := ws_fields (tx_witness_set tx) in
  tx_script_data_hash tx = ledger_script_integrity H (assoc_field 5 fs) (assoc_field 4 fs) (entries_langs pay t) cm.
Proof.
  intros H pay t ncol extra h a cm b1 tx b0 Hwf ND Hk Hcalc Hprior Hbuild fs.
  assert (Hv : script_view b1 = script_view b0) by apply (calc_result_view H calc_clears_own_hash _ _ _ Hcalc).
  assert (Hprior' : has_script_items b0 = true \/ b_script_data_hash b0 = None \/ (calc_clears_own_hash = true /\ b_hash_calculated b0 = true)).
  { destruct Hprior as [Hp|Hp]; [left; exact Hp|right; left; exact Hp]. }
  assert (Hks : known_stale_lang b0 = false).
  { unfold known_stale_lang. destruct stale_langs_counted; [exact Hk|reflexivity]. }
  rewrite (C09_same_bytes H b0 cm b1 b1 tx Hwf Hks Hcalc Hprior' Hv eq_refl Hbuild).
  destruct (script_view_eq _ _ Hv) as [_ ->].
  apply ledger_script_integrity_ext. intros l. symmetry. rewrite (C09_entries_langs_model pay t ncol extra h a l ND).
  apply (used_langs_mem true), Hk.
Qed.
Print Assumptions C09_same_bytes_entries.

Definition ex_datum_a : pdata := mk_pdata 1 [24; 42].
Definition ex_datum_b : pdata := mk_pdata 2 [159; 1; 2; 255].
Definition ex_script1 : script := mk_script V1 [1; 2; 3].
Definition ex_script2 : script := mk_script V2 [4; 5].
Definition ex_w (s : script_source) (d : datum_source) (tag idx : N) : witness :=
  mk_witness s d (mk_redeemer tag idx (mk_pdata 9 [128]) 1000 2000).
Definition ex_cm : costmdls := mk_costmdls (Some [1; -2; 300]%Z) (Some [0; 70000]%Z) (Some [5]%Z).
(* spends with a duplicated datum, a reference script, a mint, an extra datum; calc after everything, then metadata *)
Definition ex_ops : list op :=
  [ OpSetSub SubCollateral (mk_sub [] [] []) 1;
    OpSetSub SubInputs (mk_sub [ex_w (SrcScript ex_script1) (DatumValue ex_datum_a) 0 0;
                                ex_w (SrcScript ex_script1) (DatumValue ex_datum_a) 0 1;
                                ex_w (SrcRef V2) DatumRef 0 2] [V1] [[130; 0; 1]; [130; 0; 1]]) 3;
    OpAddExtraDatum ex_datum_b; OpAddExtraDatum ex_datum_a;
    OpSetSub SubMint (mk_sub [ex_w (SrcScript ex_script2) DatumNone 1 0] [] [[130; 0; 2]]) 0;
    OpCalc ex_cm;
    OpAddMetadatum 674 [97; 104] ].
Definition idH (bs : bytes) : bytes := bs.
Example C09_history_premises_satisfiable :
  exists before t,
    last_calc_rev (rev ex_ops) = Some (ex_cm, before) /\
    is_ok (calc_script_data_hash idH (fst (run idH builder_new (rev before))) ex_cm) = true /\
    has_script_items (fst (run idH builder_new (rev before))) = true /\
    known_stale_lang (fst (run idH builder_new (rev before))) = false /\      (* a stale PlutusV1 witness, but V1 is in use anyway *)
    build_tx idH (fst (run idH builder_new ex_ops)) = Ok t /\
    (* V2 (used by the reference script and the mint) and V1, not V3; the duplicated datum once, extra datum kept *)
    tx_script_data_hash t <> None /\ is_some (tx_aux_data_hash t) = true /\
    assoc_field 4 (ws_fields (tx_witness_set t)) = Some [217; 1; 2; 159; 24; 42; 159; 1; 2; 255; 255] /\
    (* the two equal native scripts of the inputs once, then the mint's *)
    assoc_field 1 (ws_fields (tx_witness_set t)) = Some [217; 1; 2; 130; 130; 0; 1; 130; 0; 2].
Proof.
  (* the transaction is given in normal form, so that the later conjuncts are about a literal *)
  exists (rev (firstn 5 ex_ops)). eexists.
  do 4 (split; [reflexivity|]).
  split; [vm_compute; reflexivity|].
  split; [discriminate|]. repeat split; reflexivity.
Qed.
Example C09_helper_premises_satisfiable :
  helper_out_of_scope one_redeemer (Some (mk_plist [ex_datum_a; ex_datum_b] (Some true))) = false /\
  (* datums without redeemers are inside the statement, whatever container form and table *)
  helper_out_of_scope (mk_redeemers [] (Some CArray)) (Some (mk_plist [ex_datum_a] None)) = false /\
  known_dup_definite (Some (mk_plist [ex_datum_a; ex_datum_b] (Some true))) = false /\
  known_empty_datums (Some (mk_plist [ex_datum_a; ex_datum_b] (Some true))) = false /\
  (* the classes are narrow: duplicates in an indefinite-length list and a definite list without duplicates are inside the theorem *)
  known_dup_definite (Some (mk_plist [ex_datum_a; ex_datum_a] None)) = false /\
  known_dup_definite (Some (mk_plist [ex_datum_a; ex_datum_a] (Some false))) = false.
Proof. repeat split; reflexivity. Qed.
(* encodings written out as literals: language views of {V1,V2,V3} and the three keys *)
Check (eq_refl : language_views_encoding ex_cm =
  [163; 1; 130; 0; 26; 0; 1; 17; 112; 2; 129; 5; 65; 0; 71; 159; 1; 33; 25; 1; 44; 255]).
Check (eq_refl : map enc_view_key canonical_langs = [[1]; [2]; [65; 0]]).
Check (eq_refl : enc_int (-18446744073709551616)%Z = [59; 255; 255; 255; 255; 255; 255; 255; 255]).
(* the well-formedness premise of the byte-level statements holds for the example transaction *)
Example C09_bytes_premise_satisfiable :
  match build_tx idH (fst (run idH builder_new ex_ops)) with
  | Ok t => forallb (fun kv => item_wf (snd kv)) (ws_fields (tx_witness_set t)) = true
  | _ => False
  end.
Proof. vm_compute. reflexivity. Qed.
Example C09_additive_premise_satisfiable :
  additive idH builder_new
    [ OpSetSub SubCollateral (mk_sub [] [] []) 1;
      OpSetSub SubInputs (mk_sub [ex_w (SrcScript ex_script1) (DatumValue ex_datum_a) 0 0; ex_w (SrcRef V2) DatumRef 0 1] [] []) 2;
      OpAddExtraDatum ex_datum_b; OpCalc ex_cm; OpAddMetadatum 674 [97; 104] ] = true.
Proof. reflexivity. Qed.
Example C09_wire_premises_satisfiable :
  let w := WAlonzo (Some [(1, [24; 42])]) (Some [128]) (Some []) (Some [[1; 2]]) None in
  wire_canonical w = true /\ is_ok (decode_wire w) = true /\
  wire_canonical (WAlonzo None None None (Some [[1]]) None) = false.
Proof. repeat split; reflexivity. Qed.
(* the judge on the bytes of the example transaction (a 32-byte stand-in for the hash, two other body fields) *)
Definition h32 (bs : bytes) : bytes := firstn 32 (map (fun b => b mod 256) bs ++ repeat 0 32).
Example C09_judge_example :
  match build_tx h32 (fst (run h32 builder_new ex_ops)) with
  | Ok t => judge_builder h32 ex_ops (tx_bytes [(0, [128]); (2, [26; 0; 1; 2; 3])] t) = Holds
  | _ => False
  end.
Proof. vm_compute. reflexivity. Qed.
(* a C10 history: a V2 reference-script spend, a V1 spend re-added as a key input (stale), a Plutus mint; the entries'
   language set holds V1 (stale) although only V2 and V3 witnesses are returned *)
Definition ex_pay (rid : N) : payload :=
  mk_payload (match rid with 1 => SrcRef V2 | 2 => SrcRef V1 | _ => SrcScript (mk_script V3 [7]) end) DatumNone (mk_pdata rid [rid]) 10 20.
Definition ex_txb : P.txb :=
  fst (P.run [P.OpIn (P.InPlutus [1] ([0], 0) 1); P.OpIn (P.InPlutus [2] ([0], 1) 2); P.OpIn (P.InKey ([0], 1));
              P.OpMint (P.mkMintOp [9] (P.MPlutus false 3) 0 1%Z false)]).
Example C09_entries_example :
  map (fun l => mem_lang l (entries_langs ex_pay ex_txb)) [V1; V2; V3] = [true; true; true] /\
  map (fun l => mem_lang l (langs_used (builder_of ex_pay ex_txb 1 None None None))) [V1; V2; V3] = [false; true; true] /\
  known_stale_lang_gen true (builder_of ex_pay ex_txb 1 None None None) = true /\
  NoDup (map fst (P.t_wdrl ex_txb)).
Proof. repeat split; try reflexivity. constructor. Qed.
(* the class shape is narrow: a hash installed by hand, or a final calc that had something to hash, is not in it *)
Example C09_noop_class_narrow :
  known_noop_calc idH [OpSetHash [1]; OpCalc cm_empty] = false /\
  known_noop_calc idH (noop_calc_ops ++ [OpAddExtraDatum ex_datum_a; OpCalc stale_lang_cm]) = false /\
  known_noop_calc idH ex_ops = false /\
  known_noop_calc idH noop_calc_ops = true /\
  (* a hash given by the caller stays through a calc with nothing to hash, whatever the switch *)
  b_script_data_hash (fst (run idH builder_new [OpSetHash [1]; OpCalc cm_empty])) = Some [1].
Proof. repeat split; reflexivity. Qed.

