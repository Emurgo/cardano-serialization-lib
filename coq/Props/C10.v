(* C10 -- Redeemer pointers identify the item they were attached to.
   Each theorem is put together here from the lemmas of Pointers/PointersProofs.v: a sub-builder's state
   represents the map its calls ask for, and its redeemers point at their items; the builder state after a
   run is made of the sub-builders' states, the transaction of their bodies and redeemers.
   Model: Pointers/Pointers.v (TxInputsBuilder, MintBuilder, CertificatesBuilder, WithdrawalsBuilder,
   VotingBuilder, VotingProposalBuilder, the witness collection and build_tx pre-conditions of
   TransactionBuilder).  Spec: Pointers/PointersSpec.v (the ledger's pointer rules and orders, the
   attachments a call sequence asks for, C10_statement).
   Quantifiers: ALL call sequences `ops` -- any items, any insertion order, repeated calls for the same
   item, calls the API rejects -- no bound on lengths, hashes or indices.  `run ops = (st, flags)` and
   `tx_build st = Ok b` only name the builder state and the transaction the model builds from it. *)
From CSL Require Import Base.Prelude Base.BytesOrd Pointers.Pointers Pointers.PointersSpec Pointers.MapsProofs Pointers.PointersProofs.
From Coq Require Import Permutation.
Local Open Scope N_scope.

(* spend: the body lists exactly the inputs that were added; the spend redeemers are exactly one per
   input whose last registration carries a Plutus witness, at the input's index in the sorted input set;
   outside the known class (Plutus-witnessed collateral) *)
Theorem C10_spend : forall (ops : list op) (st : txb) (flags : list bool) (b : built),
  run ops = (st, flags) -> tx_build st = Ok b ->
  known_collateral_plutus ops = false ->
  let sf := spend_wits (spend_final (ops_in ops)) in
  spec_field sf (b_inputs b) /\
  spec_pointers TSpend sf (fun k => ledger_set_index outpoint_ledger_ltb k (b_inputs b)) (b_redeemers b) /\
  spec_locked sf (spend_locked sf).
Proof.
  intros ops st flags b Hr Hb K1. pose proof (no_collateral_redeemers Hr K1) as Ec.
  destruct (run_components Hr) as (amt & hash & ->). rewrite (build_fields Hb).
  destruct (spend_pointers (ops_in ops)) as [F P]. split; [exact F|]. split; [|apply spend_locked_ok].
  apply built_pointers. cbn [tag_redeemers t_inputs t_collateral] in *. rewrite Ec, app_nil_r. exact P.
Qed.
Print Assumptions C10_spend.

(* mint: one redeemer per Plutus policy, at the policy's index among ALL policies sorted bytewise *)
Theorem C10_mint : forall (ops : list op) (st : txb) (flags : list bool) (b : built),
  run ops = (st, flags) -> tx_build st = Ok b ->
  let mf := mint_wits (mint_final (ops_mint ops)) in
  spec_field mf (b_policies b) /\
  spec_pointers TMint mf (fun k => ledger_set_index policy_ledger_ltb k (b_policies b)) (b_redeemers b).
Proof.
  intros ops st flags b Hr Hb. destruct (run_components Hr) as (amt & hash & ->). rewrite (build_fields Hb).
  destruct (mint_pointers (ops_mint ops)) as [F P]. split; [exact F|]. apply built_pointers, P.
Qed.
Print Assumptions C10_mint.

(* cert: one redeemer per Plutus-witnessed certificate, at its position in the certificate sequence *)
Theorem C10_cert : forall (ops : list op) (st : txb) (flags : list bool) (b : built),
  run ops = (st, flags) -> tx_build st = Ok b ->
  let cf := cert_final (ops_cert ops) in
  spec_field cf (b_certs b) /\
  spec_pointers TCert cf (fun k => ledger_seq_index cert_ltb k (b_certs b)) (b_redeemers b) /\
  spec_locked cf ledger_cert_script_locked.
Proof.
  intros ops st flags b Hr Hb. destruct (run_components Hr) as (amt & hash & ->). rewrite (build_fields Hb).
  destruct (cert_pointers (ops_cert ops)) as [F P]. split; [exact F|]. split; [apply built_pointers, P | apply cert_locked].
Qed.
Print Assumptions C10_cert.

(* reward: one redeemer per Plutus-witnessed withdrawal, at the account's index in the ledger's
   reward-account order (network, script before key, hash) -- for every insertion order *)
Theorem C10_reward : forall (ops : list op) (st : txb) (flags : list bool) (b : built),
  run ops = (st, flags) -> tx_build st = Ok b ->
  let wf := wd_final (ops_wd ops) in
  spec_field wf (b_withdrawals b) /\
  spec_pointers TReward wf (fun k => ledger_set_index racct_ledger_ltb k (b_withdrawals b)) (b_redeemers b) /\
  spec_locked wf (fun a => cr_script (ra_cred a)).
Proof.
  intros ops st flags b Hr Hb. destruct (run_components Hr) as (amt & hash & ->). rewrite (build_fields Hb).
  destruct (wd_pointers (ops_wd ops)) as [F P]. split; [exact F|]. split; [apply built_pointers, P | apply wd_locked].
Qed.
Print Assumptions C10_reward.

(* vote: one redeemer per Plutus-witnessed voter, at the voter's index in the ledger's voter order *)
Theorem C10_vote : forall (ops : list op) (st : txb) (flags : list bool) (b : built),
  run ops = (st, flags) -> tx_build st = Ok b ->
  let vf := vote_final (ops_vote ops) in
  spec_field vf (b_voters b) /\
  spec_pointers TVote vf (fun k => ledger_set_index voter_ledger_ltb k (b_voters b)) (b_redeemers b) /\
  spec_locked vf voter_has_script.
Proof.
  intros ops st flags b Hr Hb. destruct (run_components Hr) as (amt & hash & ->). rewrite (build_fields Hb).
  destruct (vote_pointers (ops_vote ops)) as [F P]. split; [exact F|]. split; [apply built_pointers, P | apply vote_locked].
Qed.
Print Assumptions C10_vote.

(* propose: one redeemer per Plutus-witnessed proposal, at its position in the proposal sequence;
   only proposals with a policy hash carry one -- outside the known class *)
Theorem C10_propose : forall (ops : list op) (st : txb) (flags : list bool) (b : built),
  run ops = (st, flags) -> tx_build st = Ok b ->
  let pf := prop_final (ops_prop ops) in
  spec_field pf (b_proposals b) /\
  spec_pointers TPropose pf (fun k => ledger_seq_index prop_rust_ltb k (b_proposals b)) (b_redeemers b) /\
  (known_prop_nonscript ops = false -> spec_locked pf prop_has_script_hash).
Proof.
  intros ops st flags b Hr Hb. destruct (run_components Hr) as (amt & hash & ->). rewrite (build_fields Hb).
  destruct (prop_pointers (ops_prop ops)) as [F P]. split; [exact F|]. split; [apply built_pointers, P | apply prop_locked].
Qed.
Print Assumptions C10_propose.

(* no two redeemers of a built transaction share (tag, index) *)
Theorem C10_unique : forall (ops : list op) (st : txb) (flags : list bool) (b : built),
  run ops = (st, flags) -> tx_build st = Ok b ->
  known_collateral_plutus ops = false ->
  forall r1 r2, In r1 (b_redeemers b) -> In r2 (b_redeemers b) ->
    r_tag r1 = r_tag r2 -> r_index r1 = r_index r2 -> r1 = r2.
Proof.
  (* the two redeemers have the same tag; within a tag, an index designates one item *)
  intros ops st flags b Hr Hb K1 r1 r2 H1 H2 Et Ei. symmetry in Et. destruct (r_tag r1) eqn:T1.
  - apply (pointers_unique outpoint_st TSpend (proj1 (proj2 (C10_spend _ _ _ _ Hr Hb K1)))); assumption.
  - apply (pointers_unique bytes_strict_total TMint (proj2 (C10_mint _ _ _ _ Hr Hb))); assumption.
  - apply (pointers_unique cert_st TCert (proj1 (proj2 (C10_cert _ _ _ _ Hr Hb)))); assumption.
  - apply (pointers_unique racct_ledger_st TReward (proj1 (proj2 (C10_reward _ _ _ _ Hr Hb)))); assumption.
  - apply (pointers_unique voter_ledger_st TVote (proj1 (proj2 (C10_vote _ _ _ _ Hr Hb)))); assumption.
  - apply (pointers_unique prop_st TPropose (proj1 (proj2 (C10_propose _ _ _ _ Hr Hb)))); assumption.
Qed.
Print Assumptions C10_unique.

(* only script-locked items carry a redeemer (the ledger's notion of script-locked, PointersSpec.v) *)
Theorem C10_only_script_items : forall (ops : list op),
  spec_locked (cert_final (ops_cert ops)) ledger_cert_script_locked /\
  spec_locked (wd_final (ops_wd ops)) (fun a => cr_script (ra_cred a)) /\
  spec_locked (vote_final (ops_vote ops)) voter_has_script /\
  (forall st flags, run ops = (st, flags) -> known_prop_nonscript ops = false ->
     spec_locked (prop_final (ops_prop ops)) prop_has_script_hash).
Proof.
  intros ops. split; [apply cert_locked|]. split; [apply wd_locked|]. split; [apply vote_locked|].
  intros st flags _. apply prop_locked.
Qed.
Print Assumptions C10_only_script_items.

(* the full statement of the property for a built transaction *)
Theorem C10_full : forall (ops : list op) (st : txb) (flags : list bool) (b : built),
  run ops = (st, flags) -> tx_build st = Ok b ->
  known_collateral_plutus ops = false -> known_prop_nonscript ops = false ->
  C10_statement ops b.
Proof.
  intros ops st flags b Hr Hb K1 K2. destruct (C10_propose _ _ _ _ Hr Hb) as (F1 & F2 & F3).
  exact (conj (C10_spend _ _ _ _ Hr Hb K1) (conj (C10_mint _ _ _ _ Hr Hb) (conj (C10_cert _ _ _ _ Hr Hb)
        (conj (C10_reward _ _ _ _ Hr Hb) (conj (C10_vote _ _ _ _ Hr Hb)
        (conj (conj F1 (conj F2 (F3 K2))) (C10_unique _ _ _ _ Hr Hb K1))))))).
Qed.
Print Assumptions C10_full.

(* whatever the order of the calls: for pairwise distinct items every permutation of the calls yields the
   same redeemers (tag, index, data) for spend, mint, reward, vote and propose; a certificate redeemer
   follows its certificate's position in the sequence (C10_cert) *)
Theorem C10_order_irrelevant : forall (ops ops' : list op) (st : txb) (flags : list bool) (b : built)
                                      (st' : txb) (flags' : list bool) (b' : built),
  Permutation ops ops' -> distinct_items ops ->
  run ops = (st, flags) -> tx_build st = Ok b -> run ops' = (st', flags') -> tx_build st' = Ok b' ->
  known_collateral_plutus ops = false -> known_collateral_plutus ops' = false ->
  forall r, r_tag r <> TCert -> (In r (b_redeemers b) <-> In r (b_redeemers b')).
Proof.
  (* the same items asked for (final_perm) give the same sorted set, hence the same indices and redeemers *)
  intros ops ops' st flags b st' flags' b' P (Di & Dm & _ & Dw & Dv & Dp) Hr Hb Hr' Hb' K1 K1' r Hnc.
  destruct (r_tag r) eqn:Ht; [| | congruence | | |].
  - destruct (C10_spend _ _ _ _ Hr Hb K1) as (F1 & P1 & _). destruct (C10_spend _ _ _ _ Hr' Hb' K1') as (F2 & P2 & _).
    apply (set_pointers_same outpoint_st TSpend F1 P1 F2 P2); [|exact Ht].
    intros k. unfold spend_wits. f_equal. apply (final_perm (final_last_ok outpoint_st) _ _ Di), Permutation_flat_map, P.
  - destruct (C10_mint _ _ _ _ Hr Hb) as (F1 & P1). destruct (C10_mint _ _ _ _ Hr' Hb') as (F2 & P2).
    apply (set_pointers_same bytes_strict_total TMint F1 P1 F2 P2); [|exact Ht].
    intros k. unfold mint_wits. f_equal. apply (final_perm (final_first_ok bytes_strict_total) _ _ Dm), Permutation_flat_map, P.
  - destruct (C10_reward _ _ _ _ Hr Hb) as (F1 & P1 & _). destruct (C10_reward _ _ _ _ Hr' Hb') as (F2 & P2 & _).
    apply (set_pointers_same racct_ledger_st TReward F1 P1 F2 P2); [|exact Ht].
    apply (final_perm (final_last_ok racct_ledger_st) _ _ Dw), Permutation_flat_map, P.
  - destruct (C10_vote _ _ _ _ Hr Hb) as (F1 & P1 & _). destruct (C10_vote _ _ _ _ Hr' Hb') as (F2 & P2 & _).
    apply (set_pointers_same voter_ledger_st TVote F1 P1 F2 P2); [|exact Ht].
    apply (final_perm (final_first_ok voter_ledger_st) _ _ Dv), Permutation_flat_map, P.
  - destruct (C10_propose _ _ _ _ Hr Hb) as (F1 & P1 & _). destruct (C10_propose _ _ _ _ Hr' Hb') as (F2 & P2 & _).
    apply (sorted_seq_pointers prop_st (built_proposals_sorted Hr Hb)) in P1.
    apply (sorted_seq_pointers prop_st (built_proposals_sorted Hr' Hb')) in P2.
    apply (set_pointers_same prop_st TPropose F1 P1 F2 P2); [|exact Ht].
    apply (final_perm (final_last_ok prop_st) _ _ Dp), Permutation_flat_map, P.
Qed.
Print Assumptions C10_order_irrelevant.

(* the orders the code sorts / ranks by are the ledger's orders, and has_required_script_witness is the ledger's table *)
Theorem C10_code_orders_are_ledger_orders :
  (forall a b : racct, racct_code_ltb a b = racct_ledger_ltb a b) /\
  (forall a b : voter, voter_code_ltb a b = voter_ledger_ltb a b) /\
  (forall a b : outpoint, outpoint_ltb a b = outpoint_ledger_ltb a b) /\
  (forall c : cert, cert_has_required_script_witness c = ledger_cert_script_locked c).
Proof.
  split; [intros; rewrite racct_code_ledger; reflexivity|]. split; [exact voter_code_ledger|].
  split; [intros; rewrite outpoint_code_ledger; reflexivity | exact cert_locked_code_ledger].
Qed.
Print Assumptions C10_code_orders_are_ledger_orders.

(* the three *_utxo entry points of TxInputsBuilder register an input exactly when the UTxO's address is locked the way the entry
   point says (script witness <-> script payment credential; regular <-> key credential or Byron), for all 9 address kinds; a
   refused call registers nothing (ops_in / ops_col count it as no call), so no redeemer can point at such an input *)
Theorem C10_utxo_entry_points : forall (e : utxo_entry) (a : addr_kind) (h : bytes) (o : outpoint) (rid : N),
  utxo_effect e a h o rid = ledger_utxo_effect e a h o rid.
Proof. intros e a h o rid. destruct e, a; reflexivity. Qed.
Print Assumptions C10_utxo_entry_points.

(* the executable judge of the correspondence run is sound: "holds" on (calls, built transaction)
   implies the statement for that transaction; a known-finding verdict only arises inside its class *)
Theorem C10_judge_sound : forall (ops : list op) (b : built), judge ops b = Holds -> C10_statement ops b.
Proof. exact judge_sound. Qed.
Print Assumptions C10_judge_sound.

Theorem C10_judge_known_narrow : forall (ops : list op) (b : built) (c : N), judge ops b = FailsKnown c ->
  (c = 1 /\ known_collateral_plutus ops = true) \/ (c = 2 /\ known_prop_nonscript ops = true).
Proof. intros ops b c. unfold judge. cbv zeta. apply verdict_of_known. Qed.
Print Assumptions C10_judge_known_narrow.

(* ... and complete: it accepts every transaction the model builds outside the known classes, so a `fails:-` verdict of the
   correspondence run is never an artefact of the judge on behaviour the model (hence the theorems) covers *)
Theorem C10_judge_complete : forall (ops : list op) (st : txb) (flags : list bool) (b : built),
  run ops = (st, flags) -> tx_build st = Ok b ->
  known_collateral_plutus ops = false -> known_prop_nonscript ops = false -> judge ops b = Holds.
Proof.
  intros ops st flags b Hr Hb K1 K2. apply judge_complete; [|apply (C10_full _ _ _ _ Hr Hb K1 K2)].
  rewrite (build_fields Hb). apply dedup_first_NoDup.
Qed.
Print Assumptions C10_judge_complete.

(* the known classes, stated on the call list alone: K1 = the LAST call for some collateral input is
   add_plutus_script_input; K2 = the last accepted call for some proposal without policy hash is add_with_plutus_witness *)
Theorem C10_known_classes_on_calls : forall ops : list op,
  (known_collateral_plutus ops = true <-> exists o h rid, spend_final (ops_col ops) o = Some (Some (h, WPlutus rid))) /\
  (known_prop_nonscript ops = true <->
     exists p rid, prop_final (ops_prop ops) p = Some (Some (WPlutus rid)) /\ prop_has_script_hash p = false).
Proof. intros ops. split; [apply known_collateral_plutus_iff | apply known_prop_nonscript_iff]. Qed.
Print Assumptions C10_known_classes_on_calls.

(* inside the known classes the unrestricted statements are false (witnesses replayed on the real code:
   corpus/C10 w4, w5) *)
Theorem C10_unique_refuted_collateral :
  known_collateral_plutus w_collateral_ops = true /\
  exists st flags b, run w_collateral_ops = (st, flags) /\ tx_build st = Ok b /\ ~ spec_unique (b_redeemers b).
Proof.
  split; [vm_compute; reflexivity|].
  eexists. eexists. eexists. split; [vm_compute; reflexivity|]. split; [vm_compute; reflexivity|].
  intros U. specialize (U (mkR TSpend 0 1) (mkR TSpend 0 2)). cbn in U.
  assert (X : mkR TSpend 0 1 = mkR TSpend 0 2) by (apply U; auto). discriminate.
Qed.
Print Assumptions C10_unique_refuted_collateral.

Theorem C10_only_script_refuted_proposal :
  known_prop_nonscript w_prop_ops = true /\
  exists st flags b, run w_prop_ops = (st, flags) /\ tx_build st = Ok b /\ b_redeemers b = [mkR TPropose 0 7] /\
    ~ spec_locked (prop_final (ops_prop w_prop_ops)) prop_has_script_hash.
Proof.
  split; [vm_compute; reflexivity|].
  eexists. eexists. eexists. split; [vm_compute; reflexivity|]. split; [vm_compute; reflexivity|]. split; [reflexivity|].
  intros L. specialize (L (mkProp 6 None 5) 7).
  assert (X : prop_has_script_hash (mkProp 6 None 5) = true) by (apply L; vm_compute; reflexivity). discriminate.
Qed.
Print Assumptions C10_only_script_refuted_proposal.

(* the three repaired defects (commits 2fef2d7, c263357, ae86092): the behaviour before the repair violates the
   statement (witnesses corpus/C10 w0, w2, w6) *)
Theorem C10_stale_legacy_refuted :
  let st := fold_left ib_step (ops_in w_stale_ops) ib_empty in
  ib_plutus_legacy st = [mkR TSpend 0 1; mkR TSpend 0 2] /\ ~ spec_unique (ib_plutus_legacy st) /\
  ib_plutus st = [mkR TSpend 0 2].
Proof.
  (* before the repair both witnesses of the re-added input were emitted, with the same pointer; now only the current one *)
  cbv zeta. split; [vm_compute; reflexivity|]. split; [|vm_compute; reflexivity].
  intros U. specialize (U (mkR TSpend 0 1) (mkR TSpend 0 2)).
  assert (X : mkR TSpend 0 1 = mkR TSpend 0 2) by (apply U; vm_compute; auto). discriminate.
Qed.
Print Assumptions C10_stale_legacy_refuted.

Theorem C10_reward_legacy_refuted :
  let st := fold_left wd_apply w_reward_ops [] in
  ~ spec_pointers TReward (wd_final w_reward_ops)
      (fun k => ledger_set_index racct_ledger_ltb k (wd_body_legacy st)) (wd_plutus_legacy st).
Proof.
  (* the redeemer (0, 9) is emitted, but index 0 of the sorted accounts is w_a2, whose witness carries 2 *)
  cbv zeta. intros P. destruct (proj1 (P (mkR TReward 0 9) eq_refl)) as (k & rid & F & I & <-); [vm_compute; auto|].
  apply (index_of_nth_inv _ racct_ledger_st) in I. vm_compute in I. injection I as <-. vm_compute in F. discriminate.
Qed.
Print Assumptions C10_reward_legacy_refuted.

Theorem C10_vote_legacy_refuted :
  let st := fold_left vote_apply w_vote_ops [] in
  ~ spec_pointers TVote (vote_final w_vote_ops)
      (fun k => ledger_set_index voter_ledger_ltb k (vote_body st)) (vote_plutus_legacy st).
Proof.
  (* the redeemer (1, 2) is emitted, but index 1 of the sorted voters is the key voter w_vk, which has no witness *)
  cbv zeta. intros P. destruct (proj1 (P (mkR TVote 1 2) eq_refl)) as (k & rid & F & I & <-); [vm_compute; auto|].
  apply (index_of_nth_inv _ voter_ledger_st) in I. vm_compute in I. injection I as <-. vm_compute in F. discriminate.
Qed.
Print Assumptions C10_vote_legacy_refuted.

(* non-vacuity: the premises hold on a transaction that uses every purpose, with items inserted out of ledger order *)
Check c10_premises_satisfiable.
Check c10_distinct_items_satisfiable.
Example C10_permutation_exists : Permutation ex_ops (rev ex_ops) /\ rev ex_ops <> ex_ops.
Proof. split; [apply Permutation_rev | discriminate]. Qed.
(* the spec orders by evaluation: script credentials before key credentials, committee < DRep < pool, network first *)
Check (eq_refl : map (fun p => racct_ledger_ltb (fst p) (snd p))
  [ (mkRacct 0 (mkCred true [9]), mkRacct 0 (mkCred false [1]));   (* script before key, whatever the hash *)
    (mkRacct 0 (mkCred false [1]), mkRacct 0 (mkCred true [9]));
    (mkRacct 0 (mkCred false [9]), mkRacct 1 (mkCred true [1]));   (* network first *)
    (mkRacct 0 (mkCred true [1; 2]), mkRacct 0 (mkCred true [1; 3])) ]
  = [true; false; true; true]).
Check (eq_refl : map (fun p => voter_ledger_ltb (fst p) (snd p))
  [ (VCC (mkCred false [9]), VDRep (mkCred true [1])); (VDRep (mkCred false [9]), VSPO [0]);
    (VDRep (mkCred true [9]), VDRep (mkCred false [1])); (VDRep (mkCred false [1]), VDRep (mkCred true [9])) ]
  = [true; true; true; false]).
(* the certificate table: kinds that take a script witness when the credential is a script hash *)
Check (eq_refl : map (fun k => ledger_cert_script_locked (mkCert k true 0)) [0;1;2;3;4;5;6;7;8;9;10;11;12;13;14;15;16;17;18;19]
  = [false;true;true;false;false;false;false;true;true;true;true;true;true;true;true;true;true;true;true;false]).
