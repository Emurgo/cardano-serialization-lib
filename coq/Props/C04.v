(* C04 - original bytes and the hashes derived from them are preserved: the statements of the property, each
   derived from the structural theorems of Fixed/ (loading, frames of the operations, untouched fields, fuel).
   H (Blake2b-256), sign_vkey / sign_boot (Ed25519 / BIP32 signing behind make_vkey_witness and
   make_{icarus,daedalus}_bootstrap_witness) and fresh (the canonical datum writer of C01) are universally
   quantified: no law about them is used. *)
From CSL Require Import Base.Prelude Cbor.Head Cbor.Item Cbor.ItemProofs
  Fixed.CborEv Fixed.CborEvProofs Fixed.DatumBytes Fixed.DatumBytesProofs Fixed.FixedTx Fixed.FixedTxProofs
  Fixed.FixedBlock Fixed.FixedBlockProofs Fixed.WfPreservation Fixed.JudgeProofs.
Local Open Scope N_scope.

(* the byte-range capture (deserilized_with_orig_bytes) returns exactly the bytes its inner reader consumed *)
Theorem C04_slices : forall (A : Type) (p : parser A), psuffix p ->
  forall bs v raw rest, with_orig p bs = Ok ((v, raw), rest) ->
  bs = raw ++ rest /\ raw <> [] /\ p (raw ++ rest) = Ok (v, rest).
Proof. exact @with_orig_slice. Qed.
Print Assumptions C04_slices.

(* every field of a decoded witness set keeps the exact bytes its reader consumed, located right after its key *)
Theorem C04_witness_field_slices : forall bs w rest, decode_wits bs = Ok (w, rest) ->
  ssfx bs rest /\ w_set_tags w = true /\
  forall k f, lookup k (w_fields w) = Some f ->
    exists raw pre kb post,
      f_raw f = Some raw /\ raw <> [] /\ bs = pre ++ kb ++ raw ++ post /\
      rd_uint (kb ++ raw ++ post) = Ok (k, raw ++ post) /\
      dec_field k (raw ++ post) = Ok (f_parsed f, post).
Proof. exact decode_wits_slices. Qed.
Print Assumptions C04_witness_field_slices.

(* loading: the input is  head | BODY | witness set | [bool] | AUX-or-null | [break] | rest  *)
Theorem C04_load_slices : forall (H : bytes -> bytes) bs tx rest, decode_fixed H bs = Ok (tx, rest) ->
  exists hd Wb V cl ln w,
    bs = hd ++ ft_body tx ++ Wb ++ V ++ enc_aux (ft_aux tx) ++ cl ++ rest /\
    rd_array bs = Ok (ln, ft_body tx ++ Wb ++ V ++ enc_aux (ft_aux tx) ++ cl ++ rest) /\
    item_wf (ft_body tx) = true /\
    ft_hash tx = H (ft_body tx) /\
    decode_wits (Wb ++ V ++ enc_aux (ft_aux tx) ++ cl ++ rest) = Ok (w, V ++ enc_aux (ft_aux tx) ++ cl ++ rest) /\
    w_fields (ft_wits tx) = w_fields w /\
    (forall k f, lookup k (w_fields (ft_wits tx)) = Some f ->
       slice_ok (Wb ++ V ++ enc_aux (ft_aux tx) ++ cl ++ rest) k f) /\
    ((V = [] /\ ft_valid tx = true) \/ V = enc_valid (ft_valid tx)) /\
    match ft_aux tx with Some a => item_wf a = true | None => True end /\
    (cl = [] \/ cl = [255]).
Proof. exact decode_fixed_slices. Qed.
Print Assumptions C04_load_slices.

(* EVERY accepted encoding x EVERY list of add-signature operations: the emitted transaction is
   84 ++ B ++ W' ++ V ++ A with B and A the exact input slices *)
Theorem C04_body_aux_preserved : forall (H : bytes -> bytes) sign_vkey sign_boot bs tx rest ops,
  decode_fixed H bs = Ok (tx, rest) -> sig_ops ops ->
  exists hd Wb V cl,
    bs = hd ++ ft_body tx ++ Wb ++ V ++ enc_aux (ft_aux tx) ++ cl ++ rest /\
    item_wf (ft_body tx) = true /\
    match ft_aux tx with Some a => item_wf a = true | None => True end /\
    ((V = [] /\ ft_valid tx = true) \/ V = enc_valid (ft_valid tx)) /\
    (cl = [] \/ cl = [255]) /\
    ft_body (run_ops H sign_vkey sign_boot ops tx) = ft_body tx /\
    ft_aux (run_ops H sign_vkey sign_boot ops tx) = ft_aux tx /\
    encode_fixed (run_ops H sign_vkey sign_boot ops tx) =
      [132] ++ ft_body tx ++ encode_wits (ft_wits (run_ops H sign_vkey sign_boot ops tx))
            ++ enc_valid (ft_valid tx) ++ enc_aux (ft_aux tx).
Proof.
  intros H sv sb bs tx rest ops E Hs.
  destruct (decode_fixed_slices H _ _ _ E) as (hd & Wb & V & cl & ln & w & E1 & _ & Hb & _ & _ & _ & _ & HV & Ha & Hcl).
  destruct (run_ops_sig_frame H sv sb ops Hs tx) as (A & _ & C & D).
  exists hd, Wb, V, cl. repeat split; try assumption.
  unfold encode_fixed. rewrite A, C, D. reflexivity.
Qed.
Print Assumptions C04_body_aux_preserved.

(* every witness-set field no operation touched is written back byte-identical to its input slice;
   absent fields stay absent (any operations, including the setters, as long as none touches key k) *)
Theorem C04_untouched_fields_verbatim : forall (H : bytes -> bytes) sign_vkey sign_boot bs tx rest ops k,
  decode_fixed H bs = Ok (tx, rest) -> k <= 7 ->
  (forall o, In o ops -> touches o k = false) ->
  exists hd Wrest, bs = hd ++ ft_body tx ++ Wrest /\
    match lookup k (w_fields (ft_wits tx)) with
    | Some f =>
      exists raw pre kb post,
        lookup k (entries (ft_wits (run_ops H sign_vkey sign_boot ops tx))) = Some raw /\
        f_raw f = Some raw /\ raw <> [] /\
        Wrest = pre ++ kb ++ raw ++ post /\
        rd_uint (kb ++ raw ++ post) = Ok (k, raw ++ post) /\
        dec_field k (raw ++ post) = Ok (f_parsed f, post)
    | None => lookup k (entries (ft_wits (run_ops H sign_vkey sign_boot ops tx))) = None
    end.
Proof.
  intros H sv sb bs tx rest ops k E Hk Ht.
  destruct (decode_fixed_slices H _ _ _ E) as (hd & Wb & V & cl & ln & w & E1 & _ & _ & _ & _ & _ & Hsl & _).
  exists hd, (Wb ++ V ++ enc_aux (ft_aux tx) ++ cl ++ rest). split; [exact E1|].
  rewrite (entries_lookup _ _ Hk), (run_ops_untouched H sv sb ops k Ht tx).
  destruct (lookup k (w_fields (ft_wits tx))) as [f|] eqn:El; [|reflexivity].
  destruct (Hsl _ _ El) as (raw & pre & kb & post & A & B & C & D & F).
  exists raw, pre, kb, post. unfold written. rewrite A. repeat split; assumption.
Qed.
Print Assumptions C04_untouched_fields_verbatim.

(* W' is a well-formed definite map: declared length = number of entries written, and the generic reader
   cuts it back into exactly those entries *)
Theorem C04_witness_map_wf : forall w, wits_wf w ->
  item_wf (encode_wits w) = true /\ map_slices (encode_wits w) = Some (entries w, []).
Proof. exact encode_wits_wf. Qed.
Print Assumptions C04_witness_map_wf.

Theorem C04_fresh_signature_sets_wf :
  (forall t ws, forallb vkw_ok ws = true -> len ws < two64 -> item_wf (enc_vkeys t ws) = true) /\
  (forall t ws, forallb bw_ok ws = true -> len ws < two64 -> item_wf (enc_boots t ws) = true).
Proof. exact (conj enc_vkeys_wf enc_boots_wf). Qed.
Print Assumptions C04_fresh_signature_sets_wf.

(* transaction_hash = H(body bytes) after ANY operations; = H(original body slice) after add-signature ones *)
Theorem C04_hash : forall (H : bytes -> bytes) sign_vkey sign_boot bs tx rest ops,
  decode_fixed H bs = Ok (tx, rest) ->
  ft_hash (run_ops H sign_vkey sign_boot ops tx) = H (ft_body (run_ops H sign_vkey sign_boot ops tx)) /\
  (sig_ops ops -> ft_hash (run_ops H sign_vkey sign_boot ops tx) = H (ft_body tx)).
Proof.
  intros H sv sb bs tx rest ops E.
  destruct (decode_fixed_slices H _ _ _ E) as (hd & Wb & V & cl & ln & w & _ & _ & _ & Hh & _).
  split; [apply run_ops_hash_inv, Hh|].
  intros Hs. destruct (run_ops_sig_frame H sv sb ops Hs tx) as (_ & B & _). rewrite B. exact Hh.
Qed.
Print Assumptions C04_hash.

Theorem C04_sign_uses_hash : forall (H : bytes -> bytes) sign_vkey sign_boot tx k,
  hash_inv H tx ->
  ft_wits (step H sign_vkey sign_boot tx (OSignVkey k)) = add_vkey (sign_vkey k (H (ft_body tx))) (ft_wits tx) /\
  ft_wits (step H sign_vkey sign_boot tx (OSignIcarus k)) = add_boot (sign_boot false k (H (ft_body tx))) (ft_wits tx) /\
  ft_wits (step H sign_vkey sign_boot tx (OSignDaedalus k)) = add_boot (sign_boot true k (H (ft_body tx))) (ft_wits tx).
Proof. intros H sv sb tx k. unfold hash_inv. intros <-. repeat split. Qed.
Print Assumptions C04_sign_uses_hash.

(* a Plutus datum decoded from bytes re-encodes to exactly those bytes; its hash preimage is those bytes *)
Theorem C04_datum_bytes : forall (fresh : pdk -> bytes) bs d rest,
  decode_pd bs = Ok (d, rest) -> encode_pd fresh d ++ rest = bs.
Proof. exact datum_bytes. Qed.
Print Assumptions C04_datum_bytes.

Theorem C04_datum_hash_preimage : forall (fresh : pdk -> bytes) (H : bytes -> bytes) bs d rest,
  decode_pd bs = Ok (d, rest) ->
  exists raw, bs = raw ++ rest /\ raw <> [] /\ pd_orig d = Some raw /\ hash_pd fresh H d = H raw.
Proof.
  intros fresh H bs d rest E. apply dec_pd_orig in E as (raw & k & -> & -> & Hne).
  exists raw. repeat split. exact Hne.
Qed.
Print Assumptions C04_datum_hash_preimage.

Theorem C04_datum_bytes_nested : forall (fresh : pdk -> bytes) fuel bs d rest,
  dec_pd fuel bs = Ok (d, rest) -> encode_pd fresh d ++ rest = bs.
Proof. intros fresh fuel bs d rest E. apply dec_pd_orig in E as (raw & k & -> & -> & _). reflexivity. Qed.
Print Assumptions C04_datum_bytes_nested.

(* FixedTransactionBody: original bytes and hash *)
Theorem C04_fixed_body : forall (H : bytes -> bytes) bs raw h rest,
  decode_fixed_body H bs = Ok ((raw, h), rest) -> bs = raw ++ rest /\ item_wf raw = true /\ h = H raw.
Proof. intros H bs raw h rest E. apply decode_fixed_body_self in E as [E1 [E2 E3]]. repeat split; assumption. Qed.
Print Assumptions C04_fixed_body.

(* the defects removed by /repo 7a5b266 and be1619f, shown on the models of the previous code: the serializer
   wrote map(0) followed by an entry (not a data item) and dropped an empty Plutus-script array that no operation
   had touched; set_body left the hash of the previous body in place *)
Theorem C04_map_length_old_refuted :
  exists tx, decode_fixed Hid witness_empty_native = Ok (tx, []) /\
    item_wf (encode_wits_old (ft_wits tx)) = false /\
    encode_wits_old (ft_wits tx) = [160; 1; 128] /\
    item_wf (encode_wits (ft_wits tx)) = true /\
    encode_fixed tx = witness_empty_native.
Proof. eexists. split; [vm_compute; reflexivity|]. repeat split; vm_compute; reflexivity. Qed.
Print Assumptions C04_map_length_old_refuted.

Theorem C04_drops_empty_scripts_old_refuted :
  exists tx, decode_fixed Hid witness_empty_plutus = Ok (tx, []) /\
    lookup 3 (entries_by old_written (ft_wits tx)) = None /\
    lookup 3 (entries (ft_wits tx)) = Some [128] /\
    encode_fixed tx = witness_empty_plutus.
Proof. eexists. split; [vm_compute; reflexivity|]. repeat split; vm_compute; reflexivity. Qed.
Print Assumptions C04_drops_empty_scripts_old_refuted.

Theorem C04_set_body_hash_old_refuted :
  exists tx b, hash_inv Hid tx /\
    ~ hash_inv Hid (fold_left (step_old Hid no_vk no_bw) [OSetBody b] tx) /\
    hash_inv Hid (run_ops Hid no_vk no_bw [OSetBody b] tx).
Proof.
  destruct (decode_fixed Hid witness_empty_native) as [[tx r]| | |] eqn:E; try (vm_compute in E; discriminate).
  exists tx, [163; 0; 128; 1; 128; 2; 1].
  vm_compute in E. injection E as <- _. split; [reflexivity|]. split; [|reflexivity].
  unfold hash_inv. vm_compute. discriminate.
Qed.
Print Assumptions C04_set_body_hash_old_refuted.

(* fuel is never the reason for a rejection: "the model decoder accepts bs" depends on bs alone *)
Theorem C04_no_fuel_rejection :
  (forall (H : bytes -> bytes) bs, decode_fixed H bs <> OutOfFuel) /\
  (forall bs, decode_wits bs <> OutOfFuel) /\
  (forall bs, decode_pd bs <> OutOfFuel) /\
  (forall (H : bytes -> bytes) bs, decode_fixed_body H bs <> OutOfFuel) /\
  (forall (H : bytes -> bytes) sign_vkey sign_boot o tx, apply_op H sign_vkey sign_boot o tx <> OutOfFuel).
Proof.
  exact (conj decode_fixed_noof (conj decode_wits_noof (conj decode_pd_noof (conj decode_fixed_body_noof apply_op_noof)))).
Qed.
Print Assumptions C04_no_fuel_rejection.

(* block level.  FixedTransactionBodies: the array is head ++ body_1 ++ ... ++ body_n ++ [break]; every kept
   original_bytes is that slice (one well-formed item), every tx_hash is H of it *)
Theorem C04_block_bodies : forall (H : bytes -> bytes) bs l rest, decode_fixed_bodies H bs = Ok (l, rest) ->
  exists hd cl, bs = hd ++ concat (map fst l) ++ cl ++ rest /\ hd <> [] /\ (cl = [] \/ cl = [255]) /\
                Forall (fun oh => snd oh = H (fst oh) /\ item_wf (fst oh) = true) l.
Proof. exact decode_fixed_bodies_slices. Qed.
Print Assumptions C04_block_bodies.

(* FixedBlock: header and bodies are exact input slices, block_hash = H(header bytes) (the ledger's block hash) *)
Theorem C04_block : forall (H : bytes -> bytes) bs b rest, decode_fixed_block H bs = Ok (b, rest) ->
  exists hd bhd cl tl,
    bs = hd ++ fb_header b ++ bhd ++ concat (map fst (fb_bodies b)) ++ cl ++ tl ++ rest /\
    item_wf (fb_header b) = true /\ (cl = [] \/ cl = [255]) /\
    Forall (fun oh => snd oh = H (fst oh) /\ item_wf (fst oh) = true) (fb_bodies b) /\
    fb_hash b = H (fb_header b).
Proof. intros H bs b rest E. apply (dec_block_slices H false), E. Qed.
Print Assumptions C04_block.

Theorem C04_versioned_block : forall (H : bytes -> bytes) bs era b rest,
  decode_versioned_block H bs = Ok ((era, b), rest) ->
  era < 4294967296 /\
  exists pre inner post, bs = pre ++ inner ++ post ++ rest /\ pre <> [] /\
    decode_fixed_block H (inner ++ post ++ rest) = Ok (b, post ++ rest) /\ (post = [] \/ post = [255]) /\
    fb_hash b = H (fb_header b) /\
    Forall (fun oh => snd oh = H (fst oh) /\ item_wf (fst oh) = true) (fb_bodies b).
Proof.
  intros H bs era b rest E. unfold decode_versioned_block in E.
  apply bind_ok in E as [[ln r0] [E0 E]]. apply bind_ok in E as [u [_ E]].
  apply bind_ok in E as [[e r1] [E1 E]]. destruct (4294967295 <? e) eqn:Ee; [discriminate|].
  apply bind_ok in E as [[b' r2] [E2 E]]. apply bind_ok in E as [r3 [E3 E]]. injection E as <- <- <-.
  split; [lia|].
  pose proof (rd_head_suffix 4 _ _ _ E0) as [p0 [-> Hne]]. pose proof (rd_arg_suffix 0 _ _ _ E1) as [p1 [-> _]].
  pose proof (dec_block_suffix H false _ _ _ E2) as [inner [-> _]]. apply close_len_shape in E3 as [post [-> Hpost]].
  pose proof (C04_block H _ _ _ E2) as (_ & _ & _ & _ & _ & _ & _ & Hall & Hh).
  exists (p0 ++ p1), inner, post. rewrite <- !app_assoc. split; [reflexivity|].
  split; [destruct p0; [congruence|discriminate]|]. split; [exact E2|]. split; [exact Hpost|]. split; assumption.
Qed.
Print Assumptions C04_versioned_block.

Theorem C04_block_no_fuel_rejection :
  (forall (H : bytes -> bytes) bs, decode_fixed_bodies H bs <> OutOfFuel) /\
  (forall (H : bytes -> bytes) bs, decode_fixed_block H bs <> OutOfFuel) /\
  (forall (H : bytes -> bytes) bs, decode_versioned_block H bs <> OutOfFuel).
Proof. exact (conj decode_fixed_bodies_noof (conj (fun H => dec_block_noof H false) decode_versioned_block_noof)). Qed.
Print Assumptions C04_block_no_fuel_rejection.

(* the block hash as computed before /repo c6f013f (over the whole block) is not the hash of the header *)
Theorem C04_block_hash_old_refuted :
  exists b, decode_fixed_block_old Hid tiny_block = Ok (b, []) /\ fb_header b = [128] /\
            fb_hash b = Hid tiny_block /\ fb_hash b <> Hid (fb_header b) /\
            exists b', decode_fixed_block Hid tiny_block = Ok (b', []) /\ fb_hash b' = Hid (fb_header b') /\
                       fb_bodies b' = [([160], Hid [160])].
Proof.
  eexists. split; [vm_compute; reflexivity|]. split; [reflexivity|]. split; [reflexivity|]. split; [vm_compute; discriminate|].
  eexists. split; [vm_compute; reflexivity|]. split; reflexivity.
Qed.
Print Assumptions C04_block_hash_old_refuted.

(* well-formedness is preserved through the operations: input a string of bytes (< 256, shorter than 2^64) whose
   kept witness slices are well-formed items; any operations other than set_witness_set whose added / signed
   witnesses are byte strings; then the witness set written back is one well-formed definite map holding
   exactly the written entries *)
Theorem C04_witness_map_wf_after_ops :
  forall (H : bytes -> bytes) (sign_vkey : bytes -> bytes -> vkw) (sign_boot : bool -> bytes -> bytes -> bw),
  (forall k h, vkw_ok (sign_vkey k h) = true) -> (forall d k h, bw_ok (sign_boot d k h) = true) ->
  forall bs tx rest ops,
  good bs -> decode_fixed H bs = Ok (tx, rest) -> raws_wf (ft_wits tx) -> Forall op_ok ops ->
  N.of_nat (length bs + length ops) < two64 ->
  let w' := ft_wits (run_ops H sign_vkey sign_boot ops tx) in
  item_wf (encode_wits w') = true /\ map_slices (encode_wits w') = Some (entries w', []).
Proof.
  intros H sv sb Hsv Hsb bs tx rest ops Hg E Hr Ho Hn w'. apply encode_wits_wf.
  destruct (decode_fixed_slices H _ _ _ E) as (hd & Wb & V & cl & ln & w & E1 & _ & _ & _ & Ew & Ef & _).
  assert (S : sfx bs (Wb ++ V ++ enc_aux (ft_aux tx) ++ cl ++ rest)).
  { exists (hd ++ ft_body tx). rewrite E1 at 1. rewrite <- app_assoc. reflexivity. }
  assert (Hr' : raws_wf w) by (intros k f raw El Er; rewrite <- Ef in El; apply (Hr _ _ _ El Er)).
  pose proof (decode_wits_ok _ _ _ (good_sfx _ _ S Hg) Ew Hr') as Hw.
  apply (wits_ok_wf (length bs + length ops)); [|exact Hn]. apply (run_ops_wits_ok H sv sb Hsv Hsb _ Ho).
  intros k f El. rewrite Ef in El. apply (wits_ok_mono _ _ w (sfx_length _ _ S) Hw _ _ El).
Qed.
Print Assumptions C04_witness_map_wf_after_ops.

(* the judge that is run on the implementation's observations accepts the model's own observation: every input
   on which the generic and the library-mirroring reading coincide, every operation list without
   set_witness_set, written witness set well-formed (C04_witness_map_wf_after_ops) *)
Theorem C04_judge_accepts_model : forall sv sb bs tx r ops,
  same_reading bs = true -> decode_fixed (fun b => b) bs = Ok (tx, r) ->
  Forall not_set_wits ops ->
  wits_wf (ft_wits (run_ops (fun b => b) sv sb ops tx)) ->
  judge bs (op_flags sv sb ops tx) (model_obs (run_ops (fun b => b) sv sb ops tx)) = VHolds.
Proof. exact judge_accepts_model. Qed.
Print Assumptions C04_judge_accepts_model.

Check sample_tx_accepted.
Check same_reading_example.
Check wf_after_ops_premises.
Check versioned_block_example.
Check sig_ops_example.
Check datum_example.
