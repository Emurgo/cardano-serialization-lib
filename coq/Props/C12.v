(* C12 — Signatures verify, derivation commutes, key encodings and encryption round-trip.   PARTIAL BY NATURE.
   The cryptography (Ed25519, BIP32-Ed25519, PBKDF2, ChaCha20-Poly1305, bech32) lives in external crates and is NOT proved.
   Every theorem below quantifies over an arbitrary instance [P : prims] of those primitives and names, as explicit premises,
   the laws of Crypto/Iface.v it relies on ([law_*]).  What is proved is /repo's own wrapper logic: which bytes are signed and
   under which key the result verifies, the layout of the 128-byte form, length / structure / HRP checks of every encoding,
   the derivation wrappers, and the EMIP-3 container.  The lemmas about the wrappers are in Crypto/*Proofs.v. *)
From CSL Require Import Base.Prelude Base.Hex Cbor.Head Crypto.Iface Crypto.Wrappers Crypto.WrappersProofs
  Crypto.Emip3 Crypto.Emip3Proofs Crypto.Toy Crypto.Obs Crypto.ObsProofs Crypto.Bech32Inst Crypto.WitnessCbor Crypto.WitnessCborProofs.
From CSL Require Addr.Bech32 Addr.Bech32Proofs Codec.Schema Ledger.Schemas.
Local Open Scope N_scope.

(* the laws are jointly satisfiable (by a cryptographically worthless instance): no theorem below is vacuous *)
Theorem C12_laws_satisfiable : exists P : prims,
  law_shapes P /\ law_sign_normal P /\ law_sign_extended P /\ law_xpub_layout P /\ law_soft_derivation P /\
  law_hard_refused P /\ law_normalize3 P /\ law_pbkdf2_bip39_shape P /\
  law_aead_roundtrip P /\ law_aead_shapes P /\ law_aead_authentic P /\ law_aead_plain_by_ct P /\
  law_base32_roundtrip P /\ law_bech32_roundtrip P.
Proof.
  exists toy.
  exact (conj toy_shapes (conj toy_sign_normal (conj toy_sign_extended (conj toy_xpub_layout (conj toy_soft
        (conj toy_hard (conj toy_normalize3 (conj toy_pbkdf2 (conj toy_aead_roundtrip (conj toy_aead_shapes
        (conj toy_aead_authentic (conj toy_plain_by_ct (conj toy_base32 toy_bech32))))))))))))).
Qed.
Print Assumptions C12_laws_satisfiable.

(* the two bech32 laws need not be assumed: they hold for the executable model of the bech32 crate (proved by C11 in
   Addr/Bech32Proofs.v), whatever the other primitives are *)
Theorem C12_bech32_laws_proved : forall P : prims,
  law_base32_roundtrip (with_bech32 P) /\ law_bech32_roundtrip (with_bech32 P).
Proof. intros P. exact (conj (concrete_base32_roundtrip P) (concrete_bech32_roundtrip P)). Qed.
Print Assumptions C12_bech32_laws_proved.

(* witnesses: the signed message is exactly the hash bytes; the witness verifies under the key it carries *)
Theorem C12_witness_signs_hash : forall P : prims,
  law_sign_normal P -> law_sign_extended P -> law_shapes P -> law_xpub_layout P ->
  (forall h sk, sk_signable sk ->
     let w := make_vkey_witness P h sk in
     vw_vkey w = sk_to_public P sk /\ vw_sig w = sk_sign P sk h /\ pk_verify P (vw_vkey w) h (vw_sig w) = true) /\
  (forall h attrs k, xprv_valid k ->
     let w := make_icarus_bootstrap_witness P h attrs k in
     bw_sig w = ed_sign_ext P (firstn 64 k) h /\ pk_verify P (bw_vkey w) h (bw_sig w) = true /\
     bw_vkey w ++ bw_cc w = xprv_public P k /\ len (bw_cc w) = 32 /\ bw_attrs w = attrs) /\
  (forall h attrs k, wfb 96 k -> ext_scalar_ok (firstn 64 k) = true ->
     exists w, make_daedalus_bootstrap_witness P h attrs k = Ok w /\
       bw_sig w = ed_sign_ext P (firstn 64 k) h /\ bw_vkey w = ed_ext_pub P (firstn 64 k) /\
       pk_verify P (bw_vkey w) h (bw_sig w) = true /\ bw_cc w = skipn 64 k /\ len (bw_cc w) = 32 /\ bw_attrs w = attrs).
Proof.
  intros P LN LE LS LL. split; [|split].
  - intros h sk Hs. repeat split. apply sk_sign_verifies; assumption.
  - intros h attrs k Hv. repeat split.
    + apply (sk_sign_verifies P (xprv_to_raw_key k) h LN LE), xprv_signable, Hv.
    + symmetry. apply LL, Hv.
    + apply (xprv_cut k), Hv.
  - intros h attrs k Hk Hs. eexists. split; [exact (daedalus_witness P h attrs k LS Hk)|]. cbn [bw_sig bw_vkey bw_cc bw_attrs].
    repeat split; [apply LE; [apply xprv_cut, Hk|exact Hs]|apply (xprv_cut k), Hk].
Qed.
Print Assumptions C12_witness_signs_hash.
Example C12_witness_premises : xprv_valid toy_root /\ sk_signable (SkNormal (repeat 7 32)) /\ sk_signable (SkExtended (repeat 7 64)).
Proof.
  assert (B : forall n, bytes_ok (repeat 7 n)) by (intros n; apply bytes_ok_repeat; lia).
  exact (conj toy_root_ok (conj (conj eq_refl (B 32%nat)) (conj (conj eq_refl (B 64%nat)) eq_refl))).
Qed.

(* the same about the SERIALIZED witnesses (Vkeywitness::to_bytes / BootstrapWitness::to_bytes, written with the C01 schemas):
   byte layout, the C01 decoder reads back exactly the public key and the signature over the hash, and they verify *)
Theorem C12_witness_bytes_sign_hash : forall P : prims,
  law_sign_normal P -> law_sign_extended P -> law_shapes P -> law_xpub_layout P ->
  (forall h sk rest, sk_signable sk ->
     let b := vkeywitness_to_bytes (make_vkey_witness P h sk) in
     b = [130; 88; 32] ++ sk_to_public P sk ++ [88; 64] ++ sk_sign P sk h /\
     Schema.dec Schemas.Vkeywitness (b ++ rest) =
       Ok (Schema.VList [Schema.VBytes (sk_to_public P sk); Schema.VBytes (sk_sign P sk h)], rest) /\
     pk_verify P (sk_to_public P sk) h (sk_sign P sk h) = true) /\
  (forall h attrs k rest, xprv_valid k -> bytes_ok attrs -> len attrs < two64 ->
     let w := make_icarus_bootstrap_witness P h attrs k in
     let b := bootstrapwitness_to_bytes w in
     b = [132; 88; 32] ++ ed_ext_pub P (firstn 64 k) ++ [88; 64] ++ ed_sign_ext P (firstn 64 k) h ++
         [88; 32] ++ skipn 64 k ++ encode_head 2 (len attrs) ++ attrs /\
     Schema.dec Schemas.BootstrapWitness (b ++ rest) = Ok (bootstrapwitness_val w, rest) /\
     pk_verify P (bw_vkey w) h (bw_sig w) = true).
Proof.
  intros P LN LE LS LL. split.
  - intros h sk rest S. destruct (sk_shapes P sk h LS) as [W1 W2]. cbn zeta. split; [|split].
    + apply (vkeywitness_layout (make_vkey_witness P h sk)); assumption.
    + apply (vkeywitness_decodes (make_vkey_witness P h sk)); assumption.
    + apply sk_sign_verifies; assumption.
  - intros h attrs k rest V Ba La. cbn zeta. set (w := make_icarus_bootstrap_witness P h attrs k).
    destruct (sk_shapes P (xprv_to_raw_key k) h LS) as [W1 W2].
    destruct (xprv_cut k (proj1 V)) as [_ [Lc Bc]]. change (skipn 64 k) with (bw_cc w) in Lc, Bc.
    split; [|split].
    + rewrite (bootstrapwitness_layout w W1 W2), Lc. reflexivity.
    + apply bootstrapwitness_decodes; try assumption. rewrite Lc. reflexivity.
    + apply (sk_sign_verifies P (xprv_to_raw_key k) h LN LE), xprv_signable, V.
Qed.
Print Assumptions C12_witness_bytes_sign_hash.

(* PublicKey::hash is Blake2b-224 (uninterpreted) of exactly the key bytes and is a well-formed Ed25519KeyHash *)
Theorem C12_pubkey_hash : forall P : prims, law_hash_shape P -> forall pk,
  pk_hash P pk = blake2b224 P pk /\ hash_from_bytes 28 (pk_hash P pk) = Ok (pk_hash P pk).
Proof. intros P L pk. split; [reflexivity|]. unfold hash_from_bytes, pk_hash. rewrite (proj1 (L pk)). reflexivity. Qed.
Print Assumptions C12_pubkey_hash.
Example C12_hash_shape_satisfiable : law_hash_shape toy.
Proof. intros b. split; [reflexivity|apply bytes_ok_repeat; lia]. Qed.

(* 128-byte form: secret (64) ++ public key (32) ++ chain code (32); only inputs of exactly 128 bytes are read *)
Theorem C12_xprv128_roundtrip : forall P : prims, law_shapes P -> law_xpub_layout P ->
  (forall k, xprv_valid k ->
     from_128_xprv (to_128_xprv P k) = Ok k /\
     to_128_xprv P k = firstn 64 k ++ ed_ext_pub P (firstn 64 k) ++ skipn 64 k /\ len (to_128_xprv P k) = 128) /\
  (forall bs, len bs <> 128 -> from_128_xprv bs = Err) /\
  (forall bs, from_128_xprv bs <> Panic) /\
  (forall bs k, from_128_xprv bs = Ok k -> len bs = 128 /\ k = firstn 64 bs ++ firstn 32 (skipn 96 bs) /\ xprv_bits_ok k = true).
Proof.
  intros P LS LL. split; [|split; [|split]].
  - intros k Hv. destruct (to_128_layout P k LS LL (proj1 Hv)) as (E & L & _).
    exact (conj (xprv128_roundtrip P true k LS LL Hv) (conj E L)).
  - exact from_128_xprv_length_checked.
  - intros bs. apply returns_not_panic, from_128_xprv_returns.
  - intros bs k. unfold from_128_xprv, from_128_xprv_gen, fixed_xprv128_length.
    destruct (len bs =? 128) eqn:E; [|discriminate]. apply N.eqb_eq in E.
    intros H. apply kt_from_binary_ok in H as (-> & _ & H3). auto.
Qed.
Print Assumptions C12_xprv128_roundtrip.

(* the code as found (before fix 6552603): short inputs panicked, long inputs were accepted *)
Theorem C12_xprv128_unfixed_refuted :
  (exists bs, from_128_xprv_gen false bs = Panic) /\
  (exists bs, len bs <> 128 /\ is_ok (from_128_xprv_gen false bs) = true).
Proof.
  split.
  - exists []. reflexivity.
  - exists (repeat 64 129). split; vm_compute; [discriminate|reflexivity].
Qed.
Print Assumptions C12_xprv128_unfixed_refuted.

Definition C12_types : list ktype := [T_sk_normal; T_sk_ext; T_pk; T_sig; T_xprv; T_xpub; T_legacy].
(* the generic form: any codec obeying the two bech32 laws *)
Theorem C12_key_encodings_roundtrip_any_codec : forall P : prims, law_base32_roundtrip P -> law_bech32_roundtrip P ->
  (forall T bs, In T C12_types -> kt_valid T bs ->
     kt_from_binary T bs = Ok bs /\ kt_from_hex T (kt_to_hex bs) = Ok bs /\
     exists s, kt_to_bech32 P T bs = Ok s /\ kt_from_bech32 P T s = Ok bs) /\
  (forall k, sk_valid k ->
     sk_from_hex (hex (sk_as_bytes k)) = Ok k /\ exists s, sk_to_bech32 P k = Ok s /\ sk_from_bech32 P s = Ok k) /\
  (forall n prefix bs, hrp_valid prefix = true -> wfb n bs ->
     exists s, hash_to_bech32 P prefix bs = Ok s /\ hash_from_bech32 P n s = Ok bs) /\
  (forall n s, hash_from_bech32 P n s <> Panic).
Proof.
  intros P L1 L2. split; [|split; [|split]].
  - intros T bs HT Hv. split; [exact (proj1 Hv)|]. split; [exact (kt_hex_roundtrip T bs Hv)|].
    destruct (kt_bech32_roundtrip P T bs L1 L2 (hrps_valid T HT) Hv) as (s & A & B & _). exists s. exact (conj A B).
  - intros k Hv. split; [exact (sk_hex_roundtrip k Hv)|].
    destruct (sk_bech32_roundtrip P k L1 L2 Hv) as (s & A & B & _). exists s. exact (conj A B).
  - intros n prefix bs Hh Hw. exact (hash_bech32_roundtrip P n prefix bs L1 L2 Hh Hw true).
  - intros n s. apply returns_not_panic, hash_from_bech32_returns.
Qed.
Print Assumptions C12_key_encodings_roundtrip_any_codec.

(* bytes / hex / bech32 of every key and signature type round-trip.  The bech32 codec is the executable model of the bech32
   crate (Addr/Bech32.v, laws proved in Addr/Bech32Proofs.v): NO premise about bech32 is left; [P] only supplies the (unused
   here) cryptographic primitives *)
Theorem C12_key_encodings_roundtrip : forall P : prims,
  (forall T bs, In T C12_types -> kt_valid T bs ->
     kt_from_binary T bs = Ok bs /\ kt_from_hex T (kt_to_hex bs) = Ok bs /\
     exists s, kt_to_bech32 (with_bech32 P) T bs = Ok s /\ kt_from_bech32 (with_bech32 P) T s = Ok bs /\
               Bech32.b32_encode (kt_hrp T) bs = Some s) /\
  (forall k, sk_valid k ->
     sk_from_hex (hex (sk_as_bytes k)) = Ok k /\
     exists s, sk_to_bech32 (with_bech32 P) k = Ok s /\ sk_from_bech32 (with_bech32 P) s = Ok k) /\
  (forall n prefix bs, hrp_valid prefix = true -> wfb n bs ->
     exists s, hash_to_bech32 (with_bech32 P) prefix bs = Ok s /\ hash_from_bech32 (with_bech32 P) n s = Ok bs) /\
  (forall n s, hash_from_bech32 (with_bech32 P) n s <> Panic).
Proof.
  intros P.
  destruct (C12_key_encodings_roundtrip_any_codec (with_bech32 P) (concrete_base32_roundtrip P) (concrete_bech32_roundtrip P))
    as (A & B & C & D).
  split; [|exact (conj B (conj C D))].
  intros T bs HT Hv. destruct (A T bs HT Hv) as (A1 & A2 & s & A3 & A4). split; [exact A1|]. split; [exact A2|].
  exists s. split; [exact A3|]. split; [exact A4|].
  (* the encoder field of [with_bech32 P] is Bech32.b32_encode *)
  change (match Bech32.b32_encode (kt_hrp T) bs with Some s => Ok s | None => Panic end = Ok s) in A3.
  destruct (Bech32.b32_encode (kt_hrp T) bs); [injection A3 as <-; reflexivity|discriminate].
Qed.
Print Assumptions C12_key_encodings_roundtrip.
Example C12_encodings_premises : kt_valid T_xprv toy_root /\ In T_xprv C12_types.
Proof. split; [apply xprv_valid_kt; exact toy_root_ok|cbn; tauto]. Qed.

Theorem C12_hash_bech32_unfixed_refuted : exists P n s, hash_from_bech32_gen P false n s = Panic.
Proof.
  (* with the bech32 crate's own codec: "a1pv7wwwr" is checksum-valid, and its single 5-bit group 00001 does not regroup into bytes *)
  exists (with_bech32 toy), 28, [97; 49; 112; 118; 55; 119; 119; 119; 114]. vm_compute. reflexivity.
Qed.
Print Assumptions C12_hash_bech32_unfixed_refuted.

(* a text encoded under another human-readable part is rejected *)
Theorem C12_hrp_checked_any_codec : forall P : prims, law_bech32_roundtrip P ->
  (forall T h bs s, hrp_valid h = true -> bytes_ok bs -> h <> kt_hrp T ->
     b32_encode P h (b32_to_base32 P bs) = Some s -> kt_from_bech32 P T s = Err) /\
  (forall h bs s, hrp_valid h = true -> bytes_ok bs -> h <> hrp_ed25519_sk -> h <> hrp_ed25519e_sk ->
     b32_encode P h (b32_to_base32 P bs) = Some s -> sk_from_bech32 P s = Err).
Proof.
  intros P L2. split.
  - intros T h bs s Hh Hb Hne E. exact (kt_from_bech32_other_hrp P T s h _ (encoded_decodes P h bs s L2 Hh Hb E) Hne).
  - intros h bs s Hh Hb N1 N2 E. exact (sk_from_bech32_other_hrp P s h _ (encoded_decodes P h bs s L2 Hh Hb E) N1 N2).
Qed.
Print Assumptions C12_hrp_checked_any_codec.

(* concrete decoder: ANY text that the bech32 decoder accepts with a human-readable part other than the type's own is rejected by the
   library's prefix comparison (whatever produced the text), and in particular every text encoded under another valid HRP.
   (The decoder lower-cases an all-upper-case text, so "XPRV1…" is accepted for xprv: bech32 rule.) *)
Theorem C12_hrp_checked : forall P : prims,
  (forall T s h d, Bech32.decode s = Ok (h, d) -> h <> kt_hrp T -> kt_from_bech32 (with_bech32 P) T s = Err) /\
  (forall s h d, Bech32.decode s = Ok (h, d) -> h <> hrp_ed25519_sk -> h <> hrp_ed25519e_sk -> sk_from_bech32 (with_bech32 P) s = Err) /\
  (forall T s, Bech32.decode s = Err -> kt_from_bech32 (with_bech32 P) T s = Err) /\
  (forall T h bs s, hrp_valid h = true -> bytes_ok bs -> h <> kt_hrp T ->
     Bech32.b32_encode h bs = Some s -> kt_from_bech32 (with_bech32 P) T s = Err).
Proof.
  intros P.
  assert (D : forall s h d, Bech32.decode s = Ok (h, d) -> b32_decode (with_bech32 P) s = Some (h, d)).
  { intros s h d E. cbn [with_bech32 b32_decode]. rewrite E. reflexivity. }
  split; [|split; [|split]].
  - intros T s h d E N. exact (kt_from_bech32_other_hrp _ T s h d (D s h d E) N).
  - intros s h d E N1 N2. exact (sk_from_bech32_other_hrp _ s h d (D s h d E) N1 N2).
  - intros T s E. apply kt_from_bech32_undecodable. cbn [with_bech32 b32_decode]. rewrite E. reflexivity.
  - intros T h bs s Hh Hb N E.
    exact (proj1 (C12_hrp_checked_any_codec (with_bech32 P) (concrete_bech32_roundtrip P)) T h bs s Hh Hb N E).
Qed.
Print Assumptions C12_hrp_checked.

(* derivation: whole soft paths commute with taking the public key; a hardened index is refused from the public side;
   keys made from BIP39 entropy are valid BIP32 keys *)
Theorem C12_soft_derivation_commutes : forall P : prims, law_shapes P -> law_soft_derivation P ->
  forall path k, wfb 96 k -> forallb soft path = true ->
  derive_pub_path P (xprv_to_public P k) path = Ok (xprv_to_public P (derive_prv_path P k path)).
Proof. exact soft_derivation_commutes. Qed.
Print Assumptions C12_soft_derivation_commutes.

Theorem C12_hardened_from_public_refused : forall P : prims, law_hard_refused P ->
  forall path p, forallb soft path = false -> derive_pub_path P p path = Err.
Proof. exact hardened_from_public_refused. Qed.
Print Assumptions C12_hardened_from_public_refused.

Theorem C12_bip39_root_valid : forall P : prims, law_normalize3 P -> law_pbkdf2_bip39_shape P ->
  forall entropy password,
  xprv_valid (from_bip39_entropy P entropy password) /\
  xprv_from_bytes (from_bip39_entropy P entropy password) = Ok (from_bip39_entropy P entropy password).
Proof. intros P L1 L2 e pw. exact (bip39_root_valid P e pw L1 L2). Qed.
Print Assumptions C12_bip39_root_valid.

(* EMIP-3: salt (32) ++ nonce (12) ++ tag (16) ++ ciphertext, hex in / hex out *)
Theorem C12_emip3_roundtrip : forall P : prims, law_aead_roundtrip P -> law_aead_shapes P ->
  forall tp ts tn td pw salt nonce data, emip3_params tp ts tn td pw salt nonce data ->
  exists c, encrypt_with_password P tp ts tn td = Ok c /\ decrypt_with_password P tp c = Ok (hex data).
Proof.
  intros P LR LS tp ts tn td pw salt nonce data Hp.
  exact (emip3_roundtrip P true tp ts tn td pw salt nonce data LR LS Hp (or_introl eq_refl)).
Qed.
Print Assumptions C12_emip3_roundtrip.
Example C12_emip3_premises :
  emip3_params (hex [1]) (hex (repeat 2 32)) (hex (repeat 3 12)) [] [1] (repeat 2 32) (repeat 3 12) [].
Proof. repeat split; vm_compute; try reflexivity; discriminate. Qed.

(* the code as found (before fix 6401dee) refused the encryption of an empty plaintext *)
Theorem C12_emip3_empty_plaintext_unfixed_refuted : forall P : prims, law_aead_shapes P ->
  forall tp ts tn pw salt nonce, emip3_params tp ts tn [] pw salt nonce [] ->
  exists c, encrypt_with_password P tp ts tn [] = Ok c /\ decrypt_with_password_gen P false tp c = Err.
Proof.
  intros P LS tp ts tn pw salt nonce Hpar. destruct (encrypt_shape P _ _ _ _ _ _ _ _ LS Hpar) as (E & Bc & Lt & Lc & _).
  destruct Hpar as (Hp & _ & _ & _ & Ls & Ln & _).
  (* a container of exactly 60 bytes *)
  eexists. split; [exact E|]. rewrite (decrypt_container P false tp pw _ _ _ _ Hp Ls Ln Lt Bc), Lc. reflexivity.
Qed.
Print Assumptions C12_emip3_empty_plaintext_unfixed_refuted.

(* decryption accepts ONLY byte-exact outputs of encryption (for the returned plaintext, with the salt and nonce carried) *)
Theorem C12_emip3_accepts_only_encrypt_images : forall P : prims, law_aead_authentic P ->
  forall tp tc r, decrypt_with_password P tp tc = Ok r ->
  exists pw c p, unhex tp = Some pw /\ unhex tc = Some c /\ r = hex p /\ bytes_ok p /\ 60 <= len c /\
    aead_enc P (kdf P pw (firstn 32 c)) (firstn 12 (skipn 32 c)) p = (skipn 60 c, firstn 16 (skipn 44 c)) /\
    (len pw <> 0 -> encrypt_with_password P tp (hex (firstn 32 c)) (hex (firstn 12 (skipn 32 c))) (hex p) = Ok (hex c)).
Proof.
  intros P LA tp tc r. unfold decrypt_with_password, fixed_emip3_empty. rewrite decrypt_with_password_eq.
  destruct (unhex tp) as [pw|] eqn:Hp; [|discriminate]. destruct (unhex tc) as [c|] eqn:Hc; [|discriminate].
  destruct (too_short_gen true (len c)) eqn:S; [discriminate|].
  destruct (aead_dec P _ _ _ _) as [p|] eqn:D; [|discriminate]. intros [= <-].
  destruct (LA _ _ _ _ _ D) as [Bp E].
  assert (L60 : 60 <= len c) by (unfold too_short_gen, METADATA_SIZE in S; lia).
  exists pw, c, p. repeat split; auto.
  (* re-encryption: salt and nonce cut from the container have the lengths encryption demands *)
  intros Lp. apply N.eqb_neq in Lp.
  destruct (wfb_cut 32 (len c) c (conj eq_refl (unhex_bytes_ok _ _ Hc))) as [[Ls Bs] Wr]; [lia|].
  destruct (wfb_cut 12 _ _ Wr) as [[Ln Bn] _]; [lia|].
  rewrite encrypt_with_password_eq, Hp, !unhex_hex, Ls, Ln, Lp, E by assumption.
  cbn [fst snd]. rewrite <- split_container. reflexivity.
Qed.
Print Assumptions C12_emip3_accepts_only_encrypt_images.

(* hence every other container is rejected.  The last premise is the cryptographic one and is stated for the instance at hand:
   "this container is not itself a complete valid AEAD encryption under the key derived from the offered password and the salt
   it carries".  For a container obtained by changing the salt, nonce, ciphertext or password of a genuine one, its truth is
   the computational unforgeability of ChaCha20-Poly1305 / PBKDF2, not a mathematical fact; it is exercised (tested, not
   proved) on the real crates by the correspondence run. *)
Theorem C12_emip3_rejects_modified : forall P : prims, law_aead_authentic P ->
  forall tp tc pw c, unhex tp = Some pw -> unhex tc = Some c ->
  (forall p, aead_enc P (kdf P pw (firstn 32 c)) (firstn 12 (skipn 32 c)) p <> (skipn 60 c, firstn 16 (skipn 44 c))) ->
  decrypt_with_password P tp tc = Err.
Proof.
  intros P LA tp tc pw c Hp Hc Hno. unfold decrypt_with_password. rewrite decrypt_with_password_eq, Hp, Hc.
  destruct (too_short_gen _ (len c)); [reflexivity|].
  destruct (aead_dec P _ _ _ _) as [p|] eqn:D; [|reflexivity]. destruct (Hno p). apply (LA _ _ _ _ _ D).
Qed.
Print Assumptions C12_emip3_rejects_modified.

(* LIMITATION made explicit: the password enters only through the derived key.  Two different passwords that derive the same key
   under the carried salt are indistinguishable to decryption; PBKDF2-HMAC-SHA512 has such pairs by construction (HMAC zero-pads the
   key: P and P ++ [0]; a password longer than 128 bytes and its SHA-512 digest).  For them the premise of C12_emip3_rejects_modified
   is false and "an error under any other password" does not hold — a property of the external KDF, observed on the real code
   (sequence pattern related-passwords: the model, whose kdf is the table of real PBKDF2 calls, predicts the acceptance). *)
Theorem C12_emip3_password_only_through_key : forall (P : prims) tp tp' tc pw pw' c,
  unhex tp = Some pw -> unhex tp' = Some pw' -> unhex tc = Some c ->
  kdf P pw (firstn 32 c) = kdf P pw' (firstn 32 c) ->
  decrypt_with_password P tp tc = decrypt_with_password P tp' tc.
Proof.
  intros P tp tp' tc pw pw' c H1 H2 H3 K. unfold decrypt_with_password.
  rewrite !decrypt_with_password_eq, H1, H2, H3, K. reflexivity.
Qed.
Print Assumptions C12_emip3_password_only_through_key.

(* a modified TAG needs no cryptographic premise at all *)
Theorem C12_emip3_rejects_modified_tag : forall P : prims,
  law_aead_roundtrip P -> law_aead_shapes P -> law_aead_authentic P -> law_aead_plain_by_ct P ->
  forall tp ts tn td pw salt nonce data tag', emip3_params tp ts tn td pw salt nonce data ->
  wfb 16 tag' -> tag' <> snd (aead_enc P (kdf P pw salt) nonce data) ->
  decrypt_with_password P tp (hex (container salt nonce tag' (fst (aead_enc P (kdf P pw salt) nonce data)))) = Err.
Proof.
  intros P LR LS LA LP tp ts tn td pw salt nonce data tag' Hpar [Lt' Bt'] Hne.
  destruct (encrypt_shape P _ _ _ _ _ _ _ _ LS Hpar) as (_ & Bc & _).
  destruct Hpar as (Hp & _ & _ & Hd & Ls & Ln & _).
  set (key := kdf P pw salt) in *. set (ct := fst (aead_enc P key nonce data)) in *.
  assert (Bc' : bytes_ok (container salt nonce tag' ct)).
  { unfold container, bytes_ok in *. rewrite !Forall_app in *. tauto. }
  unfold decrypt_with_password. rewrite (decrypt_container P _ tp pw _ _ _ _ Hp Ls Ln Lt' Bc'). fold key.
  destruct (too_short_gen _ _); [reflexivity|].
  (* an accepted tag' would decrypt to the same plaintext, whose encryption carries the genuine tag *)
  destruct (aead_dec P key nonce ct tag') as [p|] eqn:D1; [exfalso|reflexivity].
  pose proof (LR key nonce data (unhex_bytes_ok _ _ Hd)) as D0. fold ct in D0.
  pose proof (LP _ _ _ _ _ _ _ D0 D1) as <-.
  destruct (LA _ _ _ _ _ D1) as [_ E]. apply Hne. rewrite E. reflexivity.
Qed.
Print Assumptions C12_emip3_rejects_modified_tag.

(* the judge used by the correspondence run: on EVERY case (all inputs) the model's own observation contains no panic and
   satisfies the proved part [stmt] of the property; the judge can then fail only in its TESTED part [stmt_tested]
   (verification under another message / key, structure check of derived keys), which no functional law gives *)
Theorem C12_model_satisfies_judge : forall P : prims,
  law_shapes P /\ law_sign_normal P /\ law_sign_extended P /\ law_xpub_layout P /\ law_soft_derivation P /\
  law_hard_refused P /\ law_normalize3 P /\ law_pbkdf2_bip39_shape P /\
  law_aead_roundtrip P /\ law_aead_shapes P /\ law_aead_authentic P /\ law_aead_plain_by_ct P ->
  let Q := with_bech32 P in
  forall c, case_wf c ->
  has_panic (model_obs Q c) = false /\ stmt Q c (model_obs Q c) = true /\
  judge Q c (model_obs Q c) =
    (if stmt_tested Q c (model_obs Q c) then Holds
     else if known_class Q c =? 0 then FailsUnknown else FailsKnown (known_class Q c)).
Proof.
  intros P L Q c H. pose proof (all_laws_concrete P L) as LQ.
  destruct (model_satisfies_stmt Q LQ c H) as [A B]. exact (conj A (conj B (judge_on_model Q LQ c H))).
Qed.
Print Assumptions C12_model_satisfies_judge.
(* sequences of calls in one process: the model of a sequence is the list of the models of the steps taken alone, so any
   dependence of an implementation result on earlier calls is a disagreement; the judge accepts the model's sequence exactly
   when every step passes its tested part *)
Theorem C12_sequences_stepwise : forall P : prims,
  law_shapes P /\ law_sign_normal P /\ law_sign_extended P /\ law_xpub_layout P /\ law_soft_derivation P /\
  law_hard_refused P /\ law_normalize3 P /\ law_pbkdf2_bip39_shape P /\
  law_aead_roundtrip P /\ law_aead_shapes P /\ law_aead_authentic P /\ law_aead_plain_by_ct P ->
  let Q := with_bech32 P in
  forall l, Forall case_wf l ->
  model_seq Q l = map (model_obs Q) l /\
  (forallb (fun c => stmt_tested Q c (model_obs Q c)) l = true -> judge_seq Q l (model_seq Q l) = Holds).
Proof. intros P L Q l H. exact (conj eq_refl (judge_seq_on_model Q (all_laws_concrete P L) l H)). Qed.
Print Assumptions C12_sequences_stepwise.

Example C12_case_wf_nontrivial : case_wf (CSign 1 (repeat 7 64) [1; 2] [3] (repeat 8 64)) /\ case_wf (CX128 toy_root).
Proof.
  split; [split; apply bytes_ok_repeat; lia|exact (proj2 (proj1 toy_root_ok))].
Qed.

(* constants the statements above rely on, checked by evaluation *)
Check (eq_refl : METADATA_SIZE = 60).
Check (eq_refl : kt_hrp T_xprv = [120; 112; 114; 118]).
Check (eq_refl : (fixed_xprv128_length, fixed_hash_bech32_padding, fixed_ext_scalar_check, fixed_emip3_empty) = (true, true, true, true)).
