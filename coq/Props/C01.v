(* C01 — Every ledger type survives an encode/decode round trip.
   The ledger types are data (Ledger/Schemas.v) for one schema-directed codec (Codec/Schema.v);
   the theorems below hold for EVERY schema-valid value of EVERY listed type, for every nesting depth
   of scripts / Plutus data / metadata, with arbitrary bytes following the encoding. *)
From CSL Require Import Base.Prelude Base.Hex Cbor.Head Codec.Schema Codec.SchemaProofs Codec.SchemaApi Codec.SchemaApiProofs
  Codec.SchemaSound Codec.SchemaSoundProofs Ledger.Schemas Ledger.SchemasProofs.

(* the generic theorem: one proof for all schemas *)
Theorem C01_schema_roundtrip : forall s v rest,
  wfs s = true -> wfv s v = true -> dec s (enc s v ++ rest) = Ok (v, rest).
Proof. exact schema_roundtrip. Qed.
Print Assumptions C01_schema_roundtrip.

(* decoding the serialized bytes of any value of any ledger type succeeds and yields the original *)
Theorem C01_roundtrip : forall d s, In s (ledger_schemas d ++ ledger_schemas_more d) ->
  forall v rest, wfv s v = true -> dec s (enc s v ++ rest) = Ok (v, rest).
Proof.
  intros d s Hin v rest Hv. apply schema_roundtrip; [exact (ledger_schemas_all_wf d s Hin)|exact Hv].
Qed.
Print Assumptions C01_roundtrip.

(* re-encoding the decoded value gives exactly the same bytes *)
Theorem C01_reencode : forall d s, In s (ledger_schemas d ++ ledger_schemas_more d) ->
  forall v v' rest rest', wfv s v = true -> dec s (enc s v ++ rest) = Ok (v', rest') ->
  enc s v' = enc s v /\ rest' = rest.
Proof.
  intros d s Hin v v' rest rest' Hv H. apply schema_reencode; [exact (ledger_schemas_all_wf d s Hin)|exact Hv|exact H].
Qed.
Print Assumptions C01_reencode.

(* Values built through the public API (not necessarily in the image of the decoders).
   [wfa] admits an optional collection that is present but empty; [norm] maps such a field to absent
   ("an empty optional collection counts as absent because that is how the wire format writes it").
   For every ledger type ([ledger_schemas] and the stand-alone member types [ledger_schemas_more]): decoding the bytes of an
   API-buildable value succeeds and yields its normalisation ... *)
Theorem C01_api_roundtrip : forall d s, In s (ledger_schemas d ++ ledger_schemas_more d) ->
  forall v rest, wfa s v = true -> dec s (enc s v ++ rest) = Ok (norm s v, rest).
Proof.
  intros d s Hin v rest Hv. apply api_roundtrip; [exact (ledger_schemas_all_wf d s Hin)|exact Hv].
Qed.
Print Assumptions C01_api_roundtrip.

(* ... re-encoding the decoded value gives exactly the same bytes, and the decoded value is a fixed point ... *)
Theorem C01_api_reencode : forall d s, In s (ledger_schemas d ++ ledger_schemas_more d) ->
  forall v, wfa s v = true ->
  enc s (norm s v) = enc s v /\ wfv s (norm s v) = true /\ norm s (norm s v) = norm s v.
Proof.
  intros d s _ v Hv. split; [apply norm_enc; exact Hv|]. split; [apply norm_wfv; exact Hv|apply norm_idem; exact Hv].
Qed.
Print Assumptions C01_api_reencode.

(* ... and the normalisation is nothing but that: every value in the decoders' image is API-buildable and is its own
   normal form (so C01_roundtrip is the special case of C01_api_roundtrip on those values) *)
Theorem C01_norm_only_empties : forall s v, wfv s v = true -> wfa s v = true /\ norm s v = v.
Proof. intros s v H. split; [apply wfv_wfa; exact H|apply norm_id; exact H]. Qed.
Print Assumptions C01_norm_only_empties.

(* non-vacuity of the API theorems: a body whose required_signers is set to an empty set is API-buildable, is NOT in
   the decoders' image, normalises to the body without the field, and is written with a 3-entry map *)
Example C01_api_nonvacuous :
  let x := VStruct [Some (VList []); Some (VList []); Some (VNat 0%N); None; None; None; None; None; None; None; None;
                    None; Some (VList []); None; None; None; None; None; None; None; None] in
  let y := VStruct [Some (VList []); Some (VList []); Some (VNat 0%N); None; None; None; None; None; None; None; None;
                    None; None; None; None; None; None; None; None; None; None] in
  wfa (TransactionBody 1) x = true /\ wfv (TransactionBody 1) x = false /\ norm (TransactionBody 1) x = y /\
  enc (TransactionBody 1) x = [163; 0; 217; 1; 2; 128; 1; 128; 2; 0]%N.
Proof. cbv zeta. repeat split; vm_compute; reflexivity. Qed.

(* The decoding direction: bytes from anywhere (in particular the library's own bytes, which the correspondence run
   feeds to the model).
   [sdec] = the wire-shape decoder followed by what the library does with container entries (Codec/SchemaSound.v: set
   types drop repeated items silently, BTreeMap-backed maps sort and reject a repeated key, LinkedHashMap-backed maps
   reject a repeated key, Vec-backed maps keep everything, map-structs reject duplicate keys).
   Decoder soundness: whatever it returns, for ANY schema and ANY input bytes, is in the domain of the round-trip theorem. *)
Theorem C01_dec_sound : forall s bs v rest,
  bytes_ok bs -> sdec s bs = Ok (v, rest) -> wfv s v = true /\ bytes_ok rest.
Proof.
  intros s bs v rest Hb H. unfold sdec in H. destruct (dec s bs) as [[w r]| | |] eqn:E; cbn [bind] in H; try discriminate.
  destruct (canon s w) as [w'|] eqn:Ec; [|discriminate]. injection H as <- <-.
  destruct (dec_wfp _ _ _ _ Hb E) as [Hw Hr]. split; [exact (canon_sound _ _ _ Hw Ec)|exact Hr].
Qed.
Print Assumptions C01_dec_sound.

(* on the domain the two decoders agree (the library-faithful one adds nothing on writer-produced bytes) *)
Theorem C01_sdec_roundtrip : forall s v rest, wfs s = true -> wfv s v = true -> sdec s (enc s v ++ rest) = Ok (v, rest).
Proof.
  intros s v rest Hs Hv. unfold sdec. rewrite schema_roundtrip by assumption. cbn [bind]. rewrite canon_id by exact Hv. reflexivity.
Qed.
Print Assumptions C01_sdec_roundtrip.

(* hence decode-then-encode is idempotent: for v' := any decoded value of any ledger type, encoding v' and decoding again
   (with the library-faithful decoder as well as with the wire-shape decoder) gives v' back, with any bytes following *)
Theorem C01_decode_encode_idempotent : forall d s, In s (ledger_schemas d ++ ledger_schemas_more d) ->
  forall bs v' rest rest', bytes_ok bs -> sdec s bs = Ok (v', rest) ->
  sdec s (enc s v' ++ rest') = Ok (v', rest') /\ dec s (enc s v' ++ rest') = Ok (v', rest').
Proof.
  intros d s Hin bs v' rest rest' Hb H.
  pose proof (ledger_schemas_all_wf d s Hin) as Hs. destruct (C01_dec_sound _ _ _ _ Hb H) as [Hv _].
  split; [apply C01_sdec_roundtrip|apply schema_roundtrip]; assumption.
Qed.
Print Assumptions C01_decode_encode_idempotent.

(* non-vacuity: repeats and order on the wire.  d90102 83 01 02 01: a set with a repeated item decodes to its first
   occurrences; a BTreeMap-backed map given out of order is sorted, with a repeated key it is an error; a LinkedHashMap-backed
   map with a repeated key is an error; a Vec-backed map keeps it *)
Example C01_dec_repeats :
  let u := SUint 256 in
  sdec (SSetOf u) [217; 1; 2; 131; 1; 2; 1]%N = Ok (VList [VNat 1; VNat 2], [])%N /\
  sdec (SMapOf 0 KBytewise u u) [162; 2; 0; 1; 7]%N = Ok (VMap [(VNat 1, VNat 7); (VNat 2, VNat 0)], [])%N /\
  sdec (SMapOf 0 KBytewise u u) [162; 2; 0; 2; 7]%N = Err /\
  sdec (SMapOf 0 KInsertion u u) [162; 2; 0; 2; 7]%N = Err /\
  sdec (SMapOf 0 KMulti u u) [162; 2; 0; 2; 7]%N = Ok (VMap [(VNat 2, VNat 0); (VNat 2, VNat 7)], [])%N.
Proof. cbv zeta. repeat split; vm_compute; reflexivity. Qed.

(* the hex entry points are the byte entry points composed with a lossless hex codec *)
Theorem C01_hex : forall bs, bytes_ok bs -> unhex (hex bs) = Some bs.
Proof. exact unhex_hex. Qed.
Print Assumptions C01_hex.

(* only the loops until a break (indefinite-length forms) take fuel, every other clause of [dec] has no OutOfFuel outcome;
   the fuel these loops are given, one more than the bytes left, always suffices *)
Theorem C01_loop_fuel : forall (A : Type) (p : parser A), (forall bs, p bs <> OutOfFuel) ->
  forall bs, dec_until_break p (S (length bs)) bs <> OutOfFuel.
Proof. intros A p Hp bs. apply dec_until_break_fuel; [exact Hp|]. apply Nat.lt_succ_diag_r. Qed.
Print Assumptions C01_loop_fuel.

(* non-vacuity: a non-trivial transaction body is schema-valid and its bytes are what the library writes *)
Example C01_nonvacuous :
  let v := VStruct [Some (VList [VList [VBytes (repeat 7%N 32); VNat 0%N]]); Some (VList []); Some (VNat 170000%N);
                    Some (VNat 5%N); None; None; None; None; None; None; None; None; None; None; None; None; None;
                    None; None; None; None] in
  wfv (TransactionBody 1) v = true /\ In (TransactionBody 1) (ledger_schemas 1 ++ ledger_schemas_more 1) /\
  firstn 6 (enc (TransactionBody 1) v) = [164; 0; 217; 1; 2; 129]%N.
Proof.
  cbv zeta. split; [vm_compute; reflexivity|]. split; [|vm_compute; reflexivity].
  apply in_or_app. left. apply (nth_error_In _ 55). reflexivity.
Qed.
