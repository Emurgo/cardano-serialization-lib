(* C11 — Address encodings are lossless and classified by their header.
   The statements of the property; the long proofs are under coq/Addr/ and are cited here, the short ones
   stand here under their statement. *)
From CSL Require Import Base.Prelude Cbor.Head Addr.VarNat Addr.VarNatProofs Addr.Crc32 Addr.Crc32Proofs
  Addr.Byron Addr.ByronProofs Addr.Base58 Addr.Base58Proofs Addr.Shelley Addr.ShelleyProofs
  Addr.Bech32Iface Addr.Bech32 Addr.Bech32Proofs Addr.TextProofs Addr.Check Addr.CheckProofs.
Local Open Scope N_scope.

(* Raw bytes: every address with network id 0-15 (base, pointer, enterprise, reward; key or
   script credentials; pointer fields over the full u64 range; every Byron attribute combination)
   is read back unchanged by the strict parser. *)
Theorem C11_shelley_roundtrip : forall a, wf_address a -> from_bytes (to_bytes a) = Ok a.
Proof. exact address_roundtrip. Qed.
Print Assumptions C11_shelley_roundtrip.

(* ... and by the lenient parser used for addresses inside larger structures *)
Theorem C11_embedded_roundtrip : forall a, wf_address a -> embedded_decode (to_bytes a) = Ok a.
Proof.
  intros a Hwf. unfold embedded_decode. rewrite <- (app_nil_r (to_bytes a)), parse_written by exact Hwf.
  cbn [nonempty]. now rewrite andb_false_r.
Qed.
Print Assumptions C11_embedded_roundtrip.

(* the premise "network id below 16" is needed: the field is a u8, the header keeps four bits *)
Theorem C11_roundtrip_needs_network_below_16 :
  exists a, from_bytes (to_bytes a) <> Ok a /\
            match a with Enterprise n p => 16 <= n < 256 /\ wf_cred p | _ => False end.
Proof.
  exists (Enterprise 17 (KeyHash (repeat 7 28))). split; [vm_compute; discriminate|].
  split; [lia|]. split; [reflexivity|]. repeat constructor.
Qed.
Print Assumptions C11_roundtrip_needs_network_below_16.

(* Classification: whatever either parser returns reports kind, network id and credentials
   exactly as the header byte and the payload slices encode them; the header table itself is a
   sweep over the 256 header bytes (dispatch_sweep), the length handling is general. *)
Theorem C11_classify : forall ig data a, bytes_ok data ->
  from_bytes_internal ig data = Ok a -> agrees_with_header a data = true.
Proof. exact classify_parsed. Qed.
Print Assumptions C11_classify.

Theorem C11_classify_accessors : forall a h payload, agrees_with_header a (h :: payload) = true ->
  match classify_header h with
  | HBase ps ss => kind a = KBase /\ network_id a = Ok (h mod 16)
                   /\ payment_cred a = Some (mk_cred ps (firstn 28 payload))
                   /\ stake_cred a = Some (mk_cred ss (firstn 28 (skipn 28 payload)))
  | HPointer ps => kind a = KPointer /\ network_id a = Ok (h mod 16)
                   /\ payment_cred a = Some (mk_cred ps (firstn 28 payload))
  | HEnterprise ps => kind a = KEnterprise /\ network_id a = Ok (h mod 16)
                   /\ payment_cred a = Some (mk_cred ps (firstn 28 payload))
  | HReward ps => kind a = KReward /\ network_id a = Ok (h mod 16)
                   /\ payment_cred a = Some (mk_cred ps (firstn 28 payload))
  | HByron => kind a = KByron /\ payment_cred a = None
  | HInvalid => False
  end.
Proof.
  intros a h payload H. pose proof (agrees_inv a h payload H) as I.
  destruct (classify_header h).
  1,3,4: subst a; cbn; auto.
  - destruct I as [q ->]. cbn. auto.
  - destruct I as [b ->]. cbn. auto.
  - exact I.
Qed.
Print Assumptions C11_classify_accessors.

(* what a well-formed address writes is classified as itself by its own header *)
Theorem C11_classify_written : forall a, wf_address a -> agrees_with_header a (to_bytes a) = true.
Proof.
  intros a Hwf. apply (classify_parsed false); [apply to_bytes_ok, Hwf|apply address_roundtrip, Hwf].
Qed.
Print Assumptions C11_classify_written.

(* the finite part, with its bound in the statement: for each of the 256 header bytes the
   parser's nibble dispatch is the table of shelley.cddl and the writer recomputes that byte *)
Theorem C11_header_table : forall h, h < 256 -> dispatch_ok h = true /\ rewrite_ok h = true.
Proof. intros h H. split; [exact (dispatch_ok_all h H)|exact (rewrite_ok_all h H)]. Qed.
Print Assumptions C11_header_table.

(* the strict parser accepts exactly what the header table and the exact lengths allow *)
Theorem C11_strict_accepts_iff : forall data, bytes_ok data -> is_ok (from_bytes data) = spec_strict_ok data.
Proof. exact strict_accepts_iff. Qed.
Print Assumptions C11_strict_accepts_iff.

Theorem C11_strict_rejects_trailing : forall a x t, wf_address a -> from_bytes (to_bytes a ++ x :: t) = Err.
Proof.
  intros a x t Hwf. unfold from_bytes. rewrite parse_written by exact Hwf. reflexivity.
Qed.
Print Assumptions C11_strict_rejects_trailing.

Theorem C11_strict_rejects_truncation : forall ig a k, wf_address a -> shelley_kind a = true ->
  (k < length (to_bytes a))%nat -> from_bytes_internal ig (firstn k (to_bytes a)) = Err.
Proof. intros ig a k Hwf _. now apply strict_rejects_truncation. Qed.
Print Assumptions C11_strict_rejects_truncation.

Theorem C11_strict_rejects_unterminated : forall h pay s t u,
  (h / 16 <? 4) = false -> (h / 16 <? 6) = true -> length pay = 28%nat ->
  s < two64 -> t < two64 -> Forall (fun b => 128 <= b) u ->
  from_bytes (h :: pay ++ u) = Err /\
  from_bytes (h :: pay ++ varnat_encode s ++ u) = Err /\
  from_bytes (h :: pay ++ varnat_encode s ++ varnat_encode t ++ u) = Err.
Proof. exact strict_rejects_unterminated. Qed.
Print Assumptions C11_strict_rejects_unterminated.

(* every proper prefix of a written Byron address is refused too (an error, never a panic) *)
Theorem C11_strict_rejects_truncation_byron : forall ig b k, wf_byron b ->
  (k < length (to_bytes (Byron b)))%nat -> from_bytes_internal ig (firstn k (to_bytes (Byron b))) = Err.
Proof. intros ig b k Hwf. now apply (strict_rejects_truncation ig (Byron b)). Qed.
Print Assumptions C11_strict_rejects_truncation_byron.

(* a variable-length field is accepted only with the value of its groups, which is then a u64 *)
Theorem C11_strict_rejects_overflow : forall bs acc r v k, varnat_decode_go bs acc r = Some (v, k) ->
  v = gval bs acc (k - r) /\ gval bs acc (k - r) < two64.
Proof.
  intros bs acc r v k H. apply decode_go_inv in H as (hi & b & tail & -> & _ & Hb & -> & Hv & ->).
  replace (r + S (length hi) - r)%nat with (length hi + 1)%nat by lia.
  rewrite gval_app. cbn [gval]. rewrite N.mod_small by exact Hb. split; [reflexivity|exact Hv].
Qed.
Print Assumptions C11_strict_rejects_overflow.

(* empty input: an error (the repaired behaviour; it was an index panic) *)
Theorem C11_strict_rejects_empty : forall ig, from_bytes_internal ig [] = Err.
Proof. reflexivity. Qed.
Print Assumptions C11_strict_rejects_empty.

Theorem C11_varnat : forall n rest, n < two64 ->
  varnat_decode (varnat_encode n ++ rest) = Some (n, length (varnat_encode n)).
Proof. exact varnat_roundtrip. Qed.
Print Assumptions C11_varnat.

Theorem C11_varnat_canonical : forall bs v k, bytes_ok bs -> varnat_padded bs = false ->
  varnat_decode bs = Some (v, k) -> varnat_encode v = firstn k bs.
Proof. exact varnat_decode_canonical. Qed.
Print Assumptions C11_varnat_canonical.

Theorem C11_byron_roundtrip : forall b, wf_byron b -> byron_from_bytes crc32 (byron_encode crc32 b) = Ok b.
Proof. exact (byron_roundtrip crc32 crc32_range). Qed.
Print Assumptions C11_byron_roundtrip.

(* the same for ANY checksum function with u64 range (the CRC's value does not matter) *)
Theorem C11_byron_roundtrip_any_crc : forall crc : bytes -> N, (forall bs, crc bs < two64) ->
  forall b, wf_byron b -> byron_from_bytes crc (byron_encode crc b) = Ok b.
Proof. exact byron_roundtrip. Qed.
Print Assumptions C11_byron_roundtrip_any_crc.

Theorem C11_crc_table_standard : crc_table = map (fun i => crc_entry (N.of_nat i)) (seq 0 256).
Proof. exact crc_table_standard. Qed.
Print Assumptions C11_crc_table_standard.

(* Base58: every non-empty byte string; the empty one is the exception of this algorithm. *)
Theorem C11_base58 : forall bs, bytes_ok bs -> bs <> [] -> base58_decode (base58_encode bs) = Ok bs.
Proof. exact base58_roundtrip. Qed.
Print Assumptions C11_base58.

Theorem C11_base58_empty_refuted : base58_decode (base58_encode []) = Ok [0].
Proof. vm_compute. reflexivity. Qed.
Print Assumptions C11_base58_empty_refuted.

Theorem C11_byron_base58 : forall b, wf_byron b -> byron_from_base58 (byron_to_base58 b) = Ok b.
Proof.
  intros b Hwf. unfold byron_from_base58, byron_to_base58. rewrite base58_roundtrip.
  - apply (byron_roundtrip crc32 crc32_range b Hwf).
  - apply byron_encode_ok, Hwf.
  - destruct (byron_encode_head crc32 b) as [tl ->]. discriminate.
Qed.
Print Assumptions C11_byron_base58.

(* Bech32, for every prefix: the crate (bech32 0.7.3) is modelled in Addr/Bech32.v and its
   round-trip law is a THEOREM (no premise). *)
Theorem C11_bech32 : forall prefix a s, wf_address a ->
  to_bech32 Bech32.b32_encode prefix a = Ok s -> from_bech32 Bech32.b32_decode s = Ok a.
Proof. exact bech32_roundtrip_concrete. Qed.
Print Assumptions C11_bech32.

(* with the default (CIP5) prefix the text always exists *)
Theorem C11_bech32_default_total : forall a p, default_prefix a = Ok p ->
  exists s, to_bech32 Bech32.b32_encode None a = Ok s.
Proof. exact to_bech32_default_total. Qed.
Print Assumptions C11_bech32_default_total.

(* the round trip of C11_bech32, for ANY implementation of the two crate calls that satisfies the law *)
Theorem C11_bech32_any_codec : forall (b32_encode : list N -> bytes -> option (list N))
                                      (b32_decode : list N -> option (list N * bytes)),
  (forall hrp data s, bytes_ok data -> b32_encode hrp data = Some s -> exists hrp', b32_decode s = Some (hrp', data)) ->
  forall prefix a s, wf_address a ->
  to_bech32 b32_encode prefix a = Ok s -> from_bech32 b32_decode s = Ok a.
Proof. exact bech32_roundtrip. Qed.
Print Assumptions C11_bech32_any_codec.

(* the crate's law itself: every valid HRP (upper-case ones are lower-cased), EVERY byte string, no length limit *)
Theorem C11_bech32_codec_roundtrip : forall hrp bs s, bytes_ok bs -> Bech32.b32_encode hrp bs = Some s ->
  exists c, check_hrp hrp = Ok c /\ Bech32.b32_decode s = Some (hrp_lower c hrp, bs).
Proof. exact b32_roundtrip. Qed.
Print Assumptions C11_bech32_codec_roundtrip.

Theorem C11_bech32_decode_encode : forall hrp data s, Forall (fun d => d < 32) data -> encode hrp data = Ok s ->
  exists c, check_hrp hrp = Ok c /\ decode s = Ok (hrp_lower c hrp, data).
Proof. exact decode_encode. Qed.
Print Assumptions C11_bech32_decode_encode.

Theorem C11_bech32_checksum_valid : forall hrp data,
  polymod (hrp_expand hrp ++ data ++ create_checksum hrp data) = 1.
Proof. exact checksum_valid. Qed.
Print Assumptions C11_bech32_checksum_valid.

Theorem C11_bech32_polymod_linear : forall c1 c2 v1 v2,
  polymod_step (N.lxor c1 c2) (N.lxor v1 v2) = N.lxor (polymod_step c1 v1) (polymod_step c2 v2).
Proof. exact step_linear. Qed.
Print Assumptions C11_bech32_polymod_linear.

Theorem C11_bech32_base32_roundtrip : forall bs, bytes_ok bs -> from_base32 (to_base32 bs) = Ok bs.
Proof. exact base32_roundtrip. Qed.
Print Assumptions C11_bech32_base32_roundtrip.

(* rejections: mixed case, characters outside the charset, one wrong symbol, a wrong HRP letter *)
Theorem C11_bech32_rejects_mixed_case : forall s sep lo up, rfind 49 s = Some sep ->
  In lo (skipn (S sep) s) -> In up (skipn (S sep) s) -> is_lower lo = true -> is_upper up = true ->
  decode s = Err.
Proof. exact decode_rejects_mixed_case. Qed.
Print Assumptions C11_bech32_rejects_mixed_case.

Theorem C11_bech32_rejects_bad_char : forall s sep c, rfind 49 s = Some sep -> In c (skipn (S sep) s) ->
  (forall case, decode_char case c = Err) -> decode s = Err.
Proof. exact decode_rejects_bad_char. Qed.
Print Assumptions C11_bech32_rejects_bad_char.

Theorem C11_bech32_detects_one_wrong_symbol : forall hrp a e e' z, e < 32 -> e' < 32 -> e <> e' ->
  verify_checksum hrp (a ++ e :: z) = true -> verify_checksum hrp (a ++ e' :: z) = false.
Proof. exact verify_rejects_symbol_substitution. Qed.
Print Assumptions C11_bech32_detects_one_wrong_symbol.

Theorem C11_bech32_detects_wrong_hrp_letter : forall h1 x x' h2 data, x / 32 = x' / 32 -> x mod 32 <> x' mod 32 ->
  verify_checksum (h1 ++ x :: h2) data = true -> verify_checksum (h1 ++ x' :: h2) data = false.
Proof. exact verify_rejects_hrp_substitution. Qed.
Print Assumptions C11_bech32_detects_wrong_hrp_letter.

(* BIP-173 test vector "a12uel5l" *)
Check (eq_refl : encode [97] [] = Ok [97; 49; 50; 117; 101; 108; 53; 108]).

(* Embedded decoding: total and verbatim, at full strength outside narrow known classes. *)
Definition C11_embedded_total_full : Prop := forall data, exists a, embedded_decode data = Ok a.
Definition C11_embedded_verbatim_full : Prop :=
  forall data a, bytes_ok data -> embedded_decode data = Ok a -> to_bytes a = data.

Theorem C11_embedded_total : forall data, known_huge_length data = false -> exists a, embedded_decode data = Ok a.
Proof. exact embedded_total. Qed.
Print Assumptions C11_embedded_total.

Theorem C11_embedded_total_refuted : ~ C11_embedded_total_full.
Proof.
  intros H. destruct (H w_huge) as [a Ha]. destruct embedded_total_refuted as [E _]. congruence.
Qed.
Print Assumptions C11_embedded_total_refuted.

Theorem C11_embedded_verbatim : forall data a, bytes_ok data ->
  known_trailing data = false -> known_padded_pointer data = false ->
  known_noncanonical_byron data = false ->
  embedded_decode data = Ok a -> to_bytes a = data.
Proof. exact embedded_verbatim. Qed.
Print Assumptions C11_embedded_verbatim.

Theorem C11_embedded_verbatim_refuted :
  ~ C11_embedded_verbatim_full /\
  (verbatim_fails w_trailing /\ known_trailing w_trailing = true) /\
  (verbatim_fails w_padded /\ known_padded_pointer w_padded = true) /\
  (verbatim_fails w_byron /\ known_noncanonical_byron w_byron = true).
Proof.
  split.
  - intros H. destruct embedded_verbatim_refuted_trailing as [[Hok [a [Ha Hne]]] _].
    apply Hne. exact (H _ _ Hok Ha).
  - exact (conj embedded_verbatim_refuted_trailing
             (conj embedded_verbatim_refuted_padded embedded_verbatim_refuted_byron)).
Qed.
Print Assumptions C11_embedded_verbatim_refuted.

(* the trailing-bytes class in general: every Shelley-era address followed by anything *)
Theorem C11_lenient_drops_trailing : forall a junk, wf_address a -> shelley_kind a = true ->
  embedded_decode (to_bytes a ++ junk) = Ok a.
Proof.
  intros a junk Hwf Hk. unfold embedded_decode. rewrite parse_written, Hk by exact Hwf. reflexivity.
Qed.
Print Assumptions C11_lenient_drops_trailing.

(* whatever either parser returns is a well-formed value, hence parse . write . parse = parse *)
Theorem C11_parsed_wf : forall ig data a, bytes_ok data -> N.of_nat (length data) < 4611686018427387904 ->
  from_bytes_internal ig data = Ok a -> wf_address a /\ from_bytes (to_bytes a) = Ok a.
Proof. intros ig data a H1 H2 H3. split; [exact (parsed_wf ig data a H1 H2 H3)|exact (reparse_same ig data a H1 H2 H3)]. Qed.
Print Assumptions C11_parsed_wf.

(* the judge of the correspondence run, applied to the model's own observations of ANY byte string,
   reports either Holds or one of the known classes - never an unknown failure; on written
   addresses it reports Holds *)
Theorem C11_judge_accepts_model : forall data, bytes_ok data -> N.of_nat (length data) < 4611686018427387904 ->
  known_only (judge_dec data (model_dec data)).
Proof. exact judge_dec_accepts_model. Qed.
Print Assumptions C11_judge_accepts_model.

Theorem C11_judge_holds_on_written : forall a, wf_address a -> N.of_nat (length (to_bytes a)) < 4611686018427387904 ->
  judge_dec (to_bytes a) (model_dec (to_bytes a)) = Holds.
Proof.
  intros a Hwf HL. unfold judge_dec.
  rewrite (judge_strict_holds _ a (to_bytes_ok a Hwf) HL (address_roundtrip a Hwf)).
  unfold judge_dec_embedded, model_dec. cbn [d_embedded d_emb_bytes].
  rewrite (C11_embedded_roundtrip a Hwf), bytes_eqb_refl. reflexivity.
Qed.
Print Assumptions C11_judge_holds_on_written.

(* non-vacuity of the premises *)
Example C11_verbatim_premises_satisfiable :
  let data := 65 :: repeat 9 28 ++ [129; 0; 2; 3] in
  bytes_ok data /\ known_trailing data = false /\ known_padded_pointer data = false /\
  known_noncanonical_byron data = false /\
  embedded_decode data = Ok (Ptr 1 (KeyHash (repeat 9 28)) (mkPtr 128 2 3)).
Proof. exact embedded_verbatim_nonvacuous. Qed.

Example C11_wf_satisfiable :
  wf_address (Ptr 15 (ScriptHash (repeat 255 28)) (mkPtr 18446744073709551615 0 128)) /\
  wf_address (Byron (mkByron (repeat 1 28) (Some [1; 2; 3]) (Some 4294967295) ATRedeem)).
Proof.
  split.
  - split; [lia|]. split; [split; [reflexivity|repeat constructor]|]. unfold wf_pointer, two64; cbn; lia.
  - split; [reflexivity|]. split; [repeat constructor|]. split; [split; [repeat constructor|cbn; lia]|].
    unfold two32; cbn; lia.
Qed.

(* test vectors of the Rust suite *)
Check (eq_refl : varnat_decode [129; 255; 255; 255; 255; 255; 255; 255; 255; 255; 127] = None).
