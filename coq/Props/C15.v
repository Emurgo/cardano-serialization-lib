(* C15 — Stand-alone fee functions equal the ledger definitions.
   The rational arithmetic behind the statements ([val], the closed form of the tiered fee) is in Fees/FeesProofs.v. *)
From CSL Require Import Base.Prelude Fees.Rational Fees.Fees Fees.TierSpec Fees.FeesProofs.
From Coq Require Import QArith.
Local Open Scope Z_scope.

(* linear fee = constant + coefficient * size, or an error when it does not fit in 64 bits *)
Theorem C15_linear : forall size coeff const : Z,
  0 <= size -> 0 <= coeff -> 0 <= const ->
  min_fee_for_size size coeff const = exact_or_error (spec_linear_fee size coeff const).
Proof.
  intros size coeff const Hs Hc Hk.
  unfold min_fee_for_size, zchecked_mul, zchecked_add, exact_or_error, spec_linear_fee, bind.
  rewrite (Z.mul_comm coeff size).
  destruct (Z.ltb_spec (size * coeff) two64Z); [reflexivity|].
  destruct (Z.ltb_spec (size * coeff + const) two64Z); [lia | reflexivity].
Qed.
Print Assumptions C15_linear.

(* script fee = ceiling (mem * mem_price + steps * step_price), for all prices with positive
   denominators (zero numerators and non-reduced fractions included), or an error *)
Theorem C15_ex_units_ceil : forall mem steps mpn mpd spn spd : Z,
  0 <= mem -> 0 <= steps -> 0 <= mpn -> 0 < mpd -> 0 <= spn -> 0 < spd ->
  ex_units_ceil_cost mem steps mpn mpd spn spd =
  exact_or_error (spec_script_fee mem steps (Qmake mpn (Z.to_pos mpd)) (Qmake spn (Z.to_pos spd))).
Proof.
  intros mem steps mpn mpd spn spd Hm Hs H1 H2 H3 H4. unfold ex_units_ceil_cost, spec_script_fee.
  rewrite (rnew_good mpn mpd), (rnew_good spn spd) by assumption. apply ceil_val.
  eapply val_ext; [apply val_radd; (apply val_rmul_int; [apply val_mk|]); assumption|].
  rewrite !qmake_div by assumption. ring.
Qed.
Print Assumptions C15_ex_units_ceil.

(* the execution units that are priced are the exact sums over all redeemers, or an error *)
Theorem C15_total_ex_units : forall l, all_nonneg l ->
  total_ex_units l 0 0 = Ok (sum_fst l, sum_snd l) \/ total_ex_units l 0 0 = Err.
Proof.
  intros l H. rewrite (total_ex_units_exact l H 0 0) by lia.
  destruct (_ && _); [left; reflexivity|]. destruct l; [left | right]; reflexivity.
Qed.
Print Assumptions C15_total_ex_units.

(* reference-script fee = floor of the ledger's tiered recursion (25 KiB tiers, factor 1.2),
   for ALL sizes (below 2^32 tiers, the range of the `as u32` cast) and all prices *)
Theorem C15_tier_closed_form : forall size pn pd : Z,
  0 <= size -> size / 25600 < 4294967296 -> 0 <= pn -> 0 < pd ->
  min_ref_script_fee size pn pd =
  exact_or_error (spec_ref_script_fee size (Qmake pn (Z.to_pos pd))).
Proof.
  intros size pn pd Hs Hk Hpn Hpd. unfold min_ref_script_fee. rewrite (rnew_good 12 10), (rnew_good pn pd) by lia.
  apply tier_fee_exact; [|exact Hs | exact Hk].
  eapply val_ext; [apply val_mk; assumption | symmetry; apply qmake_div, Hpd].
Qed.
Print Assumptions C15_tier_closed_form.

(* the spec recursion evaluated on one point, so that it cannot be weakened silently *)
Check (eq_refl : spec_go 1 0 1 0 = (0 + inject_Z 0 * 1)%Q).
