(* C18 — Witness requirements are complete, unique, and sized exactly.
   The statements of the property; the theory behind them is in Witnesses/WitnessProofs.v and Witnesses/FakeSize.v.
   Model: Witnesses/Witnesses.v (count_needed_vkeys and its eight sources, bootstrap set, combined native /
   Plutus script collection with de-duplication, PlutusWitnesses::collect, get_reference_inputs, the
   witness set of build_tx), specification: Witnesses/WitnessSpec.v (ledger witsVKeyNeeded table over the
   19 Conway certificate kinds, Babbage script-availability rule, size functions, judge).
   All quantifiers are unbounded: [t : tx_ops] is an arbitrary history of calls on the inputs builder, the
   collateral builder, the five sub-builders and the transaction builder, with arbitrary (overlapping) key
   hashes, repeated scripts / datums / redeemers, in any order.
   Premises (each decidable on the history, each shown satisfiable below):
     all_consistent t   an outpoint that is added again is added with the same owner
                        (otherwise: known class C18-input-readded-with-other-owner, refuted below)
     known_genesis t = false   outside the genesis-delegation class (C18-genesis-delegation-witness)
     collateral_plain t collateral inputs are key / Byron locked (the ledger's rule)
     no_mixed_supply t  no script is handed over inline by one item and by reference by another
                        (otherwise: known class C18-script-inline-and-by-reference) *)
From CSL Require Import Base.Prelude Cbor.Head Witnesses.Witnesses Witnesses.WitnessSpec Witnesses.WitnessProofs Witnesses.FakeSize.
From Coq Require Import Permutation.
Local Open Scope N_scope.

(* the builder counts exactly the distinct keys that have to sign, whatever overlaps between the sources *)
Theorem C18_signers_union : forall t : tx_ops,
  all_consistent t = true -> known_genesis t = false ->
  count_needed_vkeys t = N.of_nat (length (required_keys_spec t)) /\
  NoDup (needed_vkeys t) /\
  Permutation (needed_bootstraps t) (required_boots_spec t).
Proof.
  intros t HC HG. split; [exact (signers_union t HC HG) |]. split; [apply set_of_nodup | exact (boots_spec t HC)].
Qed.
Print Assumptions C18_signers_union.

(* per certificate kind (Conway CDDL 0..18 and anything else), for every credential and owner list: the keys
   counted are the key credentials of the ledger table (with the genesis key, i.e. the repaired kind 5), and a
   script witness is demanded exactly when the table names a script credential *)
Theorem C18_cert_table : forall (c : cert) (k : key),
  (In k (witness_keys_for_cert_gen true c) <-> In k (creds_keys (cert_witness_creds c))) /\
  (c_kind c <> 5 -> witness_keys_for_cert c = witness_keys_for_cert_gen true c) /\
  cert_has_required_script_witness c = existsb cred_is_script (cert_witness_creds c).
Proof.
  intros c k. split; [apply cert_table_keys |]. split; [apply witness_keys_not_genesis | apply cert_table_scripts].
Qed.
Print Assumptions C18_cert_table.

(* every script-locked input, policy, certificate, withdrawal, vote and proposal has its script at hand exactly
   once (one copy in the de-duplicated witness set, or its declared reference input in the body and then no copy
   in the witness set), with its datum and redeemer where the Plutus witness carries them *)
Theorem C18_scripts_once : forall t : tx_ops,
  consistent_owners (t_inputs t) = true ->
  scripts_available t (model_emitted t) = true /\
  (collateral_plain t = true -> no_mixed_supply t = true -> scripts_not_twice t (model_emitted t) = true) /\
  (collateral_plain t = true -> forall s, In s (ws_native_scripts t) \/ In s (ws_plutus_scripts t) -> In s (inline_hashes t)).
Proof.
  intros t HC. split; [exact (scripts_available_model t HC) |]. split.
  - intros HP HM. exact (scripts_not_twice_model t HC HP HM).
  - intros HP s [H | H]; [exact (native_emitted_inline t s HC HP H) | exact (plutus_emitted_inline t s HC HP H)].
Qed.
Print Assumptions C18_scripts_once.

(* the body's reference inputs: the source references that are not spent and the explicit ones (not spent, when
   config.deduplicate_explicit_ref_inputs_with_regular_inputs is set), without duplicates *)
Theorem C18_refs_declared : forall (t : tx_ops) (r : oref),
  (In r (body_reference_inputs t) <->
     (In r (source_ref_inputs t) /\ ~ In r (body_inputs t)) \/
     (In r (t_reference_inputs t) /\ (t_dedup_explicit_refs t = true -> ~ In r (body_inputs t)))) /\
  NoDup (body_reference_inputs t) /\
  (In r (source_ref_inputs t) -> ref_available (model_emitted t) r = true).
Proof.
  intros t r. split; [apply refs_declared |]. split; [apply set_of_nodup | apply ref_avail_model].
Qed.
Print Assumptions C18_refs_declared.

(* the size clause: the bytes reserved for signatures equal the bytes of the real signatures; and in general
   the clause 0 <= predicted - signed < |one key witness| holds exactly when the counts agree *)
Theorem C18_size_exact : forall (tb : attr_table) (t : tx_ops),
  (all_consistent t = true -> known_genesis t = false -> predicted_sig_bytes tb t = signed_sig_bytes tb t) /\
  (forall n m b, (vkeys_field_size m + b <= vkeys_field_size n + b /\
                  vkeys_field_size n + b < vkeys_field_size m + b + vkey_witness_size) <-> n = m) /\
  vkey_witness_size = 101.
Proof.
  intros tb t. split; [exact (size_exact tb t) |]. split; [exact size_clause_iff_count | reflexivity].
Qed.
Print Assumptions C18_size_exact.

(* mock witnesses have the size of real ones: the encodings depend on lengths only, and the size functions of
   the specification are the lengths of these encodings *)
Theorem C18_fake_witness_sizes :
  (forall ws, Forall vkw_ok ws -> lenN (enc_vkeys_field ws) = vkeys_field_size (lenN ws)) /\
  (forall fake real, Forall vkw_ok fake -> Forall vkw_ok real -> length fake = length real ->
     length (enc_vkeys_field fake) = length (enc_vkeys_field real)) /\
  (forall ws, Forall bootw_ok ws -> lenN (enc_boots_field ws) = boots_field_size (map (fun w => lenN (bw_attr w)) ws)) /\
  (forall fake real, Forall bootw_ok fake -> Forall bootw_ok real ->
     map (fun w => lenN (bw_attr w)) fake = map (fun w => lenN (bw_attr w)) real ->
     length (enc_boots_field fake) = length (enc_boots_field real)).
Proof.
  split; [exact enc_vkeys_field_length |]. split; [exact fake_vkeys_same_size |].
  split; [exact enc_boots_field_length | exact fake_boots_same_size].
Qed.
Print Assumptions C18_fake_witness_sizes.

(* the executable statement used by the check accepts what the model builds *)
Theorem C18_judge_accepts_model : forall (hr : hash_rank) (tb : attr_table) (t : tx_ops),
  wits_match t = true -> all_consistent t = true -> collateral_plain t = true -> no_mixed_supply t = true ->
  known_genesis t = false ->
  judge_hr hr t {| o_predicted := predicted_sig_bytes tb t; o_signed := signed_sig_bytes tb t; o_emitted := model_emitted_hr hr t |} = Holds.
Proof. exact judge_accepts_model. Qed.
Print Assumptions C18_judge_accepts_model.

(* the original code (before the four fix commits): signers forgotten or counted in excess *)
Theorem C18_original_refuted :
  (exists t, all_consistent t = true /\ (length (needed_vkeys_gen false true true true t) < length (required_keys_spec t))%nat) /\
  (exists t, all_consistent t = true /\ (length (needed_vkeys_gen true false true true t) < length (required_keys_spec t))%nat) /\
  (exists t, all_consistent t = true /\ (length (required_keys_spec t) + 2 <= length (needed_vkeys_gen true false true true t))%nat) /\
  (exists t, all_consistent t = true /\ (length (needed_vkeys_gen true true false true t) < length (required_keys_spec t))%nat) /\
  (exists t, all_consistent t = true /\ (length (needed_bootstraps_gen false t) < length (required_boots_spec t))%nat).
Proof.
  split; [exact votes_original_refuted |]. split; [exact (proj1 mint_original_refuted) |].
  split; [exact (proj2 mint_original_refuted) |]. split; [exact proposals_original_refuted | exact collateral_boots_original_refuted].
Qed.
Print Assumptions C18_original_refuted.

(* the two premises of C18_signers_union cannot be dropped: the known classes *)
Theorem C18_signers_union_refuted :
  (exists t, all_consistent t = true /\ known_genesis t = true /\
     count_needed_vkeys t < N.of_nat (length (required_keys_spec t))) /\
  (exists t, all_consistent t = false /\ known_genesis t = false /\
     N.of_nat (length (required_keys_spec t)) < count_needed_vkeys t).
Proof. split; [exact signers_union_refuted_genesis | exact signers_union_refuted_readded]. Qed.
Print Assumptions C18_signers_union_refuted.

(* the statement of the property without premises; the known classes above (C18_signers_union_refuted) are
   counterexamples to its conclusion *)
Definition C18_full : Prop := forall (tb : attr_table) (t : tx_ops),
  wits_match t = true ->
  judge t {| o_predicted := predicted_sig_bytes tb t; o_signed := signed_sig_bytes tb t; o_emitted := model_emitted t |} = Holds.

(* non-vacuity: a history with overlapping keys in every source, a repeated inline script, a reference script,
   a Plutus input with datum, Byron input and collateral satisfies every premise; no genesis delegation implies
   the genesis class is empty *)
Definition sample : tx_ops :=
  {| t_inputs := [InAdd 3 (OKey 1); InAdd 1 (OByron 0); InAdd 2 (ONative (NSInline 2 [1; 4] None));
                  InAdd 7 (OPlutus {| pw_script := PSInline 1000 (Some [4]); pw_datum := Some (DInline 0); pw_red := 1 |});
                  InAdd 3 (OKey 1); InSigner 5];
     t_collateral := [InAdd 9 (OKey 1); InAdd 10 (OByron 0)];
     t_certs := [({| c_kind := 7; c_cred := CK 1; c_keys := []; c_aux := 0 |}, None);
                 ({| c_kind := 3; c_cred := CK 4; c_keys := [1; 6]; c_aux := 0 |}, None);
                 ({| c_kind := 16; c_cred := CS 2; c_keys := []; c_aux := 1 |}, Some (SWNative (NSInline 2 [1; 4] (Some [4]))))];
     t_withdrawals := [(CK 1, None); (CS 1001, Some (SWPlutus {| pw_script := PSRef 111 1001 (Some [6]); pw_datum := None; pw_red := 0 |}))];
     t_votes := [({| v_kind := 1; v_cred := CK 5 |}, None)];
     t_proposals := [{| p_id := 0; p_scripted := false; p_wit := None |}];
     t_mint := [{| mo_wit := MNative (NSRef 103 3 (Some [7])); mo_asset := 0; mo_amount := 5%Z |};
                {| mo_wit := MNative (NSRef 103 3 (Some [7])); mo_asset := 1; mo_amount := (-2)%Z |}];
     t_required_signers := [1; 8]; t_reference_inputs := [120; 3]; t_extra_datums := [0; 2];
     t_dedup_explicit_refs := true |}.
Example premises_satisfiable :
  wits_match sample = true /\ all_consistent sample = true /\ collateral_plain sample = true /\
  no_mixed_supply sample = true /\ known_genesis sample = false /\
  count_needed_vkeys sample = 6 /\ length (script_items sample) = 5%nat.
Proof. vm_compute. repeat split. Qed.
Check no_genesis_not_known : forall t, no_genesis_delegation t = true -> known_genesis t = false.
