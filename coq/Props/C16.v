(* C16 — Sets stay duplicate-free, asset maps canonical, and builds deterministic.
   The statements of the property, each a few lines from the theory in Sets/*Proofs.v.
   Models: Sets/DedupVec.v (the seven vector + index set types, their decoders and JSON form),
   Sets/CanonOrder.v (AssetName / PolicyID orders, Assets / MultiAsset / MintBuilder as ordered maps),
   Sets/WitnessSetters.v (typed setters of the witness set, the builder's witness set, reference inputs, one build).
   All quantifiers are unbounded: every history of API calls, every wire frame, every element type with a
   decidable equality, every insertion order. *)
From CSL Require Import Base.Prelude Cbor.Head Sets.DedupVec Sets.DedupVecProofs Sets.CanonOrder Sets.CanonOrderProofs
  Sets.WitnessSetters Sets.WitnessSettersProofs.
From Coq Require Import Permutation.
Local Open Scope N_scope.

(* whatever the history of add / add_move / extend / contains calls: the vector has no duplicates, and the
   membership index holds exactly the vector's elements (the two fields never drift apart) *)
Theorem C16_nodup : forall (A : Type) (eqb : A -> A -> bool), (forall x y, eqb x y = true <-> x = y) ->
  forall (h : list (op A)),
    NoDup (items (run eqb empty h)) /\
    (forall x, In x (index (run eqb empty h)) <-> In x (items (run eqb empty h))).
Proof. intros A eqb E h. exact (wf_run eqb E h empty wf_empty). Qed.
Print Assumptions C16_nodup.

(* the vector is the list of first occurrences of everything that was offered, in that order (spec [first_occ] is
   written without reference to the code); nothing offered is lost *)
Theorem C16_first_insertion_order : forall (A : Type) (eqb : A -> A -> bool), (forall x y, eqb x y = true <-> x = y) ->
  forall (h : list (op A)),
    items (run eqb empty h) = first_occ eqb (offered h) /\
    (forall x, In x (items (run eqb empty h)) <-> In x (offered h)).
Proof.
  intros A eqb E h. split; [apply (first_insertion_order eqb E)|].
  intros x. rewrite (nothing_lost eqb E empty h x wf_empty). cbn. tauto.
Qed.
Print Assumptions C16_first_insertion_order.

(* add returns true exactly for an element that was not there; contains agrees with the vector; and the
   booleans a caller sees along a whole history are those of the specification walk *)
Theorem C16_add_reports_freshness : forall (A : Type) (eqb : A -> A -> bool), (forall x y, eqb x y = true <-> x = y) ->
  forall (h : list (op A)) (x : A),
    let s := run eqb empty h in
    (snd (add eqb s x) = true <-> ~ In x (items s)) /\
    (contains eqb s x = true <-> In x (items s)) /\
    observe eqb empty h = spec_bools eqb [] h.
Proof.
  intros A eqb E h x s. assert (W : wf s) by (apply (wf_run eqb E), wf_empty).
  split; [apply (add_returns_fresh eqb E _ _ W)|]. split.
  - rewrite (contains_spec eqb E _ _ W). apply (mem_In eqb E).
  - apply (observe_spec eqb E); [apply wf_empty | intros y; cbn; tauto].
Qed.
Print Assumptions C16_add_reports_freshness.

(* decoding bytes that repeat an element (any of the seven decoders, any tags / length form / break placement):
   a successful decode yields the first occurrences of the elements read, duplicate-free, and stays so under any later history;
   reading JSON is the same function *)
Theorem C16_decode_with_repeats : forall (A : Type) (eqb : A -> A -> bool), (forall x y, eqb x y = true <-> x = y) ->
  forall (k : kind_cfg) (f : frame A) (s : dset A), decode eqb k f = Ok s ->
    exists elems, frame_elems k f = Ok elems /\ items s = first_occ eqb elems /\ NoDup (items s) /\
      forall h, NoDup (items (run eqb s h)) /\ items (run eqb s h) = first_occ eqb (items s ++ offered h).
Proof.
  intros A eqb E k f s D. destruct (decode_ok eqb k f s D) as [elems [F ->]].
  exists elems. split; [exact (wire_elems_frame k f elems F)|]. split; [apply (items_from_vec eqb E)|]. split; [apply (wf_from_vec eqb E)|].
  intros h. split; [apply (nodup_run eqb E), (wf_from_vec eqb E) | apply (first_insertion_order_from eqb E), (wf_from_vec eqb E)].
Qed.
Print Assumptions C16_decode_with_repeats.
Theorem C16_json_with_repeats : forall (A : Type) (eqb : A -> A -> bool), (forall x y, eqb x y = true <-> x = y) ->
  forall (v : list A), items (of_json eqb v) = first_occ eqb v /\ NoDup (items (of_json eqb v)) /\
    of_json eqb (to_json (of_json eqb v)) = of_json eqb (first_occ eqb v).
Proof.
  intros A eqb E v. split; [apply (items_from_vec eqb E)|]. split; [apply (wf_from_vec eqb E)|].
  unfold of_json, to_json. now rewrite (items_from_vec eqb E).
Qed.
Print Assumptions C16_json_with_repeats.

(* what is serialised: tag 258, the number of elements, the element encodings in vector order — no encoding twice *)
Theorem C16_serialised_nodup : forall (A : Type) (eqb : A -> A -> bool), (forall x y, eqb x y = true <-> x = y) ->
  forall (enc : A -> bytes), (forall x y, enc x = enc y -> x = y) ->
  forall (h : list (op A)),
    let s := run eqb empty h in
    ser_set enc s = encode_head 6 258 ++ encode_head 4 (N.of_nat (length (items s))) ++ concat (map enc (items s)) /\
    NoDup (map enc (items s)).
Proof.
  intros A eqb E enc Inj h s. split; [reflexivity|].
  apply (serialised_nodup enc s Inj). apply (wf_run eqb E), wf_empty.
Qed.
Print Assumptions C16_serialised_nodup.
(* the premises are satisfiable: byte strings with their own equality, encoded by themselves *)
Example C16_nodup_instance :
  items (run bytes_eqb empty [OAdd [1]; OAdd [2]; OAdd [1]; OExtend [[3]; [2]; [3]]; OAddMove [1]]) = [[1]; [2]; [3]].
Proof. reflexivity. Qed.
Example C16_premise_bytes : forall x y, bytes_eqb x y = true <-> x = y.
Proof. exact bytes_eqb_spec. Qed.

(* the AssetName order (length first, then bytewise) IS the RFC 7049 3.9 canonical order of the ENCODED keys
   (for every length; in particular for the at most 32 bytes of an asset name) *)
Theorem C16_asset_order_is_canonical : forall a b : bytes,
  name_ltb a b = canon_ltb (enc_bstr a) (enc_bstr b).
Proof. exact name_order_is_canonical. Qed.
Print Assumptions C16_asset_order_is_canonical.
Theorem C16_policy_order_is_canonical : forall a b : bytes, length a = length b ->
  lex_ltb a b = canon_ltb (enc_bstr a) (enc_bstr b).
Proof. exact policy_order_is_canonical. Qed.
Print Assumptions C16_policy_order_is_canonical.
(* and the RFC 8949 4.2.1 deterministic order (plain bytewise on the encoded keys), for keys below 256 bytes *)
Theorem C16_asset_order_is_deterministic : forall a b : bytes,
  N.of_nat (length a) < 256 -> N.of_nat (length b) < 256 -> name_ltb a b = det_ltb (enc_bstr a) (enc_bstr b).
Proof. intros a b Ha Hb. unfold name_ltb, det_ltb, enc_bstr. now rewrite head2_lex. Qed.
Print Assumptions C16_asset_order_is_deterministic.
Example C16_asset_order_example : name_ltb [255] [0; 0] = true /\ lex_ltb [255] [0; 0] = false.
Proof. split; reflexivity. Qed.

(* every MultiAsset reachable by set_asset / insert: policies and names strictly ascending in canonical key order,
   holding exactly what the history wrote *)
Theorem C16_bundle_canonical : forall h : list ma_op,
  Forall (fun o => length (ma_op_policy o) = 28%nat) h ->
  sorted_by_enc (ma_run h) = true /\ forallb (fun e => sorted_by_enc (snd e)) (ma_run h) = true /\
  (forall p n, lookup2 (ma_run h) p n = ma_val h p n) /\
  (forall p, is_some (sm_lookup lex_ltb p (ma_run h)) = ma_present h p).
Proof.
  intros h L. destruct (ma_canonical h L) as [A B]. repeat split; try assumption.
  - apply ma_content. - apply ma_presence.
Qed.
Print Assumptions C16_bundle_canonical.
Example C16_bundle_premise : Forall (fun o => length (ma_op_policy o) = 28%nat) [MSetAsset (repeat 7 28) [1] 5].
Proof. repeat constructor. Qed.

(* order independence: the same (policy, name, quantity) triples inserted in any order give the same bytes *)
Theorem C16_order_independent : forall es es' : list (bytes * bytes * N),
  Permutation es es' -> NoDup (map fst es) ->
  ser_multiasset (ma_run (set_ops es)) = ser_multiasset (ma_run (set_ops es')).
Proof. intros es es' P ND. now rewrite (ma_order_independent es es' P ND). Qed.
Print Assumptions C16_order_independent.
Example C16_order_independent_premise : NoDup (map fst [([1], [2], 3); ([1], [3], 4)]).
Proof. repeat constructor; cbn; intuition discriminate. Qed.

(* a strictly ordered map is determined by its content: sortedness + content pin down the bytes *)
Theorem C16_sorted_map_unique : forall (V : Type) (m1 m2 : list (bytes * list (bytes * V))),
  wf2 m1 -> wf2 m2 -> (forall p n, lookup2 m1 p n = lookup2 m2 p n) -> m1 = m2.
Proof. intros V. exact (@ext2 V). Qed.
Print Assumptions C16_sorted_map_unique.

(* decoding a bundle whose keys arrive in any order re-serialises in canonical order (a repeated key is an error) *)
Theorem C16_decoded_bundle_ordered : forall l m, ma_of_wire l [] = Ok m ->
  sm_sorted lex_ltb m = true /\ Forall (fun e => sm_sorted name_ltb (snd e) = true) m.
Proof. intros l m H. exact (ma_of_wire_inv l [] m inv2_nil H). Qed.
Print Assumptions C16_decoded_bundle_ordered.

(* the mint the builder emits *)
Theorem C16_mint_sorted : forall h : list mint_op,
  Forall (fun o => length (fst (mint_op_key o)) = 28%nat) h ->
  sorted_by_enc (mb_run h) = true /\
  forallb (fun e => sorted_by_enc (snd e) && negb (match snd e with [] => true | _ => false end)) (mb_run h) = true /\
  (forall p n, lookup2 (mb_run h) p n = mint_val h p n).
Proof. intros h L. destruct (mint_canonical h L) as [A B]. repeat split; try assumption. apply mint_content. Qed.
Print Assumptions C16_mint_sorted.
Theorem C16_mint_order_independent : forall h h' : list mint_op,
  Permutation h h' -> forallb is_add h = true -> mint_case h = mint_case h'.
Proof. intros h h' P A. unfold mint_case. now rewrite (mint_order_independent h h' P A). Qed.
Print Assumptions C16_mint_order_independent.

(* any sequence of typed setter calls: under every key of the witness-set map each element encoding is written once *)
Theorem C16_witness_setters_emit_once : forall h : list ws_op,
  Forall op_ok h -> forall k els, In (k, els) (ws_fields (ws_run h)) -> NoDup els.
Proof. exact ws_setters_emit_once. Qed.
Print Assumptions C16_witness_setters_emit_once.
Example C16_setters_premise : Forall op_ok [SetNative [[1]; [1]]; SetPlutus [mk_ps 1 [9]; mk_ps 2 [9]; mk_ps 1 [9]]; SetData (mk_plist [mk_datum [1] None; mk_datum [1] (Some [1])] None)].
Proof. repeat constructor; cbn; unfold two64; lia. Qed.
(* the code as found wrote a datum twice (repaired in /repo 53a9122; class C16-datum-emitted-twice) *)
Theorem C16_witness_setters_emit_once_refuted :
  exists h, Forall op_ok h /\ exists k els, In (k, els) (ws_fields (fold_left (ws_step_gen true) h ws_new)) /\ ~ NoDup els.
Proof.
  exists [SetData (mk_plist [mk_datum [1] None; mk_datum [1] (Some [1])] None)]. split; [repeat constructor|].
  exists 4, [[1]; [1]]. split; [vm_compute; now left|]. intros H. inversion H as [|? ? N _]. apply N. now left.
Qed.
Print Assumptions C16_witness_setters_emit_once_refuted.
Theorem C16_builder_witness_set_emits_once : forall vk ns bs ps pd,
  (forall v, vk = Some v -> NoDup v) -> (forall b, bs = Some b -> NoDup b) ->
  (forall l, ps = Some l -> Forall (fun s => N.of_nat (length (ps_bytes s)) < two64) l) ->
  forall k els, In (k, els) (ws_fields (ws_partial_dedup vk ns bs ps pd)) -> NoDup els.
Proof. intros vk ns bs ps pd. unfold ws_partial_dedup. rewrite switch_is_repaired. apply ws_builder_emits_once. Qed.
Print Assumptions C16_builder_witness_set_emits_once.

Theorem C16_reference_inputs_spec : forall d r s e,
  NoDup (ref_inputs d r s e) /\
  (forall k, In k (ref_inputs d r s e) <-> (In k s /\ ~ In k r) \/ (In k e /\ (d = false \/ ~ In k r))).
Proof. exact ref_inputs_spec. Qed.
Print Assumptions C16_reference_inputs_spec.
(* the hash-ordered map of explicit reference inputs (and every other source) may hand its keys over in any order *)
Theorem C16_reference_inputs_order_independent : forall d r r' s s' e e',
  Permutation r r' -> Permutation s s' -> Permutation e e' -> ref_inputs d r s e = ref_inputs d r' s' e'.
Proof. exact ref_inputs_order_independent. Qed.
Print Assumptions C16_reference_inputs_order_independent.
(* the code as found followed the iteration order of a HashSet (repaired in /repo e6843d5) *)
Theorem C16_reference_inputs_hash_order_refuted :
  exists (o1 o2 : list txin -> list txin) d r s e,
    (forall l, Permutation (o1 l) l) /\ (forall l, Permutation (o2 l) l) /\
    ref_inputs_hashed o1 d r s e <> ref_inputs_hashed o2 d r s e.
Proof.
  exists (fun l => l), (@rev txin), false, [], [], [([1], 0); ([2], 0)].
  split; [intros; apply Permutation_refl|]. split; [intros; apply Permutation_sym, Permutation_rev|].
  vm_compute. discriminate.
Qed.
Print Assumptions C16_reference_inputs_hash_order_refuted.

(* one build (regular / native-script / Plutus-script inputs, mint, certificates and withdrawals with Plutus witnesses, extra datums):
   set-like fields duplicate-free, required signers in first-insertion order, scripts and datums once; and the result does not depend
   on call order of inputs / collateral or on the iteration order of any hash container *)
Theorem C16_build_sets : forall c o, tx_build c = Ok o ->
  Forall (fun s => N.of_nat (length (ps_bytes s)) < two64) (t_plutus c) ->
  NoDup (x_inputs o) /\ NoDup (x_collateral o) /\ NoDup (x_refs o) /\ NoDup (x_signers o) /\
  x_signers o = first_occ bytes_eqb (t_signers c) /\ NoDup (x_native o) /\ NoDup (x_data o) /\
  (forall k els, In (k, els) (x_plutus o) -> NoDup els) /\
  (* every datum of a Plutus witness and every extra datum, whatever mixture of sources it came from, is in the
     emitted witness set (exactly once, by the NoDup above) *)
  (forall d, In d (t_wit_datums c ++ t_extra_datums c) -> In (d_emit d) (x_data o)).
Proof. exact tx_build_sets. Qed.
Print Assumptions C16_build_sets.
Theorem C16_build_order_independent : forall c ins coll refs expl,
  Permutation (t_inputs c) ins -> Permutation (t_collateral c) coll ->
  Permutation (t_script_refs c) refs -> Permutation (t_explicit_refs c) expl ->
  tx_build (reorder c ins coll refs expl) = tx_build c.
Proof.
  intros c ins coll refs expl Pi Pc Pr Pe. unfold tx_build, reorder.
  cbn [t_inputs t_collateral t_dedup_flag t_script_refs t_explicit_refs t_signers t_mint t_native t_plutus t_wit_datums t_extra_datums].
  destruct (tin_set_spec (t_inputs c)) as (_ & _ & Hi). destruct (tin_set_spec (t_collateral c)) as (_ & _ & Hc).
  rewrite <- (Hi _ Pi), <- (Hc _ Pc).
  now rewrite (ref_inputs_order_independent (t_dedup_flag c) _ _ _ _ _ _ (Permutation_refl _) (Permutation_sym Pr) (Permutation_sym Pe)).
Qed.
Print Assumptions C16_build_order_independent.
(* MODEL-LEVEL determinism is trivial (the model is a function).  That the COMPILED builder is one too — no hash-seeded
   container left on the path to the bytes — is a RUNTIME clause decided by the correspondence run only
   (every tx case: three builds of one builder, a rebuilt builder and a second process must give identical bytes). *)
Theorem C16_build_deterministic_model : forall c o1 o2, tx_build c = Ok o1 -> tx_build c = Ok o2 -> o1 = o2.
Proof. intros c o1 o2 H1 H2. rewrite H1 in H2. now injection H2. Qed.
Print Assumptions C16_build_deterministic_model.

(* the judges of the correspondence run accept the model's own observations *)
Theorem C16_judge_accepts_model :
  (forall k i h o, set_case k i h = Ok o -> judge_set k i h (o_items o) (o_bools o) = true) /\
  (forall h, Forall op_ok h -> judge_fields (ws_fields (ws_run h)) = true).
Proof.
  split.
  - intros k i h o. unfold set_case. destruct (init_set k i) as [s0| | |] eqn:I; cbn [bind]; try discriminate.
    intros [= <-]. cbn [o_items o_bools]. destruct (init_set_ok k i s0 I) as (pre & IO & W & IT).
    unfold judge_set. rewrite IO. rewrite !andb_true_iff. repeat split.
    + apply nodupb_spec. now apply (nodup_run bytes_eqb bytes_eqb_spec).
    + rewrite (first_insertion_order_from bytes_eqb bytes_eqb_spec s0 h W), IT, (first_occ_absorb bytes_eqb bytes_eqb_spec).
      apply list_eqb_refl.
    + rewrite (observe_spec bytes_eqb bytes_eqb_spec h s0 pre W); [apply bools_eqb_refl|].
      intros x. rewrite IT. apply (In_first_occ bytes_eqb bytes_eqb_spec).
  - intros h Ok. apply forallb_forall. intros [k els] I. apply nodupb_spec. exact (ws_setters_emit_once h Ok k els I).
Qed.
Print Assumptions C16_judge_accepts_model.
