(* C03 — Emitted bytes conform to the Conway-era CDDL wire format.
   Model of the emitted bytes: the schema encoder [enc] of Codec/Schema.v on the wire shapes of Ledger/Schemas.v
   (tied to the Rust serializers by the correspondence runs of C01 and of this check).
   Spec: Cddl/ConwayCddl.v (transcription of the Conway CDDL) judged by the validator of Cddl/Validator.v over the
   independent CBOR reader of Cbor/Item.v. *)
From CSL Require Import Num.Value Cddl.NoZeroAssets Builder.Totals Builder.Change Builder.Scenario Cddl.ChangeNoZero Cddl.NormPos Cddl.Histories.
From CSL Require Import Base.Prelude Cbor.Head Cbor.Item Cbor.ItemProofs Codec.Schema Codec.SchemaProofs
  Ledger.Schemas Ledger.SchemasProofs
  Cddl.Rules Cddl.Validator Cddl.ValidatorProofs Cddl.ConwayCddl Cddl.ToItem Cddl.ToItemProofs Cddl.CanonProofs
  Cddl.Tables Cddl.Pairing Cddl.Conforms Cddl.ConformsProofs Cddl.KnownClass Cddl.Refines Cddl.RefinesProofs.
Local Open Scope N_scope.

(* the independent reader parses the emitted bytes (one item, nothing left over) into exactly the tree [to_item s v] *)
Theorem C03_wellformed : forall s v, wfs s = true -> wfv s v = true ->
  parse_exact (enc s v) = Ok (to_item s v) /\ encode_item (to_item s v) = enc s v.
Proof. intros s v Hs Hv. split; [apply parse_enc; assumption|apply to_item_enc; assumption]. Qed.
Print Assumptions C03_wellformed.

(* (1) canonical form, for EVERY well-formed schema and schema-valid value: all heads shortest, maps always definite,
   arrays / byte strings definite except at the listed sites (SArrAny = Plutus lists, SBBytes = bounded bytes > 64),
   chunked strings exactly in the 64-byte shape; on schemas without such sites everything is definite *)
Theorem C03_canonical : forall s v, wfs s = true -> wfv s v = true ->
  canon_bytes true true (enc s v) = true /\ heads_shortest (enc s v) = true /\
  chunks_strict (to_item s v) = true /\
  (no_indef_sites s = true -> canon_bytes false false (enc s v) = true).
Proof. exact enc_canonical. Qed.
Print Assumptions C03_canonical.

Theorem C03_canonical_ledger : forall d s, In s (ledger_schemas d) -> forall v, wfv s v = true ->
  canon_bytes true true (enc s v) = true /\ heads_shortest (enc s v) = true /\ chunks_strict (to_item s v) = true.
Proof. intros d. exact (enc_canonical_in _ (ledger_schemas_wf d)). Qed.
Print Assumptions C03_canonical_ledger.

(* the same for the further public types of Ledger/Schemas.v (stand-alone certificate / action / script members, PoolParams,
   Committee, PlutusMap, ConstrPlutusData, BigInt, Redeemer, ...) *)
Theorem C03_canonical_ledger_more : forall d s, In s (ledger_schemas_more d) -> forall v, wfv s v = true ->
  canon_bytes true true (enc s v) = true /\ heads_shortest (enc s v) = true /\ chunks_strict (to_item s v) = true.
Proof. intros d. exact (enc_canonical_in _ (ledger_schemas_more_wf d)). Qed.
Print Assumptions C03_canonical_ledger_more.

(* (2) every set site of every schema-valid value is written as tag 258 + definite array of pairwise distinct items *)
Theorem C03_sets : forall s v, wfs s = true -> wfv s v = true -> sets_emitted s v = true.
Proof. intros s v Hs Hv. exact (proj2 (proj1 canon_all s v Hv)). Qed.
Print Assumptions C03_sets.

Theorem C03_set_site : forall s l, wfs s = true -> wfv (SSetOf s) (VList l) = true ->
  enc (SSetOf s) (VList l) = [217; 1; 2] ++ encode_head 4 (N.of_nat (length l)) ++ concat (map (enc s) l) /\
  NoDup (map (enc s) l) /\
  parse_exact (enc (SSetOf s) (VList l)) = Ok (ITag 258 (IArray true (map (to_item s) l))) /\
  items_nodup (map (to_item s) l) = true.
Proof.
  intros s l Hs Hv. split; [reflexivity|]. split; [|split].
  - cbn [wfv] in Hv. split_ands. apply nodupb_NoDup. assumption.
  - apply (parse_enc (SSetOf s) (VList l)); [exact Hs|exact Hv].
  - pose proof (C03_sets (SSetOf s) (VList l) Hs Hv) as Hse. cbn [sets_emitted to_item] in Hse.
    apply andb_true_iff in Hse as [Hse _]. exact Hse.
Qed.
Print Assumptions C03_set_site.

(* (3) key / arity / tag tables of the implementation schemas = those of the CDDL transcription (finite computation,
   for every unrolling depth; differences allowed: body key 6, certificates 5 and 6, parameter-update keys 12-14) *)
Theorem C03_tables : forall d, tables_agree d = true.
Proof. intros d. vm_compute. reflexivity. Qed.
Print Assumptions C03_tables.

(* (4, first half) byte-level conformance of the emitted bytes IS tree-level matching of [to_item s v]: parsing by the
   independent reader, shortest heads, definiteness and chunk shapes are discharged once for every schema and value;
   what is left of [cddl_ok_bytes] is the rule matcher on the abstract tree *)
Theorem C03_bytes_of_tree : forall e fuel r s v, wfs s = true -> wfv s v = true ->
  cddl_ok_bytes_fuel e fuel r (enc s v) = cddl_ok e fuel r (to_item s v).
Proof.
  intros e fuel r s v Hs Hv. unfold cddl_ok_bytes_fuel, cddl_ok_item. rewrite parse_enc by assumption.
  rewrite to_item_enc by assumption. rewrite bytes_eqb_refl.
  destruct (proj1 canon_all s v Hv) as [(G1 & G2 & _) _]. unfold lax in G1. unfold canon_item. rewrite G1, G2. reflexivity.
Qed.
Print Assumptions C03_bytes_of_tree.

(* running out of fuel only ever rejects: an item accepted with some fuel is accepted with any larger fuel *)
Theorem C03_fuel_monotone : forall e f g r it, (f <= g)%nat -> cddl_ok e f r it = true -> cddl_ok e g r it = true.
Proof.
  intros e f g r it. induction 1 as [|g _ IH]; [exact (fun H => H)|]. intros H. apply cddl_ok_S. apply IH. exact H.
Qed.
Print Assumptions C03_fuel_monotone.

(* (4) THE CONFORMANCE THEOREM, in value-dependent form.  [conforms e fuel s r v] (Cddl/Conforms.v) is a decidable
   predicate on TYPED values: it compares the structure of schema and rule along v and checks v's leaf ranges (integer
   ranges, sizes, non-emptiness, chosen alternative, rational side conditions, address shape); it never looks at bytes.
   ONE generic proof (induction on fuel, case analysis over the schema language) shows that such a value is emitted as
   bytes the independent validator accepts.  This is the property's "typed values accepted by validating
   constructors": the values the Conway CDDL can represent at all. *)
Theorem C03_conforms : forall e fuel s r v, wfs s = true -> wfv s v = true ->
  conforms e fuel s r v = true -> cddl_ok_bytes_fuel e fuel r (enc s v) = true.
Proof. intros e fuel s r v Hs Hv Hc. rewrite C03_bytes_of_tree by assumption. apply conforms_sound; assumption. Qed.
Print Assumptions C03_conforms.

(* the same with the judge's own fuel, on the Conway environment *)
Theorem C03_conforms_conway : forall s r v, wfs s = true -> wfv s v = true ->
  conforms_bytes conway_env s r v = true -> cddl_ok_bytes conway_env r (enc s v) = true.
Proof. intros s r v Hs Hv Hc. unfold cddl_ok_bytes. unfold conforms_bytes in Hc. apply C03_conforms; assumption. Qed.
Print Assumptions C03_conforms_conway.

(* the known finding: a mint quantity accepted by MintAssets::insert / new_from_entry (non-zero, |q| < 2^64) whose
   emitted bytes the Conway rule rejects (nonZeroInt64), and exactly the class the check lists: the bytes conform once
   mint quantities are relaxed to any non-zero integer *)
Theorem C03_mint_int64_refuted : exists v,
  wfv Mint v = true /\
  cddl_ok_bytes conway_env (RMapOf 0 policy_id (RMapOf 1 asset_name nonZeroInt64)) (enc Mint v) = false /\
  judge_class (RMapOf 0 policy_id (RMapOf 1 asset_name nonZeroInt64)) (enc Mint v) = 1.
Proof.
  exists (VMap [(VBytes (repeat 5 28), VMap [(VBytes [65; 66], VAlt 0 (VNat 9223372036854775808))])]).
  vm_compute. repeat split.
Qed.
Print Assumptions C03_mint_int64_refuted.

(* block headers (outside the literal scope of the property: not a part of a transaction).  The library writes a header body
   FLAT; with the single Babbage/Conway VRF result that is 14 items, the shape of no era (known finding
   C03-praos-header-body-flat): rejected by the Conway header_body rule (10 items, nested operational_cert and
   protocol_version), accepted once that one rule is replaced by the flat single-VRF rule. *)
Theorem C03_praos_header_flat_refuted : exists v,
  wfv HeaderBodyPraos v = true /\
  cddl_ok_bytes conway_env (RRef N_header_body) (enc HeaderBodyPraos v) = false /\
  judge_class_header (RRef N_header_body) (enc HeaderBodyPraos v) = 4.
Proof.
  exists (VList [VNat 1; VNat 2; VNull; VBytes (repeat 1 32); VBytes (repeat 2 32); VList [VBytes [7]; VBytes (repeat 3 80)];
                 VNat 100; VBytes (repeat 4 32); VBytes (repeat 5 32); VNat 6; VNat 7; VBytes (repeat 8 64); VNat 9; VNat 0]).
  vm_compute. repeat split.
Qed.
Print Assumptions C03_praos_header_flat_refuted.

(* (4') the value-INDEPENDENT comparison and its soundness.  [refines e fuel s r] (Cddl/Refines.v) looks at schema and rule
   only; when it answers true, EVERY schema-valid value of s is emitted as bytes the validator accepts for r.  One generic
   proof (refines => conforms for all values, induction on fuel; then C03_conforms). *)
Theorem C03_refines_sound : forall e f s r, refines e f s r = true -> wfs s = true ->
  forall v, wfv s v = true -> exists fuel, cddl_ok_bytes_fuel e fuel r (enc s v) = true.
Proof.
  intros e f s r Hr Hs v Hv. destruct (refines_sound e f s r Hr Hs v Hv) as [g G]. exists g.
  apply C03_conforms; [assumption..|]. apply G. apply Nat.le_refl.
Qed.
Print Assumptions C03_refines_sound.

(* where it answers true and where the schema is WIDER than the rule: the verdict on the 64 pairs of Pairing.conway_pairs
   (unrolling depth 2), a finite computation.  true (26): Credential, Credentials, Ed25519KeyHashes, DRep, Anchor, Relay,
   Relays, PoolMetadata, ProtocolVersion, ExUnits, Voter, VotingProcedure, Constitution, NativeScript, NativeScripts,
   PlutusScripts, TransactionMetadatum, GeneralTransactionMetadata, AuxiliaryData, ScriptRef, Vkeywitness, Vkeywitnesses,
   Int, VRFCert, OperationalCert (and their uses).  false: every type that contains one of the wider SITES -
     u32 / u64 where the rule has `uint .size 2` / `.size 4` (tx-input and gov-action index, five protocol parameters,
       redeemer index, transaction_index), Int where the rule has int64 (cost models, mint, native-script n is fine);
     a LOWER bound the schema language cannot express: positive_coin (asset quantities, donation), non-zero mint, `{+ }` / `[+ ]`
       / nonempty_set on a collection whose non-emptiness comes from the enclosing optional field, denominator > 0 and
       numerator <= denominator of unit intervals;
     address and reward-account BYTES (header nibble / length consistency is in writer_form, not in wfv);
     Vec-backed maps that may repeat a key (Mint, Redeemers map form, PlutusMap);
     Plutus lists (an indefinite EMPTY list is schema-valid) and the Plutus-data datum set (no NoDup in the schema);
     pre-Conway items (body key 6, certificates 5 / 6, parameter keys 12-14) and the flat header bodies.
   For all of those C03_conforms reads the condition off the value instead. *)
Theorem C03_refines_pairs :
  map (fun p => refines conway_env 80 (fst p) (snd p)) (conway_pairs 2) =
  [false; false; true; true; true; true; true; false; true; true; true; true; true; false; false; false; false; false; false;
   false; false; true; false; true; false; false; false; false; false; true; false; false; false; true; true; true; false;
   false; false; true; true; true; true; false; false; false; false; false; false; true; true; false; false; false; false;
   true; true; true; false; false; false; false; false; false].
Proof. vm_compute. reflexivity. Qed.
Print Assumptions C03_refines_pairs.

(* single sites, spelled out: the same shape with the rule's bound refines, the implementation's wider one does not *)
Example C03_wider_sites :
  refines conway_env 20 (arr [H32; U16]) transaction_input = true /\ refines conway_env 20 TransactionInput transaction_input = false /\
  refines conway_env 20 (SUint 18446744073709551616) positive_coin = false /\ refines conway_env 20 (SUint 18446744073709551616) coin = true /\
  refines conway_env 20 (SBytes 29 57) RAddress = false /\ refines conway_env 20 UnitInterval unit_interval = false /\
  refines conway_env 40 (SArrOf 0 IntS) cost_model = false /\ refines conway_env 40 (SArrOf 0 IntS) (RArrOf 0 r_int) = true.
Proof. vm_compute. repeat split. Qed.

(* the value-INDEPENDENT form of the statement in its strongest reading, kept visible: a sound [refines] that is true on ALL
   pairs.  The soundness half is C03_refines_sound; the "true on all pairs" half is false (C03_refines_pairs: 26 of 64),
   and not repairable for these schemas: they are wider than the Conway
   rules exactly where the API admits CDDL-invalid values (u32 indices, Int vs int64), and lower bounds (positive_coin,
   denominator > 0, [+ a] on a collection whose non-emptiness comes from the enclosing optional field) are not
   expressible in the schema language, so [refines] is false on every transaction-level pair.  C03_conforms is the
   same statement with the leaf conditions read off the value instead of the schema. *)
Definition C03_full : Prop :=
  exists refines : schema -> rule -> bool,
    (forall s r v, refines s r = true -> wfs s = true -> wfv s v = true ->
       exists fuel, cddl_ok_bytes_fuel conway_env fuel r (enc s v) = true) /\
    forall d, Forall (fun p => refines (fst p) (snd p) = true) (Pairing.conway_pairs d).

(* what IS proved of the full statement, in one place: for every well-formed schema, schema-valid value and rule,
   (a) the independent reader parses the emitted bytes to to_item s v, (b) they are in canonical form with the two
   listed exceptions, (c) every set site is tag 258 + distinct items, (d) conformance to the rule reduces to matching
   the tree, and (e) the key/arity/tag tables of implementation and CDDL agree.
   Together with C03_conforms (matching of the tree from the typed value's leaf conditions) this is the whole property
   on the model side; C03_full differs only in asking for a value-independent comparison. *)
Theorem C03_conforms_partial : forall s v, wfs s = true -> wfv s v = true ->
  parse_exact (enc s v) = Ok (to_item s v) /\
  canon_bytes true true (enc s v) = true /\ heads_shortest (enc s v) = true /\ chunks_strict (to_item s v) = true /\
  sets_emitted s v = true /\
  (forall e fuel r, cddl_ok_bytes_fuel e fuel r (enc s v) = cddl_ok e fuel r (to_item s v)) /\
  (forall d, tables_agree d = true).
Proof.
  intros s v Hs Hv. destruct (enc_canonical s v Hs Hv) as (A & B & C & _).
  split; [apply parse_enc; assumption|]. repeat split; try assumption.
  - apply C03_sets; assumption.
  - intros e fuel r. apply C03_bytes_of_tree; assumption.
Qed.
Print Assumptions C03_conforms_partial.

(* (5) builder clause, on the Value model Num/Value.v: the operations the
   builder uses to compute change and to select coins (Value::checked_add / checked_sub / clamped_sub, MultiAsset::sub)
   never produce a zero-quantity asset or an empty policy bundle from operands that have none.  The end-to-end clause
   (every output of every built transaction) is judged on the real TransactionBuilder's bytes by the tx stream:
   the body rule demands multiasset<positive_coin> = {+ policy => {+ asset => 1..} } in every output. *)
Theorem C03_builder_no_zero_assets :
  (forall a b c, value_pos a = true -> value_pos b = true -> value_checked_add a b = Ok c -> value_pos c = true) /\
  (forall a b c, value_pos a = true -> value_checked_sub a b = Ok c -> value_pos c = true) /\
  (forall a b, value_pos a = true -> value_pos (value_clamped_sub a b) = true) /\
  (forall l r, ma_pos l = true -> ma_pos (ma_sub l r) = true).
Proof.
  split; [exact value_checked_add_pos|]. split; [exact value_checked_sub_pos|]. split; [exact value_clamped_sub_pos|exact ma_sub_pos].
Qed.
Print Assumptions C03_builder_no_zero_assets.

(* (5') the builder clause about add_change_if_needed ITSELF, on C05's executable model of it (Builder/Change.v: every branch,
   serialised sizes and fees as an ARBITRARY oracle): if the outputs already in the builder and the total input carry no
   zero-quantity asset and no empty policy bundle, then after add_change - successful or failed, the Rust code mutates
   before it fails - no output of the builder carries one: every change output it appended, and the last output it
   topped up, is free of them. *)
Theorem C03_add_change_no_zero_assets : forall (O : Type) (orc : @oracle O) fuel addr extra s o,
  outputs_pos s = true -> total_input_pos s = true ->
  outputs_pos (out_st (add_change orc fuel addr extra s o)) = true.
Proof. intros O orc. exact (add_change_keeps_outputs_pos orc). Qed.
Print Assumptions C03_add_change_no_zero_assets.

(* the former witness of finding C03-builder-echoes-degenerate-given-values (fixed in /repo: push_input stores an amount
   without zero quantities / asset-less policies, add_output refuses a value that has them): one input holding `asset => 0`,
   no output, the trivial oracle (fee 0, minimum ADA 0, nothing too big).  Before the fix add_change succeeded and appended a
   change output with that zero quantity; now such a state cannot be built through the API (C03_stored_amounts_pos
   below), and even on it add_change fails in add_output instead of echoing the entry. *)
Definition triv_oracle : @oracle unit :=
  mkOracle (fun _ o => (Ok 0, o)) (fun _ o => (Ok 0, o)) (fun _ o => (false, o)) (fun _ o => (false, o))
           (fun _ _ o => (([], true), o)).
Theorem C03_add_change_echo_fixed : exists s,
  outputs_pos s = true /\ total_input_pos s = false /\
  out_res (add_change triv_oracle 8 1 0 s tt) = Err /\
  outputs_pos (out_st (add_change triv_oracle 8 1 0 s tt)) = true.
Proof.
  exists (set_s_inputs [(1, mkValue 10 (Some [(repeat 1 28, [([65], 0)])]))] (new_state (mkConfig 0 0 false false))).
  vm_compute. repeat split.
Qed.
Print Assumptions C03_add_change_echo_fixed.

(* what push_input stores is free of zero quantities and empty bundles, and add_output's test is exactly value_pos *)
Theorem C03_stored_amounts_pos : forall v,
  value_pos (Num.ValueNorm.value_without_empty_entries v) = true /\
  value_pos v = negb (Num.ValueNorm.value_has_empty_entries v).
Proof. intros v. split; [apply value_without_empty_entries_pos|apply value_pos_iff_no_empty_entries]. Qed.
Print Assumptions C03_stored_amounts_pos.

(* (5'') the builder clause over HISTORIES, premise-free on the inputs: on C05's builder model (Builder/Scenario.v: input,
   output, certificates, withdrawals, proposals, mint set/add, donation, treasury, set_fee, set_min_fee, add_change,
   add_inputs_from_and_change, build_tx; sizes and fees from the recorded-answer oracle, whatever it answers), starting from a
   NEW builder, every transaction build_tx releases has outputs free of zero quantities and empty policy bundles - provided
   change is only computed while no mint line has the stored sum 0 ([history_ok]: at each add_change /
   add_inputs_from_and_change, [mint_nonzero], which is exactly the test MintBuilder::build applies before a transaction is
   released).  That is all the mint side needs: a zero line is counted as a minted asset of quantity 0 by
   Mint::as_positive_multiasset and would flow into the change. *)
Theorem C03_builder_histories_no_zero_assets : forall cfg utxos l,
  history_ok utxos l (new_state cfg) = true ->
  forall b, snd (run_ops utxos l (new_state cfg)) = Some b -> body_pos b.
Proof. exact builder_histories_no_zero_assets. Qed.
Print Assumptions C03_builder_histories_no_zero_assets.

(* the invariant behind it, for every reachable state *)
Theorem C03_builder_reachable_states : forall utxos l s, J s -> history_ok utxos l s = true ->
  J (snd (fst (run_ops utxos l s))).
Proof. intros utxos l s Hs Hh. exact (proj1 (run_ops_J utxos l s Hs Hh)). Qed.
Print Assumptions C03_builder_reachable_states.

(* the premises are satisfiable on a history that releases a transaction: an input given WITH a zero-quantity asset (stored
   without it), an output, a fixed fee, build_tx *)
Example C03_history_example :
  let p := repeat 1 28 in
  let utxos := [(1, mkValue 10 (Some [(p, [([65], 0)])]))] in
  let e := mkTape [] None false in
  let l := [(OpInput 1, e); (OpOutput (mkOutput 7 (value_new 4) 0), mkTape [(site_S, Some 0); (site_A, Some 0)] None false);
            (OpSetFee 6, e); (OpBuild, mkTape [(site_F, Some 0); (site_T, Some 0)] None false)] in
  history_ok utxos l (new_state (mkConfig 0 0 false false)) = true /\
  exists b, snd (run_ops utxos l (new_state (mkConfig 0 0 false false))) = Some b /\ length (b_outputs b) = 1%nat /\
            b_inputs b = [(1, mkValue 10 (Some []))].
Proof. cbv zeta. split; [vm_compute; reflexivity|]. eexists. vm_compute. repeat split. Qed.

(* non-vacuity *)
Example C03_tables_nonempty :
  table_sizes = [20; 8; 30; 4; 5; 17; 7; 2; 4; 5; 3; 6; 2; 4; 131; 1; 1].
Proof. vm_compute. reflexivity. Qed.

Definition ex_body : val :=
  VStruct [Some (VList [VList [VBytes (repeat 7 32); VNat 0]; VList [VBytes (repeat 9 32); VNat 65535]]);
           Some (VList [VAlt 0 (VAlt 0 (VList [VBytes (97 :: repeat 1 28); VAlt 0 (VNat 2000000)]));
                        VAlt 0 (VAlt 1 (VList [VBytes (repeat 3 32); VBytes (97 :: repeat 2 28); VAlt 0 (VNat 1500000)]))]); Some (VNat 170000);
           Some (VNat 5); None; None; None; None; None; None; None; None; None; None; None; None; None;
           None; None; None; None].
Example C03_premises_satisfiable :
  wfs (TransactionBody 1) = true /\ wfv (TransactionBody 1) ex_body = true /\
  cddl_ok_bytes conway_env transaction_body (enc (TransactionBody 1) ex_body) = true /\
  firstn 6 (enc (TransactionBody 1) ex_body) = [164; 0; 217; 1; 2; 130] /\
  conforms_bytes conway_env (TransactionBody 1) transaction_body ex_body = true.
Proof. split; [apply wf_TransactionBody|]. vm_compute. repeat split. Qed.

(* the validator is not vacuous: the same body with input index 65536 (uint .size 2 violated), without the required
   key 2, with an untagged input set, or with a duplicate input is rejected *)
Example C03_validator_rejects :
  let bad1 := VStruct [Some (VList [VList [VBytes (repeat 7 32); VNat 65536]]); Some (VList []); Some (VNat 1);
                       None; None; None; None; None; None; None; None; None; None; None; None; None; None; None; None; None; None] in
  cddl_ok_bytes conway_env transaction_body (enc (TransactionBody 1) bad1) = false /\
  cddl_ok_bytes conway_env transaction_body [162; 0; 217; 1; 2; 128; 1; 128] = false /\
  cddl_ok_bytes conway_env transaction_body [163; 0; 128; 1; 128; 2; 0] = false /\
  cddl_ok_bytes conway_env transaction_body [163; 0; 217; 1; 2; 128; 1; 128; 2; 0] = true /\
  cddl_ok_bytes conway_env transaction_body [163; 0; 217; 1; 2; 128; 1; 128; 2; 24; 0] = false.
Proof. vm_compute. repeat split. Qed.
