(* C14 — Amount arithmetic is exact or fails explicitly.
   The statements of the property; the general theorems are in Num/*Proofs.v, the witnesses and the corollaries of a line
   or two are proved here.
   Model: Base/U64.v + Num/U64.v (BigNum), Num/IntRange.v (Int and every public way to obtain one), Num/BigIntCbor.v
   (BigInt), Num/Decimal.v (decimal text), Num/Value.v (Value / MultiAsset / Assets).  The models mirror /repo after the
   repairs 07262c5, a6f00b9, 3669e5e, 34fa344 (C14) and eac05aa, 4362d12 (C17); the behaviour before each repair is kept as a
   *_legacy / *_gen definition and refuted by a witness.  All quantifiers are unbounded: integers of any size, byte strings
   and texts of any length, bundles with any number of policies and assets. *)
From CSL Require Import Base.Prelude Base.U64 Cbor.Head Num.Decimal Num.U64 Num.IntRange Num.BigIntCbor Num.Value.
From CSL Require Import Num.DecimalProofs Num.IntRangeProofs Num.BigIntCborProofs Num.ValueProofs.
From CSL Require Import Num.Mint Num.MintProofs Num.C14Model Num.C14ModelProofs.
Local Open Scope N_scope.

(* checked_add / checked_sub / checked_mul / clamped_sub / div_floor return the mathematically exact result (computed in Z)
   when it is a u64 and an explicit error otherwise -- outside the known class "division by zero" (a panic) *)
Theorem C14_checked_ops_exact : forall (op : bn_op) (a b : N),
  a < two64 -> b < two64 -> known_div_by_zero op b = false ->
  bn_apply op a b = exact_or_error_u64 (bn_exact op a b).
Proof. exact bn_apply_exact. Qed.
Print Assumptions C14_checked_ops_exact.

Example C14_checked_ops_example :
  bn_apply OpAdd (two64 - 1) 1 = Err /\ bn_apply OpMul 4294967296 4294967295 = Ok 18446744069414584320 /\
  bn_apply OpSub 0 1 = Err /\ bn_apply OpDivFloor 7 2 = Ok 3.
Proof. repeat split; vm_compute; reflexivity. Qed.

(* full-strength statement (no known class) is false: div_floor by zero is a panic *)
Theorem C14_div_floor_zero_refuted : exists op a b, a < two64 /\ b < two64 /\
  bn_apply op a b <> exact_or_error_u64 (bn_exact op a b) /\ bn_apply op a b = Panic.
Proof. exists OpDivFloor, 5, 0. repeat split; try reflexivity. discriminate. Qed.
Print Assumptions C14_div_floor_zero_refuted.

(* every Int obtainable through the public API lies within -2^64 .. 2^64-1: constructors, from_str / JSON, CBOR decoding,
   BigInt::as_int, metadata JSON numbers and BasicConversions keys, and MintBuilder histories of any length *)
Theorem C14_int_range_invariant : forall (src : int_src) (z : Z),
  int_src_wf src = true -> int_src_bytes_ok src ->
  int_obtain src = Some z -> (- two64Z <= z <= two64Z - 1)%Z.
Proof. intros src z W B H. apply int_in_range_iff. eapply int_obtain_in_range; eassumption. Qed.
Print Assumptions C14_int_range_invariant.

Example C14_int_range_example :
  let src := SMint [MAdd 1 (- int_max)%Z; MSet 2 5%Z; MAdd 1 int_max; MAdd 1 int_max; MAdd 1 7%Z] 1 in
  int_src_wf src = true /\ int_src_bytes_ok src /\ int_obtain src = Some int_max.
Proof. exact int_obtain_example. Qed.

(* the invariant of the MintBuilder itself, by induction on the history of add_asset / set_asset calls *)
Theorem C14_mint_builder_invariant : forall (ops : list mint_op) (k : N) (z : Z),
  forallb (fun op => int_in_range (mint_op_amount op)) ops = true ->
  ms_get k (fst (mint_run mint_step [] ops)) = Some z -> int_in_range z = true.
Proof. intros ops k z W G. exact (proj1 (in_mint_range_int z (mint_run_get_mint_range ops k z W G))). Qed.
Print Assumptions C14_mint_builder_invariant.

(* before the repairs the invariant was false: unchecked accumulation and unchecked metadata keys *)
Theorem C14_int_range_refuted_before_repair :
  (exists ops k z, forallb (fun op => int_in_range (mint_op_amount op)) ops = true /\
                   ms_get k (fst (mint_run mint_step_legacy [] ops)) = Some z /\ int_in_range z = false) /\
  (exists s z, int_obtain_gen false mint_step (SMetaKey s) = Some z /\ int_in_range z = false).
Proof.
  split.
  - exists [MAdd 0 int_max; MAdd 0 int_max], 0, (2 * int_max)%Z. pose proof mint_legacy_refuted as H. cbv zeta in H. tauto.
  - exists (print_Z 99999999999999999999999), 99999999999999999999999%Z. split; vm_compute; reflexivity.
Qed.
Print Assumptions C14_int_range_refuted_before_repair.

(* Int survives CBOR over its whole range (any continuation of the byte stream) *)
Theorem C14_int_cbor_roundtrip : forall (z : Z) (rest : bytes),
  (- two64Z <= z <= two64Z - 1)%Z -> int_deserialize (int_serialize z ++ rest) = Ok (z, rest).
Proof. intros z rest R. apply int_cbor_roundtrip, int_in_range_iff. exact R. Qed.
Print Assumptions C14_int_cbor_roundtrip.

(* the cast argument of the former encoder (write_negative_integer(x as i64)): exact in wrapping arithmetic on the whole
   negative range, overflowing only at -2^63 when overflow checks are on *)
Theorem C14_int_cast_argument : forall (overflow_checks : bool) (z : Z),
  (- two64Z <= z < 0)%Z -> (overflow_checks = false \/ z <> - two63)%Z ->
  nint_arg_legacy overflow_checks z = Ok (Z.to_N (-1 - z)).
Proof. exact nint_arg_legacy_exact. Qed.
Print Assumptions C14_int_cast_argument.

Theorem C14_int_min_panic_refuted_before_repair :
  int_in_range (- two63)%Z = true /\ int_serialize_legacy true (- two63)%Z = Panic /\
  bigint_serialize_legacy true (- two63)%Z = Panic.
Proof. repeat split; vm_compute; reflexivity. Qed.
Print Assumptions C14_int_min_panic_refuted_before_repair.

(* Int survives its decimal text (to_str / from_str, the serde JSON form) over its whole range *)
Theorem C14_int_decimal_roundtrip : forall z : Z,
  (- two64Z <= z <= two64Z - 1)%Z -> int_from_str (int_to_str z) = Ok z.
Proof. intros z R. apply int_decimal_roundtrip, int_in_range_iff. exact R. Qed.
Print Assumptions C14_int_decimal_roundtrip.

(* the code before /repo a6f00b9 lost the bottom of the range and panicked on i128::MIN *)
Theorem C14_int_from_str_refuted_before_repair :
  int_in_range int_min = true /\ (forall oc, int_from_str_legacy oc (int_to_str int_min) = Err) /\
  int_from_str_legacy true (print_Z (- two127)) = Panic /\
  int_from_str_legacy false (print_Z (- two127)) = Ok (- two127)%Z.
Proof. repeat split; try (intros []); vm_compute; reflexivity. Qed.
Print Assumptions C14_int_from_str_refuted_before_repair.

(* a metadata integer converted to JSON (decode_metadatum_to_json_*, all schemas): the number literal written denotes the
   integer exactly; values that do not fit the u64 / i64 the JSON number is made from are an explicit error *)
Theorem C14_metadata_int_json_exact : forall (z : Z) (t : text),
  meta_int_to_json z = Ok t -> parse_i128 t = Ok z.
Proof. exact meta_int_to_json_exact. Qed.
Print Assumptions C14_metadata_int_json_exact.

Example C14_metadata_int_json_example :
  meta_int_to_json (- two63)%Z = Ok (print_Z (- two63)%Z) /\ meta_int_to_json (- two63 - 1)%Z = Err /\
  meta_int_to_json int_max = Ok (print_Z int_max).
Proof. repeat split; vm_compute; reflexivity. Qed.

(* as_positive / as_negative / as_i32 are exact -- outside the known class "the Int is -2^64" *)
Theorem C14_int_accessors_exact : forall z : Z, int_in_range z = true -> z <> int_min ->
  int_as_positive z = (if (0 <=? z)%Z then Some (Z.to_N z) else None) /\
  int_as_negative z = (if (z <? 0)%Z then Some (Z.to_N (- z)) else None) /\
  int_as_i32 z = (if ((- two31 <=? z) && (z <? two31))%Z then Some z else None).
Proof. exact int_accessors_exact. Qed.
Print Assumptions C14_int_accessors_exact.

(* as_negative of -2^64: the absolute value does not fit a u64 and is truncated to 0 (known finding) *)
Theorem C14_int_as_negative_refuted : int_in_range int_min = true /\ int_as_negative int_min = Some 0.
Proof. split; vm_compute; reflexivity. Qed.
Print Assumptions C14_int_as_negative_refuted.

(* Mint::as_positive_multiasset / as_negative_multiasset report, for every asset, exactly the minted / burnt quantity (the sum
   over the entries of the policy) -- outside the two known classes: a policy that occurs in two entries, and a quantity -2^64 *)
Theorem C14_mint_as_multiasset_exact : forall (is_positive : bool) (m : mint),
  mint_wfb m = true -> mint_has_min m = false -> has_dup_policy m = false ->
  ma_wfb (mint_as_multiasset is_positive m) = true /\
  forall p n, Z.of_N (ma_qty (mint_as_multiasset is_positive m) p n) = mint_spec_qty is_positive m p n.
Proof. intros s m W M D. apply mint_as_multiasset_exact; [apply mint_ok_of_bool; assumption | exact D]. Qed.
Print Assumptions C14_mint_as_multiasset_exact.

Example C14_mint_as_multiasset_example :
  let m := [([1], [([97], 5%Z); ([98], (- int_max)%Z)]); ([2], [([], int_max)]); ([3], [])] in
  mint_wfb m = true /\ mint_has_min m = false /\ has_dup_policy m = false /\
  mint_as_positive_multiasset m = [([1], [([97], 5)]); ([2], [([], two64 - 1)])] /\
  mint_as_negative_multiasset m = [([1], [([98], two64 - 1)])].
Proof. exact mint_as_multiasset_example. Qed.

(* both known classes are real: a later entry of the same policy replaces the earlier one; a burn of 2^64 is reported as 0 *)
Theorem C14_mint_as_multiasset_refuted :
  (let m := [([1], [([97], 5%Z)]); ([1], [([98], 7%Z)])] in
   mint_spec_qty true m [1] [97] = 5%Z /\ ma_qty (mint_as_positive_multiasset m) [1] [97] = 0) /\
  (let m := [([1], [([97], int_min)])] in
   mint_spec_qty false m [1] [97] = two64Z /\ ma_qty (mint_as_negative_multiasset m) [1] [97] = 0).
Proof. repeat split; vm_compute; reflexivity. Qed.
Print Assumptions C14_mint_as_multiasset_refuted.

(* BigInt survives CBOR for integers of any size: uint, nint (including -2^64), tag 2 / tag 3 with definite byte strings up
   to 64 bytes and indefinite strings of 64-byte chunks beyond *)
Theorem C14_bigint_cbor_roundtrip : forall (z : Z) (rest : bytes),
  bigint_deserialize (bigint_serialize z ++ rest) = Ok (z, rest).
Proof. exact bigint_cbor_roundtrip. Qed.
Print Assumptions C14_bigint_cbor_roundtrip.

(* decimal text: BigNum, i128 and arbitrarily large integers *)
Theorem C14_decimal_roundtrip :
  (forall n : N, n < two64 -> bn_from_str (bn_to_str n) = Ok n) /\
  (forall z : Z, (- two127 <= z < two127)%Z -> parse_i128 (print_Z z) = Ok z) /\
  (forall z : Z, bigint_from_str (bigint_to_str z) = Ok z).
Proof. split; [exact parse_u64_print | split; [exact parse_i128_print | exact bigint_decimal_roundtrip]]. Qed.
Print Assumptions C14_decimal_roundtrip.

(* parse side: an accepted literal denotes the number whose printed form is the literal with its optional sign, leading
   zeros (and, for BigInt, underscores) normalised.  Strict injectivity is false by design of the Rust parsers ("+1", "007",
   "-0", "1_0" are accepted, see parse_noncanonical_accepted); the value is exact in every case. *)
Theorem C14_from_str_canonical :
  (forall s n, bn_from_str s = Ok n -> n < two64 /\ canon_unsigned s = bn_to_str n) /\
  (forall s z, int_from_str s = Ok z -> int_in_range z = true /\ canon_signed s = int_to_str z) /\
  (forall s z, bigint_from_str s = Ok z -> canon_bigint s = bigint_to_str z).
Proof.
  split; [exact parse_u64_canon|]. split; [|exact parse_bigint_canon].
  intros s z H. apply int_from_str_ok in H. destruct H as [P R]. split; [exact R | apply (parse_i128_canon s z P)].
Qed.
Print Assumptions C14_from_str_canonical.

Example C14_from_str_noncanonical :
  parse_u64 [43; 49] = Ok 1 /\ parse_u64 [48; 48; 55] = Ok 7 /\ parse_i128 [45; 48] = Ok 0%Z /\ parse_i128 [43; 48; 53] = Ok 5%Z /\
  parse_bigint [49; 95; 48] = Ok 10%Z /\ parse_bigint [45; 48; 95] = Ok 0%Z.
Proof. exact parse_noncanonical_accepted. Qed.

Example C14_bigint_example :
  let z := (- 2 ^ 2000 - 12345)%Z in
  bigint_from_bytes (bigint_serialize z) = Ok z /\ (64 < length (to_bytes_be (Z.to_N (-1 - z))))%nat /\
  bigint_from_str (bigint_to_str z) = Ok z.
Proof. exact bigint_roundtrip_example. Qed.

(* Multi-asset values are compared semantically: a missing asset is quantity 0 *)

(* checked_add: exact in every component or an explicit error, and an error only when a component overflows *)
Theorem C14_value_add_exact_or_error : forall a b : value, value_wf a -> value_wf b ->
  match value_checked_add a b with
  | Ok c => value_wf c /\ coin c = coin a + coin b /\ forall p n, qty c p n = qty a p n + qty b p n
  | Err => two64 <= coin a + coin b \/ exists p n, two64 <= qty a p n + qty b p n
  | _ => False
  end.
Proof. exact value_checked_add_cases. Qed.
Print Assumptions C14_value_add_exact_or_error.

(* checked_sub: exact in every component or an explicit error, and an error only when a component underflows *)
Theorem C14_value_sub_exact_or_error : forall a b : value, value_wf a -> value_wf b ->
  match value_checked_sub a b with
  | Ok c => value_wf c /\ coin b <= coin a /\ coin c = coin a - coin b /\
            forall p n, qty b p n <= qty a p n /\ qty c p n = qty a p n - qty b p n
  | Err => coin a < coin b \/ exists p n, qty a p n < qty b p n
  | _ => False
  end.
Proof. exact value_checked_sub_cases. Qed.
Print Assumptions C14_value_sub_exact_or_error.

(* before /repo 34fa344 checked_sub clamped assets silently: (10,{x:5}) - (1,{x:7}) = Ok (9,{}) *)
Theorem C14_value_sub_refuted_before_repair : exists a b c, value_wf a /\ value_wf b /\
  value_checked_sub_legacy a b = Ok c /\ exists p n, qty a p n < qty b p n.
Proof.
  exists (mkValue 10 (Some [([1], [([120], 5)])])), (mkValue 1 (Some [([1], [([120], 7)])])), (mkValue 9 None).
  repeat split; try reflexivity. exists [1], [120]. vm_compute. reflexivity.
Qed.
Print Assumptions C14_value_sub_refuted_before_repair.

(* clamped_sub is the documented component-wise truncated subtraction *)
Theorem C14_value_clamped_sub_spec : forall a b : value, value_wf a -> value_wf b ->
  value_wf (value_clamped_sub a b) /\ coin (value_clamped_sub a b) = coin a - coin b /\
  forall p n, qty (value_clamped_sub a b) p n = qty a p n - qty b p n.
Proof. exact value_clamped_sub_spec. Qed.
Print Assumptions C14_value_clamped_sub_spec.

(* addition is commutative and associative: same semantic result, or an explicit error on both sides *)
Theorem C14_value_add_comm : forall a b : value, value_wf a -> value_wf b ->
  same_outcome (value_checked_add a b) (value_checked_add b a).
Proof. exact value_add_comm. Qed.
Print Assumptions C14_value_add_comm.

Theorem C14_value_add_assoc : forall a b c : value, value_wf a -> value_wf b -> value_wf c ->
  same_outcome (let* ab := value_checked_add a b in value_checked_add ab c)
               (let* bc := value_checked_add b c in value_checked_add a bc).
Proof. intros a b c Wa Wb Wc. exact (sums_to_same _ _ _ _ (add3_l_sums a b c Wa Wb Wc) (add3_r_sums a b c Wa Wb Wc)). Qed.
Print Assumptions C14_value_add_assoc.

(* subtraction undoes addition *)
Theorem C14_sub_undoes_add : forall a b c : value, value_wf a -> value_wf b -> value_checked_add a b = Ok c ->
  exists d, value_checked_sub c b = Ok d /\ value_eq_sem d a.
Proof. exact value_sub_undoes_add. Qed.
Print Assumptions C14_sub_undoes_add.

(* compare / partial_cmp / the operators agree with the component-wise comparison of lovelace and every asset *)
Theorem C14_compare_componentwise : forall a b : value, value_wf a -> value_wf b ->
  (value_partial_cmp a b = Some Eq <-> value_eq_sem a b) /\
  (value_partial_cmp a b = Some Lt <-> value_le_sem a b /\ ~ value_le_sem b a) /\
  (value_partial_cmp a b = Some Gt <-> value_le_sem b a /\ ~ value_le_sem a b) /\
  (value_partial_cmp a b = None <-> ~ value_le_sem a b /\ ~ value_le_sem b a).
Proof. exact value_partial_cmp_spec. Qed.
Print Assumptions C14_compare_componentwise.

(* == (structural after dropping an all-empty multiasset) implies semantic equality *)
Theorem C14_value_eq_sound : forall a b : value, value_eqb a b = true -> value_eq_sem a b.
Proof. exact value_eqb_sound. Qed.
Print Assumptions C14_value_eq_sound.

(* the premises are satisfiable on a non-trivial pair: overlapping bundles, a quantity that cancels, one that overflows *)
Example C14_value_example :
  let a := mkValue 10 (Some [([1], [([120], 5); ([1; 2], 7)]); ([2], [([], two64 - 1)])]) in
  let b := mkValue 3 (Some [([1], [([120], 5)]); ([3], [([9], 1)])]) in
  value_wf a /\ value_wf b /\
  value_checked_add a b = Ok (mkValue 13 (Some [([1], [([120], 10); ([1; 2], 7)]); ([2], [([], two64 - 1)]); ([3], [([9], 1)])])) /\
  value_checked_sub a (mkValue 3 (Some [([1], [([120], 5)])])) = Ok (mkValue 7 (Some [([1], [([1; 2], 7)]); ([2], [([], two64 - 1)])])) /\
  value_checked_add a a = Err /\ value_checked_sub a b = Err /\ value_partial_cmp a b = None.
Proof. repeat split; vm_compute; reflexivity. Qed.

(* The executable judge of the correspondence run (Num/C14Model.v, extracted) accepts the model's own observation for ALL
   inputs; the only non-`Holds` verdicts on the model are the two known classes.  So a `fails` verdict in a run speaks about
   the implementation, and the conditions the judge evaluates are consequences of the theorems above. *)
Theorem C14_judge_accepts_model :
  (forall op a b, a < two64 -> b < two64 ->
     judge_bn op a b (model_bn op a b) = if known_div_by_zero op b then Fails cls_div_zero else Holds) /\
  (forall src, int_src_wf src = true -> int_src_bytes_ok src ->
     judge_int src (model_int src) = Holds \/
     (judge_int src (model_int src) = Fails cls_as_negative /\ int_obtain src = Some int_min)) /\
  (forall ops, forallb (fun op => int_in_range (mint_op_amount op)) ops = true -> judge_mint ops (model_mint ops) = Holds) /\
  (forall m, mint_wfb m = true -> mint_has_min m = false -> has_dup_policy m = false -> judge_mintv m (model_mintv m) = Holds) /\
  (forall z, judge_biz z (model_biz z) = Holds) /\
  (forall s, judge_bnstr s (model_bnstr s) = Holds) /\ (forall s, judge_bistr s (model_bistr s) = Holds) /\
  (forall bs, judge_bibytes bs (model_bibytes bs) = Holds \/ model_bibytes bs = OutOfFuel) /\
  (forall a b, value_wf a -> value_wf b -> judge_val a b (model_val a b) = Holds) /\
  (forall a b c, value_wf a -> value_wf b -> value_wf c -> judge_val3 a b c (model_val3 a b c) = Holds).
Proof.
  split; [exact judge_bn_accepts|]. split; [exact judge_int_accepts|]. split; [exact judge_mint_accepts|]. split; [exact judge_mintv_accepts|].
  split; [exact judge_biz_accepts|]. split; [exact judge_bnstr_accepts|]. split; [exact judge_bistr_accepts|]. split; [exact judge_bibytes_accepts|]. split; [exact judge_val_accepts | exact judge_val3_accepts].
Qed.
Print Assumptions C14_judge_accepts_model.
