(* C13 — Send-all batches spend everything once and every transaction is valid.  (The complete batcher is modelled with
   the HashSet iteration orders as an oracle, Batch/AssetPath.v; C13_finalise / C13_partition are stated for ANY accepted
   operation sequence and C13_refinement shows that the complete model performs only such sequences; see notes/design/C13.md.)
   The statements, each with the last step of its proof; the lemmas are in Batch/*Proofs.v.
   Models: Batch/Calc.v (cbor_calculator.rs, assets_calculator.rs, witnesses_calculator.rs), Batch/Proposal.v (proposals.rs,
   the bookkeeping of asset_categorizer.rs, finalisation), Batch/PureAda.v and Batch/AssetPath.v (the complete batcher), Batch/Denote.v (the ledger
   objects a proposal denotes, as values of the wire schemas tied to the Rust serializers by C01), Batch/BatchSpec.v (the
   C13 statement, executable = the judge of the end-to-end correspondence run). *)
From CSL Require Import Base.Prelude Base.Facts Base.U64 Cbor.Head Codec.Schema Ledger.Schemas
  Batch.Calc Batch.CalcProofs Batch.Denote Batch.EncProofs Batch.IntermediateProofs
  Batch.Proposal Batch.ProposalProofs Batch.BatchProofs Batch.PureAda Batch.PureAdaProofs Batch.AssetPath Batch.AssetPathProofs Batch.NoOofProofs Batch.IvLinkProofs.
From CSL Require Cbor.Item Batch.BatchSpec Batch.JudgeProofs.
From Coq Require Import Permutation.
Local Open Scope N_scope.

(* the CBOR head-size table of the calculator is the length of the real head, for EVERY argument and major type *)
Theorem C13_struct_size : forall (m n : N), get_struct_size n = N.of_nat (length (encode_head m n)).
Proof. exact struct_size_head. Qed.
Print Assumptions C13_struct_size.

(* value size: calc_value_size + the array(2) head added by estimate_output_cost = length of the encoded Value *)
Theorem C13_value_size : forall (coin : N) (gs : groups),
  Forall (fun p => lenN (fst p) = 28) gs ->
  lenN (enc Value (value_val coin gs)) = calc_value_size coin (groups_shape gs) + get_value_struct_size (is_nil gs).
Proof. exact value_size_exact. Qed.
Print Assumptions C13_value_size.

Theorem C13_output_size : forall (d : nat) (addr : bytes) (coin : N) (gs : groups),
  Forall (fun p => lenN (fst p) = 28) gs ->
  lenN (enc (TransactionOutput d) (output_val addr coin gs)) =
  get_output_size (lenN addr) + calc_value_size coin (groups_shape gs) + get_value_struct_size (is_nil gs).
Proof. exact output_size_exact. Qed.
Print Assumptions C13_output_size.

(* witnesses: a vkey witness is 101 bytes; the incrementally maintained total is the closed form whatever the order
   in which key and Byron owners are met; the closed form is the length of the encoded witness set *)
Theorem C13_witness_sizes :
  (forall vk sg, lenN vk = 32 -> lenN sg = 64 -> lenN (enc Vkeywitness (vkeywit_val vk sg)) = get_fake_vkey_size) /\
  (forall ops, let w := fold_left wit_step ops wit_new in w_total w = wit_closed (w_vkeys w) (w_boot_sizes w)) /\
  (forall d vks boots,
     (forall x, In x vks -> lenN (enc Vkeywitness x) = get_fake_vkey_size) -> (vks <> [] \/ boots <> []) ->
     lenN (enc (TransactionWitnessSet d) (ws_val vks boots)) =
     wit_closed (lenN vks) (map (fun b => lenN (enc BootstrapWitness b)) boots)).
Proof.
  split; [exact vkey_witness_size|]. split; [|exact witness_set_exact].
  intros ops. apply wit_inv_total, fold_left_inv; [|exact wit_inv_new].
  intros w [|sz] _ I; [apply wit_inv_add_vkey | apply wit_inv_add_bootstrap]; exact I.
Qed.
Print Assumptions C13_witness_sizes.

(* transaction size: the sum get_tx_proposal_size forms = length of the encoded transaction *)
Theorem C13_tx_size : forall (d : nat) (ins outs : list val) (fee : N) (ws : val),
  lenN (enc (Transaction d) (tx_val (body_val ins outs fee) ws)) =
  get_bare_tx_size false + get_bare_tx_body_size [0; 1; 2] + lenN (enc (TransactionWitnessSet d) ws) +
  (get_struct_size (lenN outs) + sumN (map (fun o => lenN (enc (TransactionOutput d) o)) outs)) +
  get_coin_size fee +
  (get_struct_size (lenN ins) + sumN (map (fun i => lenN (enc TransactionInput i)) ins)).
Proof. exact tx_size_exact. Qed.
Print Assumptions C13_tx_size.

(* the intermediate value size used for the max_value_size decision: order-independent closed form, and an upper
   bound of the real value size with the slack stated exactly *)
Theorem C13_intermediate_value :
  (forall policy_sz asz csz ops,
     let v := fold_left (iv_step policy_sz asz csz) ops iv_new in
     iv_total v = iv_coins ops + iv_closed policy_sz asz csz (iv_policies v)) /\
  (forall coin ada_total gs, coin <= ada_total ->
     Forall (Forall (fun a : N * N * N => match a with (_, q, tot) => q <= tot end)) gs ->
     calc_value_size coin (real_shape gs) + get_value_struct_size (match gs with [] => true | _ => false end)
       + slack_value coin ada_total gs = bound_value ada_total gs).
Proof. split; [exact iv_total_closed | exact intermediate_upper_bound]. Qed.
Print Assumptions C13_intermediate_value.

(* the (cost, size) estimators used to decide admission are safe *)
Theorem C13_estimators_safe :
  (forall used size cpb cost sz, get_coin_size used <= size ->
     estimate_output_cost used size cpb = Ok (cost, sz) ->
     cost = (sz + 160) * cpb /\ size_with_coin used size (N.max used cost) <= sz /\
     (sz <> size + get_coin_size coin_max -> size_with_coin used size (N.max used cost) = sz)) /\
  (forall base mn dp a b fee sz, estimate_fee base mn dp a b = Ok (fee, sz) ->
     fee = sz * a + b /\ recalc_size_with_dependable_value (base + get_coin_size fee) fee mn dp <= sz).
Proof. split; [exact output_cost_safe | exact fee_safe]. Qed.
Print Assumptions C13_estimators_safe.

(* ... and the pessimistic fee bound before /repo 5dc758e was not *)
Theorem C13_legacy_fee_bound_refuted :
  exists base mn dp a b fee sz,
    estimate_fee_gen true base mn dp a b = Ok (fee, sz) /\
    sz < recalc_size_with_dependable_value (base + get_coin_size fee) fee mn dp.
Proof.
  (* mainnet fee parameters, a 215-byte transaction without fee and last-output coin, 2^32 + 165284 lovelace to
     distribute: the returned size 224 is below the 229 bytes of the transaction that carries the returned fee *)
  exists 215, (Some 978370), (Some 4295132580), 44, 155381. eexists. eexists.
  split; [vm_compute; reflexivity | vm_compute; reflexivity].
Qed.
Print Assumptions C13_legacy_fee_bound_refuted.

(* Proposals (Batch/Proposal.v).  [run c tp_new ops] applies ANY sequence of the primitive operations through which
   the greedy grouping (modelled in Batch/AssetPath.v) acts on a proposal: new output / add asset to the last output (value-size test) /
   add UTxO (after its assets were placed) / set_min_ada_for_tx.  [finalise] = add_last_ada_to_last_output,
   set_min_ada_for_tx, check_finished_tx_proposal, create_tx. *)

(* C13_finalise: whatever the grouping, a finalised proposal denotes a transaction that is balanced in lovelace and in
   every asset, pays fee >= a * |tx| + b for its real encoded size (one witness per distinct owner address), fits
   max_tx_size, and whose outputs hold min ADA = cpb * (160 + |output|) and respect max_value_size *)
Theorem C13_finalise : forall c ops p p' tx,
  ctx_wf c -> run c tp_new ops = Ok p -> incl (t_utxos p) (all_indices c) -> finalise c p = Ok (p', tx) ->
  tx_valid c tx /\
  (forall a, sumN (map (fun o => held c (x_inputs tx) o a) (t_outputs p')) = sumN (map (fun u => amount c u a) (x_inputs tx))) /\
  Forall2 (fun o x => fst x = o_total_ada o /\ out_groups c (x_inputs tx) (o_assets o) = Ok (snd x)) (t_outputs p') (x_outputs tx).
Proof. exact finalise_full. Qed.
Print Assumptions C13_finalise.

Check (eq_refl : tx_valid = fun c tx =>
  sumN (map (fun u => ui_ada (utxo_of c u)) (x_inputs tx)) = sumN (map fst (x_outputs tx)) + x_fee tx /\
  real_tx_size c tx * cx_a c + cx_b c <= x_fee tx /\ real_tx_size c tx <= cx_max_tx c /\
  Forall (fun o => (real_out_size c (fst o) (snd o) + 160) * cx_cpb c <= fst o /\
                   (snd o <> [] -> real_value_size (fst o) (snd o) <= cx_max_value c) /\
                   (snd o = [] -> real_value_size (fst o) (snd o) <= 9)) (x_outputs tx)).

(* the sizes used in C13_finalise are the lengths of the real encodings of the denoted objects *)
Theorem C13_denotation :
  (forall d c addr coin (gsb : groups) gs,
     lenN addr = cx_addr_size c -> Forall (fun p => lenN (fst p) = 28) gsb -> groups_shape gsb = shape_of gs ->
     lenN (enc (TransactionOutput d) (output_val addr coin gsb)) = real_out_size c coin gs) /\
  (forall d c owners (vks boots : list val),
     (forall x, In x vks -> lenN (enc Vkeywitness x) = get_fake_vkey_size) ->
     lenN vks = owner_vkeys c owners -> map (fun b => lenN (enc BootstrapWitness b)) boots = owner_boots c owners ->
     (vks <> [] \/ boots <> []) ->
     lenN (enc (TransactionWitnessSet d) (ws_val vks boots)) = wit_size (owner_vkeys c owners) (owner_boots c owners)) /\
  (forall d c tx (ins outs : list val) (ws : val),
     Forall2 (fun i u => lenN (enc TransactionInput i) = ui_input_size (utxo_of c u)) ins (x_inputs tx) ->
     Forall2 (fun o x => lenN (enc (TransactionOutput d) o) = real_out_size c (fst x) (snd x)) outs (x_outputs tx) ->
     lenN (enc (TransactionWitnessSet d) ws) = wit_size (owner_vkeys c (x_owners tx)) (owner_boots c (x_owners tx)) ->
     lenN (enc (Transaction d) (tx_val (body_val ins outs (x_fee tx)) ws)) = real_tx_size c tx).
Proof.
  split; [|split].
  - intros d c addr coin gsb gs Ha Hp Hs. rewrite (output_size_exact d addr coin gsb Hp), Ha, Hs, (shape_nil _ _ Hs).
    unfold real_out_size, real_value_size. lia.
  - intros d c owners vks boots Hv Hn Hb Hne. rewrite (witness_set_exact d vks boots Hv Hne), Hn, Hb. reflexivity.
  - intros d c tx ins outs ws Hi Ho Hw. rewrite tx_size_exact, Hw. unfold real_tx_size.
    rewrite (Forall2_lenN _ _ _ Hi), (Forall2_lenN _ _ _ Ho).
    rewrite (sumN_eq2 _ (fun i => lenN (enc TransactionInput i)) (fun u => ui_input_size (utxo_of c u)) _ _ Hi) by auto.
    rewrite (sumN_eq2 _ (fun o => lenN (enc (TransactionOutput d) o)) (fun x => real_out_size c (fst x) (snd x)) _ _ Ho) by auto.
    reflexivity.
Qed.
Print Assumptions C13_denotation.

(* C13_partition: for ANY plan (one accepted operation sequence per transaction, each using only UTxOs still free),
   when the batch loop ends successfully the inputs of the transactions are exactly the supplied UTxOs, each once *)
Theorem C13_partition : forall c plan txs,
  send_all c plan = Ok txs -> Permutation (concat (map x_inputs txs)) (all_indices c).
Proof.
  intros c plan txs. unfold send_all, send_all_gen. pose proof (pools_cover c) as P.
  destruct (free_pools false c) as [assets adas]. exact (batch_partition_all c _ plan txs P).
Qed.
Print Assumptions C13_partition.

(* every transaction of ANY successful batch (any plan) is valid *)
Theorem C13_batch_valid : forall c plan free txs,
  ctx_wf c -> incl free (all_indices c) -> batch c free plan = Ok txs -> Forall (tx_valid c) txs.
Proof. intros c plan free txs W. exact (batch_valid c W plan free txs). Qed.
Print Assumptions C13_batch_valid.

(* FULL C13 where the code is deterministic: on UTxO sets without assets the batcher is modelled completely
   (Batch/PureAda.v: pool sorted by amount, try_append_pure_ada_utxo with its top-up loop, the build loop) and the
   correspondence run compares its transactions with the implementation's exactly; no abstraction is involved *)
Theorem C13_pure_ada_full : forall c txs,
  ctx_wf c -> no_assets c = true -> pure_send_all c = Ok txs ->
  Permutation (concat (map x_inputs txs)) (all_indices c) /\ Forall (tx_valid c) txs.
Proof.
  intros c txs W Hn H. destruct (pure_build_batch c _ _ _ (ada_pool_asset_free c) H) as [plan Hb].
  exact (batch_sound c _ plan txs W (ada_pool_all c Hn) Hb).
Qed.
Print Assumptions C13_pure_ada_full.

Example C13_pure_ada_example :
  let c := mkCtx [mkUinfo 3000000 36 0 false []; mkUinfo 10000000 36 0 false []; mkUinfo 900000 37 1 true []] [] [KVkey; KByron 137]
                 57 44 155381 4310 5000 16384 13900000 in
  no_assets c = true /\ pure_send_all c = Ok [mkAtx [1; 0; 2] [(13725259, [])] 174741 [0; 1]].
Proof. split; vm_compute; reflexivity. Qed.

(* FULL C13 for the complete batcher, asset path included (Batch/AssetPath.v: prototype_append, make_candidate, the
   intersections, add_assets_to_proposal_output, the build loop), for EVERY oracle = every iteration order the hash sets
   can take: no "any accepted operation sequence" abstraction is left; the correspondence run feeds the orders the
   implementation took and compares every transaction exactly *)
Theorem C13_full : forall c o txs,
  utxos_ok c -> ctx_wf c -> full_send_all c o = Ok txs ->
  Permutation (concat (map x_inputs txs)) (all_indices c) /\ Forall (tx_valid c) txs.
Proof.
  intros c o txs Hu W H. destruct (initial_pools_ok c) as [K P].
  destruct (build_all_batch c Hu _ _ _ _ K H) as [plan Hb]. exact (batch_sound c _ plan txs W P Hb).
Qed.
Print Assumptions C13_full.

(* ... because it refines the abstract batch: every successful run is a plan of accepted operation sequences *)
Theorem C13_refinement : forall c fuel st o txs,
  utxos_ok c -> pools_ok c st -> build_all fuel c st o = Ok txs -> exists plan, batch c (flat st) plan = Ok txs.
Proof. intros c fuel st o txs Hu. exact (build_all_batch c Hu fuel st o txs). Qed.
Print Assumptions C13_refinement.

Example C13_full_example :
  utxos_ok ex_ctx /\ full_send_all ex_ctx [] = Ok [mkAtx [0; 1] [(12831463, [[(3, 7, 7)]])] 168537 [0]].
Proof.
  split; [|vm_compute; reflexivity]. intros u. unfold uassets, utxo_of, nthN, ex_ctx. cbn [cx_utxos].
  destruct (N.to_nat u) as [|[|[|n]]]; cbn; repeat constructor; intros [].
Qed.

(* termination: with the fuel the models pass (number of UTxOs + 1 for the build loops, number of free UTxOs + 1 for the
   fill loops, number of assets + 2 for the distribution of a UTxO's assets, pool size + 1 for the top-up loop) no loop ever
   runs out of fuel, for every oracle: every round of every loop consumes a UTxO / places an asset, or reports an error *)
Theorem C13_terminates :
  (forall c o, utxos_ok c -> full_send_all c o <> OutOfFuel) /\ (forall c, pure_send_all c <> OutOfFuel).
Proof.
  split.
  - intros c o Hu. apply build_all_no_oof; [exact Hu | apply initial_pools_ok | rewrite initial_pools_size; lia].
  - intros c. pose proof (ada_pool_length c). apply pure_build_no_oof; [apply ada_pool_nodup | apply ada_pool_asset_free | lia].
Qed.
Print Assumptions C13_terminates.

(* the value-size test of the models (closed form bound_of) is the size IntermediateOutputValue maintains incrementally,
   for both ways the code builds it (assets then coin: build_intermediate_value; coin then assets: build_empty + additions) *)
Theorem C13_intermediate_link : forall c l, NoDup l ->
  iv_total (fold_left (stepc c) (map (add_op c) l ++ [ICoin (cx_ada_total c)]) iv_new) = bound_of c l /\
  iv_total (fold_left (stepc c) (ICoin (cx_ada_total c) :: map (add_op c) l) iv_new) = bound_of c l.
Proof. exact iv_bound_link. Qed.
Print Assumptions C13_intermediate_link.

(* the top-up defect (before /repo 180f5b3): one round leaves a shortage; the repaired loop never does *)
Theorem C13_topup_once_refuted :
  exists c p pool p2 used size n,
    run c tp_new [OpNewOutput; OpAddAsset 0; OpAddUtxo 0; OpSetMinAda] = Ok p /\
    topup_once c pool false p [] 0 = Ok (p2, used, size) /\ get_need_ada p2 = Ok n /\ 0 < n.
Proof.
  (* the UTxO added for the shortage raises the fee by more than it leaves over (corpus witness w3: 1 ADA with an asset,
     topped up with 0.302 ADA), and with nothing left to append the proposal was finalised as it was *)
  exists (mkCtx [mkUinfo 1000000 36 0 true [(0, 5)]; mkUinfo 302000 36 0 false []] [mkAinfo 0 3 5] [KVkey]
                57 44 155381 4310 5000 16384 1302000).
  eexists. exists [1]. do 4 eexists.
  split; [vm_compute; reflexivity|]. split; [vm_compute; reflexivity|]. split; vm_compute; reflexivity.
Qed.
Print Assumptions C13_topup_once_refuted.

Theorem C13_topup_loop_covers : forall c pool orig fuel p used size p2 u2 s2,
  topup_loop fuel c pool orig p used size = Ok (p2, u2, s2) -> get_need_ada p2 = Ok 0.
Proof. intros. eapply topup_need. eassumption. Qed.
Print Assumptions C13_topup_loop_covers.

(* the premises are satisfiable: a two-UTxO layout with an asset, mainnet parameters *)
Example C13_example :
  ctx_wf ex_ctx /\ send_all ex_ctx ex_plan = Ok [mkAtx [0; 1] [(12831463, [[(3, 7, 7)]])] 168537 [0]].
Proof. split; [exact ex_ctx_wf | exact ex_send_all]. Qed.

(* three more modelled defects, before their repair in /repo (known_findings.d/C13.json) *)
Theorem C13_partition_legacy_refuted :
  exists c txs, send_all_gen true c [] = Ok txs /\ ~ Permutation (concat (map x_inputs txs)) (all_indices c).
Proof.
  (* a UTxO whose multiasset is present but empty was in no pool: the batch "succeeds" without spending it *)
  exists (mkCtx [mkUinfo 5000000 36 0 true []] [] [KVkey] 57 44 155381 4310 5000 16384 5000000), [].
  split; [reflexivity|]. cbn. intros H. apply Permutation_length in H. discriminate.
Qed.
Print Assumptions C13_partition_legacy_refuted.

Theorem C13_finalise_without_check_refuted :
  exists c ops p p' tx,
    run c tp_new ops = Ok p /\ finalise_gen false c p = Ok (p', tx) /\
    sumN (map (fun u => ui_ada (utxo_of c u)) (x_inputs tx)) < sumN (map fst (x_outputs tx)) + x_fee tx.
Proof.
  (* coins_per_utxo_byte 19000000, one UTxO of 4300000000 lovelace (witness w8 of the corpus) *)
  exists (mkCtx [mkUinfo 4300000000 36 0 false []] [] [KVkey] 57 44 155381 19000000 5000 16384 4300000000),
         [OpNewOutput; OpAddUtxo 0; OpSetMinAda].
  eexists. eexists. eexists. split; [vm_compute; reflexivity|]. split; [vm_compute; reflexivity|]. vm_compute. reflexivity.
Qed.
Print Assumptions C13_finalise_without_check_refuted.

Theorem C13_legacy_fee_estimate_refuted :
  exists c p0 p1 s1 p2 p3 s3 tx,
    add_utxo c (add_new_output tp_new) 0 = Ok p0 /\
    set_min_ada_for_tx_gen true c p0 = Ok (p1, s1) /\ add_last_ada_to_last_output p1 = Ok p2 /\
    set_min_ada_for_tx_gen true c p2 = Ok (p3, s3) /\ create_tx c p3 = Ok tx /\
    sumN (map fst (x_outputs tx)) + x_fee tx < sumN (map (fun u => ui_ada (utxo_of c u)) (x_inputs tx)) /\
    x_fee tx < real_tx_size c tx * cx_a c + cx_b c.
Proof.
  (* the dependable amount lacked the current fee: after the unused ADA went to the last output the re-estimate prices
     that output's coin at last.total - fee, here below 2^32 although the output holds more, and lowers the fee
     (one UTxO of 2^32 + 200000 lovelace, mainnet parameters: witness w1 of the corpus) *)
  exists (mkCtx [mkUinfo 4295167296 36 0 false []] [] [KVkey] 57 44 155381 4310 5000 16384 4295167296).
  do 7 eexists.
  split; [vm_compute; reflexivity|]. split; [vm_compute; reflexivity|]. split; [vm_compute; reflexivity|].
  split; [vm_compute; reflexivity|]. split; [vm_compute; reflexivity|]. split; vm_compute; reflexivity.
Qed.
Print Assumptions C13_legacy_fee_estimate_refuted.

(* the executable judge of the end-to-end run decides the Prop-level C13 statement *)
Theorem C13_judge_sound : forall c target us l,
  BatchSpec.utxos_distinct us = true -> BatchSpec.judge c target us l = [] ->
  exists ts, Forall2 (fun b p => BatchSpec.read_tx (fst b) = Some (fst p) /\ BatchSpec.read_tx (snd b) = Some (snd p)) l ts /\
             JudgeProofs.C13_statement c target us ts.
Proof. exact JudgeProofs.judge_sound. Qed.
Print Assumptions C13_judge_sound.

(* non-vacuity of C13_judge_sound: the judge accepts a real result of create_send_all (corpus case w6: one pure-ADA
   UTxO of 5 ADA whose multiasset is present but empty, mainnet parameters; transaction and signed transaction as
   returned / signed by the harness) *)
Definition ex_target : bytes := [1; 133; 176; 65; 123; 200; 127; 114; 81; 153; 106; 185; 32; 142; 4; 17; 34; 170; 82; 179; 4; 134; 220; 251; 62; 44; 150; 0; 115; 226; 102; 95; 71; 118; 66; 241; 236; 110; 189; 250; 122; 0; 5; 132; 234; 248; 87; 107; 81; 53; 85; 115; 228; 75; 159; 33; 229].
Definition ex_utxo : BatchSpec.utxo := BatchSpec.mkUtxo [17; 17; 17; 17; 17; 17; 17; 17; 17; 17; 17; 17; 17; 17; 17; 17; 17; 17; 17; 17; 17; 17; 17; 17; 17; 17; 17; 17; 17; 17; 17; 17] 0 [1; 56; 193; 132; 159; 136; 84; 50; 65; 42; 95; 18; 142; 254; 217; 39; 91; 112; 11; 41; 225; 10; 146; 149; 130; 46; 153; 46; 35; 31; 232; 67; 186; 72; 194; 249; 72; 5; 138; 20; 193; 180; 33; 132; 1; 163; 49; 34; 36; 80; 144; 93; 60; 112; 16; 44; 36] 5000000 [].
Definition ex_cfg : BatchSpec.config := BatchSpec.mkConfig 44 155381 4310 5000 16384.
Definition ex_tx : bytes := [132; 163; 0; 217; 1; 2; 129; 130; 88; 32; 17; 17; 17; 17; 17; 17; 17; 17; 17; 17; 17; 17; 17; 17; 17; 17; 17; 17; 17; 17; 17; 17; 17; 17; 17; 17; 17; 17; 17; 17; 17; 17; 0; 1; 129; 130; 88; 57; 1; 133; 176; 65; 123; 200; 127; 114; 81; 153; 106; 185; 32; 142; 4; 17; 34; 170; 82; 179; 4; 134; 220; 251; 62; 44; 150; 0; 115; 226; 102; 95; 71; 118; 66; 241; 236; 110; 189; 250; 122; 0; 5; 132; 234; 248; 87; 107; 81; 53; 85; 115; 228; 75; 159; 33; 229; 26; 0; 73; 197; 159; 2; 26; 0; 2; 133; 161; 161; 0; 217; 1; 2; 129; 130; 88; 32; 207; 118; 57; 154; 33; 13; 232; 114; 14; 159; 168; 148; 228; 94; 65; 226; 154; 181; 37; 227; 11; 196; 2; 128; 0; 0; 0; 0; 0; 0; 0; 0; 88; 64; 36; 248; 153; 211; 155; 23; 253; 93; 102; 193; 146; 196; 181; 13; 52; 62; 66; 247; 35; 91; 48; 80; 76; 138; 231; 97; 159; 147; 200; 40; 220; 109; 206; 69; 104; 221; 105; 23; 124; 85; 24; 40; 73; 45; 119; 122; 103; 39; 253; 102; 194; 251; 204; 189; 168; 194; 174; 237; 146; 3; 44; 153; 121; 10; 245; 246].
Definition ex_signed : bytes := [132; 163; 0; 217; 1; 2; 129; 130; 88; 32; 17; 17; 17; 17; 17; 17; 17; 17; 17; 17; 17; 17; 17; 17; 17; 17; 17; 17; 17; 17; 17; 17; 17; 17; 17; 17; 17; 17; 17; 17; 17; 17; 0; 1; 129; 130; 88; 57; 1; 133; 176; 65; 123; 200; 127; 114; 81; 153; 106; 185; 32; 142; 4; 17; 34; 170; 82; 179; 4; 134; 220; 251; 62; 44; 150; 0; 115; 226; 102; 95; 71; 118; 66; 241; 236; 110; 189; 250; 122; 0; 5; 132; 234; 248; 87; 107; 81; 53; 85; 115; 228; 75; 159; 33; 229; 26; 0; 73; 197; 159; 2; 26; 0; 2; 133; 161; 161; 0; 217; 1; 2; 129; 130; 88; 32; 238; 138; 101; 32; 85; 220; 86; 247; 155; 155; 15; 174; 89; 58; 2; 55; 224; 158; 67; 48; 42; 232; 58; 232; 184; 101; 37; 3; 118; 60; 179; 134; 88; 64; 98; 114; 27; 129; 186; 236; 225; 45; 45; 138; 238; 43; 172; 210; 92; 169; 68; 42; 82; 66; 32; 93; 241; 81; 135; 142; 175; 28; 159; 239; 55; 6; 224; 237; 135; 95; 234; 160; 81; 47; 104; 241; 213; 72; 158; 184; 21; 199; 50; 46; 138; 109; 218; 0; 67; 37; 112; 216; 67; 96; 100; 100; 59; 5; 245; 246].
Example C13_judge_example :
  BatchSpec.utxos_distinct [ex_utxo] = true /\ BatchSpec.judge ex_cfg ex_target [ex_utxo] [(ex_tx, ex_signed)] = [].
Proof. split; vm_compute; reflexivity. Qed.

(* non-vacuity of the size theorems' premises: a value with one asset (28-byte policy id, 3-byte name, quantity 5) *)
Example C13_value_example :
  let gs := [(repeat 171 28, [([97; 98; 99], 5)])] in
  Forall (fun p : bytes * list (bytes * N) => lenN (fst p) = 28) gs /\
  lenN (enc Value (value_val 1133530 gs)) = 43 /\
  calc_value_size 1133530 (groups_shape gs) + get_value_struct_size (is_nil gs) = 43.
Proof. cbn zeta. split; [repeat constructor|]. split; vm_compute; reflexivity. Qed.

(* ... and of the estimators': the output of the example above (57-byte address) and the fee of a 299-byte transaction *)
Example C13_estimators_example :
  estimate_output_cost 1000000 103 4310 = Ok (1133530, 103) /\
  estimate_fee 289 (Some 1133530) (Some 1302000) 44 155381 = Ok (168537, 299).
Proof. split; vm_compute; reflexivity. Qed.

(* "one signature per distinct owning key": fewer vkey witnesses (shared payment keys) only make the transaction smaller *)
Theorem C13_fewer_signatures : forall v v' boots, 1 <= v -> v <= v' -> wit_size v boots <= wit_size v' boots.
Proof.
  intros v v' boots H1 H2. unfold wit_size. assert (v =? 0 = false) as -> by lia. assert (v' =? 0 = false) as -> by lia.
  cbn [andb]. assert (0 <? v = true) as -> by lia. assert (0 <? v' = true) as -> by lia.
  pose proof (struct_size_mono v v' H2). unfold get_wrapped_struct_size, get_fake_vkey_size.
  destruct (0 <? lenN boots); nia.
Qed.
Print Assumptions C13_fewer_signatures.
