(* C06 — The fee set by the builder is always sufficient.
   The statements the property stands for.  The general theorems are proved in FeeSuff/FeeProofs.v and
   FeeSuff/FeeConcrete.v; the witnesses and the short corollaries are proved here.

   Model: Builder/Change.v (C05: add_change_if_needed with every branch, fee_for_output, pub min_fee, build_tx,
   add_inputs_from_and_change) over an oracle [orc] whose FEE answers are FeeSuff/FeeModel.v's [min_fee_model e]
   (premise [fee_exact e orc]); its other answers (min-ADA, value-size and tx-size tests, coin selection) and the
   way its own state evolves are arbitrary.  [e : env] holds the linear fee, an ARBITRARY size K(st) of everything
   in the fake full transaction except the fee integer and the outputs array, an arbitrary output base size per
   address / datum / script-ref, and arbitrary ex-unit and reference-script fee parts.
   [need e s F] = a * |tx(s) with fee field F| + b + ex_unit_cost + ref_script_fee (unbounded);
   [sufficient e s] : the fee stored in s is >= need. *)
From CSL Require Import Base.Prelude Base.U64 Cbor.Head Cbor.HeadProofs Num.Value Deposits.Deposits Builder.Totals Builder.Change
  FeeSuff.FeeModel FeeSuff.FeeSpec FeeSuff.FeeProofs.
Local Open Scope N_scope.

(* THE FULL STATEMENT, for the code as repaired in /repo ("fix: add_change_if_needed fails when the fee it computed does
   not cover the transaction it leaves": Change.check_fee_after_change at the end of the two change paths): every
   successful add_change whose fee was not fixed by the caller stores a fee that covers the ledger minimum of the
   transaction it leaves.  No slack premise. *)
Definition C06_full : Prop :=
  forall (O : Type) (orc : @oracle O) (e : env), fee_exact e orc ->
  forall fuel addr extra b s s' (o o' : O),
    add_change orc fuel addr extra s o = mkOut (Ok b) s' o' ->
    (forall y, s_fee_request s <> FeeExactly y) ->
    sufficient e s'.

Theorem C06_sufficient : C06_full.
Proof. intros O orc e H. exact (add_change_fee_sufficient orc e H). Qed.
Print Assumptions C06_sufficient.

(* non-vacuity: mainnet-like parameters, 5000 ADA + a token: add_change succeeds, margin exactly 0 (old and new code) *)
Check sufficient_premises_mainnet.

(* the repaired add_change is the old one followed by the fee re-check on the paths that return true *)
Theorem C06_fix_split :
  forall (O : Type) (orc : @oracle O) fuel addr extra s (o : O),
    add_change orc fuel addr extra s o = bindM (add_change_legacy orc fuel addr extra) (post_check orc) s o.
Proof. exact @add_change_fix_split. Qed.
Print Assumptions C06_fix_split.

(* the code before the repair (FeeSpec.add_change_legacy) *)

(* its fee covers the minimum provided the bytes by which the final outputs and fee field exceed the outputs as priced
   fit the placeholder (9 bytes; the width of the requested minimal fee when that request is binding) *)
Theorem C06_legacy_sufficient :
  forall (O : Type) (orc : @oracle O) (e : env), fee_exact e orc ->
  forall fuel addr extra b s s' (o o' : O),
    add_change_legacy orc fuel addr extra s o = mkOut (Ok b) s' o' ->
    (forall y, s_fee_request s <> FeeExactly y) ->
    slack_ok e orc fuel addr extra s o = true ->
    sufficient e s'.
Proof. intros O orc e H. exact (add_change_legacy_fee_sufficient orc e H). Qed.
Print Assumptions C06_legacy_sufficient.

(* the slack premise could not be dropped: 100 lovelace per UTxO byte, no fee request (fixed finding C06-topup-width) *)
Theorem C06_sufficient_refuted :
  exists (e : env) (orc : @oracle unit) fuel addr extra s b s' o',
    fee_exact e orc /\ s_fee_request s = FeeUnspecified /\
    add_change_legacy orc fuel addr extra s tt = mkOut (Ok b) s' o' /\
    slack_ok e orc fuel addr extra s tt = false /\ ~ sufficient e s'.
Proof.
  (* the change output is priced with a 3-byte coin and topped up to a 9-byte one; the 9-byte fee placeholder only covers
     4 of the 6 extra bytes: fee 165809 < 165897 *)
  exists Witness.e_main, (size_oracle Witness.e_main 100 5000), 10%nat, 1, 0, Witness.s_tok.
  remember (add_change_legacy (size_oracle Witness.e_main 100 5000) 10 1 0 Witness.s_tok tt) as r eqn:Er.
  exists true, (out_st r), (out_orc r).
  split; [apply size_oracle_fee_exact|]. split; [reflexivity|].
  split; [rewrite Er; vm_compute; reflexivity|].
  split; [vm_compute; reflexivity|].
  intros H. apply sufficientb_spec in H. rewrite Er in H. vm_compute in H. discriminate.
Qed.
Print Assumptions C06_sufficient_refuted.

(* ... nor under a binding requested minimal fee (fixed finding C06-notless-width) *)
Theorem C06_notless_refuted :
  exists (e : env) (orc : @oracle unit) fuel addr extra s r b s' o',
    fee_exact e orc /\ s_fee_request s = FeeNotLess r /\ binding e s = true /\
    add_change_legacy orc fuel addr extra s tt = mkOut (Ok b) s' o' /\
    slack_ok e orc fuel addr extra s tt = false /\ ~ sufficient e s'.
Proof.
  (* a requested minimal fee of 65535 just above the estimate (binding); the fee ends at 65560: its field is 5 bytes
     wide but was priced with the 3 bytes of 65535: fee 65560 < 65648 *)
  exists Witness.e_nl, (size_oracle Witness.e_nl 4310 5000), 10%nat, 1, 0, Witness.s_nl, 65535.
  remember (add_change_legacy (size_oracle Witness.e_nl 4310 5000) 10 1 0 Witness.s_nl tt) as r eqn:Er.
  exists true, (out_st r), (out_orc r).
  split; [apply size_oracle_fee_exact|]. split; [reflexivity|]. split; [vm_compute; reflexivity|].
  split; [rewrite Er; vm_compute; reflexivity|].
  split; [vm_compute; reflexivity|].
  intros H. apply sufficientb_spec in H. rewrite Er in H. vm_compute in H. discriminate.
Qed.
Print Assumptions C06_notless_refuted.

(* the repaired add_change fails on both witnesses *)
Check fixed_refuses_witnesses.

(* the pricing phase (the old add_change up to, not including, the top-up of the last output): the stored fee is an
   aligned figure and covers the transaction AS PRICED with a fee field of the placeholder width *)
Theorem C06_priced :
  forall (O : Type) (orc : @oracle O) (e : env), fee_exact e orc ->
  forall fuel addr extra bg s s1 (o o1 : O),
    add_change_pre orc fuel addr extra s o = mkOut (Ok bg) s1 o1 ->
    s_fee s = None /\
    (exists x, s_fee s1 = Some (get_new_fee (s_fee_request s) x) /\ core s1 = core s /\
       s_fee_request s1 = s_fee_request s /\
       ((forall y, s_fee_request s <> FeeExactly y) ->
          need_w e s1 (if fst bg then placeholder_w e s else 9) <= get_new_fee (s_fee_request s) x)) /\
    (snd bg <> None -> fst bg = true).
Proof. intros O orc e H. exact (add_change_pre_spec orc e H). Qed.
Print Assumptions C06_priced.

(* the old add_change is the pricing phase followed by the top-up *)
Theorem C06_split :
  forall (O : Type) (orc : @oracle O) fuel addr extra s (o : O),
    add_change_legacy orc fuel addr extra s o = bindM (add_change_pre orc fuel addr extra) (finish_change orc) s o.
Proof. exact @add_change_split. Qed.
Print Assumptions C06_split.

(* fee policies: NotLess r -> fee >= r; Exactly f -> fee = f (every policy, every branch) *)
Theorem C06_policy :
  forall (O : Type) (orc : @oracle O) (e : env), fee_exact e orc ->
  forall fuel addr extra b s s' (o o' : O),
    add_change orc fuel addr extra s o = mkOut (Ok b) s' o' ->
    exists F, s_fee s' = Some F /\ s_fee_request s' = s_fee_request s /\ policy_ok (s_fee_request s) F.
Proof.
  intros O orc e Hfee fuel addr extra b s s' o o' H.
  rewrite add_change_fix_split in H. apply bindM_inv in H as (b1 & s1 & o1 & Hl & Hp).
  apply (post_check_inv orc e Hfee) in Hp as (_ & -> & _). exact (add_change_legacy_policy orc e Hfee _ _ _ _ _ _ _ _ Hl).
Qed.
Print Assumptions C06_policy.
Check policy_premises.

(* build_tx's final guard (validate_fee, as repaired in /repo 0fc161c): a transaction that build_tx returns carries the
   fee of the state, that fee covers the ledger minimum of the (fake full = signed) transaction, and it honours the fee
   request, whenever set_fee / set_min_fee were called (before or AFTER add_change) — whatever happened before *)
Theorem C06_validate :
  forall (O : Type) (orc : @oracle O) (e : env), fee_exact e orc ->
  forall body s s' (o o' : O),
    build_tx orc s o = mkOut (Ok body) s' o' ->
    exists F, get_fee_if_set s = Some F /\ b_fee body = F /\ need e s F <= F /\ policy_ok (s_fee_request s) F.
Proof. intros O orc e H. exact (build_tx_validates orc e H). Qed.
Print Assumptions C06_validate.
Check build_premises.

(* the code before the repair built a transaction with the computed fee although a different fee had been fixed *)
Theorem C06_late_fee_request_legacy_refuted :
  let orc := size_oracle Witness.e_main 4310 5000 in
  let s1 := set_s_fee_request (FeeExactly 1000000) (out_st (add_change orc 10 1 0 Witness.s_tok tt)) in
  (exists body, out_res (build_tx_legacy orc s1 tt) = Ok body /\ b_fee body = 165897) /\
  out_res (build_tx orc s1 tt) = Err.
Proof. vm_compute. split; [eexists; split; reflexivity | reflexivity]. Qed.
Print Assumptions C06_late_fee_request_legacy_refuted.

(* add_inputs_from_and_change: on success the state is the one a successful add_change left (so C06_sufficient and
   C06_policy apply to it) *)
Theorem C06_select :
  forall (O : Type) (orc : @oracle O) fuel utxos addr extra b s s' (o o' : O),
    add_inputs_from_and_change orc fuel utxos addr extra s o = mkOut (Ok b) s' o' ->
    exists st ot, add_change orc fuel addr extra st ot = mkOut (Ok b) s' o'.
Proof. exact @select_and_change_ends. Qed.
Print Assumptions C06_select.

(* sequential increments (what fee_for_output returns without a fee request, lemma fee_for_output_unspecified)
   telescope to the difference of the two estimates ... *)
Theorem C06_telescope :
  forall e w l s, seq_fees e w s l = need_w e (add_outs l s) w - need_w e s w.
Proof.
  intros e w l. induction l as [|x l IH]; intros s; cbn [seq_fees].
  - rewrite add_outs_nil. lia.
  - rewrite IH, add_outs_cons.
    pose proof (need_w_add_outs_le e s [x] w). pose proof (need_w_add_outs_le e (add_out x s) l w).
    change (add_outs [x] s) with (add_out x s) in *. lia.
Qed.
Print Assumptions C06_telescope.

(* ... which is a * (sum of the output sizes + growth of the outputs array head: 23 -> 24, 255 -> 256 outputs) *)
Theorem C06_telescope_closed :
  forall e w l s,
    seq_fees e w s l + e_a e * head_size (lenN (s_outputs s))
    = e_a e * (sumN (map (out_size e) l) + head_size (lenN (s_outputs s) + lenN l)).
Proof.
  intros e w l s. rewrite C06_telescope. pose proof (need_w_add_outs e s l w). pose proof (need_w_add_outs_le e s l w). lia.
Qed.
Print Assumptions C06_telescope_closed.

(* when the slack suffices: a coin priced at >= 2^16 (min-ADA of mainnet-like parameters) and a fee < 2^32 *)
Theorem C06_slack_widths :
  forall c c' F, 65536 <= c -> F < 4294967296 -> head_size c' + head_size F <= head_size c + 9.
Proof.
  (* a 5-byte integer at least, a 5-byte integer at most: whatever the top-up makes of the coin fits the placeholder *)
  intros c c' F Hc HF. pose proof (head_size_bounds c').
  pose proof (head_size_mono 65536 c Hc). pose proof (head_size_mono F 4294967295 ltac:(lia)).
  change (head_size 65536) with 5 in *. change (head_size 4294967295) with 5 in *. lia.
Qed.
Print Assumptions C06_slack_widths.
Example C06_slack_widths_ex : head_size 18446744073709551615 + head_size 4294967295 <= head_size 65536 + 9.
Proof. vm_compute. discriminate. Qed.

(* NO ORACLE PREMISE on the sub-class of builder states covered by MinAda/TxSize.v (C07, over C13's encoder lemmas) and
   Witnesses/* (C18): key and Byron inputs, plain / asset / datum / script-ref outputs; no explicit required signers
   (also a body field), certificates, withdrawals, mint, scripts, reference inputs, collateral, ttl, auxiliary data.
   [FeeConcrete.cenv I a b max_tx] is the size environment made concrete (K from C18's model of count_needed_vkeys /
   get_bootstraps on the builder's history and TxSize's size algebra; the fee is C15's linear fee of that size);
   the fee oracle is [with_fee (cenv ..) base] with ARBITRARY min-ADA / size-test / selection answers [base].
   [signed_by_required d I st F x]: x is a concrete transaction (values of the C01 schemas) with the inputs and outputs of
   st, fee F, one vkey witness per key of C18's required_keys_spec, one bootstrap witness per required Byron address.
   [WitnessProofs.all_consistent]: C18's premise (no outpoint added twice with different owners; true for every state whose inputs
   are a map, shown on the Example). *)
From CSL Require FeeSuff.FeeConcrete MinAda.TxSize MinAda.SchemaTie Witnesses.WitnessProofs.

(* the size the fee is computed from = the length of the encoded transaction signed by exactly the required keys *)
Theorem C06_concrete_size :
  forall (d : nat) (I : FeeConcrete.interp) a b mx (st : state) (F : N) (x : MinAda.TxSize.ctx),
    FeeConcrete.signed_by_required d I st F x ->
    Witnesses.WitnessProofs.all_consistent (FeeConcrete.ops_of I st) = true ->
    tx_size (FeeConcrete.cenv I a b mx) st F = MinAda.SchemaTie.len (MinAda.TxSize.enc_tx d x).
Proof. exact FeeConcrete.concrete_size_is_encoding. Qed.
Print Assumptions C06_concrete_size.

Theorem C06_sufficient_concrete :
  forall (d : nat) (O : Type) (base : @oracle O) (I : FeeConcrete.interp) a b mx fuel addr extra r st st' (o o' : O),
    add_change (with_fee (FeeConcrete.cenv I a b mx) base) fuel addr extra st o = mkOut (Ok r) st' o' ->
    (forall y, s_fee_request st <> FeeExactly y) ->
    Witnesses.WitnessProofs.all_consistent (FeeConcrete.ops_of I st') = true ->
    exists F, s_fee st' = Some F /\
      forall x, FeeConcrete.signed_by_required d I st' F x ->
                a * MinAda.SchemaTie.len (MinAda.TxSize.enc_tx d x) + b <= F.
Proof. intros d O. exact (@FeeConcrete.add_change_concrete d O). Qed.
Print Assumptions C06_sufficient_concrete.

Theorem C06_validate_concrete :
  forall (d : nat) (O : Type) (base : @oracle O) (I : FeeConcrete.interp) a b mx body st st' (o o' : O),
    build_tx (with_fee (FeeConcrete.cenv I a b mx) base) st o = mkOut (Ok body) st' o' ->
    Witnesses.WitnessProofs.all_consistent (FeeConcrete.ops_of I st) = true ->
    forall x, FeeConcrete.signed_by_required d I st (b_fee body) x ->
              a * MinAda.SchemaTie.len (MinAda.TxSize.enc_tx d x) + b <= b_fee body.
Proof. intros d O. exact (@FeeConcrete.build_tx_concrete d O). Qed.
Print Assumptions C06_validate_concrete.

(* non-vacuity: 5 ADA on a key input, change to an enterprise address, mainnet parameters: fee 164225, change 4835775,
   the encoded signed transaction has 197 bytes (the implementation's figures, corpus case w5) *)
Check FeeConcrete.concrete_premises.
