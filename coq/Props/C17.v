(* C17 - JSON forms round-trip and schema conversions behave as documented. *)
From CSL Require Import Base.Prelude Base.Hex Json.Decimal Json.DecimalProofs Json.Json Json.MetadataJson Json.Chunks Json.PlutusJson
  Json.SerdeForms Json.JsonProofs Json.MetadataJsonProofs Json.ChunksProofs Json.PlutusJsonProofs Json.SerdeFormsProofs
  Json.Witnesses Codec.Schema Json.SerdeSchema Json.SerdeSchemaProofs Json.SerdeLedger Json.SerdeLedgerProofs.
From CSL Require Addr.Shelley Addr.Bech32Iface Json.SerdeAddr.
Local Open Scope N_scope.

(* Metadata converted to JSON and back is unchanged under DetailedSchema whenever the first conversion succeeds
   (all metadata values: md_wf is the representation invariant of TransactionMetadatum - distinct keys in a
   LinkedHashMap, byte/text strings of at most 64 bytes). *)
Theorem C17_metadata_md_json_md_detailed :
  forall m j, md_wf m = true -> m2j Detailed m = Ok j -> j2m cur_cfg Detailed j = Ok m.
Proof. intros m j Hwf. apply (md_json_md cur_cfg eq_refl Detailed m); [discriminate|exact Hwf|reflexivity]. Qed.
Print Assumptions C17_metadata_md_json_md_detailed.

(* ... and under NoConversions outside the known class C17-noconv-unsorted-map (JSON objects are sorted maps). *)
Theorem C17_metadata_md_json_md_noconv :
  forall m j, md_wf m = true -> md_unsorted_map m = false -> m2j NoConv m = Ok j -> j2m cur_cfg NoConv j = Ok m.
Proof.
  intros m j Hwf Hs. apply (md_json_md cur_cfg eq_refl NoConv m); [discriminate|exact Hwf|].
  unfold md_unsorted_map in Hs. now destruct (md_sorted m).
Qed.
Print Assumptions C17_metadata_md_json_md_noconv.

(* the full statement (without the class) is false on the code: {"b":1,"a":2} comes back as {"a":2,"b":1} *)
Theorem C17_metadata_md_json_md_noconv_refuted :
  exists m j, md_wf m = true /\ m2j NoConv m = Ok j /\ j2m cur_cfg NoConv j <> Ok m.
Proof. exists w_unsorted. eexists. split; [vm_compute; reflexivity|]. split; [vm_compute; reflexivity|]. vm_compute. discriminate. Qed.
Print Assumptions C17_metadata_md_json_md_noconv_refuted.

(* JSON converted to metadata and back is unchanged under every schema for JSON in that schema's normal form
   (nf is part of the statement; json_wf is the representation invariant of serde_json::Value). *)
Theorem C17_metadata_json_md_json :
  forall sc j, json_wf j = true -> nf sc j = true -> exists m, j2m cur_cfg sc j = Ok m /\ m2j sc m = Ok j.
Proof. exact (json_md_json cur_cfg eq_refl eq_refl). Qed.
Print Assumptions C17_metadata_json_md_json.

(* Input outside a schema produces an error; inside it a value (never a panic). *)
Theorem C17_out_of_schema_is_error :
  forall sc j, json_wf j = true -> in_schema sc j = false -> j2m cur_cfg sc j = Err.
Proof. intros sc j Hwf. exact (res_dom_err _ _ (j2m_domain cur_cfg eq_refl eq_refl eq_refl sc j Hwf)). Qed.
Print Assumptions C17_out_of_schema_is_error.
Theorem C17_in_schema_converts :
  forall sc j, json_wf j = true -> in_schema sc j = true -> exists m, j2m cur_cfg sc j = Ok m.
Proof. intros sc j Hwf. exact (res_dom_val _ _ (j2m_domain cur_cfg eq_refl eq_refl eq_refl sc j Hwf)). Qed.
Print Assumptions C17_in_schema_converts.

(* Every Plutus datum round-trips through detailed-schema JSON, outside the known class
   C17-plutus-map-empty-values (a map key holding an empty list of values). *)
Theorem C17_plutus_detailed_roundtrip :
  forall p, pd_wf p = true -> pd_has_empty_values p = false ->
  exists j, p2j PDetailed p = Ok j /\ j2p cur_cfg PDetailed j = Ok p.
Proof.
  intros p Hwf Hc. apply pd_json_pd_detailed; [exact Hwf|]. unfold pd_has_empty_values in Hc. now destruct (pd_values_nonempty p).
Qed.
Print Assumptions C17_plutus_detailed_roundtrip.
Theorem C17_plutus_detailed_roundtrip_refuted :
  exists p j, pd_wf p = true /\ p2j PDetailed p = Ok j /\ j2p cur_cfg PDetailed j <> Ok p.
Proof. exact pd_empty_values_refuted. Qed.
Print Assumptions C17_plutus_detailed_roundtrip_refuted.
Theorem C17_plutus_out_of_schema_is_error :
  forall j, json_wf j = true -> pdom_detailed j = false -> j2p cur_cfg PDetailed j = Err.
Proof. intros j Hwf. exact (res_dom_err _ _ (j2p_detailed_domain cur_cfg eq_refl j Hwf)). Qed.
Print Assumptions C17_plutus_out_of_schema_is_error.
Theorem C17_plutus_in_schema_converts :
  forall j, json_wf j = true -> pdom_detailed j = true -> exists p, j2p cur_cfg PDetailed j = Ok p.
Proof. intros j Hwf. exact (res_dom_val _ _ (j2p_detailed_domain cur_cfg eq_refl j Hwf)). Qed.
Print Assumptions C17_plutus_in_schema_converts.

(* BasicConversions (no round-trip claim in the property): both directions are defined exactly on the schema's
   language - a datum whose map has a structured key or a key with no / several values, a JSON document with null, a
   boolean, a non-integer number or a malformed 0x string give Err, never a different value. *)
Theorem C17_plutus_basic_out_of_schema_is_error :
  (forall p, pbasic_dom p = false -> p2j PBasic p = Err) /\
  (forall j, pbasic_json_dom j = false -> j2p cur_cfg PBasic j = Err).
Proof. split; intros x; [exact (res_dom_err _ _ (p2j_basic_domain x))|exact (res_dom_err _ _ (j2p_basic_domain cur_cfg x))]. Qed.
Print Assumptions C17_plutus_basic_out_of_schema_is_error.
Theorem C17_plutus_basic_in_schema_converts :
  (forall p, pbasic_dom p = true -> exists j, p2j PBasic p = Ok j) /\
  (forall j, pbasic_json_dom j = true -> exists p, j2p cur_cfg PBasic j = Ok p).
Proof. split; intros x; [exact (res_dom_val _ _ (p2j_basic_domain x))|exact (res_dom_val _ _ (j2p_basic_domain cur_cfg x))]. Qed.
Print Assumptions C17_plutus_basic_in_schema_converts.
Example ex_pbasic_out : pbasic_dom (PMap [(PInt 1, [PInt 10; PInt 20])]) = false /\ pbasic_dom (PMap [(PInt 1, [PInt 10])]) = true.
Proof. split; reflexivity. Qed.

(* Arbitrary bytes round-trip through the chunked-metadata helpers; the encoding is valid metadata. *)
Theorem C17_chunks :
  forall bs, exists m, encode_arbitrary_bytes bs = Ok m /\ decode_arbitrary_bytes m = Ok bs.
Proof.
  intros bs. exists (MList (List.map MBytes (chunks bs))). split; [apply encode_arbitrary_bytes_ok|].
  rewrite decode_bytes_list. unfold chunks. now rewrite chunks_fuel_concat.
Qed.
Print Assumptions C17_chunks.
Theorem C17_chunks_valid_metadata :
  forall bs, bytes_ok bs -> md_wf (MList (List.map MBytes (chunks bs))) = true.
Proof.
  intros bs Hb. cbn [md_wf]. rewrite forallb_forall. intros m Hm. apply in_map_iff in Hm as [ch [<- Hin]].
  cbn [md_wf]. apply andb_true_intro. split.
  - unfold MetadataJson.bytes_okb. rewrite forallb_forall. intros x Hx.
    assert (Hxb : In x bs).
    { unfold chunks in Hin. rewrite <- (chunks_fuel_concat (List.length bs) bs (le_n _)). apply in_concat. eauto. }
    unfold bytes_ok in Hb. rewrite Forall_forall in Hb. specialize (Hb _ Hxb). lia.
  - pose proof (chunks_fuel_small (List.length bs) bs) as F. rewrite Forall_forall in F. specialize (F _ Hin).
    unfold blen, MD_MAX_LEN. lia.
Qed.
Print Assumptions C17_chunks_valid_metadata.
Theorem C17_unchunk_rejects :
  forall m, (forall l, m <> MList (List.map MBytes l)) -> decode_arbitrary_bytes m = Err.
Proof.
  intros m. destruct m as [|l| | |]; try reflexivity.
  induction l as [|x r IH]; intros H; [exfalso; now apply (H [])|].
  destruct x; try reflexivity. rewrite decode_cons_bytes, IH; [reflexivity|].
  intros l' [= ->]. now apply (H (b :: l')).
Qed.
Print Assumptions C17_unchunk_rejects.

(* Typed ledger values, first sentence of the property: the hand-written string forms (numbers as decimal
   strings, hashes and asset names as hex) round-trip; the serde derive expansion around them is the subject of the
   C17_serde_* theorems further down (annotated types) and of the observation stream of the check (level_note). *)
Theorem C17_serde_forms_roundtrip : forall t v, sval_ok t v = true -> sf_de t (sf_ser t v) = Ok v.
Proof.
  intros t v. unfold sf_de. destruct t, v; cbn [sval_ok]; try discriminate; intros H; cbn [sf_ser sf_de_gen].
  - unfold in_range in H. apply andb_prop in H as [H0 H1]. rewrite parse_unsigned_print by lia. now rewrite H1.
  - rewrite parse_i128_print.
    + cbn [andb]. now rewrite H.
    + unfold in_range, two64Z, u64_max, i128_min, i128_max in *. lia.
  - now rewrite parse_bigint_print.
  - apply andb_prop in H as [H0 H1]. rewrite (unhex_hex _ (bytes_okb_ok _ H0)). now rewrite H1.
  - apply andb_prop in H as [H0 H1]. rewrite (unhex_hex _ (bytes_okb_ok _ H0)). now rewrite H1.
Qed.
Print Assumptions C17_serde_forms_roundtrip.
Theorem C17_serde_forms_canonical :
  forall t j, sf_canonical t j = true -> exists v, sf_de t j = Ok v /\ sf_ser t v = j.
Proof.
  intros t j. unfold sf_de. destruct j; try discriminate. destruct t; cbn [sf_canonical sf_de_gen]; intros H.
  - destruct (parse_unsigned s) as [z|]; [|discriminate]. apply andb_prop in H as [H1 H2]. apply bytes_eqb_eq in H2.
    rewrite H1. exists (SVNum z). split; [reflexivity|]. cbn [sf_ser]. now rewrite H2.
  - destruct (parse_i128 s) as [z|]; [|discriminate]. apply andb_prop in H as [H1 H2]. apply bytes_eqb_eq in H2.
    cbn [andb]. rewrite H1. exists (SVNum z). split; [reflexivity|]. cbn [sf_ser]. now rewrite H2.
  - destruct (parse_bigint s) as [z|]; [|discriminate]. apply bytes_eqb_eq in H.
    exists (SVNum z). split; [reflexivity|]. cbn [sf_ser]. now rewrite H.
  - apply andb_prop in H as [H1 H2]. destruct (lower_hexb_unhex _ H1) as (b & Hu & Hh & Hl). rewrite Hu.
    destruct (blen b =? n) eqn:E; [|lia].
    exists (SVBytes b). split; [reflexivity|]. cbn [sf_ser]. now rewrite Hh.
  - apply andb_prop in H as [H1 H2]. destruct (lower_hexb_unhex _ H1) as (b & Hu & Hh & Hl). rewrite Hu.
    destruct (blen b <=? 32) eqn:E; [|lia].
    exists (SVBytes b). split; [reflexivity|]. cbn [sf_ser]. now rewrite Hh.
Qed.
Print Assumptions C17_serde_forms_canonical.
Theorem C17_serde_forms_total : forall t j, sf_de t j = Err \/ exists v, sf_de t j = Ok v.
Proof.
  intros t j. unfold sf_de. destruct j; try (left; reflexivity). destruct t; cbn [sf_de_gen andb].
  - destruct (parse_unsigned s); [|now left]. destruct (_ <=? _)%Z; eauto.
  - destruct (parse_i128 s); [|now left]. destruct (in_range _ _ _); eauto.
  - destruct (parse_bigint s); eauto.
  - destruct (unhex s); [|now left]. destruct (_ =? _); eauto.
  - destruct (unhex s); [|now left]. destruct (_ <=? _); eauto.
Qed.
Print Assumptions C17_serde_forms_total.

(* Typed ledger values, first sentence, for the ANNOTATED types (Json/SerdeLedger.v serde_table): the serde JSON form
   is an interpretation [json_s] / [of_json_s] of an annotation over the C01 value trees.  For every annotation with
   distinct field / variant names and every value in its domain, reading back what was written gives the normal form
   [norm_s] (maps re-ordered by their Rust key order) ... *)
Theorem C17_serde_read_write :
  forall (ext_str : N -> bytes -> bytes) (ext_of_str : N -> bytes -> option bytes) a v,
  wfj a = true -> jwf ext_str ext_of_str a v = true ->
  of_json_s ext_of_str a (json_s ext_str a v) = Ok (norm_s ext_str a v).
Proof. intros e1 e2 a v Hw Hv. exact (serde_read_write e1 e2 a Hw v Hv). Qed.
Print Assumptions C17_serde_read_write.
(* ... which is the value itself whenever its map-typed parts were filled in ascending key order ([canonical]) ... *)
Theorem C17_serde_typed_roundtrip :
  forall (ext_str : N -> bytes -> bytes) (ext_of_str : N -> bytes -> option bytes) a v,
  wfj a = true -> jwf ext_str ext_of_str a v = true -> canonical ext_str a v = true ->
  of_json_s ext_of_str a (json_s ext_str a v) = Ok v.
Proof. exact serde_roundtrip. Qed.
Print Assumptions C17_serde_typed_roundtrip.
(* ... instantiated on every annotated ledger type, to every depth of the recursive ones: equal value, same CBOR bytes. *)
Theorem C17_serde_table_roundtrip :
  forall (ext_str : N -> bytes -> bytes) (ext_of_str : N -> bytes -> option bytes)
         (emb : json -> json) (unemb : json -> option json) d name s a v,
  In (name, s, a) (serde_table emb unemb d) ->
  jwf ext_str ext_of_str a v = true -> canonical ext_str a v = true ->
  exists v', of_json_s ext_of_str a (json_s ext_str a v) = Ok v' /\ v' = v /\ enc s v' = enc s v.
Proof.
  intros e1 e2 emb unemb d name s a v Hin Hv Hc. exists v. split; [|split; reflexivity].
  apply serde_roundtrip; [exact (serde_table_wfj emb unemb d _ Hin)|exact Hv|exact Hc].
Qed.
Print Assumptions C17_serde_table_roundtrip.
Theorem C17_serde_annotations_wf : forall emb unemb d, Forall (fun e => wfj (snd e) = true) (serde_table emb unemb d).
Proof. intros emb unemb d. apply Forall_forall. apply serde_table_wfj. Qed.
Print Assumptions C17_serde_annotations_wf.
Check ex_value_ok. Check ex_cert_ok. Check ex_withdrawals_ok. Check ex_withdrawals_rev_reordered.

(* The external-string parameters instantiated with the concrete bech32 model and the library's prefix rule (C11): the
   address and public-key leaves need no premise - every well-formed address with a network id (all 16 ids, every kind;
   a Byron address needs a known protocol magic) and every 32-byte key is in the leaf's domain. *)
Theorem C17_serde_address_leg :
  forall a, Shelley.wf_address a -> (exists p, Bech32Iface.default_prefix a = Ok p) ->
  leaf_wf SerdeAddr.conc_str SerdeAddr.conc_of_str (LExt EXT_ADDRESS) (VBytes (Shelley.to_bytes a)) = true.
Proof.
  intros a Hwf Hp. cbn [leaf_wf]. unfold SerdeAddr.conc_str, SerdeAddr.conc_of_str.
  change (EXT_ADDRESS =? EXT_VKEY) with false. cbv iota.
  rewrite (SerdeAddr.addr_text_roundtrip a Hwf Hp). apply bytes_eqb_refl.
Qed.
Print Assumptions C17_serde_address_leg.
Theorem C17_serde_vkey_leg :
  forall b, bytes_ok b -> leaf_wf SerdeAddr.conc_str SerdeAddr.conc_of_str (LExt EXT_VKEY) (VBytes b) = true.
Proof.
  intros b Hb. cbn [leaf_wf]. unfold SerdeAddr.conc_str, SerdeAddr.conc_of_str.
  change (EXT_VKEY =? EXT_VKEY) with true. cbv iota.
  rewrite (SerdeAddr.vkey_text_roundtrip b Hb). apply bytes_eqb_refl.
Qed.
Print Assumptions C17_serde_vkey_leg.
(* e.g. an enterprise address on network id 5 is written with the main-network prefix and read back *)
Example ex_address_net5 :
  SerdeAddr.addr_of_text (SerdeAddr.addr_text (101 :: List.repeat 7 28%nat)) = Some (101 :: List.repeat 7 28%nat) /\
  firstn 5 (SerdeAddr.addr_text (101 :: List.repeat 7 28%nat)) = [97; 100; 100; 114; 49].
Proof. split; vm_compute; reflexivity. Qed.

(* The shape of the full first sentence, for reference, over an abstract [to_json] / [from_json] (the derive expansions
   are external): C17_serde_table_roundtrip is its instance at [json_s] / [of_json_s] / [canonical] for the annotated
   types; for the other types it is left to observation. *)
Definition C17_typed_values_full (T : Type) (to_json : T -> json) (from_json : json -> result T)
  (maps_ascending : T -> Prop) : Prop := forall x, maps_ascending x -> from_json (to_json x) = Ok x.

(* The three defects repaired in /repo (eac05aa, 4362d12, 7c4c3d9) and Int::from_str before a6f00b9 broke these
   statements: kept as refutations of the old behaviour. *)
Theorem C17_old_behaviour_refuted :
  j2m cfg_old_negmin NoConv (JInt i64_min) = Panic /\
  (exists m j, md_wf m = true /\ m2j Detailed m = Ok j /\ j2m cfg_old_negmin Detailed j = Panic) /\
  (json_wf w_bigkey = true /\ nf Basic w_bigkey = true /\ exists m, j2m cfg_old_key Basic w_bigkey = Ok m /\ m2j Basic m = Err) /\
  (json_wf w_extra = true /\ in_schema Detailed w_extra = false /\ exists m, j2m cfg_old_lenient Detailed w_extra = Ok m) /\
  (pdom_detailed w_extra = false /\ exists p, j2p cfg_old_lenient PDetailed w_extra = Ok p) /\
  (sf_de_gen true SInt (sf_ser SInt (SVNum (- two64Z))) = Err /\ sf_de_gen true SInt (JStr (print_Z i128_min)) = Panic).
Proof.
  split; [vm_compute; reflexivity|].
  split. { exists (MInt i64_min). eexists. split; [vm_compute; reflexivity|]. split; [vm_compute; reflexivity|vm_compute; reflexivity]. }
  split. { split; [vm_compute; reflexivity|]. split; [vm_compute; reflexivity|]. eexists. split; [vm_compute; reflexivity|vm_compute; reflexivity]. }
  split. { split; [vm_compute; reflexivity|]. split; [vm_compute; reflexivity|]. eexists. vm_compute. reflexivity. }
  split. { split; [vm_compute; reflexivity|]. eexists. vm_compute. reflexivity. }
  exact sf_old_int_refuted.
Qed.
Print Assumptions C17_old_behaviour_refuted.

(* non-vacuity of the premises *)
Check ex_md_noconv. Check ex_md_detailed. Check ex_nf_noconv. Check ex_nf_basic. Check ex_nf_detailed.
Check ex_out_of_schema. Check ex_pd_ok. Check ex_serde. Check noconv_unsorted_in_class. Check plutus_empty_values_in_class.
