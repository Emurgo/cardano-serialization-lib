(* C20 — Deposit and refund helpers agree with the ledger and with the builder.
   The statements; each is a lemma of the proof files under Deposits/ or follows from those in a few lines.
   Model: Deposits/Deposits.v (utils.rs get_deposit / get_implicit_input, CertificatesBuilder,
   WithdrawalsBuilder, VotingProposalBuilder totals, TransactionBuilder get_deposit /
   get_implicit_input / get_total_input / get_total_output).  All quantifiers are unbounded:
   certificate lists over the 17 enum variants = 19 CDDL kinds, with arbitrary amounts (also
   amounts >= 2^64: no range premise is needed), withdrawal lists, proposal lists, parameters.
   The two known classes are those of the helpers before /repo 211197e (pool retirement refunded) and 8fd7519
   (proposals not read); the switches of Deposits.v are [false], so both classes are empty for the code as it is
   and the class premises below hold for every body. *)
From CSL Require Import Base.Prelude Base.U64 Deposits.Deposits Deposits.DepositsProofs.
From CSL Require Import Deposits.History Deposits.HistoryProofs.
From CSL Require Import Deposits.Ident Deposits.IdentProofs Deposits.LedgerState Deposits.LedgerStateProofs Deposits.TotalsBridge.
From CSL Require Num.Value Builder.Totals Builder.TotalsProofs.
From Coq Require Import Permutation.
Local Open Scope N_scope.

(* the stand-alone get_deposit reports exactly what the ledger charges (certificate deposits +
   proposal deposits), or an error when that does not fit in 64 bits -- outside the known class
   "the body carries a proposal with a non-zero deposit" (the helper never reads the proposals) *)
Theorem C20_helper_deposit_spec : forall (b : body) (pool_deposit key_deposit : N),
  known_ignores_proposals b = false ->
  get_deposit b pool_deposit key_deposit = exact_or_error (spec_deposit b pool_deposit key_deposit).
Proof. intros b p q K. exact (helper_deposit_exact _ b p q K). Qed.
Print Assumptions C20_helper_deposit_spec.

(* the stand-alone get_implicit_input reports exactly withdrawals + refunds paid inside the
   transaction -- outside the known class "retires a pool while pool_deposit <> 0" *)
Theorem C20_helper_implicit_input_spec : forall (b : body) (pool_deposit key_deposit : N),
  known_pool_retirement b pool_deposit = false ->
  get_implicit_input b pool_deposit key_deposit = exact_or_error (spec_implicit_input b key_deposit).
Proof. intros b p q K. exact (helper_implicit_exact _ b p q K). Qed.
Print Assumptions C20_helper_implicit_input_spec.

(* the builder's deposit (CertificatesBuilder table, VotingProposalBuilder total, TransactionBuilder
   sum) is the ledger's figure, unconditionally *)
Theorem C20_builder_deposit_spec : forall (t : txb) (cs : list cert) (ps : list N) (p q : N),
  tb_get_deposit t = exact_or_error (spec_deposit (txb_body t) (t_pool_deposit t) (t_key_deposit t)) /\
  get_certificates_deposit cs p q = exact_or_error (spec_cert_deposits p q cs) /\
  get_total_deposit ps = exact_or_error (sumN ps).
Proof.
  intros. split; [apply tb_deposit_exact |]. split; [apply certificates_deposit_exact | apply total_deposit_exact].
Qed.
Print Assumptions C20_builder_deposit_spec.

(* the builder's implicit input (withdrawals total + CertificatesBuilder refunds), unconditionally *)
Theorem C20_builder_refund_spec : forall (t : txb) (cs : list cert) (ws : list N) (p q : N),
  tb_get_implicit_input t = exact_or_error (spec_implicit_input (txb_body t) (t_key_deposit t)) /\
  get_certificates_refund cs p q = exact_or_error (spec_cert_refunds q cs) /\
  get_total_withdrawals ws = exact_or_error (sumN ws).
Proof.
  intros. split; [apply tb_implicit_exact |]. split; [apply certificates_refund_exact | apply total_withdrawals_exact].
Qed.
Print Assumptions C20_builder_refund_spec.

(* the totals the builder balances with: inputs + implicit input, outputs + deposit + donation *)
Theorem C20_builder_totals_spec : forall (t : txb),
  tb_get_total_input t =
    exact_or_error (sumN (t_inputs t) + spec_implicit_input (txb_body t) (t_key_deposit t)) /\
  tb_get_total_output t =
    exact_or_error (sumN (t_outputs t) + spec_deposit (txb_body t) (t_pool_deposit t) (t_key_deposit t)
                    + match t_donation t with Some d => d | None => 0 end).
Proof. intros. split; [apply tb_total_input_exact | apply tb_total_output_exact]. Qed.
Print Assumptions C20_builder_totals_spec.

(* the helpers' figures are the ones the builder uses for the same certificates, withdrawals and
   proposals (error vs ok included), outside the two known classes *)
Theorem C20_helper_equals_builder :
  forall (b : body) (ins outs : list N) (donation : option N) (pool_deposit key_deposit : N),
  let t := builder_of_body b ins outs donation pool_deposit key_deposit in
  (known_ignores_proposals b = false -> get_deposit b pool_deposit key_deposit = tb_get_deposit t) /\
  (known_pool_retirement b pool_deposit = false ->
     get_implicit_input b pool_deposit key_deposit = tb_get_implicit_input t).
Proof.
  intros b ins outs don p q t. subst t. rewrite tb_deposit_exact, tb_implicit_exact, txb_body_of_body.
  split; [exact (helper_deposit_exact _ b p q) | exact (helper_implicit_exact _ b p q)].
Qed.
Print Assumptions C20_helper_equals_builder.

(* a total that does not fit in 64 bits is an error: each figure is Err exactly when the true
   total is >= 2^64, Ok v exactly when v is the true total < 2^64, and never a panic *)
Theorem C20_overflow_is_error :
  forall (b : body) (ins outs : list N) (donation : option N) (pool_deposit key_deposit : N),
  let t := builder_of_body b ins outs donation pool_deposit key_deposit in
  total_or_error (tb_get_deposit t) (spec_deposit b pool_deposit key_deposit) /\
  total_or_error (tb_get_implicit_input t) (spec_implicit_input b key_deposit) /\
  total_or_error (tb_get_total_input t) (sumN ins + spec_implicit_input b key_deposit) /\
  total_or_error (tb_get_total_output t)
    (sumN outs + spec_deposit b pool_deposit key_deposit + match donation with Some d => d | None => 0 end) /\
  (known_ignores_proposals b = false ->
     total_or_error (get_deposit b pool_deposit key_deposit) (spec_deposit b pool_deposit key_deposit)) /\
  (known_pool_retirement b pool_deposit = false ->
     total_or_error (get_implicit_input b pool_deposit key_deposit) (spec_implicit_input b key_deposit)).
Proof.
  intros b ins outs don p q t. subst t.
  rewrite tb_deposit_exact, tb_implicit_exact, tb_total_input_exact, tb_total_output_exact, txb_body_of_body.
  cbn [builder_of_body t_inputs t_outputs t_donation t_pool_deposit t_key_deposit].
  do 4 (split; [apply exact_total_or_error |]). split; intros K.
  - unfold get_deposit. rewrite (helper_deposit_exact _ _ _ _ K). apply exact_total_or_error.
  - unfold get_implicit_input. rewrite (helper_implicit_exact _ _ _ _ K). apply exact_total_or_error.
Qed.
Print Assumptions C20_overflow_is_error.

(* also inside the known classes the helpers return the exact total of their own table or an error *)
Theorem C20_helpers_never_wrap : forall (b : body) (p q : N),
  total_or_error (get_implicit_input b p q)
    (sumN (opt_list (b_withdrawals b))
     + sumN (map (helper_refund helper_refunds_pool_retirement p q) (opt_list (b_certs b)))) /\
  total_or_error (get_deposit b p q)
    (spec_cert_deposits p q (opt_list (b_certs b))
     + (if helper_ignores_proposals then 0 else sumN (opt_list (b_proposals b)))).
Proof.
  intros b p q. unfold get_implicit_input, get_deposit. rewrite helper_implicit_own_total, helper_deposit_own_total.
  split; apply exact_total_or_error.
Qed.
Print Assumptions C20_helpers_never_wrap.

(* iteration order (BTreeMap of proposals, LinkedHashMap of withdrawals and certificates) cannot
   change any figure: the model's list order stands for every order *)
Theorem C20_order_irrelevant : forall (cs cs' : list cert) (ws ws' ps ps' : list N) (p q : N),
  Permutation cs cs' -> Permutation ws ws' -> Permutation ps ps' ->
  get_certificates_deposit cs p q = get_certificates_deposit cs' p q /\
  get_certificates_refund cs p q = get_certificates_refund cs' p q /\
  get_total_withdrawals ws = get_total_withdrawals ws' /\
  get_total_deposit ps = get_total_deposit ps'.
Proof.
  intros cs cs' ws ws' ps ps' p q Hc Hw Hp.
  rewrite !certificates_deposit_exact, !certificates_refund_exact, ?total_withdrawals_exact, ?total_deposit_exact.
  rewrite (spec_cert_deposits_perm p q _ _ Hc), (spec_cert_refunds_perm q _ _ Hc), (sumN_perm _ _ Hw), (sumN_perm _ _ Hp).
  repeat split.
Qed.
Print Assumptions C20_order_irrelevant.

Example C20_order_premises_satisfiable :
  Permutation [DRepRegistration 5; PoolRetirement; StakeDeregistration None] [StakeDeregistration None; DRepRegistration 5; PoolRetirement]
  /\ Permutation [1; 2; 3] [3; 1; 2].
Proof.
  split.
  - apply Permutation_sym, (Permutation_cons_app [DRepRegistration 5; PoolRetirement] []). reflexivity.
  - apply Permutation_sym, (Permutation_cons_app [1; 2] []). reflexivity.
Qed.

(* the defects, as the code was before /repo 211197e and 8fd7519 (switches true): without the class exclusions the
   statements are false *)
Theorem C20_helper_implicit_input_refuted :
  get_implicit_input_gen true witness_retirement 500000000 2000000 = Ok 500000000 /\
  exact_or_error (spec_implicit_input witness_retirement 2000000) = Ok 0 /\
  tb_get_implicit_input (builder_of_body witness_retirement [] [] None 500000000 2000000) = Ok 0.
Proof. repeat split; reflexivity. Qed.
Print Assumptions C20_helper_implicit_input_refuted.

Theorem C20_helper_deposit_refuted :
  get_deposit_gen true witness_proposal 500000000 2000000 = Ok 0 /\
  exact_or_error (spec_deposit witness_proposal 500000000 2000000) = Ok 100000000000 /\
  tb_get_deposit (builder_of_body witness_proposal [] [] None 500000000 2000000) = Ok 100000000000.
Proof. repeat split; reflexivity. Qed.
Print Assumptions C20_helper_deposit_refuted.

(* with both repairs (switches false) the unrestricted statements hold *)
Theorem C20_repaired_helpers_spec : forall (b : body) (p q : N),
  get_deposit_gen false b p q = exact_or_error (spec_deposit b p q) /\
  get_implicit_input_gen false b p q = exact_or_error (spec_implicit_input b q).
Proof. intros b p q. split; [apply helper_deposit_exact | apply helper_implicit_exact]; reflexivity. Qed.
Print Assumptions C20_repaired_helpers_spec.

(* the extracted judge accepts the model's own observation outside the known classes, i.e. the
   judge is exactly the conjunction of the statements above (plus the deprecated setters) *)
Theorem C20_judge_accepts_model : forall k : case,
  known_pool_retirement (case_body k) (k_pool_deposit k) = false ->
  known_ignores_proposals (case_body k) = false ->
  judge k (model_obs k) = Holds.
Proof. exact judge_model_holds. Qed.
Print Assumptions C20_judge_accepts_model.

(* non-vacuity: the premises are satisfiable on non-trivial values, the tables are not constant *)
Definition ex_body : body :=
  mk_body (Some [StakeRegistration None; StakeRegistration (Some 7); PoolRegistration; DRepRegistration 500;
                 StakeRegistrationAndDelegation 11; VoteRegistrationAndDelegation 13;
                 StakeVoteRegistrationAndDelegation 17; StakeDeregistration None; StakeDeregistration (Some 19);
                 DRepDeregistration 23; StakeDelegation; DRepUpdate; MoveInstantaneousRewardsCert])
          (Some [1000; 2000]) (Some [0; 0]).
Example C20_premises_satisfiable :
  known_ignores_proposals ex_body = false /\ known_pool_retirement ex_body 500000000 = false /\
  get_deposit ex_body 500000000 2000000 = Ok 502000548 /\
  get_implicit_input ex_body 500000000 2000000 = Ok 2003042.
Proof. repeat split; reflexivity. Qed.
(* retiring a pool is inside the theorem when the parameter is 0; proposals with deposit 0 likewise *)
Example C20_class_is_narrow :
  known_pool_retirement (mk_body (Some [PoolRetirement; StakeDeregistration (Some 5)]) (Some [3]) None) 0 = false /\
  known_ignores_proposals (mk_body None None (Some [0])) = false.
Proof. split; reflexivity. Qed.
(* overflow at the 64-bit boundary: 2^64 - 1 fits, 2^64 is an error *)
Example C20_boundary :
  get_certificates_deposit [DRepRegistration 18446744073709551614; StakeRegistration None] 0 1 = Ok 18446744073709551615 /\
  get_certificates_deposit [DRepRegistration 18446744073709551614; StakeRegistration None] 0 2 = Err /\
  tb_get_implicit_input (mk_txb [] [] (Some [DRepDeregistration 1]) (Some [18446744073709551615]) None None 0 0) = Err.
Proof. repeat split; reflexivity. Qed.
(* all 19 kinds are distinguished *)
Check (eq_refl : map cddl_tag
  [StakeRegistration None; StakeDeregistration None; StakeDelegation; PoolRegistration; PoolRetirement;
   GenesisKeyDelegation; MoveInstantaneousRewardsCert; StakeRegistration (Some 1); StakeDeregistration (Some 1);
   VoteDelegation; StakeAndVoteDelegation; StakeRegistrationAndDelegation 1; VoteRegistrationAndDelegation 1;
   StakeVoteRegistrationAndDelegation 1; CommitteeHotAuth; CommitteeColdResign; DRepRegistration 1;
   DRepDeregistration 1; DRepUpdate] = [0;1;2;3;4;5;6;7;8;9;10;11;12;13;14;15;16;17;18]).
(* the spec table written out, so that it cannot be weakened silently: deposits / refunds per kind for coin 9, pool 100, key 10 *)
Check (eq_refl : map (fun c => (ledger_deposit 100 10 c, ledger_refund 10 c))
  [StakeRegistration None; StakeDeregistration None; StakeDelegation; PoolRegistration; PoolRetirement;
   GenesisKeyDelegation; MoveInstantaneousRewardsCert; StakeRegistration (Some 9); StakeDeregistration (Some 9);
   VoteDelegation; StakeAndVoteDelegation; StakeRegistrationAndDelegation 9; VoteRegistrationAndDelegation 9;
   StakeVoteRegistrationAndDelegation 9; CommitteeHotAuth; CommitteeColdResign; DRepRegistration 9;
   DRepDeregistration 9; DRepUpdate]
  = [(10,0);(0,10);(0,0);(100,0);(0,0);(0,0);(0,0);(9,0);(0,9);(0,0);(0,0);(9,0);(9,0);(9,0);(0,0);(0,0);(9,0);(0,9);(0,0)]).

(* Items that share a field.  Ident.v gives every certificate / withdrawal / proposal the identities
   the deposit code never looks at (credential, pool operator, everything else) and models the set
   and map types that hold them.  The figures of the theorems above are those of the MERGED items. *)

(* Certificates / CertificatesBuilder and VotingProposals / VotingProposalBuilder hold exactly the
   distinct items: no Rust value twice, every added value present, nothing invented, and a sequence
   without equal values is kept as it is *)
Theorem C20_collections_hold_distinct_items : forall (cs : list icert) (ps : list iprop),
  (NoDup (map cert_key (eff_certs cs))
   /\ (forall x, In x cs -> In (cert_key x) (map cert_key (eff_certs cs)))
   /\ (forall y, In y (eff_certs cs) -> In y cs)
   /\ (NoDup (map cert_key cs) -> eff_certs cs = cs))
  /\
  (NoDup (map prop_key (eff_props ps))
   /\ (forall x, In x ps -> In (prop_key x) (map prop_key (eff_props ps)))
   /\ (forall y, In y (eff_props ps) -> In y ps)
   /\ (NoDup (map prop_key ps) -> eff_props ps = ps)).
Proof. intros cs ps. split; [exact (eff_certs_spec cs) | exact (eff_props_spec ps)]. Qed.
Print Assumptions C20_collections_hold_distinct_items.

(* Withdrawals / WithdrawalsBuilder hold one amount per reward account: the LAST one given *)
Theorem C20_withdrawals_last_amount_wins : forall (ws : list iwd),
  NoDup (map wd_key (eff_wdrl ws))
  /\ (forall l1 x l2, ws = l1 ++ x :: l2 -> (forall y, In y l2 -> wd_key y <> wd_key x) -> In x (eff_wdrl ws))
  /\ (forall y, In y (eff_wdrl ws) -> In y ws)
  /\ (NoDup (map wd_key ws) -> eff_wdrl ws = ws).
Proof. exact eff_wdrl_spec. Qed.
Print Assumptions C20_withdrawals_last_amount_wins.

(* sharing a field does not merge: two registrations of ONE operator that differ elsewhere are two
   certificates and the builder charges two pool deposits (the helper likewise, C20_helper_equals_builder);
   a certificate equal in every field to an earlier one is held once; a second amount replaces the first *)
Theorem C20_shared_fields_do_not_merge :
  (forall p q cred op v1 v2 s, v1 <> v2 ->
     get_certificates_deposit
       (map ic_cert (eff_certs [mk_icert PoolRegistration s (mk_ident cred op v1); mk_icert PoolRegistration s (mk_ident cred op v2)])) p q
     = exact_or_error (p + p))
  /\ (forall x, map ic_cert (eff_certs [x; x]) = [ic_cert x])
  /\ (forall s a n c1 c2, map plain_wd (eff_wdrl [mk_iwd s a n c1; mk_iwd s a n c2]) = [(s, c2)]).
Proof.
  split; [| split].
  - intros p q cred op v1 v2 s N. rewrite (proj2 (proj2 (proj2 (eff_certs_spec _)))).
    + rewrite certificates_deposit_exact. unfold spec_cert_deposits.
      cbn [map ic_cert sumN fold_right ledger_deposit cddl_tag cert_coin]. rewrite N.add_0_r. reflexivity.
    + repeat constructor; cbn [map In]; [| tauto]. intros [E | []]. inversion E. congruence.
  - intros x. unfold eff_certs, set_add_all. cbn [fold_left]. unfold set_add at 2. cbn [key_mem existsb app].
    unfold set_add. cbn [key_mem existsb]. rewrite (proj2 (ckey_eqb_eq _ _) eq_refl). reflexivity.
  - intros s a n c1 c2. unfold eff_wdrl, map_insert_all. cbn [fold_left]. unfold map_insert. cbn [filter app].
    unfold wd_key, wkey_eqb. cbn [fst snd w_script w_acct w_net]. rewrite Bool.eqb_reflx, !N.eqb_refl. reflexivity.
Qed.
Print Assumptions C20_shared_fields_do_not_merge.

(* the network id is part of a reward account: one credential on two networks is two withdrawals, both kept by the
   map of the body, by the builder and by the body the builder emits *)
Theorem C20_network_is_part_of_account : forall s a n1 n2 c1 c2, n1 <> n2 ->
  map plain_wd (eff_wdrl [mk_iwd s a n1 c1; mk_iwd s a n2 c2]) = [(s, c1); (s, c2)].
Proof.
  intros s a n1 n2 c1 c2 N. rewrite (proj2 (proj2 (proj2 (eff_wdrl_spec _)))); [reflexivity |].
  repeat constructor; cbn [map In]; [| tauto]. intros [E | []]. inversion E. congruence.
Qed.
Print Assumptions C20_network_is_part_of_account.

(* histories on one TransactionBuilder: after ANY sequence of set_certs / set_certs_builder / remove_certs /
   set_withdrawals / set_withdrawals_builder / remove_withdrawals (a failing deprecated setter leaves the builder as it
   was), the final setters of a case (remove_* for an absent collection) leave exactly the collections of the case:
   setters replace, they do not merge.  The figures are therefore those of the case, whatever came before. *)
Theorem C20_history_is_overwritten : forall (h : list hop) (st : tbcoll) (ik : icase),
  run_history (h ++ final_main ik) st = case_coll ik /\
  (deprecated_ok ik = true -> run_history (h ++ final_deprecated ik) st = case_coll ik) /\
  option_map (map plain_cert) (tc_certs (run_history (h ++ final_main ik) st)) = k_certs (effective ik) /\
  option_map (map plain_wd) (tc_wdrl (run_history (h ++ final_main ik) st)) = k_withdrawals (effective ik).
Proof.
  intros h st ik. rewrite history_overwritten_main. split; [reflexivity |]. split; [apply history_overwritten_deprecated |].
  unfold case_coll, effective. cbn [tc_certs tc_wdrl k_certs k_withdrawals].
  destruct (ik_certs ik), (ik_withdrawals ik); split; reflexivity.
Qed.
Print Assumptions C20_history_is_overwritten.

Example C20_history_premises_satisfiable :
  deprecated_ok (mk_icase 0 0 (Some [mk_icert (StakeDeregistration (Some 5)) false (mk_ident 1 0 0)])
                          (Some [mk_iwd false 1 0 5; mk_iwd false 1 1 6]) None [] [] None) = true.
Proof. reflexivity. Qed.

(* the extracted judge of the correspondence run (sizes of the six collections + the judge above on
   the merged items) accepts the model's own observation, for every identified case *)
Theorem C20_identified_judge_accepts_model : forall ik : icase, ijudge ik (imodel_obs ik) = Holds.
Proof.
  intros ik. unfold ijudge. rewrite sizes_ok_model.
  (* both defects of the helpers are repaired in /repo (switches false): the known classes are empty *)
  apply judge_model_holds; reflexivity.
Qed.
Print Assumptions C20_identified_judge_accepts_model.

(* case lines without identities (item i gets identity i everywhere) denote the plain case they denoted before *)
Theorem C20_positional_cases_unchanged : forall k : case, effective (positional k) = k.
Proof. exact effective_positional. Qed.
Print Assumptions C20_positional_cases_unchanged.

(* The ledger's STATEFUL accounting (LedgerState.v: Conway totalTxDeposits / totalRefunds over the
   certificate sequence and the registered pools / credentials / DReps) equals the per-certificate
   table of the helpers and the builder, with the two conventions of the property as explicit
   premises: the sequence passes the ledger's own deposit checks in state [ls] (explicit deposits =
   parameters, explicit refunds = recorded deposits, register only the unregistered, deregister only
   the registered), pool registrations are first registrations (operator neither registered nor
   repeated), credentials deregistered by the legacy certificate were registered at key_deposit. *)
Theorem C20_ledger_state_rule : forall (pp : pparams) (ls : lstate) (cs : list icert),
  certs_valid pp (ls_stake ls) (ls_drep ls) cs = true ->
  pools_fresh (ls_pool ls) [] cs = true ->
  legacy_at_key_deposit pp ls cs ->
  state_total_deposits_certs pp ls cs = spec_cert_deposits (pp_pool_deposit pp) (pp_key_deposit pp) (map ic_cert cs) /\
  state_total_refunds_certs pp ls cs = spec_cert_refunds (pp_key_deposit pp) (map ic_cert cs).
Proof.
  intros pp ls cs V F L. split.
  - exact (deposits_gen pp ls cs _ _ [] V F).
  - exact (refunds_gen pp ls cs _ _ [] [] V (fun c d H => H) (fun c d H => H) L).
Qed.
Print Assumptions C20_ledger_state_rule.

Theorem C20_helpers_equal_ledger_state_rule :
  forall pp ls (cs : list icert) (ws ps : option (list N)) (ins outs : list N) (don : option N),
  certs_valid pp (ls_stake ls) (ls_drep ls) cs = true ->
  pools_fresh (ls_pool ls) [] cs = true ->
  legacy_at_key_deposit pp ls cs ->
  let b := mk_body (Some (map ic_cert cs)) ws ps in
  let t := builder_of_body b ins outs don (pp_pool_deposit pp) (pp_key_deposit pp) in
  let dep := exact_or_error (state_total_deposits_certs pp ls cs + sumN (opt_list ps)) in
  let imp := exact_or_error (sumN (opt_list ws) + state_total_refunds_certs pp ls cs) in
  get_deposit b (pp_pool_deposit pp) (pp_key_deposit pp) = dep /\ tb_get_deposit t = dep /\
  get_implicit_input b (pp_pool_deposit pp) (pp_key_deposit pp) = imp /\ tb_get_implicit_input t = imp.
Proof.
  intros pp ls cs ws ps ins outs don V F L b t dep imp. destruct (C20_ledger_state_rule pp ls cs V F L) as [D R].
  subst dep imp. rewrite D, R.
  destruct (C20_repaired_helpers_spec b (pp_pool_deposit pp) (pp_key_deposit pp)) as [H1 H2].
  split; [exact H1|]. split; [|split; [exact H2|]]; subst t; rewrite ?tb_deposit_exact, ?tb_implicit_exact, txb_body_of_body; reflexivity.
Qed.
Print Assumptions C20_helpers_equal_ledger_state_rule.

Example C20_ledger_state_premises_satisfiable :
  certs_valid ex_pp (ls_stake ex_ls) (ls_drep ex_ls) ex_certs = true /\
  pools_fresh (ls_pool ex_ls) [] ex_certs = true /\
  legacy_at_key_deposit ex_pp ex_ls ex_certs /\
  state_total_deposits_certs ex_pp ex_ls ex_certs = 1510000000 /\
  state_total_refunds_certs ex_pp ex_ls ex_certs = 908000000.
Proof.
  split; [reflexivity |]. split; [reflexivity |]. split; [| split; reflexivity].
  intros x I T d H. unfold ex_certs in I. cbn [In] in I.
  repeat (destruct I as [<- | I]; [try discriminate T; cbn in H; inversion H; reflexivity |]). destruct I.
Qed.

(* each convention is needed: without it the ledger's figure and the library's differ (closed witnesses):
   one new operator registered twice in a transaction (ledger: one deposit), a re-registration
   (ledger: none), a legacy deregistration of a credential registered at another key_deposit *)
Theorem C20_ledger_state_premises_needed :
  (state_total_deposits_certs ex_pp ex_ls_empty [reg_pool 7 1; reg_pool 7 2] = 500000000 /\
   spec_cert_deposits 500000000 2000000 (map ic_cert [reg_pool 7 1; reg_pool 7 2]) = 1000000000 /\
   pools_fresh (ls_pool ex_ls_empty) [] [reg_pool 7 1; reg_pool 7 2] = false)
  /\
  (let ls := mk_ls (fun _ => None) (fun _ => None) (fun op => op =? 7) in
   state_total_deposits_certs ex_pp ls [reg_pool 7 1] = 0 /\
   spec_cert_deposits 500000000 2000000 (map ic_cert [reg_pool 7 1]) = 500000000 /\
   pools_fresh (ls_pool ls) [] [reg_pool 7 1] = false)
  /\
  (let ls := mk_ls (fun c => if cred_eqb c (false, 5) then Some 1000000 else None) (fun _ => None) (fun _ => false) in
   let cs := [mk_icert (StakeDeregistration None) false (mk_ident 5 0 0)] in
   certs_valid ex_pp (ls_stake ls) (ls_drep ls) cs = true /\
   state_total_refunds_certs ex_pp ls cs = 1000000 /\
   spec_cert_refunds 2000000 (map ic_cert cs) = 2000000).
Proof. repeat split; reflexivity. Qed.
Print Assumptions C20_ledger_state_premises_needed.

(* Bridge to C05 (Builder/Totals.v: totals over multi-asset values with mint and burn): the two
   models of TransactionBuilder::{get_deposit, get_implicit_input, get_total_input, get_total_output}
   agree on lovelace, so they cannot drift apart. *)
Theorem C20_totals_bridge_deposit_implicit : forall s : Totals.state,
  Totals.get_deposit s = tb_get_deposit (txb_of_state s) /\
  Totals.get_implicit_input s = lift (tb_get_implicit_input (txb_of_state s)).
Proof. intros s. split; [apply bridge_deposit | apply bridge_implicit_input]. Qed.
Print Assumptions C20_totals_bridge_deposit_implicit.

(* ADA-only builders (the domain of the C20 model): the C05 totals ARE the C20 totals *)
Theorem C20_totals_bridge_ada_only : forall s : Totals.state, ada_only s = true ->
  Totals.get_total_input s = lift (tb_get_total_input (txb_of_state s)) /\
  Totals.get_total_output s = lift (tb_get_total_output (txb_of_state s)).
Proof. intros s H. split; [apply bridge_total_input_ada | apply bridge_total_output_ada]; exact H. Qed.
Print Assumptions C20_totals_bridge_ada_only.

(* every well-formed builder state (multi-asset inputs / outputs, mint, burn): the lovelace of a C05
   total is the C20 total, and a C20 overflow is never a C05 value *)
Theorem C20_totals_bridge_lovelace : forall s : Totals.state, Totals.state_wf s ->
  (forall ti, Totals.get_total_input s = Ok ti -> tb_get_total_input (txb_of_state s) = Ok (Value.coin ti)) /\
  (forall to, Totals.get_total_output s = Ok to -> tb_get_total_output (txb_of_state s) = Ok (Value.coin to)) /\
  (tb_get_total_input (txb_of_state s) = Err -> forall ti, Totals.get_total_input s <> Ok ti) /\
  (tb_get_total_output (txb_of_state s) = Err -> forall to, Totals.get_total_output s <> Ok to).
Proof.
  intros s W. split; [intros ti H; exact (bridge_total_input s ti W H) |].
  split; [intros to H; exact (bridge_total_output s to W H) |]. split; intros E v H.
  - rewrite (bridge_total_input s v W H) in E. discriminate.
  - rewrite (bridge_total_output s v W H) in E. discriminate.
Qed.
Print Assumptions C20_totals_bridge_lovelace.

Example C20_totals_bridge_premises_satisfiable :
  Totals.state_wf ex_state /\ ada_only ex_state = false /\
  (exists ti, Totals.get_total_input ex_state = Ok ti /\ Value.coin ti = 15003000) /\
  (exists to, Totals.get_total_output ex_state = Ok to /\ Value.coin to = 502100005) /\
  tb_get_total_input (txb_of_state ex_state) = Ok 15003000 /\
  tb_get_total_output (txb_of_state ex_state) = Ok 502100005.
Proof. exact bridge_premises_satisfiable. Qed.
