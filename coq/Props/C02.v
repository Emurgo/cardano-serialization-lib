(* C02 - Parsers are total: malformed input yields an error, never a panic; what an accepted input re-serialises
   to is well-formed CBOR.

   PARTIAL BY NATURE.  Coq cannot observe a Rust panic, abort or hang.  Proved here are
     (a) totality of the MODELS, in which every partial operation of the Rust code (index, slice, unwrap, assert,
         i64 negation, todo!, allocation of a declared length) is an explicit Panic result and every loop carries
         explicit fuel: for ALL inputs the outcome is a value or an error value;
     (b) well-formedness (for the independent parser of Cbor/Item.v) of everything the model writer emits;
     (c) for every panic the code had before its repair, a witness on the model of the old code; for the one that
         remains (allocation of a declared length inside the cbor_event dependency) a witness on the model of the
         current code, i.e. the refutation of the full-strength statement.
   The runtime clause for the compiled code is decided by observation in the correspondence run (checks/C02.py). *)
From CSL Require Import Base.Prelude Base.Hex Cbor.Head Cbor.Item Codec.Schema Codec.SchemaProofs Ledger.Schemas Ledger.SchemasProofs
  Total.Partial Total.Decoders Total.SchemaTotal Total.TotalProofs Total.ItemLink Total.ReserialiseFull Total.Lax Total.LaxProofs.

Local Notation never_panics r := (r <> Panic /\ r <> OutOfFuel).

(* every ledger type that has a schema: the C01 table and its extension (64 further types) *)
Definition ledger_type (d : nat) (s : schema) : Prop := In s (ledger_schemas d) \/ In s (ledger_schemas_more d).
Lemma ledger_type_wf d s : ledger_type d s -> wfs s = true.
Proof. intros H. apply (ledger_schemas_all_wf d), in_or_app, H. Qed.

(* Schema layer: ONE theorem for every schema (well-formed or not) and every byte string. *)
Theorem C02_model_total : forall (s : schema) (bs : bytes), never_panics (dec s bs).
Proof. intros s bs. apply normal_iff, schema_dec_normal. Qed.
Print Assumptions C02_model_total.

Theorem C02_ledger_total : forall d s, ledger_type d s -> forall bs : bytes, never_panics (dec s bs).
Proof. intros d s _. apply C02_model_total. Qed.
Print Assumptions C02_ledger_total.

(* the writer image is well-formed CBOR: for every well-formed schema and every schema-valid value *)
Theorem C02_reserialise_wf : forall s v, wfs s = true -> wfv s v = true -> item_wf (enc s v) = true.
Proof. intros s v Hs Hv. apply parses_item_wf, schema_enc_parses; assumption. Qed.
Print Assumptions C02_reserialise_wf.

(* ... and so is the re-serialisation of what the decoder returns for ANY accepted input (non-minimal heads, unsorted or
   duplicate keys, any chunking, anything behind the item), for every ledger type; premises: the input is made of
   bytes and is shorter than 2^60 bytes *)
Theorem C02_reserialise_full : forall d s, ledger_type d s ->
  forall bs v rest, bytes_ok bs -> (N.of_nat (length bs) < 1152921504606846976)%N -> dec s bs = Ok (v, rest) ->
  item_wf (enc s v) = true.
Proof.
  intros d s _ bs v rest Hb Hl H. exact (schema_reserialise_full s bs v rest Hb Hl H).
Qed.
Print Assumptions C02_reserialise_full.

(* the instance on writer output followed by anything (no length premise needed: the round-trip theorem gives v' = v) *)
Theorem C02_reserialise_after_decode_wf : forall d s, ledger_type d s ->
  forall v rest v' rest', wfv s v = true -> dec s (enc s v ++ rest) = Ok (v', rest') -> item_wf (enc s v') = true.
Proof.
  intros d s Hin v rest v' rest' Hv H. pose proof (ledger_type_wf d s Hin) as Hs.
  rewrite (schema_roundtrip s v rest Hs Hv) in H. injection H as <- _. exact (C02_reserialise_wf s v Hs Hv).
Qed.
Print Assumptions C02_reserialise_after_decode_wf.

(* The lenient acceptor (Total/Lax.v) used for the error predictions of the correspondence run: it accepts whatever
   the strict decoder accepts, leaving the same rest (the two ends of the sandwich  dec => library => acc). *)
Theorem C02_lenient_covers_strict : forall s bs v rest, wfs s = true -> dec s bs = Ok (v, rest) -> acc s bs = Some rest.
Proof. intros s bs v rest Hs H. exact (proj1 lax_all s Hs bs v rest H). Qed.
Print Assumptions C02_lenient_covers_strict.

(* the strict decoder never returns more bytes than it was given (every schema, every input) *)
Theorem C02_decoder_consumes : forall s bs v rest, dec s bs = Ok (v, rest) -> (length rest <= length bs)%nat.
Proof. intros s bs v rest H. apply Nat.lt_le_incl. exact (dec_shorter s bs v rest H). Qed.
Print Assumptions C02_decoder_consumes.

(* Hand-written decoders (repaired code), allocator that never refuses. *)
Theorem C02_address_total : forall ignore_leftover data,
  never_panics (addr_from_bytes None false ignore_leftover data) /\ never_panics (address_from_bytes None false data).
Proof. intros i d. split; apply normal_iff; [apply addr_from_bytes_normal|apply address_from_bytes_normal]. Qed.
Print Assumptions C02_address_total.

Theorem C02_byron_total : forall bs, never_panics (byron_from_bytes None false bs).
Proof. intros bs. apply normal_iff, byron_from_bytes_normal. Qed.
Print Assumptions C02_byron_total.

(* the third element of a legacy output, and the whole array form with the schema decoder of Value for the amount *)
Theorem C02_third_element_total : forall bs,
  never_panics (third_element None false bs) /\ never_panics (legacy_output None (dec Value) false bs).
Proof.
  intros bs. split; apply normal_iff; [apply third_element_normal|].
  apply legacy_output_normal. intros b. apply schema_dec_normal.
Qed.
Print Assumptions C02_third_element_total.

Theorem C02_bounded_bytes_total : forall bs, never_panics (read_bounded_bytes None bs).
Proof. intros bs. apply normal_iff, read_bounded_bytes_normal. Qed.
Print Assumptions C02_bounded_bytes_total.

(* from_hex of every schema type: non-hex text is an error *)
Theorem C02_from_hex_total : forall (s : schema) (text : list N), never_panics (from_hex_with false (dec s) text).
Proof. intros s t. apply normal_iff, from_hex_normal. intros bs. apply schema_dec_normal. Qed.
Print Assumptions C02_from_hex_total.

Theorem C02_hash_total : forall size bs u5,
  never_panics (hash_from_bytes size bs) /\ never_panics (hash_from_bech32 false size u5).
Proof. intros. split; apply normal_iff; [apply hash_from_bytes_normal|apply hash_from_bech32_normal]. Qed.
Print Assumptions C02_hash_total.

Theorem C02_xprv_total : forall bs, never_panics (from_128_xprv false bs).
Proof. intros bs. apply normal_iff, from_128_xprv_normal. Qed.
Print Assumptions C02_xprv_total.

(* the repaired negative-integer writer never panics and emits the CBOR integer on the whole CBOR int range;
   the old one panicked exactly at -2^63 and agreed with the repaired one everywhere else *)
Theorem C02_nint_writer_total : forall x,
  never_panics (int_to_bytes false x) /\
  ((- 18446744073709551616 <= x < 18446744073709551616)%Z -> int_to_bytes false x = Ok (int_cbor x)) /\
  ((- 18446744073709551616 <= x < 0)%Z -> (write_nint true x = Panic <-> x = i64_min) /\
                                          (x <> i64_min -> write_nint true x = write_nint false x)).
Proof.
  intros x. split; [apply normal_iff, int_to_bytes_normal|]. split; [apply int_to_bytes_correct|].
  intros H. split; [apply write_nint_legacy_panics_iff, H|apply write_nint_legacy_agrees, H].
Qed.
Print Assumptions C02_nint_writer_total.

Theorem C02_json_number_total : forall x,
  never_panics (json_number_to_int false x) /\ (forall v, json_number_to_int false x = Ok v -> v = x) /\
  (json_number_to_int true x = Panic <-> x = i64_min).
Proof.
  intros x. split; [apply normal_iff, json_number_normal|]. split; [apply json_number_correct|apply json_number_legacy_panics_iff].
Qed.
Print Assumptions C02_json_number_total.

Theorem C02_emip3_total : forall data,
  never_panics (emip3_split false data) /\
  (forall s n t e, emip3_split false data = Ok (s, n, t, e) -> data = s ++ n ++ t ++ e).
Proof. intros d. split; [apply normal_iff, emip3_split_normal|apply emip3_split_parts]. Qed.
Print Assumptions C02_emip3_total.

Theorem C02_witness_special_total : forall definite bs, never_panics (wit_special false definite bs).
Proof. intros. apply normal_iff, wit_special_normal. Qed.
Print Assumptions C02_witness_special_total.

Theorem C02_native_script_schema_total : forall (node : bool) (wallet : result unit),
  never_panics wallet -> never_panics (native_script_schema false node wallet).
Proof. intros n w H. apply normal_iff, native_script_schema_normal, normal_iff, H. Qed.
Print Assumptions C02_native_script_schema_total.

(* The code as it was: each repaired panic, on the faithful model of the old code: data[0] on empty input;
   from_hex("zz"); assert!(len == 2); a truncated data hash; from_128_xprv of a short slice; Int(-2^63); invalid
   bech32 padding; the JSON number -2^63; assert_eq!(special, Break); todo!(). *)
Theorem C02_legacy_panics_refuted :
  addr_from_bytes None true false [] = Panic /\
  (exists p : bytes -> result unit, from_hex_with true p [122; 122]%N = Panic) /\
  byron_from_bytes None true [129; 0]%N = Panic /\
  third_element None true [88; 32; 1; 2; 3]%N = Panic /\
  from_128_xprv true [] = Panic /\
  int_to_bytes true i64_min = Panic /\
  hash_from_bech32 true 28 [31%N] = Panic /\
  json_number_to_int true i64_min = Panic /\
  wit_special true true [246%N] = Panic /\
  native_script_schema true true (Err : result unit) = Panic.
Proof. repeat split; try (vm_compute; reflexivity). exists (fun _ => Err). vm_compute. reflexivity. Qed.
Print Assumptions C02_legacy_panics_refuted.

(* The real allocator: the full-strength statement is false (known finding C02-huge-declared-length). *)
Definition C02_decoders_full : Prop :=
  forall bs, byron_from_bytes real_alloc false bs <> Panic /\ third_element real_alloc false bs <> Panic /\
             read_bounded_bytes real_alloc bs <> Panic.
Theorem C02_huge_length_refuted : ~ C02_decoders_full.
Proof.
  intros H. destruct (H (91%N :: ff8)) as (_ & H2 & _). apply H2. exact (proj1 (proj2 (proj2 huge_length_refuted))).
Qed.
Print Assumptions C02_huge_length_refuted.

(* with the real allocator every decoder either behaves as its total version (allocator that never refuses) or
   panics: the allocation of a declared length is the ONLY panic left in the models of the current code
   ([refines r' r] := r' = r \/ r' = Panic) *)
Theorem C02_only_allocation_panics :
  (forall bs, refines (byron_from_bytes real_alloc false bs) (byron_from_bytes None false bs)) /\
  (forall ign bs, refines (addr_from_bytes real_alloc false ign bs) (addr_from_bytes None false ign bs)) /\
  (forall bs, refines (third_element real_alloc false bs) (third_element None false bs)) /\
  (forall V (dv : bytes -> result (V * bytes)) bs, refines (legacy_output real_alloc dv false bs) (legacy_output None dv false bs)) /\
  (forall bs, refines (read_bounded_bytes real_alloc bs) (read_bounded_bytes None bs)).
Proof.
  unfold real_alloc. repeat split; intros.
  - apply byron_from_bytes_refines.
  - apply addr_from_bytes_refines.
  - apply third_element_refines.
  - apply legacy_output_refines.
  - apply read_bounded_bytes_refines.
Qed.
Print Assumptions C02_only_allocation_panics.

(* with the real allocator, reading a byte string panics exactly when the declared length exceeds the limit *)
Theorem C02_alloc_only_panic : forall lim bs,
  ce_bytes (Some lim) bs = Panic <-> exists m n r, decode_head bs = Some (m, Arg n, r) /\ m = 2%N /\ (lim < n)%N.
Proof. exact ce_bytes_panic_iff. Qed.
Print Assumptions C02_alloc_only_panic.

(* Non-vacuity: the decoders accept real inputs, the premises are satisfiable. *)
Example C02_nonvacuous_address :
  address_from_bytes None false (97 :: repeat 7 28)%N = Ok (97 :: repeat 7 28)%N /\
  address_from_bytes None false (65 :: repeat 7 28 ++ [128; 5; 2; 3])%N = Ok (65 :: repeat 7 28 ++ [5; 2; 3])%N /\
  address_from_bytes None false [] = Err.
Proof. repeat split; vm_compute; reflexivity. Qed.

Example C02_nonvacuous_full :
  let bs := [130; 25; 0; 5; 24; 7]%N in      (* ProtocolVersion [5, 7] with 3-byte and 2-byte heads *)
  bytes_ok bs /\ dec ProtocolVersion bs = Ok (VList [VNat 5; VNat 7]%N, []) /\ enc ProtocolVersion (VList [VNat 5; VNat 7]%N) = [130; 5; 7]%N.
Proof. cbv zeta. split; [repeat constructor; lia|]. split; vm_compute; reflexivity. Qed.

Example C02_nonvacuous_reserialise :
  let v := VStruct [Some (VList [VList [VBytes (repeat 7%N 32); VNat 0%N]]); Some (VList []); Some (VNat 170000%N);
                    Some (VNat 5%N); None; None; None; None; None; None; None; None; None; None; None; None; None;
                    None; None; None; None] in
  wfv (TransactionBody 1) v = true /\ item_wf (enc (TransactionBody 1) v) = true /\
  item_wf [161; 0; 128]%N = true /\ item_wf [161]%N = false /\ item_wf [129; 255]%N = false.
Proof. cbv zeta. repeat split; vm_compute; reflexivity. Qed.
