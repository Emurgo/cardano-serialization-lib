(* C07 — Minimum ADA and size limits hold for everything the builder emits.
   The general lemmas are in MinAda/*Proofs.v and MinAda/*Instance.v; here stand their corollaries in the property's
   terms, and the witnesses, which are evaluated.
   Models: MinAda/OutputSize.v (serialised size of an output), MinAda/MinAda.v (calculate_ada, add_output,
   collateral return, output-builder helper, build guard), MinAda/Change.v (change paths).
   All quantifiers are unbounded: base sizes, prices, coins are arbitrary N (also >= 2^64: no range premise
   is needed), outputs have arbitrary address lengths, bundles, datum and script sizes; fee figures and
   the bundles packed into change outputs are universally quantified oracle arguments. *)
From CSL Require Num.Value Builder.Totals Builder.Change Builder.ChangeProofs MinAda.ChangeInstance Collateral.Collateral Builder.MoreEntry MinAda.BuildScenario MinAda.EntryInstance.
From CSL Require Import Base.Prelude Base.U64 Cbor.Head Cbor.HeadProofs
  Codec.Schema Ledger.Schemas MinAda.OutputSize MinAda.MinAda MinAda.Change MinAda.MinAdaProofs MinAda.ChangeProofs MinAda.SchemaTie MinAda.TxSize.
Local Open Scope N_scope.

(* the calculator, over (base, coin): size = base + head_size coin is all it sees *)

(* for ANY number of rounds before the fallback (the code's 3 is not special): the output carrying max(c, its coin)
   meets the bound, c is the price at one of the widths, at most the price at the widest, and fits 64 bits *)
Theorem C07_min_ada_any_rounds : forall (n : nat) (cpb base coin c : N),
  rounds n cpb base coin = Ok c ->
  meets_min_abs cpb base (N.max c coin) = true /\ c <= cost cpb (base + 9) /\ c < two64 /\
  (exists w, 1 <= w <= 9 /\ c = cost cpb (base + w)).
Proof.
  intros n cpb base coin c H. split; [exact (rounds_sound _ _ _ _ _ H)|]. split; [exact (rounds_upper _ _ _ _ _ H)|].
  split; [exact (proj2 (rounds_range _ _ _ _ _ H)) | exact (rounds_is_price _ _ _ _ _ H)].
Qed.
Print Assumptions C07_min_ada_any_rounds.

(* the code's three rounds: the output carrying max(c, its coin) satisfies coin >= cpb * (160 + size) *)
Theorem C07_min_ada_sound : forall (cpb base coin c : N),
  calculate_ada_abs cpb base coin = Ok c ->
  let coin' := N.max c coin in cpb * (160 + (base + head_size coin')) <= coin'.
Proof.
  intros cpb base coin c H coin'. destruct (C07_min_ada_any_rounds 3 _ _ _ _ H) as [S _].
  unfold meets_min_abs in S. apply N.leb_le in S. exact S.
Qed.
Print Assumptions C07_min_ada_sound.

(* c never exceeds the bound with the coin at its widest (8-byte payload, 9-byte head) encoding *)
Theorem C07_min_ada_upper : forall (cpb base coin c : N),
  calculate_ada_abs cpb base coin = Ok c -> c <= cpb * (160 + (base + 9)).
Proof.
  intros cpb base coin c H. destruct (C07_min_ada_any_rounds 3 _ _ _ _ H) as (_ & U & _). unfold cost in U. lia.
Qed.
Print Assumptions C07_min_ada_upper.

(* errors: never a panic; an error only when the widest price (or the size) leaves 64 bits, and then always *)
Theorem C07_min_ada_errors : forall (cpb base coin : N),
  calculate_ada_abs cpb base coin <> Panic /\ calculate_ada_abs cpb base coin <> OutOfFuel /\
  (calculate_ada_abs cpb base coin = Err -> two64 <= base + 9 + 160 \/ two64 <= cost cpb (base + 9)) /\
  (base + 9 + 160 < two64 -> cost cpb (base + 9) < two64 -> exists c, calculate_ada_abs cpb base coin = Ok c).
Proof.
  intros cpb base coin. unfold calculate_ada_abs.
  destruct (rounds_cases 3 cpb base coin) as [[c E] | [E B]]; rewrite E.
  - split; [discriminate|]. split; [discriminate|]. split; [discriminate | eauto].
  - split; [discriminate|]. split; [discriminate|]. split; [intros _; exact B | lia].
Qed.
Print Assumptions C07_min_ada_errors.

(* the result is the least admissible coin at or above the current one, unless it is the fallback price ... *)
Theorem C07_min_ada_least : forall (cpb base coin c : N),
  calculate_ada_abs cpb base coin = Ok c ->
  c = cost cpb (base + 9) \/ (forall x, coin <= x -> meets_min_abs cpb base x = true -> c <= x).
Proof. intros. eapply rounds_least; eauto. Qed.
Print Assumptions C07_min_ada_least.

(* ... and the fallback can over-estimate (allowed by the property's upper bound; not a defect of C07): base 94,
   1 lovelace per byte, coin 0 walks 255 -> 256 -> 257 (widths 2, 3, 3) and then returns the 9-byte price 263 although
   257 is admissible *)
Theorem C07_min_ada_fallback_overestimates :
  calculate_ada_abs 1 94 0 = Ok 263 /\ meets_min_abs 1 94 257 = true /\ 257 < 263.
Proof. vm_compute. repeat split; reflexivity. Qed.
Print Assumptions C07_min_ada_fallback_overestimates.

(* the tie to outputs: concrete serialised size = coin-independent base + head of the coin *)
Theorem C07_out_size_decomposition : forall (o : output) (c : N),
  out_size o = out_base o + head_size (o_coin o) /\
  out_size (set_coin o c) = out_base o + head_size c /\
  out_value_size o = value_base (o_ma o) + head_size (o_coin o) /\
  calculate_ada 4310 o = calculate_ada_abs 4310 (out_base o) (o_coin o).
Proof.
  intros. split; [apply out_size_decomp|]. split; [apply out_size_set_coin|].
  split; [apply out_value_size_decomp | apply calculate_ada_abs_eq].
Qed.
Print Assumptions C07_out_size_decomposition.

(* the size model IS the length of the schema-directed encoding of check C01 (Codec/Schema.v enc on
   Ledger/Schemas.v TransactionOutput: map form, or the SArrOpt array form without / with the trailing data hash --
   all three forms are alternatives of that one schema), for every unrolling depth d of the recursive
   schemas, every address, bundle (28-byte policy ids), datum (32-byte hash / any PlutusData value) and script
   reference (any NativeScript value / Plutus bytes in one of the three languages) *)
Theorem C07_out_size_is_schema_encoding : forall (d : nat) (o : coutput),
  ids28 (co_ma o) -> hash_ok (co_datum o) -> lang_ok (co_sref o) ->
  N.of_nat (length (enc_output d o)) = out_size (shape d o).
Proof. exact out_size_is_schema_length. Qed.
Print Assumptions C07_out_size_is_schema_encoding.

(* ... and the array forms are byte for byte the stand-alone schemas TransactionOutputLegacy /
   TransactionOutputLegacyDH, so the size model is the length of their encodings as well *)
Theorem C07_out_size_is_standalone_schema_encoding : forall (d : nat) (o : coutput),
  enc_output d o = enc_output_standalone d o /\
  (ids28 (co_ma o) -> hash_ok (co_datum o) -> lang_ok (co_sref o) ->
   N.of_nat (length (enc_output_standalone d o)) = out_size (shape d o)).
Proof.
  intros d o. split; [apply enc_output_standalone_eq|]. rewrite <- enc_output_standalone_eq. apply out_size_is_schema_length.
Qed.
Print Assumptions C07_out_size_is_standalone_schema_encoding.

Theorem C07_min_ada_for_output_sound : forall (cpb : N) (o : output) (c : N),
  min_ada_for_output cpb o = Ok c ->
  let o' := set_coin o (N.max c (o_coin o)) in
  cpb * (160 + out_size o') <= o_coin o' /\
  c <= cpb * (160 + out_size (set_coin o u64_max)).
Proof.
  intros cpb o c H o'. unfold min_ada_for_output in H. rewrite calculate_ada_abs_eq in H.
  subst o'. rewrite !out_size_set_coin, head_size_u64_max. cbn [set_coin o_coin].
  split; [exact (C07_min_ada_sound _ _ _ _ H) | exact (C07_min_ada_upper _ _ _ _ H)].
Qed.
Print Assumptions C07_min_ada_for_output_sound.

(* add_output: an accepted output is appended unchanged, meets the bound, and its value fits *)
Theorem C07_admission : forall (cfg : config) (outs : list output) (o : output) (outs' : list output),
  add_output cfg outs o = Ok outs' ->
  outs' = outs ++ [o] /\ c_cpb cfg * (160 + out_size o) <= o_coin o /\ out_value_size o <= c_max_value_size cfg.
Proof.
  intros cfg outs o outs' H. apply add_output_admission in H. destruct H as [E K].
  apply output_ok_iff in K. destruct K as [M V]. unfold meets_min in M. apply N.leb_le in M. auto.
Qed.
Print Assumptions C07_admission.

(* invariant form: any sequence of accepted outputs keeps "every output within the limits" *)
Theorem C07_value_size : forall (cfg : config) (req outs outs' : list output),
  all_ok cfg outs = true -> add_outputs cfg outs req = Ok outs' -> all_ok cfg outs' = true.
Proof.
  intros cfg req. induction req as [|o r IH]; intros outs outs' I H; cbn [add_outputs] in H.
  - inversion H; subst; exact I.
  - bind_ok H outs1 A. eapply IH; [|exact H]. eapply add_output_invariant; eauto.
Qed.
Print Assumptions C07_value_size.

(* build() / build_tx(): a transaction is only returned when its full size is within max_tx_size *)
Theorem C07_tx_size : forall (cfg : config) (full_size : N),
  build_guard cfg full_size = Ok tt <-> full_size <= c_max_tx_size cfg.
Proof.
  intros cfg size. unfold build_guard.
  destruct (N.ltb_spec (c_max_tx_size cfg) size); split; intros; try reflexivity; try discriminate; lia.
Qed.
Print Assumptions C07_tx_size.

(* ... where the measured size is the size algebra of the whole transaction (inputs, outputs, fee, vkey and
   bootstrap witnesses), and that algebra IS the length of the C01 schema encoding of the transaction: a released
   transaction's encoding is within max_tx_size (for every unrolling depth d of the recursive schemas) *)
Theorem C07_tx_size_encoding : forall (d : nat) (cfg : config) (x : ctx),
  ctx_ok x ->
  N.of_nat (length (enc_tx d x)) = full_tx_size (ctx_shape d x) /\
  (build_tx_guard cfg (ctx_shape d x) = Ok tt -> N.of_nat (length (enc_tx d x)) <= c_max_tx_size cfg).
Proof.
  intros d cfg x H. split; [apply full_tx_size_is_encoding; exact H | apply build_tx_guard_encoding; exact H].
Qed.
Print Assumptions C07_tx_size_encoding.

(* collateral return through the checked entry points: minimum ADA always; with the repair also the value size *)
Theorem C07_collateral_return : forall (b : bool) (cfg : config) (ret : output),
  (collateral_return_guard_gen b cfg ret = Ok tt -> meets_min (c_cpb cfg) ret = true) /\
  (collateral_return_guard_gen true cfg ret = Ok tt -> output_ok cfg ret = true).
Proof.
  intros b cfg ret. split.
  - unfold collateral_return_guard_gen. intros H. bind_ok H u C. exact (min_ada_test_ok _ _ H).
  - (* with the value-size test the guard is the admission test of add_output *)
    apply check_output_limits_ok.
Qed.
Print Assumptions C07_collateral_return.

Theorem C07_collateral_return_value_size_refuted :
  exists cfg ret, collateral_return_guard_gen false cfg ret = Ok tt /\ output_ok cfg ret = false.
Proof.
  exists (mkCfg 4310 5000 16384), (mkOut 57 100000000 [repeat (32, 1) 200] DNone None).
  vm_compute. split; reflexivity.
Qed.
Print Assumptions C07_collateral_return_value_size_refuted.

(* the min-coin helper of the output builder: repaired code always; unrepaired code for addresses <= 57 bytes;
   the repair changes no result for those addresses *)
Theorem C07_output_builder_helper : forall (cpb addr : N) (ma : multiasset) (d : datum) (s : option sref) (o : output),
  (helper_output_gen true cpb addr ma d s = Ok o -> meets_min cpb o = true) /\
  (addr <= fake_addr_len -> helper_output_gen false cpb addr ma d s = Ok o -> meets_min cpb o = true) /\
  (addr <= fake_addr_len ->
     helper_output_gen true cpb addr ma d s = helper_output_gen false cpb addr ma d s \/
     (helper_output_gen true cpb addr ma d s = Err /\ exists o', helper_output_gen false cpb addr ma d s = Ok o')).
Proof.
  intros cpb addr ma d s o. split; [apply helper_output_meets_min_repaired|]. split; intros A.
  - rewrite <- (helper_repair_equal _ _ _ _ _ A). apply helper_output_meets_min_repaired.
  - left. exact (helper_repair_equal _ _ _ _ _ A).
Qed.
Print Assumptions C07_output_builder_helper.

Theorem C07_output_builder_helper_refuted :
  exists cpb addr ma d s o, helper_output_gen false cpb addr ma d s = Ok o /\ meets_min cpb o = false.
Proof.   (* 59-byte pointer address, mainnet price, one token *)
  exists 4310, 59, [[(3, 5)]], DNone, None, (mkOut 59 1133530 [[(3, 5)]] DNone None).
  vm_compute. split; reflexivity.
Qed.
Print Assumptions C07_output_builder_helper_refuted.

(* change outputs: everything the change paths create goes through the admission limits (ADA-only branch, and
   the asset branch of the repaired code, including the topped-up last output), for ALL fee figures, packings
   and residues *)
Theorem C07_change_outputs_meet_min :
  (forall cfg rq outs l0 fee f b outs',
     all_ok cfg outs = true -> change_ada_only cfg rq outs l0 fee f b = Ok outs' -> all_ok cfg outs' = true) /\
  (forall cfg rq outs l0 fee packs pf res merged outs',
     all_ok cfg outs = true -> change_assets_gen true cfg rq outs l0 fee packs pf res merged = Ok outs' ->
     all_ok cfg outs' = true).
Proof.
  split.
  - intros cfg rq outs l0 fee f b outs' I H.
    destruct (change_ada_only_shape _ _ _ _ _ _ _ _ H) as [-> | (c & -> & K)]; [exact I|].
    rewrite all_ok_snoc, I, K. reflexivity.
  - intros cfg rq outs l0 fee packs pf res merged outs' I H.
    destruct (change_assets_gen_stages _ _ _ _ _ _ _ _ _ _ _ H) as (outs1 & l1 & nf & outs2 & l3 & r3 & P & _ & D & T).
    pose proof (proj1 (change_packs_spec _ _ _ _ _ _ _ _ _ P) I) as I1.
    assert (I2 : all_ok cfg outs2 = true).
    { destruct D as [E | [[x A] _]]; [congruence | eapply add_output_invariant; eauto]. }
    destruct l3, r3; try (subst; exact I2); eapply topup_repaired_invariant; eauto.
Qed.
Print Assumptions C07_change_outputs_meet_min.

(* the same on C05's FULL model of add_change_if_needed (Builder/Change.v: value arithmetic, bundle packing, every
   branch), for ANY oracle whose min-ADA and value-size answers are the concrete MinAda model (fee, transaction-size and
   selection answers and the oracle's own state are arbitrary): a successful add_change leaves every output of the
   builder within the limits, measured on the REAL addresses (ce_addr) -- although every calculator of the change
   code prices the fake 57-byte address *)
Theorem C07_change_on_builder_model :
  forall (O : Type) (orc : @Change.oracle O) (e : ChangeInstance.cenv),
  ChangeInstance.sizes_exact e orc ->
  forall (fuel : nat) (addr extra : N) (s : Totals.state) (o : O) (b : bool),
  ChangeInstance.all_ok e s ->
  Change.out_res (Change.add_change orc fuel addr extra s o) = Ok b ->
  ChangeInstance.all_ok e (Change.out_st (Change.add_change orc fuel addr extra s o)).
Proof. intros O orc e SE fuel addr extra s o b. apply ChangeInstance.add_change_all_ok. exact SE. Qed.
Print Assumptions C07_change_on_builder_model.

(* add_output on the builder model, for EVERY oracle: a refused output leaves the builder exactly as it was, an accepted
   one is appended unchanged -- so a history containing refused adds builds the same body as the history without them *)
Theorem C07_refused_add_leaves_builder_unchanged :
  forall (O : Type) (orc : @Change.oracle O) (x : Totals.output) (s : Totals.state) (o : O),
  match Change.out_res (Change.add_output orc x s o) with
  | Ok _ => Change.out_st (Change.add_output orc x s o) = Totals.set_s_outputs (Totals.s_outputs s ++ [x]) s
  | _ => Change.out_st (Change.add_output orc x s o) = s
  end.
Proof. intros. apply ChangeInstance.add_output_frame. Qed.
Print Assumptions C07_refused_add_leaves_builder_unchanged.

(* the other balancing entry points on the builder model.  add_inputs_from_and_change (selection = oracle answer, then
   add_change, then retries of add_change on the state a failed attempt left -- the invariant "every output within the
   limits, or the fee already fixed" survives failing runs); add_inputs_from_and_change_with_collateral_return
   (MoreEntry.percent_entry): on success every output is within the limits AND the stored collateral return meets min ADA
   and max_value_size, because it is stored through set_total_collateral_and_return's admission test *)
Theorem C07_select_and_change_on_builder_model :
  forall (O : Type) (orc : @Change.oracle O) (e : ChangeInstance.cenv),
  ChangeInstance.sizes_exact e orc ->
  forall fuel utxos addr extra (s : Totals.state) (o : O) (b : bool),
  ChangeInstance.all_ok e s ->
  Change.out_res (Change.add_inputs_from_and_change orc fuel utxos addr extra s o) = Ok b ->
  ChangeInstance.all_ok e (Change.out_st (Change.add_inputs_from_and_change orc fuel utxos addr extra s o)).
Proof.
  intros O orc e SE fuel utxos addr extra s o b A R.
  destruct (ChangeInstance.add_inputs_from_and_change_ok orc e SE fuel utxos addr extra s o (or_introl A) I) as [_ Q].
  rewrite R in Q. exact Q.
Qed.
Print Assumptions C07_select_and_change_on_builder_model.

Theorem C07_collateral_return_entry_point :
  forall (O : Type) (orc : @Change.oracle O) (ask_col : Collateral.output -> O -> result N * O) (e : ChangeInstance.cenv),
  ChangeInstance.sizes_exact e orc -> EntryInstance.col_exact e ask_col ->
  forall fuel utxos addr extra addr_b pct (s : Totals.state) (c : MoreEntry.colstate) (o : O),
  ChangeInstance.all_ok e s ->
  MoreEntry.jo_res (MoreEntry.percent_entry orc ask_col fuel utxos addr extra addr_b pct s c o) = Ok tt ->
  ChangeInstance.all_ok e (MoreEntry.jo_st (MoreEntry.percent_entry orc ask_col fuel utxos addr extra addr_b pct s c o)) /\
  EntryInstance.col_return_ok e (MoreEntry.jo_col (MoreEntry.percent_entry orc ask_col fuel utxos addr extra addr_b pct s c o)).
Proof.
  intros O orc ask_col e SE CE fuel utxos addr extra addr_b pct s c o A R.
  exact (EntryInstance.percent_entry_ok orc ask_col e SE CE fuel utxos addr extra addr_b pct s c o (or_introl A) R).
Qed.
Print Assumptions C07_collateral_return_entry_point.

(* pack_nfts_for_change on C05's model with the concrete value-size answers: every bundle it returns is empty, or the
   bundle of a value that was tested and FITS max_value_size (at the coin it was tested with; any other coin moves the
   size by at most 8 bytes), or the re-normalisation v + {policy: {}} of such a value -- provided every single asset of
   the change fits an output of its own (the asset that causes a split enters the fresh output untested) *)
Theorem C07_pack_bundles_fit :
  forall (O : Type) (orc : @Change.oracle O) (e : ChangeInstance.cenv),
  ChangeInstance.sizes_exact e orc ->
  forall (ce : Value.value) (ma : Value.multiasset) (s : Totals.state) (o : O) (l : list Value.multiasset),
  Value.multiasset_of ce = Some ma -> ChangeInstance.all_single_fit e ma ->
  Change.out_res (Change.pack_nfts_for_change orc ce s o) = Ok l ->
  Forall (ChangeInstance.bundle_ok e) l /\
  (forall v c, ChangeInstance.fits e v ->
     value_size c (ChangeInstance.shape_ma (Value.multiasset_of v)) <= c_max_value_size (ChangeInstance.ce_cfg e) + 8).
Proof.
  intros O orc e SE ce ma s o l Ema SF R. split.
  - exact (ChangeInstance.pack_nfts_fits orc e SE ce ma Ema SF s o l R).
  - intros v c F. exact (ChangeInstance.fits_any_coin e v c F).
Qed.
Print Assumptions C07_pack_bundles_fit.

Theorem C07_pack_single_asset_premise_needed :
  exists e ce s l b,
    Change.out_res (Change.pack_nfts_for_change (ChangeInstance.c07_oracle e) ce s tt) = Ok l /\ In b l /\
    forall c, c_max_value_size (ChangeInstance.ce_cfg e) < value_size c (ChangeInstance.shape_ma (Some b)).
Proof.
  (* max_value_size 40, one policy with two 32-byte names.  The first asset overflows at once (the output is closed
     empty), is put into the fresh output untested, and when the second one overflows too that output -- 69 bytes at
     any coin -- is returned *)
  exists (ChangeInstance.mkCEnv (mkCfg 4310 40 16384) (fun _ => 57) (fun _ => (DNone, None)) 44 155381 1 [] None None None),
    (Value.mkValue 5000000 (Some [(repeat 7 28, [(repeat 1 32, 1); (repeat 2 32, 1)])])),
    (Totals.new_state (Totals.mkConfig 0 0 false false)).
  eexists. exists [(repeat 7 28, [(repeat 1 32, 1)])]. split; [vm_compute; reflexivity|]. split; [right; left; reflexivity|].
  intros c. rewrite value_size_decomp. pose proof (head_size_bounds c).
  change (value_base _) with 68. cbn [ChangeInstance.ce_cfg c_max_value_size]. lia.
Qed.
Print Assumptions C07_pack_single_asset_premise_needed.

(* instance: the fully concrete oracle (MinAda calculator, OutputSize value size, TxSize transaction size, linear fee)
   meets C05's premises (its answers are u64) and the exactness premise above, so C05's conservation theorem and the
   limits hold together on it *)
Theorem C07_concrete_oracle_instance : forall (e : ChangeInstance.cenv),
  ChangeProofs.oracle_u64 (ChangeInstance.c07_oracle e) /\
  ChangeInstance.sizes_exact e (ChangeInstance.c07_oracle e) /\
  (forall fuel addr extra s b,
     Totals.state_wf s -> ChangeInstance.all_ok e s ->
     Change.out_res (Change.add_change (ChangeInstance.c07_oracle e) fuel addr extra s tt) = Ok b ->
     let s' := Change.out_st (Change.add_change (ChangeInstance.c07_oracle e) fuel addr extra s tt) in
     ChangeInstance.all_ok e s' /\ ChangeProofs.balanced s').
Proof.
  intros e. split; [apply ChangeInstance.c07_oracle_u64|]. split; [apply ChangeInstance.c07_oracle_sizes_exact|].
  intros fuel addr extra s b W A R s'. split.
  - exact (ChangeInstance.add_change_all_ok _ e (ChangeInstance.c07_oracle_sizes_exact e) fuel addr extra s tt b A R).
  - pose proof (ChangeProofs.add_change_balances _ (ChangeInstance.c07_oracle_u64 e) (Totals.s_cfg s) fuel addr extra s tt) as H.
    destruct (H (conj W eq_refl) I) as [_ Q]. rewrite R in Q. exact Q.
Qed.
Print Assumptions C07_concrete_oracle_instance.

(* the code before the repair: the top-up of the last output after its admission breaks the value-size limit
   on MAINNET parameters, and the minimum for a change address longer than 57 bytes *)
Theorem C07_topup_refuted :
  (exists cfg rq outs l0 fee packs pf outs',
     cfg = mkCfg 4310 5000 16384 /\ all_ok cfg outs = true /\
     change_assets_gen false cfg rq outs l0 fee packs pf [] [] = Ok outs' /\
     existsb (fun o => c_max_value_size cfg <? out_value_size o) outs' = true) /\
  (exists cfg rq outs l0 fee packs pf outs',
     all_ok cfg outs = true /\
     change_assets_gen false cfg rq outs l0 fee packs pf [] [] = Ok outs' /\
     existsb (fun o => negb (meets_min (c_cpb cfg) o)) outs' = true).
Proof.
  split.
  - (* value size, MAINNET parameters: the last change output is admitted with a 5-byte coin (value 4997 bytes); the
       top-up pushes the coin over 2^32 and the value to 5001 bytes *)
    exists (mkCfg 4310 5000 16384), (mkReq 57 DNone None false), [], 6000000000, 170000,
      [([repeat (32, 1) 141 ++ [(21, 1)]], 220000)], 0.
    eexists. split; [reflexivity|]. split; [reflexivity|]. split; [vm_compute; reflexivity|]. vm_compute. reflexivity.
  - (* minimum ADA: a 58-byte change address (the calculators price 57 bytes), 16 250 000 lovelace per byte: admitted
       with 4 290 000 000 (5-byte coin), topped up to 4 300 000 000 (9-byte coin) while the output then needs
       4 306 250 000 *)
    exists (mkCfg 16250000 5000 16384), (mkReq 58 DNone None false), [], 4301000000, 1000000, [([[(0, 1)]], 0)], 0.
    eexists. split; [reflexivity|]. split; [vm_compute; reflexivity|]. vm_compute. reflexivity.
Qed.
Print Assumptions C07_topup_refuted.

(* the code before the repair, side conditions under which the top-up is harmless: the coin stays in its width
   class (everything preserved), or the change address is at most 57 bytes (minimum preserved; the value size is not) *)
Theorem C07_topup_conditional :
  (forall cfg outs l outs',
     all_ok cfg outs = true -> topup false cfg outs l [] [] = Ok outs' ->
     (forall before last, outs = before ++ [last] -> head_size (o_coin last + l) = head_size (o_coin last)) ->
     all_ok cfg outs' = true) /\
  (forall cfg rq outs l0 fee packs pf outs',
     r_addr rq <= fake_addr_len -> packs <> [] -> all_ok cfg outs = true ->
     change_assets_gen false cfg rq outs l0 fee packs pf [] [] = Ok outs' ->
     forallb (meets_min (c_cpb cfg)) outs' = true).
Proof.
  split; [|exact (topup_min_ada_safe_short_addr false)].
  intros cfg outs l outs' I H W. destruct (topup_shape _ _ _ _ _ _ _ H) as (before & last & E & -> & _).
  specialize (W _ _ E). subst outs. rewrite all_ok_snoc in I |- *. apply andb_prop in I. destruct I as [-> K].
  apply (output_ok_same_width cfg last (o_coin last + l)); [lia | exact W | exact K].
Qed.
Print Assumptions C07_topup_conditional.

(* non-vacuity of the premises *)
Example ex_tx_size :              (* one input, one ADA-only output, one vkey witness *)
  let x := mkCTx [(repeat 9 32, 0)] [mkCOut (repeat 1 29) 2000000 [] CDNone None] 170000 [(repeat 3 32, repeat 4 64)] [] in
  ctx_ok x /\ full_tx_size (ctx_shape 0 x) = 197 /\ build_tx_guard (mkCfg 4310 5000 197) (ctx_shape 0 x) = Ok tt.
Proof. cbn zeta. split; [repeat constructor|]. vm_compute. split; reflexivity. Qed.
Example ex_schema_tie :           (* a post-Alonzo output: 3-byte address, one token, inline datum (uint 5), Plutus V2 script reference *)
  let o := mkCOut [97; 1; 2] 1500000 [(repeat 7 28, [([1; 2; 3], 9)])] (CDInline (VAlt 1 (VNat 5))) (Some (CSPlutus 1 [1; 2; 3; 4])) in
  ids28 (co_ma o) /\ hash_ok (co_datum o) /\ lang_ok (co_sref o) /\
  N.of_nat (length (enc_output 0 o)) = 68 /\ out_size (shape 0 o) = 68.
Proof. cbn zeta. split; [repeat constructor|]. split; [exact I|]. split; [cbn; lia|]. vm_compute. split; reflexivity. Qed.
Example ex_min_ada_mainnet :      (* 57-byte address, ADA only, mainnet price: 4310 * (160 + 65) *)
  min_ada_for_output 4310 (mkOut 57 0 [] DNone None) = Ok 969750.
Proof. vm_compute. reflexivity. Qed.
Example ex_min_ada_rounds :       (* third round returns (widths 1 -> 2 -> 2); one byte more and the fallback is taken *)
  calculate_ada_abs 1 93 0 = Ok 255 /\ calculate_ada_abs 1 94 0 = Ok 263.
Proof. vm_compute. split; reflexivity. Qed.
Example ex_min_ada_err : calculate_ada_abs (2 ^ 63) 60 0 = Err.
Proof. vm_compute. reflexivity. Qed.
Example ex_admission :
  exists outs', add_output (mkCfg 4310 5000 16384) [] (mkOut 57 1500000 [[(4, 7)]] DHash None) = Ok outs'.
Proof. eexists. vm_compute. reflexivity. Qed.
Example ex_collateral : collateral_return_guard_gen true (mkCfg 4310 5000 16384) (mkOut 57 2000000 [] DNone None) = Ok tt.
Proof. vm_compute. reflexivity. Qed.
Example ex_helper :
  exists o, helper_output_gen true 4310 59 [[(3, 5)]] (DInline 10) (Some (SRPlutus 100)) = Ok o /\ meets_min 4310 o = true.
Proof. eexists. split; [vm_compute; reflexivity|]. vm_compute. reflexivity. Qed.
Example ex_change_assets :        (* two bundles, top-up of the last one, repaired code *)
  exists outs', change_assets_gen true (mkCfg 4310 5000 16384) (mkReq 57 DNone None false)
                  [mkOut 29 1000000 [] DNone None] 50000000 170000 [([[(4, 7)]], 3000); ([[(0, 1); (32, 9)]], 3000)] 0 [] [] = Ok outs'
                /\ length outs' = 3%nat /\ all_ok (mkCfg 4310 5000 16384) outs' = true.
Proof. eexists. split; [vm_compute; reflexivity|]. split; [vm_compute; reflexivity|]. vm_compute. reflexivity. Qed.
Example ex_change_ada :
  exists outs', change_ada_only (mkCfg 4310 5000 16384) (mkReq 57 DHash None false) [] 5000000 170000 2000 true = Ok outs'
                /\ length outs' = 1%nat.
Proof. eexists. split; [vm_compute; reflexivity|]. vm_compute. reflexivity. Qed.
Example ex_topup_same_width :
  exists outs', topup false (mkCfg 4310 5000 16384) [mkOut 57 1200000 [[(4, 7)]] DNone None] 5000 [] [] = Ok outs'.
Proof. eexists. vm_compute. reflexivity. Qed.
Example ex_build_guard : build_guard (mkCfg 4310 5000 16384) 16384 = Ok tt /\ build_guard (mkCfg 4310 5000 16384) 16385 = Err.
Proof. vm_compute. split; reflexivity. Qed.
