(* C19 — Collateral return and total collateral are consistent and sufficient.
   The statements; each is a lemma of Collateral/CollateralProofs.v or follows from those in a few lines.
   Model: Collateral/Collateral.v (TransactionBuilder set_collateral, set_collateral_return(_and_total),
   set_total_collateral(_and_return), remove_*, add_inputs_from_and_change_with_collateral_return, fields 13/16/17 of
   build()), over Num/Value.v (Value::checked_add / checked_sub as of /repo 34fa344).
   Quantifiers are unbounded: all builder states / all histories of the nine operations, all collateral input sets with
   arbitrary asset bundles, all return outputs, totals, percentages, balancing outcomes, fees, and every min-ADA function
   (min_ada_for_output is an oracle: [min_ada]).  The only premise on values is [value_sorted] (map keys strictly
   increasing: what BTreeMap gives to every Value built through the API).
   spec_holds b  :=  b_total b = Some t  /\  sum of lovelace of the collateral UTxOs = lovelace of the return + t
                     /\ forall asset, sum of its quantities over the collateral UTxOs = its quantity in the return
                     /\ the return output (when present) has coin >= min_ada of it. *)
From CSL Require Import Base.Prelude Num.Value Collateral.ValueLemmas Collateral.Collateral Collateral.CollateralProofs.
Local Open Scope N_scope.

(* explicit return output: total := inputs - return; on success the whole statement holds, the given output is stored,
   nothing else changes; from ANY prior state (whatever was stored in the fields before) *)
Theorem C19_return_then_total : forall (min_ada : output -> result N) (ret : output) (b b' : builder),
  col_sorted (b_collateral b) -> value_sorted (o_amount ret) = true ->
  set_collateral_return_and_total min_ada ret b = Ok b' ->
  spec_holds min_ada b' /\
  b_return b' = Some ret /\ b_collateral b' = b_collateral b /\ b_fee b' = b_fee b /\ b_collateral b <> [] /\
  exists s, total_value (b_collateral b) = Ok s /\ b_total b' = Some (coin s - coin (o_amount ret)).
Proof. exact return_then_total_ok. Qed.
Print Assumptions C19_return_then_total.

(* ... and conversely: a return output that takes every asset of the inputs (and nothing else), no more lovelace than
   they hold and at least its min ADA is accepted (total pure lovelace <=> all assets returned) *)
Theorem C19_return_then_total_complete : forall (min_ada : output -> result N) (ret : output) (b : builder) (s : value) (m : N),
  col_sorted (b_collateral b) -> value_sorted (o_amount ret) = true ->
  b_collateral b <> [] -> total_value (b_collateral b) = Ok s -> value_normal s = true ->
  coin (o_amount ret) <= coin s -> (forall p n, qty s p n = qty (o_amount ret) p n) ->
  min_ada ret = Ok m -> m <= coin (o_amount ret) ->
  exists b', set_collateral_return_and_total min_ada ret b = Ok b'.
Proof. exact return_then_total_complete. Qed.
Print Assumptions C19_return_then_total_complete.

(* explicit total: return := inputs - total (all assets, the remaining lovelace) to the given address, >= its min ADA;
   when nothing remains no return is stored (a return stored earlier is cleared: /repo 4639f73) *)
Theorem C19_total_then_return : forall (min_ada : output -> result N) (t : N) (addr : bytes) (b b' : builder),
  col_sorted (b_collateral b) ->
  set_total_collateral_and_return min_ada t addr b = Ok b' ->
  spec_holds min_ada b' /\
  b_total b' = Some t /\ b_collateral b' = b_collateral b /\ b_fee b' = b_fee b /\ b_collateral b <> [] /\
  exists s, total_value (b_collateral b) = Ok s /\ t <= coin s /\
    b_return b' = if is_some (multiasset_of s) || (0 <? coin s - t)
                  then Some (output_new addr (mkValue (coin s - t) (multiasset_of s))) else None.
Proof. intros m t a b b' Hc H. exact (total_then_return_ok m _ t a b b' Hc (or_introl eq_refl) H). Qed.
Print Assumptions C19_total_then_return.

(* the percentage helper: on success the whole statement holds and total = floor(fee*pct/100) + 1 >= ceil(fee*pct/100),
   for the fee the balancing step left in the builder, whatever that step did otherwise *)
Theorem C19_percentage : forall (min_ada : output -> result N) (pct : N) (addr : bytes) (bal_ok : bool) (fee_after : option N)
                                (b b' : builder),
  col_sorted (b_collateral b) ->
  percent_helper min_ada pct addr bal_ok fee_after b = (true, b') ->
  spec_holds min_ada b' /\ b_collateral b' = b_collateral b /\ bal_ok = true /\
  (exists fee, fee_after = Some fee /\ b_fee b' = Some fee /\ fee * pct < two64 /\
               b_total b' = Some (fee * pct / 100 + 1) /\ spec_percent fee pct (fee * pct / 100 + 1)) /\
  exists s, total_value (b_collateral b) = Ok s /\
    b_return b' = if is_some (multiasset_of s) || (0 <? coin s - f_required fee_after pct)
                  then Some (output_new addr (mkValue (coin s - f_required fee_after pct) (multiasset_of s))) else None.
Proof. intros m pct a ok f b b' Hc H. exact (percent_ok m _ pct a ok f b b' Hc H). Qed.
Print Assumptions C19_percentage.

(* a failed attempt of the percentage helper leaves NEITHER field set (also what an earlier call had stored), on every
   failure path (sum overflow: /repo 028a7f1; balancing; fee; fee*pct overflow; total > inputs; return below min ADA);
   a failing explicit helper changes nothing at all *)
Theorem C19_failure_leaves_unset : forall (min_ada : output -> result N),
  (forall pct addr bal_ok fee_after b b',
     percent_helper min_ada pct addr bal_ok fee_after b = (false, b') ->
     b_return b' = None /\ b_total b' = None /\ b_collateral b' = b_collateral b) /\
  (forall o b, (match o with OpReturnAndTotal _ | OpTotalAndReturn _ _ => True | _ => False end) ->
     fst (step min_ada o b) = false -> snd (step min_ada o b) = b).
Proof.
  intro m. split.
  - intros pct a ok f b b' H. exact (percent_failure_unset m _ pct a ok f b b' H).
  - intros o b Ho H. exact (explicit_failure_unchanged m _ _ o b Ho H).
Qed.
Print Assumptions C19_failure_leaves_unset.

(* histories: whenever fields 16/17 were last written by a successful helper (provenance not Free) and set_collateral
   has not replaced the inputs since (not the known class Stale), the builder — hence the body — satisfies the statement;
   in particular in both orders of helper vs. balancing, and whatever was set, removed or failed before *)
Theorem C19_history : forall (min_ada : output -> result N) (h : list op) (b : builder) (p : prov),
  Forall op_wf h -> run_prov min_ada h builder_new Free = (b, p) ->
  p <> Free -> known_stale p = false -> spec_holds min_ada b.
Proof.
  intros m h b p Hh Hr Hp Hk.
  pose proof (run_prov_inv m legacy_early_failure_keeps_fields h builder_new Free Hh (inv_new m)) as [_ Hg].
  unfold run_prov, legacy_keeps_stale_return in Hr. rewrite Hr in Hg. apply Hg.
  destruct p; [congruence | reflexivity | discriminate].
Qed.
Print Assumptions C19_history.

(* balancing (add_change_if_needed / set_fee) never changes fields 13/16/17 *)
Theorem C19_balancing_keeps_fields : forall (min_ada : output -> result N) (f : option N) (b : builder),
  build_fields (snd (step min_ada (OpBalance f) b)) = build_fields b /\
  (spec_holds min_ada (snd (step min_ada (OpBalance f) b)) <-> spec_holds min_ada b).
Proof. intros m f b. split; [reflexivity | apply spec_holds_fee]. Qed.
Print Assumptions C19_balancing_keeps_fields.

(* the known class is real: helper, then set_collateral with other inputs -> the stored figures are stale *)
Theorem C19_stale_refuted :
  exists (min_ada : output -> result N) (h : list op),
    Forall op_wf h /\ snd (run_prov min_ada h builder_new Free) = Stale /\
    ~ spec_holds min_ada (fst (run_prov min_ada h builder_new Free)).
Proof.
  exists w_min_ada, w_stale. split; [repeat constructor|]. split; [vm_compute; reflexivity|].
  apply (spec_refuted _ _ 2000000); vm_compute; [reflexivity | discriminate].
Qed.
Print Assumptions C19_stale_refuted.

(* the two repaired defects, as refutations of the legacy variants of the model *)
Theorem C19_legacy_stale_return_refuted :
  exists (min_ada : output -> result N) (h : list op),
    Forall op_wf h /\ snd (run_prov_gen min_ada true false h builder_new Free) = Governed /\
    ~ spec_holds min_ada (fst (run_prov_gen min_ada true false h builder_new Free)).
Proof.
  exists w_min_ada, w_legacy_return. split; [repeat constructor|]. split; [vm_compute; reflexivity|].
  apply (spec_refuted _ _ 5000000); vm_compute; [reflexivity | discriminate].
Qed.
Print Assumptions C19_legacy_stale_return_refuted.

Theorem C19_legacy_early_failure_refuted :
  exists (min_ada : output -> result N) pct addr fee b b',
    percent_helper_gen min_ada false true pct addr true (Some fee) b = (false, b') /\ b_total b' <> None /\ b_return b' <> None.
Proof.
  exists w_min_ada, 150, (w_addr 6), 170000, w_early_state. eexists.
  split; [vm_compute; reflexivity|]. split; discriminate.
Qed.
Print Assumptions C19_legacy_early_failure_refuted.

(* the executable judge used in the correspondence run decides the statement (sound always; complete whenever the plain sums
   of the inputs fit in 64 bits, which every helper-written state satisfies) *)
Theorem C19_judge_decides_spec : forall (min_ada : output -> result N) (ins : list value) (r : option output) (t : option N),
  vals_sorted ins -> value_sorted (return_value r) = true ->
  (spec_holdsb min_ada ins r t = true ->
     exists t', t = Some t' /\ spec_consistent ins r t' /\ spec_min_ada min_ada r) /\
  (forall s t', sum_values value_zero ins = Ok s -> t = Some t' -> spec_consistent ins r t' -> spec_min_ada min_ada r ->
     spec_holdsb min_ada ins r t = true).
Proof. exact judge_decides_spec. Qed.
Print Assumptions C19_judge_decides_spec.

(* ... and never rejects the model's own observations of any history (verdicts: holds, na, or the known class) *)
Theorem C19_judge_accepts_model : forall (min_ada : output -> result N) (h : list op),
  Forall op_wf h -> judge min_ada h (model_obs min_ada h builder_new) <> FailsUnknown.
Proof.
  intros m h Hh. unfold judge. apply judge_run_model; [exact Hh | apply inv_new | discriminate].
Qed.
Print Assumptions C19_judge_accepts_model.

(* non-vacuity: a history with native assets in which all three helpers succeed *)
Check good_history_governed.
